(* C06 — Sender speaks the documented wire protocol to any conforming receiver.

   The sender (send.go) is modelled by the deterministic event acceptor
   [sender_acc exp] (Model/SenderAcc.v) over the events at its boundary:
   Out p / Inp p (packets sent / received), InEof, Fault, Progress n last, Return ok.
   [exp = sender_entries view served] is what the view obliges the sender to say: the walk
   of the view after the hard-link reset of Send, with the bytes Open/Read serves per entry.
   Every theorem quantifies over ALL traces the acceptor follows ([sender_run exp tr = Some s];
   complete traces are those with [s_ret s = Some _]), hence over every order, timing and
   concurrency of requests.  The peer is arbitrary: STAT/DATA packets from it are ignored by
   the sender (as in the code), so no hypothesis on the peer is needed.
   Statements of the property, each closed by [exact] of a lemma of Proofs/ (after instantiating
   section variables) or by a few lines from a more general one; examples are computed here;
   [Print Assumptions] of each. *)
From Coq Require Import List NArith Bool Sorted.
From FS Require Import Sx Model.Path Model.Stat Model.Tree Model.AccEvents Model.SenderAcc
     Proofs.AccEventsP Proofs.SenderAccP.
From FS Require Model.Lts Model.LtsAcc Proofs.LtsAccP5.
Import ListNotations.
Open Scope N_scope.

(* One STAT per entry of the view, in the order of the view's walk (ascending path order
   when the view is a walk, C09), identical to the walked stat except for the Linkname
   rewritten by the hard-link reset; content = what Open/Read serves. *)
Theorem one_stat_per_view_entry : forall view served,
  Forall2 (fun e e' => set_linkname (fst e') [] = set_linkname (fst e) [] /\ snd e' = served (fst e', snd e))
          (walk_root view) (sender_entries view served).
Proof. exact sender_entries_same. Qed.

(* stat_sequence: the STATs sent are a prefix of "the expected stats in order, then exactly
   one empty STAT", and all of it when the call returns success.  The id of an entry is its
   position in this sequence, counting every STAT ([regular_at exp n] below indexes [exp]). *)
Theorem stat_sequence : forall view served tr s,
  let exp := sender_entries view served in
  sender_run exp tr = Some s ->
  (exists m, stats_out tr = firstn m (full_stats exp)) /\
  (s_ret s = Some true -> stats_out tr = full_stats exp).
Proof. intros view served tr s. exact (stat_sequence_proof _ tr s). Qed.

(* data_per_request: for every received REQ n that the protocol allows - n is the position
   of a regular file, its STAT has been sent (or is being sent: n <= number of STATs sent so
   far), n was not requested before - no DATA for n precedes the REQ, the DATA payloads for n
   after it are non-empty chunks whose concatenation is a prefix of the file's bytes, at most
   one empty DATA n follows and only once the bytes are complete; when the call returns
   success they are exactly: chunks concatenating to the file's bytes, then one empty DATA.
   (data_out n lists the payloads of id n in trace order whatever else is interleaved.) *)
Theorem data_per_request : forall view served tr s pre n post c,
  let exp := sender_entries view served in
  sender_run exp tr = Some s -> tr = pre ++ Inp (PReq n) :: post ->
  regular_at exp (N.to_nat n) = Some c -> n <= N.of_nat (nstats pre) -> ~ List.In (Inp (PReq n)) pre ->
  data_out n pre = [] /\
  exists cs, Forall nonempty cs /\
    ((data_out n post = cs /\ exists rem, concat cs ++ rem = c) \/
     (data_out n post = cs ++ [[]] /\ concat cs = c)) /\
    (s_ret s = Some true -> data_out n post = cs ++ [[]] /\ concat cs = c).
Proof. intros view served tr s pre n post c. exact (data_per_request_proof _ tr s pre n post c). Qed.

(* bad_ids_fail: a REQ for an id that was already requested, or lies beyond the STAT being
   sent (never announced), or is not the position of a regular file, makes the call fail:
   the error latch is set, success is impossible, and the sender reads nothing further.
   (An id equal to the number of STATs sent so far races its own STAT: the code registers
   an id just before handing the STAT to the stream, so such a guess may be served or refused;
   it is covered by data_per_request when served.) *)
Theorem bad_ids_fail : forall view served tr s pre n post,
  let exp := sender_entries view served in
  sender_run exp tr = Some s -> tr = pre ++ Inp (PReq n) :: post ->
  (List.In (Inp (PReq n)) pre \/ N.of_nat (nstats pre) < n \/ regular_at exp (N.to_nat n) = None) ->
  s_err s = true /\ s_ret s <> Some true /\ Forall (fun e => is_in e = false) post.
Proof. intros view served tr s pre n post. exact (bad_ids_fail_proof _ tr s pre n post). Qed.

(* fin_echo: success means FIN was received and echoed, and every id ever requested was
   served completely (chunks = the file's bytes, then the terminator)... *)
Theorem fin_echo : forall view served tr s,
  let exp := sender_entries view served in
  sender_run exp tr = Some s -> s_ret s = Some true ->
  List.In (Inp PFin) tr /\ List.In (Out PFin) tr /\
  (forall n, List.In (Inp (PReq n)) tr ->
     exists c cs, regular_at exp (N.to_nat n) = Some c /\ data_out n tr = cs ++ [[]] /\
                  Forall nonempty cs /\ concat cs = c).
Proof. intros view served tr s. exact (fin_echo_proof _ tr s). Qed.

(* ... and FIN is only ever sent as an echo, once. *)
Theorem fin_only_as_echo : forall view served tr s pre post,
  sender_run (sender_entries view served) tr = Some s -> tr = pre ++ Out PFin :: post ->
  List.In (Inp PFin) pre /\ ~ List.In (Out PFin) pre /\ ~ List.In (Out PFin) post.
Proof. intros view served tr s pre post. exact (fin_order_proof _ tr s pre post). Qed.

(* a failed call has its error (or race) latch set *)
Theorem failure_is_latched : forall view served tr s,
  sender_run (sender_entries view served) tr = Some s -> s_ret s = Some false ->
  s_err s = true \/ s_soft s = true.
Proof. intros view served tr s. exact (return_false_latched _ tr s). Qed.

(* progress_monotone_one_final: progress values never decrease, and a complete trace ends
   with exactly one final call followed by the return; no earlier call is final. *)
Theorem progress_monotone_one_final : forall view served tr s b,
  sender_run (sender_entries view served) tr = Some s -> s_ret s = Some b ->
  StronglySorted N.le (map fst (progress_of tr)) /\
  exists tr0 n, tr = tr0 ++ [Progress n true; Return b] /\ Forall (fun p => snd p = false) (progress_of tr0).
Proof. intros view served tr s b. exact (progress_proof _ tr s b). Qed.

(* sender_lts_refines_acc: the acceptor is tied to the goroutine-level LTS of C04/C08
   (Model/Lts.v: walker, workers, request loop, syncStream mutex, bounded stream).  For every
   LTS instance p, expectation exp and chunking ch related by [LtsAcc.abs_ok] (same number of
   entries; "file" = regular; ch i = non-empty chunks, e_chunks many, concatenating to the bytes
   served for position i; at least one worker), every run of the LTS from its initial state
   that contains no fault of the SENDER's environment (FS fault, cancellation of Send's
   context, failure of the sender's endpoint; the receiver side may do anything the LTS
   allows, faults included) produces at the sender's boundary - packets concretised by
   [LtsAcc.sender_events] (the i-th STAT is the stat of exp[i], the c-th DATA of id h is chunk
   c of ch h, received REQ id |-> Inp (PReq id), the deferred final progress call and the
   return at g.Wait()) - a trace that the acceptor follows, and the acceptor has recorded the
   return value of Send exactly when the LTS has.  Hence all theorems of this file hold of
   those LTS runs. *)
Theorem sender_lts_refines_acc :
  forall (p : Lts.params) (exp : list entry) (ch : nat -> list bytes) (emsg rmsg : bytes) (fprog : N)
         (ls : list Lts.label) (st : Lts.state),
  LtsAcc.abs_ok p exp ch ->
  LtsAcc.sender_fault_free ls = true ->
  Lts.run p (Lts.init p) ls = Some st ->
  exists a, sender_run exp (LtsAcc.lts_trace p exp ch emsg rmsg fprog (Lts.init p) ls) = Some a /\
            s_ret a = Lts.send_ret st.
Proof. intros p exp ch emsg rmsg fprog ls st Habs. exact (LtsAccP5.sender_lts_refines_acc_proof p exp ch emsg rmsg fprog Habs ls st). Qed.

(* the abstraction is not vacuous: every expectation has an LTS instance and a chunking
   (the library's constants, written out: 4 workers / 128 / 128 / 128; any stream capacities, one chunk per
   non-empty file) *)
Theorem lts_abstraction_exists : forall (exp : list entry) (capSR capRS : nat),
  LtsAcc.abs_ok (LtsAcc.lts_params_of exp capSR capRS) exp (LtsAcc.one_chunk exp).
Proof. exact LtsAccP5.abs_ok_params_of_proof. Qed.

Print Assumptions one_stat_per_view_entry.
Print Assumptions sender_lts_refines_acc.
Print Assumptions lts_abstraction_exists.
Print Assumptions stat_sequence.
Print Assumptions data_per_request.
Print Assumptions bad_ids_fail.
Print Assumptions fin_echo.
Print Assumptions fin_only_as_echo.
Print Assumptions failure_is_latched.
Print Assumptions progress_monotone_one_final.

(* non-vacuity: a view with a directory, two files in it and a symlink; ids 1 and 2 are the files.
   An interleaved, chunked, successful conversation is accepted; the classic protocol bugs are
   rejected. *)
Definition mkst (m : N) (ln : bytes) : stat :=
  {| st_path := []; st_mode := m; st_uid := 0; st_gid := 0; st_size := 0; st_mtime := 0;
     st_linkname := ln; st_devmajor := 0; st_devminor := 0; st_xattrs := [] |}.
Definition D := 100%N. Definition A := 97%N. Definition B := 98%N. Definition L := 108%N.
Definition view0 : list node :=
  [ Node [D] (mkst (ModeDir + 493) []) []
      [ Node [A] (mkst 420 []) [1; 2; 3] [];
        Node [B] (mkst 420 []) [] [] ];
    Node [L] (mkst (ModeSymlink + 511) [D]) [] [] ].
Definition exp0 := sender_entries view0 (fun e => snd e).
Definition stat_at (n : nat) : option stat := option_map fst (nth_error exp0 n).
Definition STAT (n : nat) : event := Out (PStat (stat_at n)).

Definition good_trace : list event :=
  [ Progress 10 false; STAT 0; Progress 20 false; STAT 1;
    Inp (PReq 1);                              (* requested while the STAT stream is still running *)
    Progress 30 false; STAT 2; Out (PData 1 [1; 2]); Progress 34 false;
    Inp (PReq 2); Progress 40 false; STAT 3;
    Out (PData 2 []);                          (* empty file: terminator only; interleaved with id 1 *)
    Out (PData 1 [3]); Progress 47 false; Out (PStat None); Out (PData 1 []);
    Inp PFin; Out PFin; Progress 47 true; Return true ].

Example good_trace_accepted : sender_accepts exp0 good_trace = Some true.
Proof. vm_compute. reflexivity. Qed.

(* ids must count every STAT: serving "file number 1" (= b, id 2) for REQ 1 is rejected *)
Example renumbered_ids_rejected :
  sender_accepts exp0 [Progress 1 false; STAT 0; STAT 1; STAT 2; STAT 3; Out (PStat None);
                       Inp (PReq 1); Out (PData 1 []); Inp PFin; Out PFin; Progress 1 true; Return true] = None.
Proof. vm_compute. reflexivity. Qed.

(* a missing terminator, reordered chunks, a second terminator: rejected *)
Example missing_terminator_rejected :
  sender_accepts exp0 [STAT 0; STAT 1; STAT 2; STAT 3; Out (PStat None); Inp (PReq 1); Out (PData 1 [1; 2; 3]);
                       Inp PFin; Out PFin; Progress 1 true; Return true] = None.
Proof. vm_compute. reflexivity. Qed.
Example reordered_chunks_rejected :
  sender_accepts exp0 [STAT 0; STAT 1; STAT 2; STAT 3; Out (PStat None); Inp (PReq 1); Out (PData 1 [3]);
                       Out (PData 1 [1; 2]); Out (PData 1 []); Inp PFin; Out PFin; Progress 1 true; Return true] = None.
Proof. vm_compute. reflexivity. Qed.
Example double_terminator_rejected :
  sender_accepts exp0 [STAT 0; STAT 1; STAT 2; STAT 3; Out (PStat None); Inp (PReq 2); Out (PData 2 []);
                       Out (PData 2 []); Inp PFin; Out PFin; Progress 1 true; Return true] = None.
Proof. vm_compute. reflexivity. Qed.

(* a duplicate request, a directory id, an unknown id: success is rejected, failure accepted *)
Example bad_requests_must_fail :
  (forall bad, List.In bad [[Inp (PReq 1); Inp (PReq 1)]; [Inp (PReq 0)]; [Inp (PReq 3)]; [Inp (PReq 4)]; [Inp (PReq 4294967295)]] ->
     sender_accepts exp0 ([STAT 0; STAT 1; STAT 2; STAT 3; Out (PStat None)] ++ bad ++ [Progress 1 true; Return true]) = None /\
     sender_accepts exp0 ([STAT 0; STAT 1; STAT 2; STAT 3; Out (PStat None)] ++ bad ++ [Progress 1 true; Return false]) = Some false).
Proof.
  intros bad H. simpl in H.
  repeat (destruct H as [H|H]; [subst bad; vm_compute; split; reflexivity|]). contradiction.
Qed.

(* success without FIN, or an unprompted FIN: rejected *)
Example no_fin_no_success :
  sender_accepts exp0 [STAT 0; STAT 1; STAT 2; STAT 3; Out (PStat None); Progress 1 true; Return true] = None /\
  sender_accepts exp0 [STAT 0; Out PFin] = None.
Proof. vm_compute. split; reflexivity. Qed.

(* the LTS instance of exp0 (unbuffered stream), run by the first-enabled scheduler until
   nothing moves (102 steps; the receiver is then draining the stream and waits for the
   transport to close, an environment event): Send has returned success, and the boundary
   trace of the sender - 4 STATs, end marker, both files requested and served, FIN echoed -
   is an accepted complete trace *)
Example lts_run_accepted :
  let p := LtsAcc.lts_params_of exp0 0 0 in
  let ls := LtsAcc.first_sched p 400 (Lts.init p) in
  LtsAcc.sender_fault_free ls = true /\
  option_map Lts.send_ret (Lts.run p (Lts.init p) ls) = Some (Some true) /\
  sender_accepts exp0 (LtsAcc.lts_trace p exp0 (LtsAcc.one_chunk exp0) [] [] 0 (Lts.init p) ls) = Some true /\
  data_out 1 (LtsAcc.lts_trace p exp0 (LtsAcc.one_chunk exp0) [] [] 0 (Lts.init p) ls) = [[1; 2; 3]; []].
Proof. vm_compute. repeat split; reflexivity. Qed.

(* source equivalence (tools/go2coq; gen/SrcFns.v is regenerated from /repo on every run): the
   Gallina definition translated from send.go's fileCanRequestData equals the model predicate
   mode_is_regular used by sender_acc *)
From FSGen Require SrcFns.
From FS Require Proofs.Src.FileCanRequestDataEq.
Theorem fileCanRequestData_src_eq :
  forall m, SrcFns.fileCanRequestData m = mode_is_regular m.
Proof. exact FileCanRequestDataEq.fileCanRequestData_src_eq. Qed.
Print Assumptions fileCanRequestData_src_eq.
