(* C04 — Faults: both ends terminate, success is never reported for a partial tree.
   Theorems about the goroutine-level LTS of one Send <-> Receive transfer (Model/Lts.v:
   walker, W workers, request loop, receive loop, fill, diff loop, one writer per requested
   file, bounded channels, errgroup cancellation, the syncStream mutex, a two-way stream
   with bounded buffers, faults at every point, tear-down).  Statements of the property, each
   closed by [exact] of a lemma of Proofs/ or by a few lines from a more general one;
   refutation witnesses and examples are computed here; [Print Assumptions] of each. *)
From Coq Require Import List NArith Arith Bool PeanoNat Permutation.
From FS Require Import Sx Model.Path Model.Stat Model.Diff Model.AbsDest Model.Converge Model.ConvergeA Proofs.ConvergeP.
From FS Require Import Model.Lts Model.LtsExplore Proofs.LtsInv Proofs.LtsSafe Proofs.LtsTerm Proofs.LtsC04
  Proofs.LtsClean1 Proofs.LtsClean3 Proofs.LtsClean5 Proofs.LtsLive3
  Model.LtsRerun Proofs.LtsRerunP.
Import ListNotations.
Local Open Scope nat_scope.

(* In every reachable state (every interleaving, every fault sequence, every parameter):
   Receive returned nil  =>  the end marker was received, every entry whose content is needed
   has been completed (its terminator written), the diff finished without error over all
   entries, and FIN was sent;  Send returned nil  =>  FIN was received from the peer and
   echoed, and the end marker was sent. *)
Theorem no_false_success : forall p st, reachable p st ->
  (recv_ret st = Some true ->
     g_got_end_r st = true /\
     (forall i, i < nentries p -> kind_of p i = ENeed -> memb i (completed st) = true) /\
     (dl_pc st = DL_Done /\ d_err st = false /\ dl_i st = nentries p) /\
     g_fin_rs st = true) /\
  (send_ret st = Some true ->
     g_got_fin_s st = true /\ g_fin_sr st = true /\ g_end_sr st = true).
Proof. exact no_false_success_proof. Qed.

(* Once the stream is torn down: (a) a measure strictly decreases on every step, (b) every
   state that is not "both calls returned, no goroutine live" has an enabled goroutine step;
   hence every execution is finite (at most [mu st] steps) and one that cannot be extended
   has ended with both calls returned and all goroutines gone — for every interleaving,
   every fault position, every W >= 1, P, C, C2, and stream capacities. *)
Theorem torn_down_terminates : forall p st,
  p_W p >= 1 -> p_old_queue p = false -> reachable p st -> torn_down st = true ->
  (forall l st', step p st l = Some st' -> mu st' < mu st /\ torn_down st' = true) /\
  (final st = false -> exists l, is_env l = false /\ step p st l <> None) /\
  (forall ls st', run p st ls = Some st' -> length ls <= mu st) /\
  (forall ls st', run p st ls = Some st' -> enabled p st' = [] -> final st' = true).
Proof. exact torn_down_terminates_proof. Qed.

(* After a walk error on the sender (or the walker seeing its context cancelled before an entry
   — the walk checks its context once per entry, not after the last one —, or a failed
   STAT send) the walker's next stream operation is SendMsg(ERR), and the packet is appended
   to the stream unless the endpoint has already failed; after a callback / syscall error
   inside HandleChange (and, through err_path_r, after any error of the diff or of a writer)
   the first goroutine of receiver.run ends with SendMsg(ERR) in the same way.  No other
   goroutine can take either of them off that path. *)
Theorem fault_reaches_peer : forall p st, reachable p st ->
  ((forall st', step p st LSWalkErr = Some st' -> err_path_s st') /\
   (sw_pc st = SW_Next -> sw_i st < nentries p -> s_cancel st = true -> forall st', step p st LSWalk = Some st' -> err_path_s st') /\
   (forall k, sw_pc st = SW_Send k -> s_broken st = true -> forall st', step p st LSWalk = Some st' ->
      err_path_s st' \/ k = KErr) /\
   (err_path_s st ->
      step p st LSWalkErr = None /\
      (forall l st', step p st l = Some st' -> l <> LSWalk -> sw_pc st' = sw_pc st) /\
      (forall st', step p st LSWalk = Some st' ->
         (sw_pc st = SW_Lock KErr /\ sw_pc st' = SW_Send KErr /\ buf_sr st' = buf_sr st) \/
         (sw_pc st = SW_Send KErr /\ sw_pc st' = SW_Done /\
          (s_broken st = false -> buf_sr st' = buf_sr st ++ [PErr]))))) /\
  ((forall st', step p st LDiffCbErr = Some st' -> err_path_r st') /\
   (err_path_r st ->
      (forall l st', step p st l = Some st' -> l <> LDiffOuter -> err_path_r st') /\
      (forall st', step p st LDiffOuter = Some st' ->
         err_path_r st' \/
         (do_pc st = DO_SendErr /\ do_pc st' = DO_Done /\
          (r_broken st = false -> buf_rs st' = buf_rs st ++ [PErr]))))).
Proof.
  intros p st R. split; [apply fault_reaches_peer_sender | apply fault_reaches_peer_receiver; exact R].
Qed.

(* Regression for fix 6c5966d: with the old queue() (unconditional send on the pipeline,
   [p_old_queue = true]) torn_down_terminates is FALSE: there is a reachable torn-down state
   in which Send has not returned and no label at all is enabled. *)
Theorem torn_down_terminates_old_queue_refuted :
  exists p ls st,
    p_W p >= 1 /\ p_old_queue p = true /\ run p (init p) ls = Some st /\ reachable p st /\
    torn_down st = true /\ send_ret st = None /\ final st = false /\
    (forall l, step p st l = None).
Proof. exact old_queue_deadlock_proof. Qed.

(* fault_free_completes, safety half: a run without fault, cancellation, stream failure or
   tear-down never fails — when it is complete (both calls returned, no goroutine live) both
   calls have returned nil; for every interleaving, W, P, C, C2 and stream capacities >= 0
   (wf_params: an entry whose content is requested is a regular file). *)
Theorem fault_free_completes_partial : forall p ls st, wf_params p -> fault_free ls ->
  run p (init p) ls = Some st -> final st = true ->
  send_ret st = Some true /\ recv_ret st = Some true.
Proof. exact fault_free_success_proof. Qed.

(* fault_free_completes, liveness half (no deadlock): every fault-free execution that has not
   ended with both calls returned and every goroutine gone can be extended by a fault-free step
   — for every W >= 1 and ALL capacities >= 0 of the send pipeline, the walker channel, the diff
   channel and both stream directions (no capacity hypothesis is needed: the receiver's chain
   receive loop -> fill -> diff never waits for the stream).  Together with the safety half:
   a fault-free execution that cannot be extended has ended with both calls returning nil.
   Finiteness is part of fault_free_completes below. *)
Theorem fault_free_progress : forall p ls st, wf_params p -> p_W p >= 1 -> fault_free ls ->
  run p (init p) ls = Some st -> final st = false ->
  exists l, fault_free_label l = true /\ step p st l <> None.
Proof. exact fault_free_progress_proof. Qed.

(* fault_free_completes, in full: every execution without fault, cancellation, stream failure or
   tear-down has at most [nu p (init p)] steps (a measure of the work still to be done strictly
   decreases on every step); as long as it is not complete it can be extended by a fault-free
   step; and when it is complete both calls have returned nil.  Hence every fault-free execution
   that cannot be extended is finite and ends with both calls returning nil and no goroutine
   live — for every interleaving, every W >= 1 and all capacities >= 0. *)
Theorem fault_free_completes : forall p ls st, wf_params p -> p_W p >= 1 -> fault_free ls ->
  run p (init p) ls = Some st ->
  length ls <= nu p (init p) /\
  (final st = false -> exists l, fault_free_label l = true /\ step p st l <> None) /\
  (final st = true -> send_ret st = Some true /\ recv_ret st = Some true).
Proof. exact fault_free_completes_proof. Qed.

(* Without tear-down the progress half is FALSE once a fault has happened: one NotifyHashed
   error on the receiver, more outstanding requests than P + W + cap(r->s), and every goroutine
   of both calls is blocked although neither call has returned and the stream is intact.  (This
   is why the property is worded "once the stream is torn down"; see torn_down_terminates.) *)
Theorem progress_without_teardown_refuted :
  exists p ls st,
    p_W p >= 1 /\ p_old_queue p = false /\ run p (init p) ls = Some st /\
    filter is_env ls = [LDiffCbErr] /\
    torn_down st = false /\ s_broken st = false /\ r_broken st = false /\
    send_ret st = None /\ recv_ret st = None /\ final st = false /\
    length (reqs st) + length (filter (fun w => match wr_pc w with WR_Send => true | _ => false end) (wrs st))
      > p_P p + p_W p + p_capRS p /\
    (forall l, is_env l = false -> step p st l = None).
Proof. exact no_teardown_deadlock_proof. Qed.

(* rerun_converges — full statement: "after a run that was aborted or killed at any point, a
   later fault-free transfer from the same source into whatever that run left behind ends with
   both calls nil and the destination equal to the source view".
   The two models meet only at the listings, so the proved part is a composition, named _partial:
     (a) the aborted run: torn_down_terminates / no_false_success above say both calls return and
         none reports success; what it leaves is ANY destination listing D' here that is well
         formed (sorted, parents listed, hard links canonical) and in which a file whose bytes
         are not the source's differs from the source entry in size, mtime or mode
         (Model/LtsRerun.v leftovers_distinguishable: the hypothesis of C01
         converges_from_any_prior) - nothing else is assumed about D';
     (b) the rerun as goroutines: the LTS instance whose entries are what the diff of D' against
         the source decides (Model/LtsRerun.v rerun_params: no change / metadata only / content
         needed, any chunking of the contents, every W >= 1 and all capacities): every
         fault-free execution is finite, can be extended until it is complete, and a complete
         one has both calls nil (fault_free_completes), has requested and completed exactly the
         files the destination-level model requests (C02 reqs_exact, as paths, up to order) and
         has written every chunk of exactly those (C08 success_content_is_sequential);
     (c) the rerun as destination: applying the change list of that diff to D' does not fail and
         leaves the source view (C01 converges_from_any_prior, vocabulary of Model/AbsDest.v).
   MISSING for the full statement: a refinement between the two models - that the writer calls
   made along a complete LTS run (HandleChange per STAT in order, content per completed id) ARE
   the change list [ds_changes] that (c) applies.  The LTS does not carry a destination map, so
   (b) and (c) are tied by the shared decision function (rerun_kind = AbsDest.reqs_spec, proved:
   the request/completed sets coincide) and, on the real code, by the harness: every kind-0x0401
   scenario is followed by a clean re-sync into the left-over destination which must pass the
   C01 oracle.  [sender_serves]: the receiver asks content only of entries the sender registered
   (differs for sockets/irregular files). *)
Theorem rerun_converges_partial :
  forall (H : bytes -> bytes) (hdr : stat -> bytes) (d : differ) (chunks : bytes -> nat)
         (W P C C2 capSR capRS : nat) (D' B : list AbsDest.entry),
  W >= 1 -> wf_entries D' -> wf_entries B -> sender_serves B -> leftovers_distinguishable D' B ->
  let p := rerun_params W P C C2 capSR capRS d chunks D' B in
  let r := receive_abs H hdr Fresh d D' B in
  (forall ls st, fault_free ls -> run p (init p) ls = Some st ->
     length ls <= nu p (init p) /\
     (final st = false -> exists l, fault_free_label l = true /\ step p st l <> None) /\
     (final st = true ->
        send_ret st = Some true /\ recv_ret st = Some true /\
        Permutation (map (path_of_id B) (reqs st)) (ds_reqs r) /\
        Permutation (map (path_of_id B) (completed st)) (ds_reqs r) /\
        (forall id sb bb, nth_error B id = Some (sb, bb) ->
           count_occ Nat.eq_dec (written st) id
           = if wants_content sb && negb (unchanged_b d (map fst D') sb) then chunks bb else 0))) /\
  ds_err r = false /\ approx D' B (view_of (ds_map r)).
Proof. exact rerun_converges_partial_proof. Qed.

Print Assumptions no_false_success.
Print Assumptions rerun_converges_partial.
Print Assumptions fault_free_completes_partial.
Print Assumptions fault_free_progress.
Print Assumptions fault_free_completes.
Print Assumptions progress_without_teardown_refuted.
Print Assumptions torn_down_terminates.
Print Assumptions fault_reaches_peer.
Print Assumptions torn_down_terminates_old_queue_refuted.

Definition c04_file (c : nat) : entry := {| e_file := true; e_chunks := c; e_kind := ENeed |}.
Definition c04_dir : entry := {| e_file := false; e_chunks := 0; e_kind := EMeta |}.
Definition c04_same : entry := {| e_file := true; e_chunks := 1; e_kind := ESame |}.
Definition c04_params : params :=
  {| p_W := 2; p_P := 1; p_C := 1; p_C2 := 1; p_capSR := 1; p_capRS := 0;
     p_entries := [c04_dir; c04_file 2; c04_same; c04_file 1]; p_old_queue := false |}.
Definition c04_small : params :=
  {| p_W := 1; p_P := 1; p_C := 1; p_C2 := 1; p_capSR := 1; p_capRS := 1;
     p_entries := [c04_dir; c04_file 1]; p_old_queue := false |}.
Definition c04_obs (st : state) :=
  (final st, send_ret st, recv_ret st, sort_nats (completed st), sort_nats (written st)).

(* a complete fault-free run exists: both calls return nil, both files complete, 2 + 1 chunks written *)
Example complete_run_exists :
  c04_obs (sched 1000 no_fault c04_params (init c04_params))
  = (true, Some true, Some true, [1; 3], [1; 1; 3]).
Proof. vm_compute. reflexivity. Qed.

(* a read error after the first chunk of file 1 (no ERR is sent: both ends block), tear-down on
   quiescence: the run ends with both calls returned with an error and no goroutine live *)
Example faulty_run_with_teardown_terminates :
  let st := sched 1000 (mk_scenario (FReadErr 1 1) false) c04_params (init c04_params) in
  c04_obs st = (true, Some false, Some false, [], [1]) /\ torn_down st = true.
Proof. vm_compute. split; reflexivity. Qed.

(* every interleaving of the small instance: fault-free => both nil; read error / walk error
   => both fail; never a hang (exhaustive visited-set search, complete within the fuel) *)
Example all_interleavings_small :
  let r0 := explore_scenario 5000 no_fault c04_small in
  let r1 := explore_scenario 5000 (mk_scenario (FReadErr 1 0) false) c04_small in
  let r2 := explore_scenario 5000 (mk_scenario (FWalkErr 1) false) c04_small in
  (res_outcomes r0, res_complete r0, res_hang r0) = ([4], true, None) /\
  (res_outcomes r1, res_complete r1, res_hang r1) = ([8], true, None) /\
  (res_outcomes r2, res_complete r2, res_hang r2) = ([8], true, None).
Proof. vm_compute. repeat split; reflexivity. Qed.

(* the search finds the 6c5966d hang with the old queue() and not with the new one
   (gated stream: 1 worker + pipeline capacity 0 + 2 requests) *)
Example search_finds_old_queue_hang :
  res_outcomes (explore_scenario 5000 (mk_scenario (FNone) true) oldq_params) = [11] /\
  let r := explore_scenario 5000 (mk_scenario (FNone) true)
             {| p_W := 1; p_P := 0; p_C := 1; p_C2 := 1; p_capSR := 1; p_capRS := 2;
                p_entries := p_entries oldq_params; p_old_queue := false |} in
  (res_outcomes r, res_complete r, res_hang r) = ([8], true, None).
Proof. vm_compute. split; reflexivity. Qed.

(* known finding open-error-empty-file-success, as the model sees it: Open of file 1 fails,
   both calls return nil, file 1 is completed with none of its 2 chunks written *)
Example open_error_both_succeed_empty_file :
  let st := sched 1000 (mk_scenario (FOpenErr 1) false) c04_params (init c04_params) in
  c04_obs st = (true, Some true, Some true, [1; 3], [3]) /\ g_open_err st = true.
Proof. vm_compute. split; reflexivity. Qed.

(* fault-free runs with EVERY capacity 0 (rendezvous everywhere) and with every capacity 1:
   all interleavings end with both calls nil, none hangs (fault_free_completes, seen by search) *)
Example fault_free_no_deadlock_small :
  let p0 := {| p_W := 1; p_P := 0; p_C := 0; p_C2 := 0; p_capSR := 0; p_capRS := 0;
               p_entries := [c04_dir; c04_file 1]; p_old_queue := false |} in
  let p1 := {| p_W := 1; p_P := 1; p_C := 1; p_C2 := 1; p_capSR := 1; p_capRS := 1;
               p_entries := [c04_file 1; c04_dir]; p_old_queue := false |} in
  let r0 := explore_scenario 20000 no_fault p0 in
  let r1 := explore_scenario 20000 no_fault p1 in
  (res_outcomes r0, res_complete r0, res_hang r0, res_quiet r0) = ([4], true, None, None) /\
  (res_outcomes r1, res_complete r1, res_hang r1, res_quiet r1) = ([4], true, None, None).
Proof. vm_compute. split; reflexivity. Qed.

(* rerun_converges_partial is not vacuous: what an aborted run left (a temporary file, an
   unchanged a/x, a partially written c with another mtime) against the source (a/, a/x, new
   a/z, c): the hypotheses hold; the LTS instance asks for a/z and c (ids 2, 3), a complete
   fault-free run has both calls nil, completes exactly those and writes 2 + 3 chunks (one per
   byte here); the destination-level model requests the same paths and reaches the source view *)
Local Open Scope N_scope.
Definition c04_mk (p : bytes) (mode size mtime : N) : stat :=
  {| st_path := p; st_mode := mode; st_uid := 0; st_gid := 0; st_size := size; st_mtime := mtime;
     st_linkname := []; st_devmajor := 0; st_devminor := 0; st_xattrs := [] |}.
Definition c04_left : list AbsDest.entry :=
  [ (c04_mk [46; 116; 109; 112; 46; 53] 384 2 99, [7; 7]);
    (c04_mk [97] (ModeDir + 493) 0 7, []);
    (c04_mk [97; 47; 120] 420 3 1, [1; 1; 1]);
    (c04_mk [99] 420 3 1, [3; 3; 3]) ].
Definition c04_src : list AbsDest.entry :=
  [ (c04_mk [97] (ModeDir + 493) 0 7, []);
    (c04_mk [97; 47; 120] 420 3 1, [1; 1; 1]);
    (c04_mk [97; 47; 122] 420 2 5, [8; 8]);
    (c04_mk [99] 420 3 2, [3; 3; 4]) ].
Local Open Scope nat_scope.
Definition c04_rerun : params := rerun_params 2 1 1 1 1 0 DMetadata (@length N) c04_left c04_src.
Example rerun_hypotheses_satisfiable :
  wf_entries c04_left /\ wf_entries c04_src /\ sender_serves c04_src /\
  leftovers_distinguishable c04_left c04_src.
Proof.
  split; [apply wf_entries_b_sound; vm_compute; reflexivity|].
  split; [apply wf_entries_b_sound; vm_compute; reflexivity|].
  split; [apply sender_serves_b_sound; vm_compute; reflexivity|].
  apply leftovers_distinguishable_b_sound; vm_compute; reflexivity.
Qed.
Example rerun_example :
  let r := receive_abs (fun b => b) st_path Fresh DMetadata c04_left c04_src in
  need_ids c04_rerun = [2; 3]
  /\ c04_obs (sched 2000 no_fault c04_rerun (init c04_rerun)) = (true, Some true, Some true, [2; 3], [2; 2; 3; 3; 3])
  /\ ds_reqs r = map (path_of_id c04_src) [2; 3]
  /\ ds_err r = false
  /\ converged_o false c04_left c04_src (view_of (ds_map r)) = true.
Proof. vm_compute. repeat split; reflexivity. Qed.
