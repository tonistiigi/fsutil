(* C19 — Metadata-only transfer: full listing recorded, only selected files materialised.
   Statements of the property, each closed by [exact] of a lemma of Proofs/ (after instantiating
   section variables) or by a few lines from a more general one; refutation witnesses and
   examples are computed here; [Print Assumptions] of each.  The model is Model/MetaOnly.v (+ the
   vocabulary of the compositions with C20, C01, C02 in Model/MetaTransfer.v). *)
From Coq Require Import List NArith Bool.
From FS Require Import Sx Model.Path Model.Stat Model.Validator Model.Hardlinks Model.Diff Model.AbsDest
  Model.Codec Model.MetaBuffer Model.Listing Model.Converge Model.ConvergeA Model.MetaOnly Model.MetaTransfer
  Proofs.ValidatorP Proofs.MetaOnlyP Proofs.MetaRewriteP Proofs.MetaAcceptP Proofs.MetaTransferP Proofs.MetaLinksP.
From FS Require Import Model.Tree Model.Walk Proofs.WalkWfP Proofs.MetaWalkP.
From FS Require Proofs.ConvergeP Proofs.ReceiveP.
From FSGen Require FromSource.
Import ListNotations.
Open Scope nat_scope.
Open Scope bool_scope.

(* The listing holds, in stream order, exactly the announced stats whose path is not the
   listing file's own name — for every selector and every announced sequence. *)
Theorem listing_exact : forall sel stats,
  r_listing (meta_recv sel stats) = filter (fun s => negb (bytes_eqb (st_path s) listing_name)) stats.
Proof. exact listing_exact_proof. Qed.

(* The id registered for a path is the zero-based position of that entry among ALL announced
   STATs, the skipped listing-name entry included (regression for F3). *)
Theorem ids_aligned : forall sel stats p id,
  In (p, id) (r_files (meta_recv sel stats)) -> exists s, nth_error stats id = Some s /\ st_path s = p.
Proof. exact ids_aligned_proof. Qed.

(* Only selected regular entries (never the listing name) are registered, hence content can
   be requested for nothing else ... *)
Theorem ids_only_selected : forall sel stats p id,
  In (p, id) (r_files (meta_recv sel stats)) ->
  exists s, nth_error stats id = Some s /\ st_path s = p /\ sel s = true
            /\ mode_is_regular (st_mode s) = true /\ st_path s <> listing_name.
Proof. exact ids_only_selected_proof. Qed.

(* ... and every one of them is registered. *)
Theorem ids_complete : forall sel stats id s,
  nth_error stats id = Some s -> st_path s <> listing_name -> sel s = true ->
  mode_is_regular (st_mode s) = true -> In (st_path s, id) (r_files (meta_recv sel stats)).
Proof. exact ids_complete_proof. Qed.

(* buffer.go: whatever the record sizes (records larger than a chunk, chunk roll-over),
   WriteTo emits the concatenation of the records in allocation order. *)
Theorem buffer_is_concat : forall recs, buf_bytes (fold_left MetaOnly.alloc_write recs []) = concat recs.
Proof. exact buffer_is_concat_proof. Qed.

(* What is handed to the diff / writer.
   [recv_stream stats] is the announced sequence without the listing-name entry, i.e. what the
   receive loop handles after its skip (= the recorded listing, by listing_exact);
   [valid_stream l] := Validator.run_validator (map vitem_of l) = None is the receiver's own
   run-time check on it.  [needed sel l s] := sel s \/ (s is a directory /\ some selected entry
   of l lies strictly below it).
   Whenever the receiver's order validator accepts, the entries forwarded are exactly the
   needed ones: each once, in stream order — whatever the selector.  In particular a selected
   directory is forwarded once (regression for F12), and an unselected directory is forwarded
   (once, before its first selected descendant) iff something below it is selected.
   Proof: invariant [Inv] of Proofs/MetaOnlyP.v — the pending stack holds unselected
   directories, each the parent of the one above it, closed upwards towards the current
   position. *)
Theorem forwarded_exact : forall sel stats,
  valid_stream (recv_stream stats) ->
  r_forwarded (meta_recv sel stats) = filter (needed sel (recv_stream stats)) (recv_stream stats).
Proof. exact forwarded_exact_proof. Qed.

(* the same for an announced sequence that does not use the listing name at all: the
   statement of the design, literally *)
Theorem forwarded_exact_plain : forall sel stats,
  valid_stream stats -> (forall s, In s stats -> st_path s <> listing_name) ->
  r_forwarded (meta_recv sel stats) = filter (needed sel stats) stats.
Proof. exact forwarded_exact_plain_proof. Qed.

(* The pending-ancestor stack itself (top first; Go's [items] is its reverse): after any
   accepted prefix pre ++ [cur] of what the receive loop handles, the stack is a parent chain
   (each element is the parent directory of the one above it) and holds exactly the unselected
   directories seen so far that are ancestors-or-self of the current entry and have no selected
   entry at or below them yet — i.e. exactly the ancestor directories not yet forwarded. *)
Theorem stack_exact : forall sel pre cur,
  valid_stream (pre ++ [cur]) -> (forall x, In x (pre ++ [cur]) -> is_listing x = false) ->
  chain_ok (mstack sel [] (pre ++ [cur])) /\
  forall d, In d (mstack sel [] (pre ++ [cur])) <->
    (In d (pre ++ [cur]) /\ sel d = false /\ st_is_dir d = true /\ is_prefix (cp d) (cp cur)
     /\ forall t, In t (pre ++ [cur]) -> sel t = true -> ~ is_prefix (cp d) (cp t)).
Proof. exact stack_exact_proof. Qed.

(* Acceptance.
   [recv_accepts sel stats] = "the real receiver accepts" (Model/MetaOnly.v first_reject_d: per
   handled STAT the order validator, and the hard-link validator ONLY for entries that are
   forwarded — receive.go: if !metaOnly { r.hlValidator.HandleChange } —, so acceptance depends
   on the selector).  It is the conjunction of the two validators on what each is shown ... *)
Theorem accepts_iff : forall sel stats,
  recv_accepts sel stats = true <->
  (valid_stream (recv_stream stats) /\ hardlink_check (filter sel (recv_stream stats)) = None).
Proof. exact accepts_iff_proof. Qed.

(* ... an accepted selection is link-closed: it selects the link source of every hard link it
   selects ... *)
Theorem accepts_link_closed : forall sel stats,
  recv_accepts sel stats = true -> link_closed sel (recv_stream stats) = true.
Proof. exact accepts_link_closed_proof. Qed.

(* ... and conversely, on a sequence both validators accept as a whole, every link-closed
   selection is accepted: for such sequences  accepted <=> link-closed. *)
Theorem link_closed_accepts : forall sel stats,
  valid_stream (recv_stream stats) -> hardlink_check (recv_stream stats) = None ->
  link_closed sel (recv_stream stats) = true -> recv_accepts sel stats = true.
Proof. exact link_closed_accepts_proof. Qed.

(* A selection that forwards a hard link x but not its source t is REJECTED: the receive loop
   stops with an error at index k, at or before x, and nothing that was handed to the diff /
   writer by then ([applied] = forwarded entries caused by the first k handled STATs) has the
   path of x — the link is never applied, so dest/<Linkname> is never resolved through what the
   destination happens to hold (C03 finding: containment escape in MetadataOnly + Merge). *)
Theorem unsourced_link_rejected : forall sel stats x t,
  valid_stream (recv_stream stats) ->
  In x (recv_stream stats) -> sel x = true -> hl_plain x = true -> has_link x = true ->
  In t (recv_stream stats) -> st_path t = st_linkname x -> sel t = false ->
  recv_accepts sel stats = false /\
  exists k, first_reject sel (recv_stream stats) = Some k /\
    applied sel (recv_stream stats) = r_forwarded (meta_recv sel (firstn k (recv_stream stats))) /\
    forall z, In z (applied sel (recv_stream stats)) -> st_path z <> st_path x.
Proof. exact unsourced_link_rejected_proof. Qed.

(* Whenever the receiver accepts, the forwarded sequence is itself ordered and parent-closed
   (accepted by the order validator) and accepted by the hard-link validator: the writer never
   meets a link whose source it was not given. *)
Theorem forwarded_valid : forall sel stats,
  recv_accepts sel stats = true ->
  valid_stream (r_forwarded (meta_recv sel stats)) /\ hardlink_check (r_forwarded (meta_recv sel stats)) = None.
Proof. exact MetaAcceptP.forwarded_valid_proof. Qed.

(* acceptance with a selector that writes into the stat: that of the sequence as it leaves it *)
Theorem accepts_rw_sim : forall sel rw sel' stats,
  (forall s, In s stats -> sel' (seen rw s) = sel s) ->
  recv_accepts_rw sel rw stats = recv_accepts sel' (map (seen rw) stats).
Proof. exact accepts_rw_sim_proof. Qed.

(* valid_stream (recv_stream stats), the hypothesis of forwarded_exact / link_closed_accepts /
   unsourced_link_rejected (stack_exact asks it of a prefix), is about what the RECEIVER validates;
   it follows from validity of the announced sequence when no announced entry lies below the
   listing name. *)
Theorem recv_valid_of_valid : forall stats,
  valid_stream stats -> (forall t, In t stats -> under listing_name (st_path t) = false) ->
  valid_stream (recv_stream stats).
Proof. exact recv_valid_of_valid_proof. Qed.



(* The listing file, byte level.
   [listing_file sel stats] (Model/MetaTransfer.v) = WriteTo of this property's buffer model after
   one alloc per recorded Stat of  4-byte little-endian SizeVT ++ MarshalVT  (C20's
   Listing.listing_record on C20's Codec.encode_stat).  Reading it back record by record
   (Listing.decode_listing = the loop of receive_test.go:parseFSMetadata on Codec.decode_stat)
   yields exactly the announced Stats minus the entry named .fsutil-metadata, in order.
   Hypothesis, explicitly: every recorded Stat is [listable] (Model/Listing.v) =
   Codec.wf_stat (mode, uid, gid < 2^32; size, mtime, dev numbers < 2^64 as two's complement;
   xattrs = the key-sorted association list standing for the Go map; SizeVT < 2^64)  /\  SizeVT < 2^32 (the length is written as uint32(n)). *)
Theorem listing_roundtrip : forall sel stats,
  (forall s, In s stats -> is_listing s = false -> listable s) ->
  decode_listing (listing_file sel stats) = Some (recv_stream stats).
Proof. exact listing_roundtrip_proof. Qed.

(* ... for every iteration order of the xattr map, chosen independently for every record *)
Theorem listing_roundtrip_any_order : forall sel stats recs,
  (forall s, In s stats -> is_listing s = false -> listable s) ->
  Forall2 lrecord_of (r_listing (meta_recv sel stats)) recs ->
  decode_listing (listing_file_of recs) = Some (recv_stream stats).
Proof. exact listing_roundtrip_any_order_proof. Qed.

(* this property's transcription of buffer.go and C20's (Model/MetaBuffer.v) are the same *)
Theorem buffers_agree : forall recs,
  fold_left MetaOnly.alloc_write recs [] = alloc_all recs /\ listing_file_of recs = write_to (alloc_all recs).
Proof. exact buffers_agree_proof. Qed.

(* Convergence.
   B = the source view with contents (C01's vocabulary: ConvergeA.wf_entries = strictly ascending,
   ancestor-closed, canonical hard links), A = the prior destination.
   [meta_proj sel B] = the entries of B other than the listing name that are selected or are a
   directory with a selected entry strictly below: selected entries + needed ancestors.
   (1) its Stats are exactly what the receive loop hands to the diff/writer ... *)
Theorem projection_is_forwarded : forall sel B,
  valid_stream (recv_stream (map fst B)) ->
  map fst (meta_proj sel B) = r_forwarded (meta_recv sel (map fst B)).
Proof. exact proj_is_forwarded_proof. Qed.

(* ... where the receiver's validator accepts every well-formed source listing with clean
   relative paths and nothing below the listing name ... *)
Theorem receiver_accepts_wf : forall L,
  wf_listing L -> (forall s, In s L -> ok_path (st_path s) = true) -> listing_dependents L = false ->
  valid_stream (recv_stream L).
Proof. exact receiver_accepts_wf_proof. Qed.

(* ... and its hard-link validator accepts the stream of every canonical source listing (what the
   walk produces: C01 walk_views_are_wf), before and after the skip of the listing-name entry ... *)
Theorem canon_hardlink_check : forall B,
  sorted (map fst B) -> links_canon B -> hardlink_check (map fst B) = None.
Proof. exact canon_hardlink_check_proof. Qed.

Theorem canon_recv_hardlink_check : forall B,
  sorted (map fst B) -> links_canon B -> listing_dependents (map fst B) = false ->
  hardlink_check (recv_stream (map fst B)) = None.
Proof. exact canon_recv_hardlink_check_proof. Qed.

(* ... so that for a well-formed source "the receiver accepts" - the hypothesis of
   meta_transfer_converges / meta_req_ids / projection_wf / forwarded_valid - is exactly
   "the selection is link-closed": a condition on the selector alone *)
Theorem wf_source_accepts_iff : forall sel B,
  wf_entries B -> (forall s, In s (map fst B) -> ok_path (st_path s) = true) ->
  listing_dependents (map fst B) = false ->
  (recv_accepts sel (map fst B) = true <-> link_closed sel (recv_stream (map fst B)) = true).
Proof. exact wf_source_accepts_iff_proof. Qed.

(* ... and for the listing fs.Walk produces for ANY well-formed tree (the walk model of C09,
   hypotheses as in C01's converges_on_walked_trees) the side conditions hold by themselves: every
   path is a clean relative path, the hard-link validator accepts the whole walk, and the receiver
   accepts a selection iff it is link-closed - provided no entry depends on the reserved name *)
Theorem walk_ok_paths : forall t, wf_tree t ->
  forall s, In s (walk t) -> ok_path (st_path s) = true.
Proof. exact walk_ok_paths_proof. Qed.

Theorem walked_hardlink_check : forall t,
  wf_tree t -> ino_consistent t -> inode_coherent t -> hardlink_check (walk t) = None.
Proof. exact (walked_hardlink_check_proof (fun _ => [])). Qed.

Theorem walk_passes_receiver_validators : forall t,
  wf_tree t -> ino_consistent t -> inode_coherent t ->
  run_validator (map vitem_of (walk t)) = None /\ hardlink_check (walk t) = None.
Proof. exact (walk_passes_validators_proof (fun _ => [])). Qed.

Theorem walked_source_accepts_iff : forall t,
  wf_tree t -> ino_consistent t -> inode_coherent t -> forall sel,
  listing_dependents (walk t) = false ->
  (recv_accepts sel (walk t) = true <-> link_closed sel (recv_stream (walk t)) = true).
Proof. exact (walked_source_accepts_iff_proof (fun _ => [])). Qed.

(* ... (2) the bytes delivered under a registered id are those of that entry of the projection
   (ids are positions in the announced sequence: ids_aligned) ... *)
Theorem registered_content : forall sel B p id,
  In (p, id) (r_files (meta_recv sel (map fst B))) ->
  exists s c, nth_error B id = Some (s, c) /\ st_path s = p /\ In (s, c) (meta_proj sel B).
Proof. exact registered_content_proof. Qed.

(* ... (3) the projection is itself a well-formed listing with contents (given that the
   receiver accepts and no entry depends on the skipped listing-name entry) ... *)
Theorem projection_wf : forall sel B,
  wf_entries B -> listing_dependents (map fst B) = false -> recv_accepts sel (map fst B) = true ->
  wf_entries (meta_proj sel B).
Proof. exact proj_wf_entries. Qed.

(* ... hence (C01.diff_apply_converges on the level-A receiver of C02/C05): the transfer does
   not fail, the destination is ≈ the projection — equal path set (every stale entry of A is
   gone), per-entry equality, hard-link partition — and nothing is left under the listing name
   (a stale listing file / symlink / directory of A is removed before the epilogue writes the
   new file).  AbsDest.identity_faithful (same identity key => same bytes) is C01's hypothesis. *)
Theorem meta_transfer_converges : forall sel (H : bytes -> bytes) (hdr : stat -> bytes) d A B,
  wf_entries A -> wf_entries B ->
  listing_dependents (map fst B) = false -> recv_accepts sel (map fst B) = true ->
  AbsDest.identity_faithful d A (meta_proj sel B) ->
  let r := receive_abs H hdr Fresh d A (meta_proj sel B) in
  ds_err r = false /\ approx A (meta_proj sel B) (view_of (ds_map r)) /\
  find_obs listing_name (view_of (ds_map r)) = None.
Proof. exact meta_transfer_converges_proof. Qed.

(* ... and on walked trees (C09's walk model for prior destination and source) every hypothesis
   about the validators is discharged: what is left are the statement's own conditions - a
   link-closed selector, nothing depending on the reserved name, identity_faithful *)
Theorem meta_converges_on_walked_trees :
  forall sel (H : bytes -> bytes) (hdr : stat -> bytes) d contA tA contB tB,
  wf_tree tA -> ino_consistent tA -> inode_coherent tA ->
  wf_tree tB -> ino_consistent tB -> inode_coherent tB ->
  let A := walk_entries contA tA in
  let B := walk_entries contB tB in
  listing_dependents (walk tB) = false ->
  link_closed sel (recv_stream (walk tB)) = true ->
  AbsDest.identity_faithful d A (meta_proj sel B) ->
  let r := receive_abs H hdr Fresh d A (meta_proj sel B) in
  ds_err r = false /\ approx A (meta_proj sel B) (view_of (ds_map r)) /\
  find_obs listing_name (view_of (ds_map r)) = None.
Proof. exact meta_converges_on_walked_trees_proof. Qed.

(* REQ packets.
   [req_ids files reqs]: asyncDataFunc looks the requested path up in r.files (None = "invalid
   file request").  With C02.reqs_exact: the ids requested are, in order, exactly the positions
   (among ALL announced STATs, the skipped one included) of the [wanted] entries: not the listing
   name, selected, regular without Linkname (wants_content), and absent from A or there with
   another identity key (negb (unchanged_b d (map fst A) s)); every request finds its id.
   Hypothesis beyond those of meta_transfer_converges: a source entry the writer treats as a
   regular file has no type bit at all (fileCanRequestData) — excludes ModeSocket/ModeIrregular
   entries, for which plain transfers fail in the same way. *)
Theorem meta_req_ids : forall sel (H : bytes -> bytes) (hdr : stat -> bytes) d A B,
  wf_entries A -> wf_entries B ->
  listing_dependents (map fst B) = false -> recv_accepts sel (map fst B) = true ->
  AbsDest.identity_faithful d A (meta_proj sel B) ->
  (forall s, In s (map fst B) -> wants_content s = true -> mode_is_regular (st_mode s) = true) ->
  req_ids (r_files (meta_recv sel (map fst B))) (ds_reqs (receive_abs H hdr Fresh d A (meta_proj sel B)))
  = map Some (positions_from 0 (wanted sel d (map fst A)) (map fst B)).
Proof. exact meta_req_ids_proof. Qed.


(* Selectors that write into the stat they are handed.
   r.metadataOnly(path, p.Stat) receives the live *types.Stat after the record was framed.
   [meta_recv_rw sel rw stats] (Model/MetaOnly.v): sel = the decision (on the stat as announced),
   rw = the stat as the selector leaves it, [seen rw s] = rw s with the path restored
   ("p.Stat.Path = path") = what the rest of the loop, the diff and the disk writer work with.
   The listing is the announced sequence minus the listing name — whatever the selector writes. *)
Theorem listing_exact_rw : forall sel rw stats,
  r_listing (meta_recv_rw sel rw stats) = filter (fun s => negb (bytes_eqb (st_path s) listing_name)) stats.
Proof. exact listing_exact_rw_proof. Qed.

(* What the edits DO influence: registrations (fileCanRequestData on the edited mode) and the
   forwarded entries are those of the pure transcript on the sequence as the selector left it,
   for every sel' that decides on the rewritten stat as sel did on the announced one (any
   selector that looks at the path only: sel' = sel) — so ids_aligned, ids_only_selected,
   ids_complete, forwarded_exact, stack_exact, forwarded_valid and the compositions above apply to
   [map (seen rw) stats]. *)
Theorem rewrite_sim : forall sel rw sel' stats,
  (forall s, In s stats -> sel' (seen rw s) = sel s) ->
  r_files (meta_recv_rw sel rw stats) = r_files (meta_recv sel' (map (seen rw) stats)) /\
  r_forwarded (meta_recv_rw sel rw stats) = r_forwarded (meta_recv sel' (map (seen rw) stats)).
Proof. exact rewrite_sim_proof. Qed.

Theorem forwarded_exact_rw : forall sel rw sel' stats,
  (forall s, In s stats -> sel' (seen rw s) = sel s) ->
  valid_stream (map (seen rw) (recv_stream stats)) ->
  r_forwarded (meta_recv_rw sel rw stats)
  = filter (needed sel' (map (seen rw) (recv_stream stats))) (map (seen rw) (recv_stream stats)).
Proof. exact forwarded_exact_rw_proof. Qed.

(* a pure predicate: the transcript of all theorems above *)
Theorem pure_selector : forall sel stats, meta_recv_rw sel (fun s => s) stats = meta_recv sel stats.
Proof. exact pure_selector_proof. Qed.

Print Assumptions listing_exact.
Print Assumptions ids_aligned.
Print Assumptions ids_only_selected.
Print Assumptions ids_complete.
Print Assumptions buffer_is_concat.
Print Assumptions forwarded_exact.
Print Assumptions forwarded_exact_plain.
Print Assumptions stack_exact.
Print Assumptions forwarded_valid.
Print Assumptions accepts_iff.
Print Assumptions accepts_link_closed.
Print Assumptions link_closed_accepts.
Print Assumptions unsourced_link_rejected.
Print Assumptions accepts_rw_sim.
Print Assumptions recv_valid_of_valid.
Print Assumptions listing_roundtrip.
Print Assumptions listing_roundtrip_any_order.
Print Assumptions buffers_agree.
Print Assumptions projection_is_forwarded.
Print Assumptions receiver_accepts_wf.
Print Assumptions canon_hardlink_check.
Print Assumptions canon_recv_hardlink_check.
Print Assumptions wf_source_accepts_iff.
Print Assumptions walk_ok_paths.
Print Assumptions walked_hardlink_check.
Print Assumptions walk_passes_receiver_validators.
Print Assumptions walked_source_accepts_iff.
Print Assumptions registered_content.
Print Assumptions projection_wf.
Print Assumptions meta_transfer_converges.
Print Assumptions meta_converges_on_walked_trees.
Print Assumptions meta_req_ids.
Print Assumptions listing_exact_rw.
Print Assumptions rewrite_sim.
Print Assumptions forwarded_exact_rw.
Print Assumptions pure_selector.

(* source-derived obligations (regenerated from /repo on every run) *)
Example from_source_listing_name : FromSource.metadata_path = listing_name.
Proof. vm_compute. reflexivity. Qed.
Example from_source_chunk_size : FromSource.buffer_chunk_size = chunk_size.
Proof. vm_compute. reflexivity. Qed.

Open Scope N_scope.
Definition mkst (p : list N) (mode : N) (ln : list N) : stat :=
  {| st_path := p; st_mode := mode; st_uid := 0; st_gid := 0; st_size := 3; st_mtime := 7;
     st_linkname := ln; st_devmajor := 0; st_devminor := 0; st_xattrs := [] |}.
Definition A := 97%N. Definition B := 98%N. Definition C := 99%N. Definition D := 100%N.
Definition F := 420%N.  (* 0644 *)
Definition ex_stream : list stat :=
  [ mkst listing_name F [];               (* .fsutil-metadata   id 0, skipped          *)
    mkst [A] ModeDir [];                  (* a/                 id 1  unselected        *)
    mkst [A;47;B] ModeDir [];             (* a/b/               id 2  unselected        *)
    mkst [A;47;B;47;C] F [];              (* a/b/c              id 3  SELECTED          *)
    mkst [A;47;B;47;D] F [];              (* a/b/d              id 4  unselected        *)
    mkst [A;47;C] ModeDir [];             (* a/c/               id 5  unselected, empty *)
    mkst [A;47;D] ModeDir [];             (* a/d/               id 6  SELECTED dir      *)
    mkst [A;47;D;47;A] F [A;47;B;47;C];   (* a/d/a -> a/b/c     id 7  SELECTED link     *)
    mkst [B] F [] ].                      (* b                  id 8  unselected        *)
Definition ex_sel (s : stat) : bool :=
  existsb (bytes_eqb (st_path s)) [[A;47;B;47;C]; [A;47;D]; [A;47;D;47;A]; listing_name].

Example ex_valid : valid_stream ex_stream /\ valid_stream (recv_stream ex_stream)
                   /\ link_closed ex_sel (recv_stream ex_stream) = true /\ recv_accepts ex_sel ex_stream = true.
Proof. vm_compute. repeat split; reflexivity. Qed.
Example ex_run :
  map st_path (r_forwarded (meta_recv ex_sel ex_stream))
    = [[A]; [A;47;B]; [A;47;B;47;C]; [A;47;D]; [A;47;D;47;A]]      (* a/d once (F12), a/c never *)
  /\ r_files (meta_recv ex_sel ex_stream) = [([A;47;B;47;C], 3%nat); ([A;47;D;47;A], 7%nat)]   (* ids count the skipped entry (F3) *)
  /\ length (r_listing (meta_recv ex_sel ex_stream)) = 8%nat
  /\ valid_stream (r_forwarded (meta_recv ex_sel ex_stream))
  /\ hardlink_check (r_forwarded (meta_recv ex_sel ex_stream)) = None.
Proof. vm_compute. repeat split; reflexivity. Qed.
(* the pending stack after a/, a/b/, a/b/c (replayed, cleared), a/b/d, a/c/ is [a/c] only *)
Example ex_stack :
  map st_path (mstack ex_sel [] (firstn 3%nat ex_stream)) = [[A;47;B]; [A]]
  /\ map st_path (mstack ex_sel [] (firstn 6%nat ex_stream)) = [[A;47;C]].
Proof. vm_compute. split; reflexivity. Qed.
(* without link closure (a/d/a selected, its source a/b/c not) the receiver rejects at a/d/a
   (index 6 of what it handles) although both validators accept the whole sequence; nothing had
   been forwarded yet: the pending ancestors a, a/d are replayed only after the validators *)
Example ex_not_link_closed :
  let sel' := fun s : stat => bytes_eqb (st_path s) [A;47;D;47;A] in
  link_closed sel' (recv_stream ex_stream) = false
  /\ hardlink_check (recv_stream ex_stream) = None
  /\ recv_accepts sel' ex_stream = false
  /\ first_reject sel' (recv_stream ex_stream) = Some 6%nat
  /\ applied sel' (recv_stream ex_stream) = []
  /\ hardlink_check (r_forwarded (meta_recv sel' ex_stream)) = Some 2%nat.
Proof. vm_compute. repeat split; reflexivity. Qed.
(* the C03 witness shape: d/ and d/f only recorded, h = a further name of d/f selected.  The
   sender's sequence is fine; the receiver rejects h (index 2) with nothing applied, whereas a
   selection that also takes d/f is accepted and forwards d, d/f, h *)
Definition c03_stream : list stat :=
  [ mkst [D] ModeDir []; mkst [D;47;102] F []; mkst [104] F [D;47;102] ].
Example ex_c03_witness :
  let only_h := fun s : stat => bytes_eqb (st_path s) [104] in
  let h_and_f := fun s : stat => bytes_eqb (st_path s) [104] || bytes_eqb (st_path s) [D;47;102] in
  valid_stream c03_stream /\ hardlink_check c03_stream = None
  /\ recv_accepts only_h c03_stream = false /\ first_reject only_h (recv_stream c03_stream) = Some 2%nat
  /\ applied only_h (recv_stream c03_stream) = []
  /\ recv_accepts h_and_f c03_stream = true
  /\ map st_path (applied h_and_f (recv_stream c03_stream)) = [[D]; [D;47;102]; [104]].
Proof. vm_compute. repeat split; reflexivity. Qed.

(* the listing file of ex_stream: 8 records, read back exactly; a cut file is an error or a
   shorter listing, never a wrong one *)
Example ex_listing_file :
  (forall s, In s ex_stream -> is_listing s = false -> listable s)
  /\ decode_listing (listing_file ex_sel ex_stream) = Some (recv_stream ex_stream)
  /\ length (listing_file ex_sel ex_stream) = 149%nat
  /\ firstn 4%nat (listing_file ex_sel ex_stream) = [13; 0; 0; 0]
  /\ decode_listing (firstn 148%nat (listing_file ex_sel ex_stream)) = None
  /\ decode_listing (firstn 17%nat (listing_file ex_sel ex_stream)) = Some (firstn 1%nat (recv_stream ex_stream)).
Proof.
  split.
  - intros s Hs _. cbn [ex_stream In] in Hs.
    repeat (destruct Hs as [<-|Hs]; [vm_compute; repeat split; reflexivity|]). destruct Hs.
  - vm_compute. repeat split; reflexivity.
Qed.

(* source with contents (a/d/a is a second name of a/b/c), selector = ex_sel + "b";
   prior destination: a stale listing file, the stale a/b/d, and b unchanged *)
Definition ex_B : list AbsDest.entry :=
  combine ex_stream [[9]; []; []; [1;2;3]; [4;5;6]; []; []; [1;2;3]; [7;8;9]].
Definition ex_sel2 (s : stat) : bool := ex_sel s || bytes_eqb (st_path s) [B].
Definition ex_A : list AbsDest.entry :=
  [ (mkst listing_name F [], [0; 0]);
    (mkst [A] ModeDir [], []); (mkst [A;47;B] ModeDir [], []); (mkst [A;47;B;47;D] F [], [4;5;6]);
    (mkst [B] F [], [7;8;9]) ].

Example ex_transfer_hypotheses :
  wf_entries ex_A /\ wf_entries ex_B /\ listing_dependents (map fst ex_B) = false
  /\ recv_accepts ex_sel2 (map fst ex_B) = true
  /\ AbsDest.identity_faithful DMetadata ex_A (meta_proj ex_sel2 ex_B)
  /\ valid_stream (recv_stream (map fst ex_B))
  /\ forallb (fun s => negb (wants_content s) || mode_is_regular (st_mode s)) (map fst ex_B) = true.
Proof.
  split; [apply ConvergeP.wf_entries_b_sound; vm_compute; reflexivity|].
  split; [apply ConvergeP.wf_entries_b_sound; vm_compute; reflexivity|].
  split; [vm_compute; reflexivity|]. split; [vm_compute; reflexivity|].
  split; [apply ReceiveP.identity_faithful_b_sound; vm_compute; reflexivity|].
  vm_compute. split; reflexivity.
Qed.

(* the hypotheses of wf_source_accepts_iff hold of ex_B (which has a hard link a/d/a), and both sides
   of the equivalence occur: ex_sel2 is link-closed and accepted, the selection of the link alone is
   neither *)
Example ex_wf_source_accepts :
  wf_entries ex_B /\ forallb (fun s => ok_path (st_path s)) (map fst ex_B) = true
  /\ listing_dependents (map fst ex_B) = false
  /\ existsb is_hardlink (map fst ex_B) = true
  /\ link_closed ex_sel2 (recv_stream (map fst ex_B)) = true /\ recv_accepts ex_sel2 (map fst ex_B) = true
  /\ (let only_link := fun s : stat => is_hardlink s in
      link_closed only_link (recv_stream (map fst ex_B)) = false /\ recv_accepts only_link (map fst ex_B) = false).
Proof.
  split; [apply ConvergeP.wf_entries_b_sound; vm_compute; reflexivity|].
  vm_compute. repeat split; reflexivity.
Qed.

(* a tree with a hard-link group (a/x, b) meets the hypotheses of walked_source_accepts_iff; both
   sides of the equivalence occur *)
Example ex_walked_source :
  (wf_tree mw_tree /\ ino_consistent mw_tree /\ inode_coherent mw_tree) /\
  map (fun s => (st_path s, st_linkname s)) (walk mw_tree) = [([97], []); ([97; 47; 120], []); ([98], [97; 47; 120])]%N
  /\ listing_dependents (walk mw_tree) = false
  /\ link_closed (fun _ => true) (recv_stream (walk mw_tree)) = true
  /\ recv_accepts (fun _ => true) (walk mw_tree) = true
  /\ (let only_b := fun s : stat => bytes_eqb (st_path s) [98%N] in
      link_closed only_b (recv_stream (walk mw_tree)) = false /\ recv_accepts only_b (walk mw_tree) = false).
Proof. split; [exact mw_tree_hyps|exact mw_tree_example]. Qed.

(* projection = a, a/b, a/b/c, a/d, a/d/a, b; the stale listing and a/b/d are gone, a/c never
   appears; only a/b/c is requested, under id 3 (b is unchanged, a/d/a is a link), although the
   registered ids are 3, 7, 8; the executable convergence oracle of C01 accepts the result *)
Example ex_transfer :
  let r := receive_abs (fun x : bytes => x) (fun _ => []) Fresh DMetadata ex_A (meta_proj ex_sel2 ex_B) in
  map (fun e => st_path (fst e)) (meta_proj ex_sel2 ex_B) = [[A]; [A;47;B]; [A;47;B;47;C]; [A;47;D]; [A;47;D;47;A]; [B]]
  /\ ds_err r = false
  /\ converged_o false ex_A (meta_proj ex_sel2 ex_B) (view_of (ds_map r)) = true
  /\ find_obs listing_name (view_of (ds_map r)) = None
  /\ find_obs [A;47;B;47;D] (view_of (ds_map r)) = None
  /\ ds_reqs r = [[A;47;B;47;C]]
  /\ map snd (r_files (meta_recv ex_sel2 (map fst ex_B))) = [3%nat; 7%nat; 8%nat]
  /\ req_ids (r_files (meta_recv ex_sel2 (map fst ex_B))) (ds_reqs r) = [Some 3%nat]
  /\ positions_from 0 (wanted ex_sel2 DMetadata (map fst ex_A)) (map fst ex_B) = [3%nat]
  /\ converged_o false ex_A ex_B (view_of (ds_map r)) = false.
Proof. vm_compute. repeat split; reflexivity. Qed.

(* a selector that normalises uid/gid/mtime of everything, chmods go-rwx what it selects (harness
   kind 5) — or scribbles over the path (kind 6): the listing still holds the 8 stats as announced;
   what is forwarded carries the edits (uid 12, a/b/c 0644 -> 0600, the unselected ancestor a keeps
   its mode), under the announced paths *)
Example ex_writing_selector :
  let rw5 := fun s => rw_of 5 (ex_sel s) s in
  let rw6 := fun s => rw_of 6 (ex_sel s) s in
  r_listing (meta_recv_rw ex_sel rw5 ex_stream) = recv_stream ex_stream
  /\ map (fun s => (st_path s, st_uid s, st_mode s)) (r_forwarded (meta_recv_rw ex_sel rw5 ex_stream))
     = [([A], 12, ModeDir); ([A;47;B], 12, ModeDir); ([A;47;B;47;C], 12, 384); ([A;47;D], 12, ModeDir);
        ([A;47;D;47;A], 12, 384)]
  /\ r_files (meta_recv_rw ex_sel rw5 ex_stream) = r_files (meta_recv ex_sel ex_stream)
  /\ st_path (rw6 (mkst [A] ModeDir [])) = [120]
  /\ r_listing (meta_recv_rw ex_sel rw6 ex_stream) = recv_stream ex_stream
  /\ map st_path (r_forwarded (meta_recv_rw ex_sel rw6 ex_stream)) = map st_path (r_forwarded (meta_recv ex_sel ex_stream))
  /\ stat_eqb (hd (mkst [] 0 []) (r_forwarded (meta_recv_rw ex_sel rw6 ex_stream))) (mkst [A] ModeDir []) = false.
Proof. vm_compute. repeat split; reflexivity. Qed.

(* the corner the hypothesis [valid_stream (recv_stream stats)] excludes (finding
   listing-name-entry-has-dependents, witnesses in corpus/C19): the announced sequence is
   valid, the receiver skips the listing-name entry before validating, and rejects what
   depends on it — a child always, a hard link to it when that link is forwarded *)
Definition dep_dir : list stat :=
  [ mkst listing_name ModeDir []; mkst (listing_name ++ [47; A]) F [] ].
Definition dep_link : list stat :=
  [ mkst listing_name F []; mkst [A] F listing_name ].
Example dependents_rejected :
  valid_stream dep_dir /\ hardlink_check dep_dir = None /\ recv_accepts (fun _ => false) dep_dir = false
  /\ run_validator (map vitem_of (recv_stream dep_dir)) = Some 0%nat
  /\ valid_stream dep_link /\ hardlink_check dep_link = None /\ recv_accepts (fun _ => true) dep_link = false
  /\ recv_accepts (fun _ => false) dep_link = true
  /\ hardlink_check (recv_stream dep_link) = Some 0%nat
  /\ listing_dependents dep_dir = true /\ listing_dependents dep_link = true.
Proof. vm_compute. repeat split; reflexivity. Qed.
