(* C08 — Outcome is schedule-independent; stream calls are never made concurrently.
   Theorems about the goroutine-level LTS (Model/Lts.v): statements of the property, each
   closed by [exact] of a lemma of Proofs/ or by a few lines from a more general one; examples
   are computed here; [Print Assumptions] of each.
   Data races / the Go memory model are outside the model (see props/C08.json).

   outcome_deterministic is proved in full on the LTS: two complete fault-free executions from
   the same initial state (fault_free ls = no label of ls is a fault, a cancellation, a stream
   failure or a tear-down; LEnvCloseSend, the transport's EOF after Send returned, is allowed)
   return the same values (nil, nil) and their request, completion and written-chunk sequences
   are permutations of each other.  The proof goes through fault_free_success (a fault-free run
   never takes an error branch: token conservation and request accounting per file id) and
   outcome_deterministic_partial (what any run that ends with Receive returning nil has
   requested, completed and written).  Not in the LTS: notification digests (C05); an Open error
   must be excluded from the partial statement (known finding open-error-empty-file-success). *)
From Coq Require Import List Arith Bool PeanoNat Permutation.
From FS Require Import Model.Lts Model.LtsExplore Proofs.LtsInv Proofs.LtsSafe Proofs.LtsC08 Proofs.LtsTok
  Proofs.LtsContent Proofs.LtsContent3 Proofs.LtsClean1 Proofs.LtsClean3 Proofs.LtsClean5.
Import ListNotations.

(* In every reachable state at most one goroutine per side is inside Stream.SendMsg
   (walker / worker j / request loop on the sender; diff-outer goroutine / writer j on the
   receiver). *)
Theorem send_mutex_inv : forall p st, reachable p st ->
  (forall g g', in_send_s st g = true -> in_send_s st g' = true -> g = g') /\
  (forall g g', in_send_r st g = true -> in_send_r st g' = true -> g = g').
Proof. exact send_mutex_inv_proof. Qed.

(* Exactly one goroutine per side ever calls RecvMsg: a step that takes a packet out of the
   receiver->sender direction is a step of the sender's request loop at its RecvMsg, a step
   that takes one out of the sender->receiver direction is a step of the receive loop at one
   of its two RecvMsg sites; every other change of a direction appends one packet. *)
Theorem single_recv : forall p st l st', step p st l = Some st' ->
  (buf_rs st' <> buf_rs st -> (exists pk, buf_rs st' = buf_rs st ++ [pk]) \/
                              (l = LReq /\ rq_pc st = RQ_Recv /\ exists pk, buf_rs st = pk :: buf_rs st')) /\
  (buf_sr st' <> buf_sr st -> (exists pk, buf_sr st' = buf_sr st ++ [pk]) \/
                              (l = LRecvLoop /\ (rl_pc st = RL_Recv \/ rl_pc st = RL_Drain) /\
                               exists pk, buf_sr st = pk :: buf_sr st')).
Proof. exact single_recv_proof. Qed.

(* A DATA payload is written to its pipe before the receive loop's next RecvMsg: while the
   loop holds a payload (RL_Write id) its only move is the write, and no other goroutine
   moves the loop or takes anything out of its stream direction. *)
Theorem payload_consumed_before_reuse : forall p st id,
  rl_pc st = RL_Write id ->
  (forall st', step p st LRecvLoop = Some st' ->
     written st' = id :: written st /\ rl_pc st' = RL_Recv /\ buf_sr st' = buf_sr st) /\
  step p st LRecvLoopClosed = None /\
  (forall l st', step p st l = Some st' -> l <> LRecvLoop ->
     rl_pc st' = RL_Write id /\ written st' = written st /\
     (buf_sr st' = buf_sr st \/ exists pk, buf_sr st' = buf_sr st ++ [pk])).
Proof. exact payload_consumed_proof. Qed.

(* Whenever Receive has returned nil, the set of completed files and the set of requests are
   exactly [need_ids p]: a function of the parameters, not of the schedule. *)
Theorem success_outcome_is_sequential : forall p st, reachable p st -> recv_ret st = Some true ->
  forall id, (memb id (completed st) = true <-> In id (need_ids p)) /\
             (memb id (reqs st) = true <-> In id (need_ids p)).
Proof. exact success_outcome_proof. Qed.

(* Hence two such states have equal completed sets and equal request sets (faults of any kind
   allowed on the way). *)
Theorem success_sets_equal : forall p st1 st2,
  reachable p st1 -> reachable p st2 -> recv_ret st1 = Some true -> recv_ret st2 = Some true ->
  (forall id, memb id (completed st1) = memb id (completed st2)) /\
  (forall id, memb id (reqs st1) = memb id (reqs st2)).
Proof. exact outcome_deterministic_partial_proof. Qed.

(* No file is requested twice, in any reachable state ... *)
Theorem requested_at_most_once : forall p st, reachable p st -> NoDup (reqs st).
Proof. exact reqs_nodup_proof. Qed.

(* ... so when Receive has returned nil the sequence of requests is a permutation of need_ids p:
   only the order of the requests depends on the schedule. *)
Theorem success_requests_permutation : forall p st, reachable p st -> recv_ret st = Some true ->
  Permutation (reqs st) (need_ids p).
Proof. exact success_requests_permutation_proof. Qed.

(* No file is completed twice (every id is served at most once: token invariant over sfiles,
   queue(), the pipeline, the workers, the stream and the receive loop). *)
Theorem completed_at_most_once : forall p st, reachable p st -> NoDup (completed st).
Proof. exact completed_nodup_proof. Qed.

(* Content: when Receive has returned nil and no Open error was injected, the number of chunks
   written for each id is all of its chunks if its content is needed and none otherwise. *)
Theorem success_content_is_sequential : forall p st, reachable p st ->
  recv_ret st = Some true -> g_open_err st = false ->
  forall id, count_occ Nat.eq_dec (written st) id = expected_chunks p id.
Proof. exact success_written_count_occ_proof. Qed.

(* outcome_deterministic for executions that end with Receive returning nil (no Open error
   injected; every other fault, every interleaving, every capacity allowed). *)
Theorem outcome_deterministic_partial : forall p ls1 ls2 st1 st2,
  forallb not_open_err ls1 = true -> forallb not_open_err ls2 = true ->
  run p (init p) ls1 = Some st1 -> run p (init p) ls2 = Some st2 ->
  recv_ret st1 = Some true -> recv_ret st2 = Some true ->
  Permutation (completed st1) (completed st2) /\
  Permutation (reqs st1) (reqs st2) /\
  Permutation (written st1) (written st2).
Proof. exact outcome_deterministic_runs_proof. Qed.

(* A fault-free run never fails: when it is complete both calls have returned nil. *)
Theorem fault_free_success : forall p ls st, wf_params p -> fault_free ls ->
  run p (init p) ls = Some st -> final st = true ->
  send_ret st = Some true /\ recv_ret st = Some true.
Proof. exact fault_free_success_proof. Qed.

(* outcome_deterministic: two complete fault-free executions from the same initial state end
   with equal return values and with the same requests, completed files and written chunks (up
   to order) — for all interleavings of workers, writers and packet deliveries, every W, P, C,
   C2 and stream capacity.  wf_params: an entry whose content is requested is a regular file. *)
Theorem outcome_deterministic : forall p ls1 ls2 st1 st2,
  wf_params p -> fault_free ls1 -> fault_free ls2 ->
  run p (init p) ls1 = Some st1 -> run p (init p) ls2 = Some st2 ->
  final st1 = true -> final st2 = true ->
  send_ret st1 = send_ret st2 /\ recv_ret st1 = recv_ret st2 /\
  Permutation (completed st1) (completed st2) /\
  Permutation (reqs st1) (reqs st2) /\
  Permutation (written st1) (written st2).
Proof. exact outcome_deterministic_proof. Qed.

Print Assumptions send_mutex_inv.
Print Assumptions single_recv.
Print Assumptions payload_consumed_before_reuse.
Print Assumptions success_outcome_is_sequential.
Print Assumptions success_sets_equal.
Print Assumptions completed_at_most_once.
Print Assumptions success_content_is_sequential.
Print Assumptions outcome_deterministic_partial.
Print Assumptions fault_free_success.
Print Assumptions outcome_deterministic.
Print Assumptions requested_at_most_once.
Print Assumptions success_requests_permutation.

Definition c08_file (c : nat) : entry := {| e_file := true; e_chunks := c; e_kind := ENeed |}.
Definition c08_params : params :=
  {| p_W := 2; p_P := 1; p_C := 1; p_C2 := 1; p_capSR := 1; p_capRS := 0;
     p_entries := [ {| e_file := false; e_chunks := 0; e_kind := EMeta |}; c08_file 2;
                    {| e_file := true; e_chunks := 1; e_kind := ESame |}; c08_file 1 ];
     p_old_queue := false |}.
Definition c08_obs (st : state) :=
  (final st, send_ret st, recv_ret st, sort_nats (completed st), sort_nats (reqs st), sort_nats (written st)).

(* two different interleavings of the same transfer end with the same outcome, the one the
   sequential function predicts *)
Example two_schedules_same_outcome :
  let a := sched 1000 no_fault c08_params (init c08_params) in
  let b := sched_last 1000 no_fault c08_params (init c08_params) in
  c08_obs a = (true, Some true, Some true, [1; 3], [1; 3], [1; 1; 3]) /\ c08_obs b = c08_obs a /\
  need_ids c08_params = [1; 3].
Proof. vm_compute. repeat split; reflexivity. Qed.

(* the mutex is contended in reachable states: a worker is inside SendMsg(DATA) while the
   walker waits for the lock *)
Definition c08_two : params :=
  {| p_W := 1; p_P := 1; p_C := 1; p_C2 := 1; p_capSR := 1; p_capRS := 0;
     p_entries := [c08_file 1; c08_file 1]; p_old_queue := false |}.
Example mutex_is_contended :
  exists ls st, run c08_two (init c08_two) ls = Some st /\
    in_send_s st (GWorker 0) = true /\ sw_pc st = SW_Lock KStat /\ s_mu st = Some (GWorker 0).
Proof.
  exists [LSWalk; LSWalk; LSWalk; LRecvLoop; LRecvLoop; LRecvLoop; LFill; LFill; LDiff; LDiff;
          LReq; LWriter 0; LWriter 0; LWriter 0; LReq; LReq;
          LWorker 0; LWorker 0; LWorker 0; LWorker 0; LWorker 0; LSWalk].
  eexists. split; [vm_compute; reflexivity|]. vm_compute. repeat split; reflexivity.
Qed.

(* all interleavings of a small instance (exhaustive search): every run ends with both nil *)
Example all_interleavings_same_class :
  let r := explore_scenario 30000 no_fault
             {| p_W := 1; p_P := 1; p_C := 1; p_C2 := 1; p_capSR := 0; p_capRS := 0;
                p_entries := [c08_file 1; c08_file 0]; p_old_queue := false |} in
  (res_outcomes r, res_complete r, res_hang r) = ([4], true, None).
Proof. vm_compute. reflexivity. Qed.
