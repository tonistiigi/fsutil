(* C02 — Incremental minimality (abstract layer).
   Statements of the property, each closed by [exact] of a lemma of Proofs/ or by a few lines from
   a more general one; the examples are computed here; [Print Assumptions] of each.  At the end, the
   equations between the functions translated from the Go source (gen/SrcFns.v) and the model.
   Models: Model/Diff.v (doubleWalkDiff, sameFile, compareStat), Model/AbsDest.v (abstract
   effect of DiskWriter.HandleChange, requests).

   Vocabulary (Model/Diff.v, Model/AbsDest.v):
     sorted L        strictly ascending by fsutil.ComparePath (hence duplicate-free)
     closed L        every "/"-prefix of a listed path is the path of a listed directory
     wf_listing L    sorted L /\ closed L
     notin L p       no entry of L has path p
     hidden flt A B p   p lies below a removed root: a directory of A that is absent from B or
                     (after the filter) a non-directory in B
     links_ok B      a hard-link entry names an earlier entry of B that is neither a directory nor a
                     symlink (regular when the link entry is), with the same bytes
                     (nothing is assumed about the METADATA a hard-link entry carries: the writer
                     gives a new name the metadata of the inode it joins, AbsDest.link_stat —
                     hard_link_joins_inode below)
     identity_faithful d A B   entries with the same path and the same identity key hold the
                     same bytes (regular files / hard links)
     unchanged d A B p   p is listed on both sides with the same identity key
   DiffContent (byte comparison of files on disk) is outside the model.
   The timing-dependent hard-link exception of the statement concerns how the destination
   WALK races with the writer; here the destination listing A is an input (whatever the
   walker reported), so it does not appear at this layer. *)
From Coq Require Import List NArith Bool Sorting.Sorted.
From FS Require Import Sx Model.Path Model.Stat Model.Diff Model.AbsDest
  Proofs.DiffP Proofs.DiffSpecP Proofs.AbsDestP Proofs.ReceiveP Proofs.FilterRecvP.
Import ListNotations.
Open Scope N_scope.

Notation idf := (fun s : stat => s).

(* The loop never runs out of fuel (|A| + |B| + 1 iterations suffice), for all inputs. *)
Theorem diff_fuel_enough : forall flt d A B, diff_opt flt d A B <> None.
Proof. exact DiffP.diff_fuel_enough. Qed.

(* sameFile compares exactly the identity key: mode (type + permissions), uid, gid, device
   numbers, link target and, for non-directories, size and mtime. *)
Theorem same_file_is_identity : forall a b,
  same_file DMetadata a b = key_eqb (identity_key a) (identity_key b).
Proof. exact DiffP.same_file_is_identity. Qed.

(* The change list is exactly: adds = B \ A, modifies = common paths whose identity differs
   (after the filter), deletes = the top-most removed paths of A \ B.
   Hypotheses: both listings sorted, B ancestor-closed, the filter keeps the directory bit.
   (A need not be ancestor-closed.) *)
Theorem diff_changes_exact : forall flt d A B,
  sorted A -> sorted B -> closed B -> (forall s, st_is_dir (flt s) = st_is_dir s) ->
  forall k p st, In (k, p, st) (diff flt d A B) <->
    (k = KAdd /\ exists b, st = Some b /\ In b B /\ st_path b = p /\ notin A p) \/
    (k = KModify /\ exists a b, st = Some b /\ In a A /\ In b B /\ st_path a = p /\ st_path b = p
                                /\ same_file d a (flt b) = false) \/
    (k = KDelete /\ st = None /\ (exists a, In a A /\ st_path a = p) /\ notin B p /\ ~ hidden flt A B p).
Proof.
  intros flt d A B HsA HsB HcB Hf k p st.
  rewrite (diff_changes_exact_proof flt d A B HsA HsB HcB Hf). apply spec_change_iff.
Qed.

(* ... in strictly ascending path order, so no path is reported twice. *)
Theorem diff_sorted_nodup : forall flt d A B,
  sorted A -> sorted B -> closed B -> (forall s, st_is_dir (flt s) = st_is_dir s) ->
  StronglySorted (fun c1 c2 => compare_path (ch_path c1) (ch_path c2) = Lt) (diff flt d A B) /\
  NoDup (map ch_path (diff flt d A B)).
Proof.
  intros flt d A B HsA HsB HcB Hf. split.
  - exact (diff_sorted_proof flt d A B HsA HsB HcB Hf).
  - exact (diff_nodup_proof flt d A B HsA HsB HcB Hf).
Qed.

(* Re-sync of an unchanged listing reports nothing — for every listing, no hypothesis. *)
Theorem resync_noop : forall B, diff idf DMetadata B B = [].
Proof.
  intros B. apply resync_noop_gen. induction B; constructor; auto. split; auto. apply same_file_refl.
Qed.

(* With differencing disabled every common path is reported as modified. *)
Theorem diff_none_all : forall flt A B,
  sorted A -> sorted B -> closed B -> (forall s, st_is_dir (flt s) = st_is_dir s) ->
  forall a b, In a A -> In b B -> st_path a = st_path b ->
  In (KModify, st_path b, Some b) (diff flt DNone A B).
Proof.
  intros flt A B HsA HsB HcB Hflt a b Ha Hb E. apply diff_changes_exact_proof; auto.
  simpl. split; auto. split; auto. exists a. auto.
Qed.

(* Content is requested for exactly the regular files (no Linkname) of the source that are new
   or whose identity differs — as a list, in source order. *)
Theorem reqs_exact : forall (H : bytes -> bytes) (hdr : stat -> bytes) d A B,
  wf_listing (map fst A) -> wf_listing (map fst B) -> links_ok B -> identity_faithful d A B ->
  ds_reqs (receive_abs H hdr Fresh d A B)
  = map st_path (filter (fun b => wants_content b && negb (unchanged_b d (map fst A) b)) (map fst B)).
Proof. exact reqs_exact_proof. Qed.

(* Every path listed on both sides with the same identity key keeps its entry literally —
   stat, bytes and inode class — and no content request is sent for it; the transfer does not
   fail and the writer receives exactly the diff. *)
Theorem untouched_keep_inode : forall (H : bytes -> bytes) (hdr : stat -> bytes) d A B,
  wf_listing (map fst A) -> wf_listing (map fst B) -> links_ok B -> identity_faithful d A B ->
  let r := receive_abs H hdr Fresh d A B in
  ds_err r = false /\ ds_changes r = diff idf d (map fst A) (map fst B) /\
  forall p, unchanged d A B p ->
    alookup p (ds_map r) = alookup p (dest_of A) /\ ~ In p (ds_reqs r).
Proof.
  intros H hdr d A B HwA HwB Hl Hf. cbv zeta.
  destruct (receive_fresh_weak H hdr d A B HwA HwB Hl Hf) as (He & Hc & _ & Hk & _).
  split; auto. split; auto. intros p Hu. split; auto.
  rewrite (reqs_exact_proof H hdr d A B HwA HwB Hl Hf).
  apply reqs_spec_unchanged; [apply HwA|apply HwB|exact Hu].
Qed.

(* Conversely every source entry that is new, or whose identity differs (other than a directory
   over a directory, which is re-stamped in place, and other than a hard link, which takes the
   inode of the entry it names), is rewritten: the destination ends up with the stat as sent
   under an inode class that did not exist before (all old classes are < |A|). *)
Theorem rewritten_get_new_inode : forall (H : bytes -> bytes) (hdr : stat -> bytes) d A B,
  wf_listing (map fst A) -> wf_listing (map fst B) -> links_ok B -> identity_faithful d A B ->
  let r := receive_abs H hdr Fresh d A B in
  (forall p e, alookup p (dest_of A) = Some e -> de_ino e < N.of_nat (length A)) /\
  forall p, fresh_target d A B p ->
    exists e b, alookup p (ds_map r) = Some e /\ In b (map fst B) /\ st_path b = p /\
                de_stat e = b /\ N.of_nat (length A) <= de_ino e.
Proof.
  intros H hdr d A B HwA HwB Hl Hf. cbv zeta. split; [apply dest_of_ino_bound|].
  destruct (receive_fresh_weak H hdr d A B HwA HwB Hl Hf) as (_ & _ & _ & _ & Hfr). exact Hfr.
Qed.

(* A hard-link entry of the source that is new, or whose identity key differs from what the old
   destination listed at its path, ends up as ONE MORE NAME of the inode the destination shows at
   the path it names: same inode class, same bytes, and the metadata of THAT inode (mode, uid,
   gid, size, mtime, device numbers, xattrs: AbsDest.link_stat) under the announced path — not
   the metadata that was announced, should it differ (os.Link; nothing is written to the inode). *)
Theorem hard_link_joins_inode : forall (H : bytes -> bytes) (hdr : stat -> bytes) d A B,
  wf_listing (map fst A) -> wf_listing (map fst B) -> links_ok B -> identity_faithful d A B ->
  let r := receive_abs H hdr Fresh d A B in
  forall p, link_changed d A B p ->
    exists b e t, In b (map fst B) /\ st_path b = p /\ alookup p (ds_map r) = Some e /\
      alookup (st_linkname b) (ds_map r) = Some t /\ de_ino e = de_ino t /\ de_bytes e = de_bytes t /\
      de_stat e = link_stat (de_stat t) b.
Proof. exact hard_link_joins_inode_proof. Qed.

(* Re-sync of an unchanged source (entry by entry the same path and identity key): zero
   content requests, zero notifications, the destination map untouched. No other hypothesis. *)
Theorem receive_resync_noop : forall (H : bytes -> bytes) (hdr : stat -> bytes) A B,
  Forall2 (fun a b => st_path (fst a) = st_path (fst b) /\ same_file DMetadata (fst a) (fst b) = true) A B ->
  receive_abs H hdr Fresh DMetadata A B =
  {| ds_map := dest_of A; ds_reqs := []; ds_notifs := []; ds_changes := []; ds_err := false |}.
Proof.
  intros H hdr A B HF. unfold receive_abs.
  rewrite (resync_noop_gen (fun s => s) DMetadata (map fst A) (map fst B)); [reflexivity|].
  induction HF; simpl; constructor; auto.
Qed.

(* ... and a transfer REACHES that fixpoint: after a transfer from an honest sender
   ([links_meta]: hard-link entries carry the metadata of the entry they name) the destination,
   listed again ([dest_listing]: under exactly the paths it now holds — first conjunct — the stat
   and bytes it holds there), shows the identity key of the source at every path, so a second
   synchronisation of the unchanged source requests nothing, notifies nothing, touches nothing.
   (Evaluated on the real walker + differ + DiskWriter run twice: kind 0204.) *)
Theorem resync_after_transfer_noop : forall (H : bytes -> bytes) (hdr : stat -> bytes) d A B,
  wf_listing (map fst A) -> wf_listing (map fst B) -> links_ok B -> identity_faithful d A B ->
  links_meta B ->
  let r := receive_abs H hdr Fresh d A B in
  let A' := dest_listing B (ds_map r) in
  (forall p, (exists x, alookup p (ds_map r) = Some x) <-> (exists e, In e A' /\ st_path (fst e) = p)) /\
  receive_abs H hdr Fresh DMetadata A' B =
  {| ds_map := dest_of A'; ds_reqs := []; ds_notifs := []; ds_changes := []; ds_err := false |}.
Proof. exact resync_after_transfer_noop_proof. Qed.

(* ... also through the receiver's Filter (ReceiveOpt.Filter: handed to the differ AND to the
   writer; [receive_abs_f wf], Model/AbsDest.v): what lands at the destination is the stat AS
   REWRITTEN by the filter, and that is what the differ compares the destination with — for
   every filter that is a function of (path, stat), never answers "skip" and keeps path, type
   bits and link name ([filter_ok]: uid/gid remapping, mode masks, timestamp rounding, ...).  So
   after a transfer through the filter, a second synchronisation of the unchanged source
   through the same filter hands nothing to the writer.  Hypotheses on the FILTERED source
   ([filter_entries wf B]): same identity key => same bytes; link entries carry the metadata of
   the entry they name (the filter treats the names of one inode alike). *)
Theorem resync_after_transfer_noop_filtered : forall wf, filter_ok wf ->
  forall (H : bytes -> bytes) (hdr : stat -> bytes) d A B,
  wf_listing (map fst A) -> wf_listing (map fst B) -> links_ok B ->
  identity_faithful d A (filter_entries wf B) -> links_meta (filter_entries wf B) ->
  let r := receive_abs_f wf H hdr Fresh d A B in
  let A' := dest_listing B (ds_map r) in
  receive_abs_f wf H hdr Fresh DMetadata A' B =
  {| ds_map := dest_of A'; ds_reqs := []; ds_notifs := []; ds_changes := []; ds_err := false |}.
Proof. exact resync_after_transfer_noop_f_proof. Qed.

(* With differencing disabled every regular file of the source is re-requested. *)
Theorem diff_none_requests_all : forall (H : bytes -> bytes) (hdr : stat -> bytes) A B,
  wf_listing (map fst A) -> wf_listing (map fst B) -> links_ok B ->
  ds_reqs (receive_abs H hdr Fresh DNone A B) = map st_path (filter wants_content (map fst B)).
Proof.
  intros H hdr A B HwA HwB Hl.
  rewrite (reqs_exact_proof H hdr DNone A B HwA HwB Hl); [apply reqs_spec_none|].
  intros sa ba sb bb _ _ _ Hs. discriminate.
Qed.

(* The executable specification that the correspondence run evaluates on the change list of
   the IMPLEMENTATION (Diff.diff_spec_b: set-based, never looks at the loop) is exactly the
   predicate of diff_changes_exact together with "no path twice". *)
Theorem oracle_is_specification : forall flt d A B out,
  sorted A -> sorted B ->
  (diff_spec_b flt d A B out = true <->
   (forall c, In c out <-> spec_change flt d A B c) /\ NoDup (map ch_path out)).
Proof. intros flt d A B out HsA HsB. exact (diff_spec_b_iff flt d A B HsA HsB out). Qed.

(* ... and so is the executable well-formedness test applied to the generated listings. *)
Theorem listing_ok_is_wf : forall L, listing_ok_b L = true <-> wf_listing L.
Proof. exact listing_ok_b_iff. Qed.

Print Assumptions diff_fuel_enough.
Print Assumptions oracle_is_specification.
Print Assumptions listing_ok_is_wf.
Print Assumptions same_file_is_identity.
Print Assumptions diff_changes_exact.
Print Assumptions diff_sorted_nodup.
Print Assumptions resync_noop.
Print Assumptions diff_none_all.
Print Assumptions reqs_exact.
Print Assumptions untouched_keep_inode.
Print Assumptions rewritten_get_new_inode.
Print Assumptions hard_link_joins_inode.
Print Assumptions receive_resync_noop.
Print Assumptions resync_after_transfer_noop.
Print Assumptions resync_after_transfer_noop_filtered.
Print Assumptions diff_none_requests_all.

Definition mk (p : bytes) (mode uid gid size mtime : N) (ln : bytes) (dmaj dmin : N) : stat :=
  {| st_path := p; st_mode := mode; st_uid := uid; st_gid := gid; st_size := size; st_mtime := mtime;
     st_linkname := ln; st_devmajor := dmaj; st_devminor := dmin; st_xattrs := [] |}.
Definition pa := [97]. Definition pb := [98]. Definition pc := [99].            (* a b c *)
Definition p_ax := [97; 47; 120]. Definition p_ay := [97; 47; 121].            (* a/x a/y *)
Definition p_by := [98; 47; 121]. Definition p_byz := [98; 47; 121; 47; 122].  (* b/y b/y/z *)
Definition p_a_b := [97; 45; 98].                                             (* a-b *)
Definition dirm := ModeDir + 493.                                             (* d rwxr-xr-x *)
Definition dir (p : bytes) := mk p dirm 0 0 0 7 [] 0 0.
Definition file (p : bytes) (mt : N) := mk p 420 0 0 3 mt [] 0 0.

(* for each of the eight identity fields, a pair differing only there is reported (and the
   file is re-requested); xattrs and — for directories — size and mtime are not identity *)
Definition f0 := mk pa 420 1 2 10 1000 [] 0 0.
Definition modified (a b : stat) : Prop :=
  diff idf DMetadata [a] [b] = [(KModify, st_path b, Some b)] /\
  ds_reqs (receive_abs (fun x : list N => x) (fun _ => []) Fresh DMetadata [(a, [1])] [(b, [2])])
  = (if wants_content b then [st_path b] else []).
Example identity_single_field :
  modified f0 (mk pa 416 1 2 10 1000 [] 0 0)      (* mode (permissions) *)
  /\ modified f0 (mk pa (ModeSymlink + 420) 1 2 10 1000 [] 0 0)   (* mode (type) *)
  /\ modified f0 (mk pa 420 9 2 10 1000 [] 0 0)   (* uid *)
  /\ modified f0 (mk pa 420 1 9 10 1000 [] 0 0)   (* gid *)
  /\ modified f0 (mk pa 420 1 2 11 1000 [] 0 0)   (* size *)
  /\ modified f0 (mk pa 420 1 2 10 1001 [] 0 0)   (* mtime *)
  /\ modified f0 (mk pa 420 1 2 10 1000 [99] 0 0) (* link target *)
  /\ modified f0 (mk pa 420 1 2 10 1000 [] 1 0)   (* device major *)
  /\ modified f0 (mk pa 420 1 2 10 1000 [] 0 1)   (* device minor *)
  /\ diff idf DMetadata [f0] [] = [(KDelete, pa, None)]        (* existence *)
  /\ diff idf DMetadata [] [f0] = [(KAdd, pa, Some f0)].
Proof. vm_compute. repeat split; reflexivity. Qed.

Example non_identity_fields_ignored :
  diff idf DMetadata [dir pa] [mk pa dirm 0 0 4096 99 [] 0 0] = []   (* directory size, mtime *)
  /\ diff idf DMetadata [f0]
       [{| st_path := pa; st_mode := 420; st_uid := 1; st_gid := 2; st_size := 10; st_mtime := 1000;
           st_linkname := []; st_devmajor := 0; st_devminor := 0; st_xattrs := [([117], [1])] |}] = [].
Proof. vm_compute. split; reflexivity. Qed.

(* the F4 witnesses: nothing is reported below an already removed directory, also when a
   second removed directory follows or when the root is a directory replaced by a file *)
Example f4_witnesses :
  diff idf DMetadata [dir pa; file p_ax 1; dir pb; file p_by 1] []
    = [(KDelete, pa, None); (KDelete, pb, None)]
  /\ diff idf DMetadata [dir pa; dir pb; dir p_by] [file pa 1; file pc 1]
    = [(KModify, pa, Some (file pa 1)); (KDelete, pb, None); (KAdd, pc, Some (file pc 1))].
Proof. vm_compute. split; reflexivity. Qed.

(* a concrete non-trivial pair meeting every hypothesis of the theorems above, and what the
   model computes on it *)
Definition exA : list entry :=
  [ (dir pa, []); (file p_ax 1, [1;1;1]); (file p_ay 1, [2;2;2]);     (* a/ is replaced by a file *)
    (file p_a_b 1, [3;3;3]);                                         (* a-b unchanged *)
    (dir pb, []); (dir p_by, []); (file p_byz 1, [4;4;4]);            (* b/ deleted with its subtree *)
    (file pc 1, [5;5;5]) ].                                          (* c: mtime changes *)
Definition exB : list entry :=
  [ (file pa 2, [9;9;9]); (file p_a_b 1, [3;3;3]); (file pc 2, [6;6;6]);
    (mk [100] 420 0 0 3 2 pc 0 0, [6;6;6]) ].                        (* d: new hard link to c *)
Example hypotheses_satisfiable :
  wf_listing (map fst exA) /\ wf_listing (map fst exB) /\ links_ok exB
  /\ identity_faithful DMetadata exA exB.
Proof.
  split; [apply listing_ok_b_iff; vm_compute; reflexivity|].
  split; [apply listing_ok_b_iff; vm_compute; reflexivity|].
  split; [apply links_ok_b_sound; vm_compute; reflexivity|].
  apply identity_faithful_b_sound; vm_compute; reflexivity.
Qed.
(* a hard link announced with other metadata than the file it names (mode 0600, uid 7, mtime 9
   instead of 0644, 0, 2): the new name d shows the metadata of the inode of c — the one c got in
   this transfer — under its own path and link name; only the notification says otherwise *)
Definition exBd : list entry :=
  [ (file pa 2, [9;9;9]); (file p_a_b 1, [3;3;3]); (file pc 2, [6;6;6]);
    (mk [100] 384 7 0 3 9 pc 0 0, [6;6;6]) ].
Example example_resync :
  links_meta exB /\
  let r := receive_abs (fun x : list N => x) (fun _ => []) Fresh DMetadata exA exB in
  map (fun e => st_path (fst e)) (dest_listing exB (ds_map r)) = [pa; p_a_b; pc; [100]]
  /\ ds_notifs (receive_abs (fun x : list N => x) (fun _ => []) Fresh DMetadata (dest_listing exB (ds_map r)) exB) = []
  (* a dishonest hard link never converges: the second synchronisation links it again *)
  /\ map (fun n => snd (fst n))
       (ds_notifs (receive_abs (fun x : list N => x) (fun _ => []) Fresh DMetadata
          (dest_listing exBd (ds_map (receive_abs (fun x : list N => x) (fun _ => []) Fresh DMetadata exA exBd))) exBd))
     = [[100]].
Proof. split; [apply links_meta_b_sound; vm_compute; reflexivity|]. vm_compute. repeat split; reflexivity. Qed.

Example example_transfer :
  let r := receive_abs (fun x : list N => x) (fun _ => []) Fresh DMetadata exA exB in
  ds_err r = false
  /\ ds_reqs r = [pa; pc]
  /\ map (fun c => (ch_kind c, ch_path c)) (ds_changes r)
     = [(KModify, pa); (KDelete, pb); (KModify, pc); (KAdd, [100])]
  /\ alookup p_a_b (ds_map r) = alookup p_a_b (dest_of exA)          (* same inode class 3 *)
  /\ alookup p_ax (ds_map r) = None /\ alookup p_byz (ds_map r) = None
  /\ option_map de_bytes (alookup [100] (ds_map r)) = Some [6;6;6]
  /\ option_map de_ino (alookup [100] (ds_map r)) = option_map de_ino (alookup pc (ds_map r))
  /\ option_map de_ino (alookup pc (dest_of exA)) = Some 7       (* c: old class 7, new class 9 *)
  /\ option_map de_ino (alookup pc (ds_map r)) = Some 9.
Proof. vm_compute. repeat split; reflexivity. Qed.

Example dishonest_link_shows_inode_metadata :
  let r := receive_abs (fun x : list N => x) (fun _ => []) Fresh DMetadata exA exBd in
  links_ok exBd /\ ds_err r = false
  /\ option_map de_stat (alookup [100] (ds_map r)) = Some (mk [100] 420 0 0 3 2 pc 0 0)
  /\ option_map de_ino (alookup [100] (ds_map r)) = option_map de_ino (alookup pc (ds_map r))
  /\ map (fun n => snd (fst n)) (ds_notifs r) = [pa; pb; pc; [100]]
  /\ nth_error (ds_notifs r) 3 = Some (KAdd, [100], Some (mk [100] 384 7 0 3 9 pc 0 0, []))
  /\ ds_reqs r = [pa; pc].
Proof. cbv zeta. split; [apply links_ok_b_sound; vm_compute; reflexivity|]. vm_compute. repeat split; reflexivity. Qed.

(* Source equivalence (tools/go2coq; gen/SrcFns.v is regenerated from /repo on every run): the
   Gallina definition translated from diff_containerd.go's compareStat (field accesses mapped to
   Model/Stat.v's record) equals the model compare_stat and never returns an error. *)
From FSGen Require SrcFns.
From FS Require Proofs.Src.CompareStatEq.
Theorem compareStat_src_eq :
  forall a b, SrcFns.compareStat a b = (compare_stat a b, None).
Proof. exact CompareStatEq.compareStat_src_eq. Qed.
Print Assumptions compareStat_src_eq.

(* sameFile itself (named results, the iota constants DiffMetadata = 0 / DiffNone = 1 of receive.go, the
   struct currentPath, the method Stat.IsDir of types/stat.go — all read from the source on this run;
   compareFileContent, which reads the files, is a parameter): equal to the model same_file for both
   differs the model covers, whatever compareFileContent does; for any other differ value (DiffContent)
   it is the metadata comparison followed, only when that says "same", by compareFileContent. *)
From FS Require Proofs.Src.SameFileEq Proofs.Src.StatIsDirEq.
Theorem sameFile_src_eq :
  forall cmp f1 f2 d,
    SrcFns.sameFile cmp f1 f2 (match d with DMetadata => BinNums.Z0 | DNone => BinNums.Zpos BinNums.xH end) =
    (same_file d (SrcFns.currentPath_stat f1) (SrcFns.currentPath_stat f2), None).
Proof. exact SameFileEq.sameFile_src_eq. Qed.
Theorem sameFile_content_src_eq :
  forall cmp f1 f2 z, z <> BinNums.Z0 -> z <> BinNums.Zpos BinNums.xH ->
    SrcFns.sameFile cmp f1 f2 z =
    if same_file DMetadata (SrcFns.currentPath_stat f1) (SrcFns.currentPath_stat f2)
    then cmp (SrcFns.currentPath_path f1) (SrcFns.currentPath_path f2)
    else (false, None).
Proof. exact SameFileEq.sameFile_content_src_eq. Qed.
Theorem Stat_IsDir_src_eq : forall s, SrcFns.Stat_IsDir s = st_is_dir s.
Proof. exact StatIsDirEq.Stat_IsDir_src_eq. Qed.
Print Assumptions sameFile_src_eq.
Print Assumptions sameFile_content_src_eq.
Print Assumptions Stat_IsDir_src_eq.

(* pathChange (nil pointers = None, the ChangeKind iota constants read from the source: kind_code = 0/1/2
   for add/modify/delete, ComparePath through its own translation): exactly the case distinction of the
   model's merge step; both nil is the panic (no result), which diff_loop never asks for.
   diff_loop_step restates Diff.diff_loop through that case distinction on the heads of the listings. *)
From FS Require Proofs.Src.PathChangeEq.
Theorem pathChange_src_eq : forall lo up,
  SrcFns.pathChange lo up =
  match option_map SrcFns.currentPath_path lo, option_map SrcFns.currentPath_path up with
  | None, None => None
  | None, Some b => Some (PathChangeEq.kind_code KAdd, b)
  | Some a, None => Some (PathChangeEq.kind_code KDelete, a)
  | Some a, Some b =>
    Some (match compare_path a b with
          | Lt => (PathChangeEq.kind_code KDelete, a)
          | Gt => (PathChangeEq.kind_code KAdd, b)
          | Eq => (PathChangeEq.kind_code KModify, b)
          end)
  end.
Proof. exact PathChangeEq.pathChange_src_eq_cases. Qed.
Theorem diff_loop_step : forall flt d f rm A B,
  diff_loop flt d (S f) rm A B =
  match PathChangeEq.merge_step (option_map st_path (hd_error A)) (option_map st_path (hd_error B)), A, B with
  | None, _, _ => Some []
  | Some (KAdd, _), _, b :: B' => let '(o, r) := step_add b in emit o (diff_loop flt d f r A B')
  | Some (KDelete, _), a :: A', _ => let '(o, r) := step_del rm a in emit o (diff_loop flt d f r A' B)
  | Some (KModify, _), a :: A', b :: B' => let '(o, r) := step_mod flt d a b in emit o (diff_loop flt d f r A' B')
  | _, _, _ => Some []
  end.
Proof. exact PathChangeEq.diff_loop_step. Qed.
Print Assumptions pathChange_src_eq.
Print Assumptions diff_loop_step.
