(* C10 — Filtered walk equals the unpruned reference filter; pruning is unobservable.

   Models: Model/Pattern.v (moby/patternmatcher list evaluation over an abstract single-pattern
   matcher [pmatch]; filter.go's classification of pattern strings), Model/FilterWalk.v
   (filterFS.Walk over WalkDir, and the declarative [reference]).

   Everything is quantified over the external matcher [pmatch] and the map function [mapfn].
   About [pmatch] only [prefix_semantics] is assumed, and only where stated: it fixes the
   meaning of the patterns filter.go classifies as prefix-only (no pattern character after
   removing ONE trailing "/**" or "/*"):
       literal L   matches exactly L
       L/**        matches L/ followed by anything, not L itself
       L/*         matches L/ followed by one separator-free component   -- only for regex-safe L
   (harness kind 1003 validates the three clauses against the real library).  For L/* the
   library compiles L into a regular expression without escaping '{' '|' '}' and reads non-UTF-8
   bytes as U+FFFD; hence [regex_safe] and the hypothesis [cfg_star_safe] below — without it the
   statement is false of the real code (prune_observable_refuted, known finding
   unsafe-star-literal).

   The consumer's callback is assumed to return nil; no walk errors; the map function is a pure
   function of (path, stat). *)
From Coq Require Import List NArith Bool String.
From FS Require Import Sx Model.Path Model.Stat Model.Tree Model.Pattern Model.FilterWalk
  Proofs.PathP Proofs.PatternP Proofs.FilterP Proofs.PruneP Proofs.IncrNaiveP Proofs.RefP
  Proofs.NaiveRefP Proofs.FlatRefP Proofs.WitnessP.
Import ListNotations.

(* For ALL pattern lists, map functions and well-formed views (names non-empty, without '/'):
   the walk with both SkipDir shortcuts makes exactly the calls of the walk without them. *)
Theorem prune_unobservable :
  forall (pmatch : bytes -> bytes -> bool) (mapfn : bytes -> stat -> mres * stat) (c : cfg) (view : list node),
    prefix_semantics pmatch -> cfg_star_safe c = true -> wf_view view = true ->
    filter_walk pmatch mapfn c view = filter_walk pmatch mapfn (no_prune c) view.
Proof. exact (fun pmatch mapfn c view Hs Hc Hw => prune_unobservable_proof pmatch mapfn Hs c Hc view Hw). Qed.

(* The full statement (without cfg_star_safe)
     forall pmatch mapfn c view, prefix_semantics pmatch -> wf_view view = true ->
       filter_walk pmatch mapfn c view = filter_walk pmatch mapfn (no_prune c) view
   is FALSE: include ["a{2}/*"], tree aa/x, with the matcher answering as the real library
   does (regular expression ^a{2}/[^/]*$): the walk prunes aa and reports nothing, the
   un-pruned walk reports aa, aa/x.  Replayed on the real code: corpus/C10/witnesses.case. *)
Theorem prune_observable_refuted :
  exists pmatch mapfn c view,
    prefix_semantics pmatch /\ wf_view view = true /\ cfg_star_safe c = false /\
    filter_walk pmatch mapfn c view <> filter_walk pmatch mapfn (no_prune c) view.
Proof.
  exact (ex_intro _ pm_k5 (ex_intro _ id_map (ex_intro _ k5_cfg (ex_intro _ k5_view
         (conj pm_k5_semantics (conj eq_refl (conj k5_not_safe k5_prune_observable))))))).
Qed.

(* [reference V mapfn view] (Model/FilterWalk.v) is a function of a verdict V on paths and the
   map function only: selected entries and the unselected directories above them, in walk
   order, each once, directories before their contents; the map function is applied to every
   entry before it is reported (its stat is what is reported), may drop it, or answer SkipDir.
   [keep_incr]: included and not excluded, evaluated with MatchesUsingParentResults handed
   down from the root.  All matchers, all map functions, all pattern lists, all views. *)
Theorem filter_walk_is_incr_reference :
  forall pmatch mapfn c view, wf_view view = true ->
    filter_walk pmatch mapfn (no_prune c) view = reference (keep_incr pmatch c) mapfn view.
Proof. exact filter_walk_reference_proof. Qed.

(* the "skip" inside MatchesOrParentMatches is unobservable: naive = for each pattern in order,
   if it matches the path or an ancestor, matched := not exclusion *)
Theorem naive_skip_irrelevant :
  forall pmatch pats file, naive pmatch pats file = naive_noskip pmatch pats file.
Proof. exact naive_skip_irrelevant_proof. Qed.

(* on a clean relative path (components cs) the verdict handed down from the root equals the
   naive verdict, provided the computable condition no_late_shadow holds *)
Theorem incr_eq_naive :
  forall pmatch pats cs, okc cs -> no_late_shadow pmatch pats cs = true ->
    incr_path pmatch pats cs = naive pmatch pats (joinc cs).
Proof. exact incr_eq_naive_proof. Qed.

(* The full statement (without no_late_shadow) is FALSE — known finding K1 (moby/patternmatcher):
   patterns ["d"; "!d/c"; "d"], path d/c: the third pattern is skipped at d (d already matched)
   and at d/c it no longer sees the ancestor. *)
Theorem incr_ne_naive_refuted :
  exists pmatch pats cs,
    prefix_semantics pmatch /\ okc cs /\ no_late_shadow pmatch pats cs = false /\
    incr_path pmatch pats cs <> naive pmatch pats (joinc cs).
Proof.
  exact (ex_intro _ pm_lit (ex_intro _ k1_pats (ex_intro _ k1_cs
         (conj (lit_pmatch_prefix_semantics _) (conj k1_okc (conj k1_shadow k1_incr_ne_naive)))))).
Qed.

(* The property: the walk as the code runs it equals the naive reference:
   test every entry of the full tree against the patterns with the naive list semantics, keep
   those included and not excluded, add the ancestors of kept entries, apply the map function.
   Views: names non-empty, without '/', not "." or "..".  Hypotheses: the literal reading of
   prefix-only patterns, regex-safe literals in the L/* patterns the shortcuts rely on, and no
   late shadow on any entry (both computable from the case; the glue evaluates them). *)
Theorem filter_walk_is_naive_reference :
  forall pmatch mapfn c view,
    prefix_semantics pmatch -> cfg_star_safe c = true -> wf_strict view = true ->
    all_paths (nls_path pmatch c) view = true ->
    filter_walk pmatch mapfn c view = reference (keep_naive pmatch c) mapfn view.
Proof. exact (fun pmatch mapfn c view => filter_walk_naive_reference_proof pmatch c mapfn view). Qed.

(* without the no-late-shadow hypothesis: false (K1 at the level of the walk): tree d/{c,e},
   include ["d"; "!d/c"; "d"]: the walk reports d, d/e; the naive reference d, d/c, d/e *)
Theorem walk_ne_naive_reference_refuted :
  exists pmatch mapfn c view,
    prefix_semantics pmatch /\ cfg_star_safe c = true /\ wf_strict view = true /\
    filter_walk pmatch mapfn c view <> reference (keep_naive pmatch c) mapfn view.
Proof.
  exact (ex_intro _ pm_lit (ex_intro _ id_map (ex_intro _ k1_cfg (ex_intro _ k1_view
         (conj (lit_pmatch_prefix_semantics _) (conj eq_refl (conj eq_refl k1_walk_ne_reference))))))).
Qed.

(* What [reference] says, in the words of the property.
   Nil map function: the reference is the full walk (Model/Tree.walk_root) filtered by
   "selected, or its path followed by '/' is a prefix of the path of a selected entry" — in walk
   order, each once, each directory before its contents (views with distinct sibling names,
   only directories having children) *)
Theorem reference_nomap_is_flat :
  forall V view, wf_tree view = true -> reference V id_map view = flat_reference V view.
Proof. exact reference_nomap_flat_proof. Qed.

(* a map function that never drops anything: its rewriting is applied to exactly those entries *)
Theorem reference_rewrite_only :
  forall V mapfn view, (forall p s, fst (mapfn p s) = MKeep) ->
    reference V mapfn view = map (fun s => snd (mapfn (st_path s) s)) (reference V id_map view).
Proof. exact (fun V mapfn view H => reference_rewrite_only_proof V mapfn H view). Qed.

(* the property for a nil map function, end to end: the walk as the code runs it (pruning,
   incremental matching, lazy parents) = the flat naive filter of the full tree *)
Theorem filter_walk_nomap_is_flat_naive :
  forall pmatch c view,
    prefix_semantics pmatch -> cfg_star_safe c = true -> wf_strict view = true -> wf_tree view = true ->
    all_paths (nls_path pmatch c) view = true ->
    filter_walk pmatch id_map c view = flat_reference (keep_naive pmatch c) view.
Proof.
  exact (fun pmatch c view Hs Hc Hw Ht Hn =>
           eq_trans (filter_walk_naive_reference_proof pmatch c id_map view Hs Hc Hw Hn)
                    (reference_nomap_flat_proof (keep_naive pmatch c) view Ht)).
Qed.

Print Assumptions prune_unobservable.
Print Assumptions prune_observable_refuted.
Print Assumptions filter_walk_is_incr_reference.
Print Assumptions naive_skip_irrelevant.
Print Assumptions incr_eq_naive.
Print Assumptions incr_ne_naive_refuted.
Print Assumptions filter_walk_is_naive_reference.
Print Assumptions walk_ne_naive_reference_refuted.
Print Assumptions reference_nomap_is_flat.
Print Assumptions reference_rewrite_only.
Print Assumptions filter_walk_nomap_is_flat_naive.

(* Non-vacuity: the tree of filter_test.go (TestWalkerDoublestarInclude); the same inputs
   are run against the real code by corpus/C10/examples.case. *)
Open Scope string_scope.

(* include **/bar: the expectation written in filter_test.go *)
Definition cfgA : cfg := {| c_inc := Some [ip "**/bar"]; c_exc := None; c_prune := true |}.
Example ex_doublestar :
  paths (filter_walk pm_ex id_map cfgA ft_view) =
  map bs ["a"; "a/b"; "a/b/bar"; "a/b/bar/foo"; "a/b/bar/fop"; "bar"; "bar/foo"; "foo"; "foo/bar"; "foo/bar/bee"].
Proof. vm_compute. reflexivity. Qed.

(* trailing /*, literal, ? and ** on the include side; exclusion with a '!' exception *)
Definition cfgB : cfg :=
  {| c_inc := Some [ip "a/b/*"; ip "bar"; ip "**/fo?"];
     c_exc := Some [ip "a/b/bar/*"; xp "a/b/bar/fop"; ip "foo2"]; c_prune := true |}.
Example ex_mixed :
  paths (filter_walk pm_ex id_map cfgB ft_view) =
  map bs ["a"; "a/b"; "a/b/bar"; "a/b/bar/fop"; "a/b/baz"; "bar"; "bar/foo"; "foo"; "foo/bar"; "foo/bar/bee"]
  /\ filter_walk pm_ex id_map cfgB ft_view = reference (keep_naive pm_ex cfgB) id_map ft_view
  /\ filter_walk pm_ex id_map cfgB ft_view = flat_reference (keep_naive pm_ex cfgB) ft_view
  /\ (cfg_star_safe cfgB = true /\ wf_tree ft_view = true /\ wf_strict ft_view = true /\ all_paths (nls_path pm_ex cfgB) ft_view = true).
Proof. vm_compute. repeat split; reflexivity. Qed.

(* prefix-only includes (pruning active: bar, foo2 and a/b/baz are never visited); map function:
   the lazily reported parent a/b is dropped, a is rewritten, the selected directory foo/bar is
   answered SkipDir (so its parent foo is never reported) *)
Definition cfgC : cfg :=
  {| c_inc := Some [ip "a/b/bar/fop"; ip "foo/**"; ip "baz"]; c_exc := None; c_prune := true |}.
Definition mapC (p : list N) (s : stat) : mres * stat :=
  if bytes_eqb p (bs "a/b") then (MExclude, s)
  else if bytes_eqb p (bs "foo/bar") then (MSkipDir, s)
  else if bytes_eqb p (bs "a") then (MKeep, set_mode s 0%N)
  else (MKeep, s).
Example ex_map :
  map (fun s => (st_path s, st_mode s)) (filter_walk pm_ex mapC cfgC ft_view) =
  [(bs "a", 0%N); (bs "a/b/bar", st_mode st_dir); (bs "a/b/bar/fop", st_mode st_file); (bs "baz", st_mode st_dir)]
  /\ filter_walk pm_ex mapC cfgC ft_view = filter_walk pm_ex mapC (no_prune cfgC) ft_view
  /\ filter_walk pm_ex mapC cfgC ft_view = reference (keep_naive pm_ex cfgC) mapC ft_view.
Proof. vm_compute. repeat split; reflexivity. Qed.

(* K1 on a tree: what the two sides report *)
Example ex_k1 :
  paths (filter_walk pm_lit id_map k1_cfg k1_view) = map bs ["d"; "d/e"] /\
  paths (reference (keep_naive pm_lit k1_cfg) id_map k1_view) = map bs ["d"; "d/c"; "d/e"].
Proof. vm_compute. split; reflexivity. Qed.

(* F10 regression: a/*/** is NOT prefix-only (only one trailing glob is stripped) *)
Example ex_f10_classification :
  prefix_only (bs "a/*/**") = false /\ prefix_only (bs "a/**") = true /\ prefix_only (bs "a/*") = true
  /\ pat_kind (bs "a/x/**") = LitStarStar (bs "a/x") /\ pat_kind (bs "a/x/*") = LitStar (bs "a/x")
  /\ pat_kind (bs "a.b") = Lit (bs "a.b") /\ pat_kind (bs "a/**/*") = Glob.
Proof. vm_compute. repeat split; reflexivity. Qed.

(* Source equivalence (tools/go2coq; gen/SrcFns.v is regenerated from /repo on every run): the
   Gallina definition translated from filter.go's patternWithoutTrailingGlob equals the model
   without_trailing_glob (a pattern being represented by the string its String() returns). *)
From FSGen Require SrcFns.
From FS Require Proofs.Src.PatternWithoutTrailingGlobEq.
Theorem patternWithoutTrailingGlob_src_eq :
  forall p, SrcFns.patternWithoutTrailingGlob p = without_trailing_glob p.
Proof. exact PatternWithoutTrailingGlobEq.patternWithoutTrailingGlob_src_eq. Qed.
Print Assumptions patternWithoutTrailingGlob_src_eq.
