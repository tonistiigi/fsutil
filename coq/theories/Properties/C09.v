(* C09 — Walk lists every entry once, parents first, in protocol path order, true stats.
   The property theorems, instances of, or short derivations from, statements about walks of any
   target proved in Proofs/Walk*.v, and their [Print Assumptions]; the model is Model/Walk.v (fs.go Walk / mkstat /
   setUnixOpt / SubDirFS transcribed).

   Reading guide.  [tree] = what the kernel reports below the walked root: every node carries its
   raw lstat record [lrec]; [wf_tree] = names non-empty, without '/', not "." / "..", siblings
   distinct, only directories have children (what a kernel directory guarantees).
   [tree_at t cs r] = following the names cs from the root reaches a node with record r; its path
   is [joinc cs] (names joined with '/'), and cs <> [] excludes the root itself.
   [walk t] = the list of Stat values passed to the callback of fs.Walk(ctx, "", fn), in order. *)
From Coq Require Import List NArith Bool Sorting.Sorted Sorting.Permutation.
From FS Require Import Sx Model.Path Model.Stat Model.Tree Model.Walk Proofs.Lex Proofs.PathP Proofs.WalkP Proofs.WalkHL Proofs.WalkSD Proofs.WalkNest Proofs.WalkNestOrd.
From FS Require Glue.C09G Proofs.WalkNestGlue.
Import ListNotations.
Open Scope N_scope.

(* Strictly ascending in the order the protocol uses (fsutil.ComparePath: separator sorts before
   every other byte), every pair — so  a < a/x < a-b  although '-' < '/'. *)
Theorem walk_sorted :
  forall t, wf_tree t -> StronglySorted (fun p q => compare_path p q = Lt) (map st_path (walk t)).
Proof. exact walk_sorted_proof. Qed.

(* Exactly the paths of the nodes other than the root, each once. *)
Theorem walk_complete_once :
  forall t, wf_tree t ->
    (forall p, In p (map st_path (walk t)) <->
               exists cs r, cs <> [] /\ p = joinc cs /\ tree_at t cs r)
    /\ NoDup (map st_path (walk t)).
Proof. exact walk_complete_once_proof. Qed.

(* Never the root, and every reported path is a clean relative path that is not ".", ".." or below
   "..": exactly the lexical conditions the stream validator (C12 ok_path) demands. *)
Theorem walk_paths_clean :
  forall t, wf_tree t ->
  forall p, In p (map st_path (walk t)) ->
    p <> [] /\ p <> s_dot /\ p <> s_dotdot /\ has_prefix s_dotdotsep p = false /\
    clean p = p /\ is_abs p = false.
Proof.
  intros t Hwf p Hin. apply (proj1 (walk_complete_once_proof t Hwf)) in Hin.
  destruct Hin as (cs & r & Hne & -> & Hat).
  assert (Hok : okc cs) by (apply wf_names_okc; auto; eapply tree_at_names; eauto).
  destruct (okc_not_special _ Hok) as (H1 & H2 & H3 & H4). destruct (okc_clean _ Hok) as [H5 H6].
  repeat split; auto.
Qed.

(* Each directory before its contents: the entry of a node below a non-root directory cs is
   preceded by the entry of cs.  (Corollary of the two theorems above.) *)
Theorem walk_parent_first :
  forall t, wf_tree t ->
  forall cs n r, cs <> [] -> tree_at t (cs ++ [n]) r ->
  exists pre st post, walk t = pre ++ st :: post /\ st_path st = joinc (cs ++ [n])
                      /\ In (joinc cs) (map st_path pre).
Proof.
  intros t Hwf cs n r Hne Hat.
  destruct (tree_at_prefix _ _ _ _ Hat) as [r' Hat'].
  destruct (walk_complete_once_proof t Hwf) as [Hc _].
  apply (listing_dir_first st_path (walk t) cs [n] (walk_sorted_proof t Hwf));
    [exact Hne|discriminate|eapply tree_at_nosep; eauto| |]; apply Hc.
  - exists cs, r'. auto.
  - exists (cs ++ [n]), r. auto using app_nonnil.
Qed.

(* True stats.  The Stat reported for the node at cs is a function of that node's lstat record:
   Go mode bits of st_mode with the socket type bit cleared, owner, size (0 for directories),
   mtime, xattrs (minus keys starting with com.apple.), device numbers by the repo's major()/minor() under the
   repo's bit test, Linkname = readlink for symlinks and "" for directories.  (This holds by
   construction of the model — the model's mkstat IS the transcription of stat.go; what ties it
   to lstat(2) of the real entry is the correspondence run against the independent snapshot.)
   The only field that depends on other entries, Linkname of a non-symlink non-directory, is the
   subject of walk_hardlinks. *)
Theorem walk_stat :
  forall t, wf_tree t ->
  forall st, In st (walk t) ->
  forall cs r, cs <> [] -> tree_at t cs r -> st_path st = joinc cs ->
    st_mode st = N.ldiff (go_mode (l_mode r)) ModeSocket /\
    st_uid st = l_uid r /\ st_gid st = l_gid r /\
    st_size st = (if is_dir r then 0 else l_size r) /\
    st_mtime st = l_mtime r /\
    st_xattrs st = load_xattr (l_xattrs r) /\
    st_devmajor st = (if is_dir r then 0 else
                      if negb (N.eqb (N.land (l_mode r) S_IFBLK) 0) || negb (N.eqb (N.land (l_mode r) S_IFCHR) 0)
                      then major (l_rdev r) else 0) /\
    st_devminor st = (if is_dir r then 0 else
                      if negb (N.eqb (N.land (l_mode r) S_IFBLK) 0) || negb (N.eqb (N.land (l_mode r) S_IFCHR) 0)
                      then minor (l_rdev r) else 0) /\
    (is_dir r = true -> st_linkname st = []) /\
    (is_dir r = false -> is_symlink r = true -> st_linkname st = l_target r).
Proof. exact walk_stat_proof. Qed.

(* Hard links.  For every reported non-directory at cs there is a node cs0 — a non-directory with
   the same inode, least in path order among all of those — such that the entry is reported with
   empty Linkname if it is cs0 itself and with Linkname = path of cs0 otherwise (for a symlink the
   readlink target is reported instead, as in the code).  In particular the first of a group of
   regular files sharing an inode is reported as the file, every later one as a link naming the
   first, and entries with different inodes never name each other.
   Hypotheses a faithful model forces:
   [ino_consistent]: two different non-directory names of one inode number both have st_nlink > 1
                     (st_nlink counts all names; true for a tree that does not change);
   [one_fs]:         equal inode numbers below the root mean equal devices.  The code keys its
                     seenFiles map by st_ino alone, so WITHOUT this hypothesis the statement is
                     false: walk_hardlinks_cross_device_refuted below, replayed on the real code. *)
Theorem walk_hardlinks :
  forall t, wf_tree t -> one_fs t -> ino_consistent t ->
  forall st, In st (walk t) ->
  forall cs r, cs <> [] -> tree_at t cs r -> st_path st = joinc cs -> is_dir r = false ->
  exists cs0 r0,
    cs0 <> [] /\ tree_at t cs0 r0 /\ is_dir r0 = false /\ l_ino r0 = l_ino r /\ l_dev r0 = l_dev r /\
    (forall cs1 r1, cs1 <> [] -> tree_at t cs1 r1 -> is_dir r1 = false -> l_ino r1 = l_ino r ->
                    cs1 = cs0 \/ compare_path (joinc cs0) (joinc cs1) = Lt) /\
    st_linkname st = (if is_symlink r then l_target r
                      else if bytes_eqb (joinc cs0) (joinc cs) then [] else joinc cs0).
Proof. exact walk_hardlinks_proof. Qed.

(* The full statement (no [one_fs]) is FALSE of the model: there is a well-formed tree with
   consistent link counts in which a regular file is reported as a hard link to a file on ANOTHER
   device (two devices below the root, e.g. mount points, each holding an inode number 2 with two
   names; [WalkP.t_xdev]).  Replayed on the real fs.Walk over two tmpfs mounts: m2/f is reported
   with Linkname "m1/f" (kind 0903, corpus/C09/cross-device.witness). *)
Theorem walk_hardlinks_cross_device_refuted :
  exists t, wf_tree t /\ ino_consistent t /\
    exists st cs r cs0 r0,
      In st (walk t) /\ cs <> [] /\ tree_at t cs r /\ st_path st = joinc cs /\
      is_dir r = false /\ is_symlink r = false /\
      cs0 <> [] /\ tree_at t cs0 r0 /\ st_linkname st = joinc cs0 /\ l_dev r0 <> l_dev r.
Proof.
  exists t_xdev. split; [apply wf_tree_b_sound; vm_compute; reflexivity|]. split.
  - intros cs1 r1 cs2 r2 H1 _ _ Hd1 _ _. apply rpr_tree_at in H1. vm_compute in H1.
    repeat (destruct H1 as [H1|H1]; [inversion H1; subst; try reflexivity; vm_compute in Hd1; discriminate|]).
    contradiction.
  - exists (nth 4 (walk t_xdev) (fst (mkstat [] (xrec 0 0 0 0) []))).
    exists [[109; 50]; [102]], (xrec 33188 2 2 40), [[109; 49]; [102]], (xrec 33188 2 2 39).
    split; [vm_compute; auto 10|].
    split; [discriminate|].
    split; [apply rpr_tree_at; vm_compute; auto 10|].
    split; [vm_compute; reflexivity|].
    split; [vm_compute; reflexivity|].
    split; [vm_compute; reflexivity|].
    split; [discriminate|].
    split; [apply rpr_tree_at; vm_compute; auto 10|].
    split; [vm_compute; reflexivity|].
    vm_compute. discriminate.
Qed.

(* the well-formedness check applied by the glue to every snapshot implies wf_tree *)
Theorem wf_tree_b_reflects : forall t, wf_tree_b t = true -> wf_tree t.
Proof. exact wf_tree_b_sound. Qed.

(* Walking a sub-target (fs.Walk(ctx, target, fn) with a target that Clean reduces to the non-empty
   component list cs): nothing is reported if there is no such node; otherwise exactly the node at
   cs and everything below it, each once, strictly ascending in protocol order (hence the target
   first and every directory before its contents).  For a target that reduces to the root,
   walk_at is walk by definition. *)
Theorem walk_at_sub :
  forall t target, wf_tree t ->
  target_comps target <> [] ->
  ((forall r, ~ tree_at t (target_comps target) r) -> walk_at t target = []) /\
  (forall r0, tree_at t (target_comps target) r0 ->
     StronglySorted (fun p q => compare_path p q = Lt) (map st_path (walk_at t target)) /\
     (forall p, In p (map st_path (walk_at t target)) <->
                exists c r, p = joinc (target_comps target ++ c) /\ tree_at t (target_comps target ++ c) r) /\
     NoDup (map st_path (walk_at t target))).
Proof.
  intros t target Hwf Hne. rewrite walk_at_scan. split.
  - intros Hno. destruct (seq_at t (target_comps target)) as [|[p r] l] eqn:E; [reflexivity|].
    assert (Hi : In (p, r) (seq_at t (target_comps target))) by (rewrite E; left; reflexivity).
    apply seq_at_in in Hi; auto. destruct Hi as (c & _ & _ & Hat).
    destruct (tree_at_prefix _ _ _ _ Hat) as [r' Hat']. destruct (Hno _ Hat').
  - intros _ _. destruct (seq_at_paths t (target_comps target) Hwf) as (H1 & H2 & H3).
    split; [exact H1|]. split; [|exact H2]. intros p. rewrite H3. split.
    + intros (c & r & _ & H). eauto.
    + intros (c & r & H). exists c, r. split; [apply app_nonnil, Hne|exact H].
Qed.

(* Hard links in a sub-target walk.  fs.Walk creates one seenFiles map per call, so only the inode
   groups of the WALKED sub-sequence exist: among the non-directories at or below the target that
   share the inode of the entry there is a least one c0 (in protocol path order); it is reported
   with empty Linkname (as the file itself, full size) and every later one names it.  A member of
   the group that lies OUTSIDE the target plays no role — in particular, when the whole-tree walk
   reports a/x and then "a-b" as a link to a/x, the sub-target walk of "a-b" alone reports it as a
   plain file, and the sub-target walk of a directory never names a path outside that directory.
   Same hypotheses as walk_hardlinks. *)
Theorem walk_at_hardlinks :
  forall t target, wf_tree t -> one_fs t -> ino_consistent t ->
  target_comps target <> [] ->
  forall st, In st (walk_at t target) ->
  forall c r, tree_at t (target_comps target ++ c) r ->
    st_path st = joinc (target_comps target ++ c) -> is_dir r = false ->
  exists c0 r0,
    tree_at t (target_comps target ++ c0) r0 /\ is_dir r0 = false /\
    l_ino r0 = l_ino r /\ l_dev r0 = l_dev r /\
    (forall c1 r1, tree_at t (target_comps target ++ c1) r1 -> is_dir r1 = false -> l_ino r1 = l_ino r ->
                   c1 = c0 \/ compare_path (joinc (target_comps target ++ c0)) (joinc (target_comps target ++ c1)) = Lt) /\
    st_linkname st = (if is_symlink r then l_target r
                      else if bytes_eqb (joinc (target_comps target ++ c0)) (joinc (target_comps target ++ c))
                           then [] else joinc (target_comps target ++ c0)).
Proof.
  intros t target Hwf Hfs Hc Hne st Hin c r Hat Hp Hd. rewrite walk_at_scan in Hin.
  destruct (seq_at_hardlinks t _ Hwf Hfs Hc st Hin c r (app_nonnil _ _ Hne) Hat Hp Hd)
    as (c0 & r0 & _ & H1 & H2 & H3 & H4 & H5 & H6).
  exists c0, r0. repeat (split; [assumption|]). split; [|exact H6].
  intros c1 r1. apply H5, app_nonnil, Hne.
Qed.

(* SubDirFS.  For proper sub-roots (names = distinct well-formed single components, directory
   Stats, well-formed trees) the composite walk is: the sub-roots in bytewise name order; for each
   its own Stat, then its walk with "name/" put in front of every path and every hard-link name,
   absolute symlink targets re-rooted below "/name" (lexically cleaned, as path.Join does),
   relative symlink targets untouched ([sd_block], [prefix_stat]); no error; and the whole
   callback sequence is strictly ascending in protocol path order. *)
Theorem subdir_walk_prefixed :
  forall ds, sd_wf ds ->
  walk_subdirs ds [] = Some (flat_map sd_block (isort_sd ds), false)
  /\ Permutation (isort_sd ds) ds
  /\ StronglySorted (fun a b => cmp_bytes (sd_name a) (sd_name b) = Lt) (isort_sd ds)
  /\ StronglySorted (fun p q => compare_path p q = Lt) (map fst (flat_map sd_block (isort_sd ds))).
Proof.
  intros ds Hsd. split; [exact (subdir_walk_any_proof ds [] Hsd)|]. split; [apply isort_sd_perm|].
  split; [apply (sd_wf_sorted ds Hsd)|exact (select_sorted [] [] ds Hsd)].
Qed.

(* Hard links inside SubDirFS.  subDirFS.Walk runs the inner FS.Walk once per sub-root (its own
   seenFiles), then rewrites: for the callback "name/p" of a non-directory p of sub-root d the
   Linkname is empty if p is the least holder of its inode WITHIN d, otherwise "name/" + that
   least path (never a path of another sub-root, even if the inode is the same file there);
   a symlink keeps its readlink target, re-rooted below "/name" and cleaned when absolute. *)
Theorem subdir_walk_hardlinks :
  forall ds, sd_wf ds ->
  forall cbs err, walk_subdirs ds [] = Some (cbs, err) ->
  forall d, In d ds -> one_fs (sd_tree d) -> ino_consistent (sd_tree d) ->
  forall st cs r, In (sd_name d ++ sep :: joinc cs, st) cbs ->
    cs <> [] -> tree_at (sd_tree d) cs r -> is_dir r = false ->
  st_path st = sd_name d ++ sep :: joinc cs /\
  exists cs0 r0,
    cs0 <> [] /\ tree_at (sd_tree d) cs0 r0 /\ is_dir r0 = false /\ l_ino r0 = l_ino r /\ l_dev r0 = l_dev r /\
    (forall cs1 r1, cs1 <> [] -> tree_at (sd_tree d) cs1 r1 -> is_dir r1 = false -> l_ino r1 = l_ino r ->
                    cs1 = cs0 \/ compare_path (joinc cs0) (joinc cs1) = Lt) /\
    st_linkname st =
      (if is_symlink r then
         (if is_abs (l_target r) then clean (sep :: sd_name d ++ sep :: l_target r) else l_target r)
       else if bytes_eqb (joinc cs0) (joinc cs) then [] else sd_name d ++ sep :: joinc cs0).
Proof.
  intros ds Hsd cbs err Hw. rewrite (subdir_walk_any_proof ds [] Hsd) in Hw. inversion Hw; subst cbs err.
  exact (select_hardlinks ds [] [] [] Hsd eq_refl).
Qed.

(* SubDirFS, walk of a sub-target.  subDirFS.Walk cuts the target at its first separator; for
   proper sub-roots and a target  name  or  name/rest  whose first component is a well-formed name:
   if a sub-root is called name, the callbacks are exactly that sub-root's Stat followed by its
   walk at rest (walk_at: the entry rest and everything below it, walk_at_sub / walk_at_hardlinks),
   prefixed ([sd_block_at]); no error.  Sub-roots are selected by EQUALITY of the whole component:
   every other sub-root contributes nothing — also one whose name is a proper string prefix of
   name (lib vs lib64) or has name as a prefix — and if no sub-root is called name nothing is
   reported at all. *)
Theorem subdir_walk_at :
  forall ds name rest target, sd_wf ds -> wf_name name ->
  (target = name ++ sep :: rest \/ (target = name /\ rest = [])) ->
  (forall d, In d ds -> sd_name d = name -> walk_subdirs ds target = Some (sd_block_at d rest, false)) /\
  ((forall d, In d ds -> sd_name d <> name) -> walk_subdirs ds target = Some ([], false)).
Proof.
  intros ds name rest target Hsd (Hne & Hns & _) Ht.
  assert (Hcut : cut_sep target = (name, rest)).
  { destruct Ht as [->|[-> ->]]; [apply cut_sep_app|apply cut_sep_nosep]; auto. }
  rewrite (subdir_walk_any_proof ds target Hsd), Hcut. cbn [fst snd].
  destruct (select_named ds name rest Hsd Hne) as [H1 H2].
  split; [intros d Hd En; rewrite (H1 d Hd En)|intros Hno; rewrite (H2 Hno)]; reflexivity.
Qed.

(* SubDirFS, ANY target (also one whose first component is empty: "", "/", "/x").  With first / rest =
   the target cut at its first separator (strings.Cut), the walk of proper sub-roots is, for the
   sub-roots in name order, [sd_select first rest]: the block of the sub-root at rest (its Stat, then
   its walk_at at rest, prefixed) if first is EMPTY or EQUALS its name, nothing otherwise; no error.
   So "/x" walks x in every sub-root, and subdir_walk_at / subdir_walk_prefixed are instances. *)
Theorem subdir_walk_any :
  forall ds target, sd_wf ds ->
  walk_subdirs ds target =
  Some (flat_map (sd_select (fst (cut_sep target)) (snd (cut_sep target))) (isort_sd ds), false).
Proof. exact subdir_walk_any_proof. Qed.

(* Hard links in a SubDirFS walk of a sub-target (any first component; rest reduces to the non-empty
   component list tc).  For the callback name/joinc(tc ++ c) of a non-directory of sub-root d: among
   the non-directories of d AT OR BELOW tc sharing its inode there is a least one c0; Linkname is
   empty if it is c0 itself, otherwise "name/" + path of c0 - never a path outside the walked
   sub-tree or in another sub-root; a symlink keeps its (re-rooted) readlink target.  Same
   hypotheses as walk_hardlinks, for the one sub-root. *)
Theorem subdir_walk_at_hardlinks :
  forall ds target, sd_wf ds ->
  forall cbs err, walk_subdirs ds target = Some (cbs, err) ->
  target_comps (snd (cut_sep target)) <> [] ->
  forall d, In d ds -> one_fs (sd_tree d) -> ino_consistent (sd_tree d) ->
  forall st c r,
    In (sd_name d ++ sep :: joinc (target_comps (snd (cut_sep target)) ++ c), st) cbs ->
    tree_at (sd_tree d) (target_comps (snd (cut_sep target)) ++ c) r -> is_dir r = false ->
  st_path st = sd_name d ++ sep :: joinc (target_comps (snd (cut_sep target)) ++ c) /\
  exists c0 r0,
    tree_at (sd_tree d) (target_comps (snd (cut_sep target)) ++ c0) r0 /\ is_dir r0 = false /\
    l_ino r0 = l_ino r /\ l_dev r0 = l_dev r /\
    (forall c1 r1, tree_at (sd_tree d) (target_comps (snd (cut_sep target)) ++ c1) r1 ->
                   is_dir r1 = false -> l_ino r1 = l_ino r ->
                   c1 = c0 \/ compare_path (joinc (target_comps (snd (cut_sep target)) ++ c0))
                                            (joinc (target_comps (snd (cut_sep target)) ++ c1)) = Lt) /\
    st_linkname st =
      (if is_symlink r then
         (if is_abs (l_target r) then clean (sep :: sd_name d ++ sep :: l_target r) else l_target r)
       else if bytes_eqb (joinc (target_comps (snd (cut_sep target)) ++ c0))
                         (joinc (target_comps (snd (cut_sep target)) ++ c))
            then [] else sd_name d ++ sep :: joinc (target_comps (snd (cut_sep target)) ++ c0)).
Proof.
  intros ds target Hsd cbs err Hw Htc d Hd Hfs Hc st c r Hin Hat Hdir.
  rewrite (subdir_walk_any_proof ds target Hsd) in Hw. inversion Hw; subst cbs err.
  destruct (select_hardlinks ds _ _ _ Hsd eq_refl d Hd Hfs Hc st c r Hin (app_nonnil _ _ Htc) Hat Hdir)
    as (Hp & c0 & r0 & _ & H1 & H2 & H3 & H4 & H5 & H6).
  split; [exact Hp|]. exists c0, r0. repeat (split; [assumption|]). split; [|exact H6].
  intros c1 r1. apply H5, app_nonnil, Htc.
Qed.

(* NESTED composites: a SubDirFS with one sub-root (Stat ost, a directory Stat with a well-formed
   name) whose FS is itself the SubDirFS over proper sub-roots [inner] whose Stats carry no Linkname.
   [walk_nested] = both constructors + the outer subDirFS.Walk over the inner subDirFS.Walk; it is
   the model that kind 0906 compares with the real code (nested_judge_model).
   nested_walk_any: for EVERY target the walk is [nested_listing]: nothing if the target's first
   component is neither empty nor the outer name; otherwise the outer Stat followed by the inner
   listing for the remainder (subdir_walk_any) with the outer name put in front of every callback
   path and prefix_stat applied a second time to every Stat ([nest_rewrite]); no error.
   nested_walk_spec: the whole walk (target "") is the outer Stat followed by the prefixed inner
   whole-walk listing (subdir_walk_prefixed), strictly ascending in protocol path order.
   nested_parent_first: in it every entry outer/name/c is preceded by its parent. *)
Theorem nested_walk_any :
  forall ost inner target,
  sd_wf inner -> no_linkname inner -> wf_name (st_path ost) -> st_is_dir ost = true ->
  walk_nested ost inner target = Some (nested_listing ost inner target, false).
Proof. exact nested_walk_any_proof. Qed.

Theorem nested_walk_spec :
  forall ost inner,
  sd_wf inner -> no_linkname inner -> wf_name (st_path ost) -> st_is_dir ost = true ->
  let listing := (st_path ost, ost) :: map (nest_rewrite (st_path ost)) (flat_map sd_block (isort_sd inner)) in
  walk_nested ost inner [] = Some (listing, false)
  /\ StronglySorted (fun p q => compare_path p q = Lt) (map fst listing).
Proof. exact (fun ost inner => nested_walk_any_sorted_proof ost inner []). Qed.

Theorem nested_parent_first :
  forall ost inner,
  sd_wf inner -> no_linkname inner -> wf_name (st_path ost) -> st_is_dir ost = true ->
  let listing := (st_path ost, ost) :: map (nest_rewrite (st_path ost)) (flat_map sd_block (isort_sd inner)) in
  forall d c r, In d inner -> tree_at (sd_tree d) c r ->
  exists pre e post, listing = pre ++ e :: post /\ fst e = joinc (st_path ost :: sd_name d :: c)
                     /\ In (joinc (removelast (st_path ost :: sd_name d :: c))) (map fst pre).
Proof.
  intros ost inner Hsd Hnl Ho Hdir listing d c r Hd Hat.
  destruct (nested_walk_any_sorted_proof ost inner [] Hsd Hnl Ho Hdir) as [_ HS]. change (StronglySorted path_lt (map fst listing)) in HS.
  pose proof (nested_path_in ost inner d c r Hsd Hd Hat) as Hchild. fold listing in Hchild.
  assert (Hns : Forall nosep (st_path ost :: sd_name d :: c)).
  { destruct Hsd as [Hok _]. rewrite Forall_forall in Hok. destruct (Hok _ Hd) as (Hw & _ & Hwf).
    repeat (constructor; [apply wf_name_nosep; assumption|]). eapply tree_at_nosep; eauto. }
  (* the parent is the outer Stat itself, or a node of d *)
  assert (Hpar : exists par l, st_path ost :: sd_name d :: c = par ++ [l] /\ par <> [] /\ In (joinc par) (map fst listing)).
  { induction c as [|n c' _] using rev_ind.
    - exists [st_path ost], (sd_name d). split; [reflexivity|]. split; [discriminate|]. left. reflexivity.
    - exists (st_path ost :: sd_name d :: c'), n. split; [reflexivity|]. split; [discriminate|].
      destruct (tree_at_prefix _ _ _ _ Hat) as [r' Hat']. exact (nested_path_in ost inner d c' r' Hsd Hd Hat'). }
  destruct Hpar as (par & l & Efull & Hpne & Hpin). rewrite Efull in *. rewrite removelast_last.
  apply (listing_dir_first fst listing par [l]); auto. discriminate.
Qed.

(* Order for ANY target (Proofs/WalkNestOrd.v).  subdir_walk_any_sorted: every target walk of a
   SubDirFS succeeds and its callback paths are strictly ascending in protocol path order (hence
   duplicate-free), each a sub-root name followed by separator-free components.
   nested_walk_any_sorted: the same for every target walk of a nested composite - the order
   statement of nested_walk_spec without the restriction to target "". *)
Theorem subdir_walk_any_sorted :
  forall ds target, sd_wf ds ->
  exists cbs, walk_subdirs ds target = Some (cbs, false)
    /\ StronglySorted (fun p q => compare_path p q = Lt) (map fst cbs)
    /\ forall p, In p (map fst cbs) -> exists cs, cs <> [] /\ Forall nosep cs /\ p = joinc cs.
Proof.
  intros ds target Hsd. eexists. split; [apply subdir_walk_any_proof; exact Hsd|].
  split; [apply select_sorted, Hsd|]. intros p. apply select_paths_shape, (sd_wf_sorted ds Hsd).
Qed.

Theorem nested_walk_any_sorted :
  forall ost inner target,
  sd_wf inner -> no_linkname inner -> wf_name (st_path ost) -> st_is_dir ost = true ->
  walk_nested ost inner target = Some (nested_listing ost inner target, false)
  /\ StronglySorted (fun p q => compare_path p q = Lt) (map fst (nested_listing ost inner target)).
Proof. exact nested_walk_any_sorted_proof. Qed.

(* ... and with it "each directory before its contents" for every target: whenever a path and a path
   below it are both reported, the upper one comes first *)
Theorem subdir_any_dir_first :
  forall ds target cs c cbs e,
  sd_wf ds -> walk_subdirs ds target = Some (cbs, e) ->
  cs <> [] -> c <> [] -> Forall nosep (cs ++ c) ->
  In (joinc cs) (map fst cbs) -> In (joinc (cs ++ c)) (map fst cbs) ->
  exists pre post, map fst cbs = pre ++ joinc (cs ++ c) :: post /\ In (joinc cs) pre.
Proof.
  intros ds target cs c cbs e Hsd Hw. rewrite (subdir_walk_any_proof ds target Hsd) in Hw. inversion Hw; subst cbs e.
  intros Hne Hc Hns. apply sorted_dir_first; auto. apply select_sorted, Hsd.
Qed.

Theorem nested_any_dir_first :
  forall ost inner target cs c,
  sd_wf inner -> no_linkname inner -> wf_name (st_path ost) -> st_is_dir ost = true ->
  cs <> [] -> c <> [] -> Forall nosep (cs ++ c) ->
  let P := map fst (nested_listing ost inner target) in
  In (joinc cs) P -> In (joinc (cs ++ c)) P ->
  exists pre post, P = pre ++ joinc (cs ++ c) :: post /\ In (joinc cs) pre.
Proof.
  intros ost inner target cs c Hsd Hnl Ho Hd Hne Hc Hns P. apply sorted_dir_first; auto.
  apply (nested_walk_any_sorted_proof ost inner target Hsd Hnl Ho Hd).
Qed.

(* the model components of the verdicts of kinds 0902/0905 and 0906 are these model functions *)
Theorem nested_judge_model :
  forall ost zs target cbs err,
  fst (C09G.nested_judge ost zs target cbs err)
  = WalkNestGlue.enc_walk_result (walk_nested ost (map fst zs) target).
Proof. exact WalkNestGlue.nested_judge_model_proof. Qed.

(* The shared view model (Model/Tree.v, used by the other properties through MemFS): the canonical
   listing of a view whose sibling lists are strictly ascending bytewise, with non-empty
   separator-free names, is strictly ascending in protocol path order and has no duplicate path. *)
Theorem view_walk_sorted :
  forall roots, wf_view roots ->
  StronglySorted (fun p q => compare_path p q = Lt) (map (fun e => st_path (fst e)) (walk_root roots))
  /\ NoDup (map (fun e => st_path (fst e)) (walk_root roots)).
Proof. exact view_walk_sorted_proof. Qed.

(* The sortedness check evaluated by the glue on the implementation's callbacks is the predicate
   of walk_sorted. *)
Theorem sorted_b_reflects :
  forall l, sorted_b l = true <-> StronglySorted (fun p q => compare_path p q = Lt) l.
Proof. exact sorted_b_spec. Qed.

Print Assumptions walk_sorted.
Print Assumptions walk_complete_once.
Print Assumptions walk_paths_clean.
Print Assumptions walk_parent_first.
Print Assumptions walk_stat.
Print Assumptions walk_hardlinks.
Print Assumptions walk_hardlinks_cross_device_refuted.
Print Assumptions wf_tree_b_reflects.
Print Assumptions walk_at_sub.
Print Assumptions walk_at_hardlinks.
Print Assumptions subdir_walk_hardlinks.
Print Assumptions subdir_walk_at.
Print Assumptions subdir_walk_any.
Print Assumptions subdir_walk_at_hardlinks.
Print Assumptions nested_walk_any.
Print Assumptions nested_walk_spec.
Print Assumptions nested_parent_first.
Print Assumptions subdir_walk_any_sorted.
Print Assumptions nested_walk_any_sorted.
Print Assumptions subdir_any_dir_first.
Print Assumptions nested_any_dir_first.
Print Assumptions nested_judge_model.
Print Assumptions subdir_walk_prefixed.
Print Assumptions view_walk_sorted.
Print Assumptions sorted_b_reflects.

Definition rec_ (mode ino nlink : N) (target : list N) : lrec :=
  {| l_mode := mode; l_uid := 1000; l_gid := 5; l_size := 3; l_mtime := 1600000000000000007; l_rdev := 0;
     l_ino := ino; l_nlink := nlink; l_target := target; l_xattrs := []; l_dev := 0 |}.
Definition A := 97. Definition B := 98. Definition X := 120. Definition Y := 121.
(* stored unsorted:  "a-b" (regular, inode 5)   "a"/ { "y" -> "/t" ; "x" (regular, inode 5) }   "a b" (regular) *)
Definition ex_tree : tree :=
  T (rec_ 16877 1 3 [])
    [ ([A; 45; B], T (rec_ 33188 5 2 []) []);
      ([A], T (rec_ 16877 2 2 [])
              [ ([Y], T (rec_ 41471 7 1 [47; 116]) []);
                ([X], T (rec_ 33188 5 2 []) []) ]);
      ([A; 32; B], T (rec_ 33188 6 1 []) []) ].

Example ex_wf : wf_tree_b ex_tree = true.
Proof. vm_compute. reflexivity. Qed.

(* a, a/x, a/y, "a b", a-b : the directory's contents come before "a b" and "a-b" although
   ' ' and '-' are smaller than '/'; a-b (same inode as a/x) is reported as a link to a/x *)
Example ex_walk :
  map (fun s => (st_path s, st_linkname s)) (walk ex_tree) =
  [ ([A], []); ([A; 47; X], []); ([A; 47; Y], [47; 116]); ([A; 32; B], []); ([A; 45; B], [A; 47; X]) ].
Proof. vm_compute. reflexivity. Qed.

(* the same entries sorted bytewise as whole strings would NOT be in protocol order *)
Example ex_bytewise_differs :
  compare_path [A; 47; X] [A; 32; B] = Lt /\ cmp_bytes [A; 47; X] [A; 32; B] = Gt.
Proof. vm_compute. split; reflexivity. Qed.

Example ex_modes :
  map st_mode (walk ex_tree) = [2147484141; 420; 134218239; 420; 420]
  /\ go_mode 49645 = 16777709 /\ N.ldiff (go_mode 49645) ModeSocket = 493     (* socket 0755 -> plain 0755 *)
  /\ go_mode 11648 = 81789312                                                   (* setuid+setgid char device 0600 *)
  /\ major 4294967295 = 4095 /\ minor 4294967295 = 1048575.
Proof. vm_compute. repeat split; reflexivity. Qed.

(* the executable specification accepts the model's walk of the example and rejects a swap *)
Example ex_spec :
  let snap := entries_root ex_tree in
  spec_walk_b [] snap (walk ex_tree) = true /\
  spec_walk_b [] snap (match walk ex_tree with a :: b :: r => b :: a :: r | l => l end) = false.
Proof. vm_compute. split; reflexivity. Qed.

(* sub-target: "./a/" is cleaned to a; the target itself is reported first; only the inode group
   inside the sub-tree counts (a/x is the first holder of inode 5 there) *)
Example ex_walk_at :
  map (fun s => (st_path s, st_linkname s)) (walk_at ex_tree [46; 47; A; 47]) =
  [ ([A], []); ([A; 47; X], []); ([A; 47; Y], [47; 116]) ]
  /\ walk_at ex_tree [A; 47; 110; 111] = [] /\ walk_at ex_tree [47] = walk ex_tree.
Proof. vm_compute. repeat split; reflexivity. Qed.

(* hard links and sub-targets: inode 5 has the names "a-b", a/x and a/z.  The whole walk reports
   a/x as the file and a/z, a-b as links to it; the walk of target "a" sees a/x (file) and a/z
   (link to a/x); the walk of target "a-b" — whose group members all lie elsewhere — reports a
   plain file; the walk of a/z alone likewise.  (Size is the file size also for the links: mkstat's
   stat.Size = fi.Size() comes after setUnixOpt's stat.Size = 0 — walk_stat.) *)
Definition Z := 122.
Definition ex_tree_hl : tree :=
  T (rec_ 16877 1 3 [])
    [ ([A; 45; B], T (rec_ 33188 5 3 []) []);
      ([A], T (rec_ 16877 2 2 [])
              [ ([Z], T (rec_ 33188 5 3 []) []);
                ([X], T (rec_ 33188 5 3 []) []) ]) ].
Example ex_walk_at_hardlinks :
  map (fun s => (st_path s, st_linkname s, st_size s)) (walk ex_tree_hl) =
  [ ([A], [], 0); ([A; 47; X], [], 3); ([A; 47; Z], [A; 47; X], 3); ([A; 45; B], [A; 47; X], 3) ]
  /\ map (fun s => (st_path s, st_linkname s, st_size s)) (walk_at ex_tree_hl [A]) =
     [ ([A], [], 0); ([A; 47; X], [], 3); ([A; 47; Z], [A; 47; X], 3) ]
  /\ map (fun s => (st_path s, st_linkname s, st_size s)) (walk_at ex_tree_hl [A; 45; B]) = [ ([A; 45; B], [], 3) ]
  /\ map (fun s => (st_path s, st_linkname s, st_size s)) (walk_at ex_tree_hl [A; 47; Z]) = [ ([A; 47; Z], [], 3) ].
Proof. vm_compute. repeat split; reflexivity. Qed.

(* SubDirFS over two sub-roots "s" and "r" both holding ex_tree: r first; paths, the hard-link
   name a/x and the absolute symlink target /t are prefixed *)
Definition dstat (name : list N) : stat :=
  {| st_path := name; st_mode := 2147484141; st_uid := 0; st_gid := 0; st_size := 0; st_mtime := 5;
     st_linkname := []; st_devmajor := 0; st_devminor := 0; st_xattrs := [] |}.
Example ex_subdirs :
  match walk_subdirs [ {| sd_stat := dstat [115]; sd_tree := ex_tree |};
                       {| sd_stat := dstat [114]; sd_tree := ex_tree |} ] [] with
  | Some (cbs, err) =>
    err = false /\
    map (fun e => (fst e, st_linkname (snd e))) cbs =
    [ ([114], []); ([114; 47; A], []); ([114; 47; A; 47; X], []); ([114; 47; A; 47; Y], [47; 114; 47; 116]);
      ([114; 47; A; 32; B], []); ([114; 47; A; 45; B], [114; 47; A; 47; X]);
      ([115], []); ([115; 47; A], []); ([115; 47; A; 47; X], []); ([115; 47; A; 47; Y], [47; 115; 47; 116]);
      ([115; 47; A; 32; B], []); ([115; 47; A; 45; B], [115; 47; A; 47; X]) ]
  | None => False
  end.
Proof. vm_compute. split; reflexivity. Qed.

(* sub-roots "a" and "a-b" (one name a string prefix of the other), both holding ex_tree: the target
   "a-b/a" reports a-b and the sub-tree a-b/a only — nothing of sub-root "a"; the target "a-" (a
   prefix of one name, an extension of the other) reports nothing *)
Example ex_subdir_at :
  let ds := [ {| sd_stat := dstat [A]; sd_tree := ex_tree |};
              {| sd_stat := dstat [A; 45; B]; sd_tree := ex_tree |} ] in
  option_map (fun x => (map fst (fst x), snd x)) (walk_subdirs ds [A; 45; B; 47; A]) =
    Some ([ [A; 45; B]; [A; 45; B; 47; A]; [A; 45; B; 47; A; 47; X]; [A; 45; B; 47; A; 47; Y] ], false)
  /\ walk_subdirs ds [A; 45] = Some ([], false)
  /\ option_map (fun x => length (fst x)) (walk_subdirs ds [A]) = Some 6%nat.
Proof. vm_compute. repeat split; reflexivity. Qed.

(* nested: outer "o" over the sub-roots "a" and "a-b" of ex_subdir_at.  Whole walk: o, o/a, o/a/a, ...;
   the hard-link name and the absolute symlink target carry both prefixes; target "o/a-b/a" selects
   one sub-tree; target "a" (the outer name missing) selects nothing *)
Example ex_nested :
  let inner := [ {| sd_stat := dstat [A]; sd_tree := ex_tree |};
                 {| sd_stat := dstat [A; 45; B]; sd_tree := ex_tree |} ] in
  option_map (fun x => (map (fun e => (fst e, st_linkname (snd e))) (firstn 7 (fst x)), length (fst x), snd x))
             (walk_nested (dstat [111]) inner []) =
    Some ([ ([111], []); ([111; 47; A], []); ([111; 47; A; 47; A], []); ([111; 47; A; 47; A; 47; X], []);
            ([111; 47; A; 47; A; 47; Y], [47; 111; 47; A; 47; 116]); ([111; 47; A; 47; A; 32; B], []);
            ([111; 47; A; 47; A; 45; B], [111; 47; A; 47; A; 47; X]) ], 13%nat, false)
  /\ option_map (fun x => (map fst (fst x), snd x)) (walk_nested (dstat [111]) inner [111; 47; A; 45; B; 47; A]) =
     Some ([ [111]; [111; 47; A; 45; B]; [111; 47; A; 45; B; 47; A]; [111; 47; A; 45; B; 47; A; 47; X];
             [111; 47; A; 45; B; 47; A; 47; Y] ], false)
  /\ walk_nested (dstat [111]) inner [A] = Some ([], false).
Proof. vm_compute. repeat split; reflexivity. Qed.

(* the composite of ex_nested meets the hypotheses of the nested theorems *)
Example ex_nested_hyps :
  let inner := [ {| sd_stat := dstat [A]; sd_tree := ex_tree |};
                 {| sd_stat := dstat [A; 45; B]; sd_tree := ex_tree |} ] in
  sd_wf inner /\ no_linkname inner /\ wf_name (st_path (dstat [111])) /\ st_is_dir (dstat [111]) = true
  /\ length (nested_listing (dstat [111]) inner [111; 47; A; 45; B; 47; A]) = 5%nat.
Proof.
  cbv zeta. split; [split|split; [|split; [|split]]]; try (vm_compute; reflexivity).
  - constructor; [|constructor; [|constructor]];
      (split; [apply wf_name_b_sound; vm_compute; reflexivity|split; [reflexivity|]];
       apply wf_tree_b_sound; vm_compute; reflexivity).
  - apply nodup_b_sound. vm_compute. reflexivity.
  - repeat constructor.
  - apply wf_name_b_sound. vm_compute. reflexivity.
Qed.

(* the refutation witness: the model reports m2/f and m2/g as links to m1/f *)
Example ex_cross_device :
  map (fun s => (st_path s, st_linkname s)) (walk t_xdev) =
  [ ([109; 49], []); ([109; 49; 47; 102], []); ([109; 49; 47; 103], [109; 49; 47; 102]);
    ([109; 50], []); ([109; 50; 47; 102], [109; 49; 47; 102]); ([109; 50; 47; 103], [109; 49; 47; 102]) ]
  /\ spec_walk_b [] (entries_root t_xdev) (walk t_xdev) = false.
Proof. vm_compute. split; reflexivity. Qed.

(* Source equivalences (tools/go2coq; gen/SrcFns.v is regenerated from /repo on every run): the
   Gallina definitions SrcFns.major / SrcFns.minor translated from stat_unix.go (Walk.major /
   Walk.minor are the same functions, by reflexivity) equal the Linux device-number decoding
   DevNum.dev_major / DevNum.dev_minor (the inverse of the kernel's new_encode_dev, theorem
   decode_encode), and the translated skipXattr equals the prefix test of the walk model's
   load_xattr. *)
From FSGen Require SrcFns.
From FS Require Model.DevNum Proofs.DevNumP Proofs.Src.MajorEq Proofs.Src.MinorEq Proofs.Src.SkipXattrEq.
Theorem major_src_eq : forall d, SrcFns.major d = DevNum.dev_major d.
Proof. exact MajorEq.major_src_eq. Qed.
Theorem minor_src_eq : forall d, SrcFns.minor d = DevNum.dev_minor d.
Proof. exact MinorEq.minor_src_eq. Qed.
Theorem dev_decode_encode : forall major minor, (major < 4096)%N -> (minor < 1048576)%N ->
  DevNum.dev_major (DevNum.encode_dev major minor) = major /\ DevNum.dev_minor (DevNum.encode_dev major minor) = minor.
Proof. exact DevNumP.decode_encode. Qed.
Theorem skipXattr_src_eq : forall k, SrcFns.skipXattr k = has_prefix xattr_apple_prefix k.
Proof. exact SkipXattrEq.skipXattr_src_eq. Qed.
Print Assumptions major_src_eq.
Print Assumptions minor_src_eq.
Print Assumptions dev_decode_encode.
Print Assumptions skipXattr_src_eq.
