(* C07 — Receiver speaks the documented wire protocol to any conforming sender.

   The receiver (receive.go + the asynchronous data path of diskwriter.go) is modelled by
   the deterministic event acceptor [receiver_acc needs] (Model/ReceiverAcc.v) over the
   events at its boundary.  [needs p] is the verdict of the diff for path p ("the writer
   asks content for it": constantly true for a fresh destination).  The theorems quantify
   over ALL traces the acceptor follows ([receiver_run needs tr = Some s]; complete when
   [r_ret s = Some _]) - any chunk sizes, any interleaving of ids, DATA racing STAT.
   [legal_sender tr] says the packets read come from a sender that follows the protocol:
   no STAT after the empty STAT and nothing after its FIN.  DATA for an id that is not
   open is NOT assumed away: the acceptor latches the error, as the code does.
   The stored content of an id is kept as the list of payloads (newest first): the file's
   bytes are [concat (rev cs)].
   Statements of the property, each closed by [exact] of a lemma of Proofs/ (after instantiating
   section variables) or by a few lines from a more general one; examples are computed here;
   [Print Assumptions] of each. *)
From Coq Require Import List NArith Bool.
From FS Require Import Sx Model.Path Model.Stat Model.AccEvents Model.ReceiverAcc
     Proofs.AccEventsP Proofs.ReceiverAccP.
From FS Require Model.Lts Model.LtsRAcc Proofs.LtsRAccP3.
Import ListNotations.
Open Scope N_scope.

(* req_exactly_needed (1): every REQ n the receiver sends names the zero-based position, in
   the sequence of STATs received BEFORE the request, of a regular file without Linkname
   that the diff needs; it is sent once.  Hence never a directory, link, special file,
   unchanged file, or an id not yet announced. *)
Theorem req_exactly_needed : forall needs tr s pre n post,
  receiver_run needs tr = Some s -> legal_sender tr -> tr = pre ++ Out (PReq n) :: post ->
  (exists st, nth_error (rstats pre) (N.to_nat n) = Some st /\ reqable st = true /\ needs (st_path st) = true) /\
  ~ List.In (Out (PReq n)) pre /\ ~ List.In (Out (PReq n)) post.
Proof. exact req_exactly_needed_proof. Qed.

(* req_exactly_needed (2): by the time FIN is sent every announced regular non-link file
   the diff needs has been requested (with (1): exactly once). *)
Theorem needed_all_requested : forall needs tr s pre post,
  receiver_run needs tr = Some s -> legal_sender tr -> tr = pre ++ Out PFin :: post ->
  forall k st, nth_error (rstats pre) k = Some st -> reqable st = true -> needs (st_path st) = true ->
  List.In (Out (PReq (N.of_nat k))) pre.
Proof. exact needed_all_requested_proof. Qed.

(* stored_is_concat: as long as no error is latched, for every id the payloads held for an
   open id are exactly the DATA payloads received for it so far, in order, all non-empty;
   a closed id holds exactly its payloads up to the single terminator; an id never requested
   has received nothing - for any chunking and any interleaving of ids. *)
Theorem stored_is_concat : forall needs tr s,
  receiver_run needs tr = Some s -> legal_sender tr -> r_err s = false ->
  forall n,
    (forall cs, nlookup n (r_open s) = Some cs -> data_in n tr = rev cs /\ Forall nonempty cs) /\
    (forall cs, nlookup n (r_stored s) = Some cs -> data_in n tr = rev cs ++ [[]] /\ Forall nonempty cs) /\
    (~ List.In (Out (PReq n)) tr -> data_in n tr = []).
Proof. exact stored_is_concat_proof. Qed.

(* ... and on success every requested id is closed and its stored bytes are the
   concatenation of all DATA payloads received for it. *)
Theorem stored_on_success : forall needs tr s,
  receiver_run needs tr = Some s -> legal_sender tr -> r_ret s = Some true ->
  forall n, List.In (Out (PReq n)) tr ->
  exists cs, nlookup n (r_stored s) = Some cs /\ data_in n tr = rev cs ++ [[]] /\ Forall nonempty cs /\
             concat (data_in n tr) = concat (rev cs).
Proof. exact stored_on_success_proof. Qed.

(* fin_after_everything: FIN is sent at most once, only after the empty STAT and the
   terminator of every requested id have been received (needed_all_requested adds: and
   every needed file has been requested); nothing is requested afterwards.  That the bytes
   are on disk at that moment is observed by the correspondence run (listing taken by the
   reference sender when FIN arrives). *)
Theorem fin_after_everything : forall needs tr s pre post,
  receiver_run needs tr = Some s -> legal_sender tr -> tr = pre ++ Out PFin :: post ->
  List.In (Inp (PStat None)) pre /\
  (forall n, List.In (Out (PReq n)) pre -> List.In (Inp (PData n [])) pre) /\
  ~ List.In (Out PFin) pre /\ ~ List.In (Out PFin) post /\ (forall n, ~ List.In (Out (PReq n)) post).
Proof. exact fin_after_everything_proof. Qed.

(* eof_before_fin_is_error: end of stream before the sender's FIN has been read (in
   particular before the receiver's own FIN) makes the call fail - for any peer. *)
Theorem eof_before_fin_is_error : forall needs tr s pre post,
  receiver_run needs tr = Some s -> tr = pre ++ InEof :: post -> ~ List.In (Inp PFin) pre ->
  r_err s = true /\ r_ret s <> Some true.
Proof. exact eof_before_fin_is_error_proof. Qed.

(* success = FIN sent, FIN read, end of stream read, no error latched; a failed call has the
   latch set. *)
Theorem success_shape : forall needs tr s,
  receiver_run needs tr = Some s -> r_ret s = Some true ->
  List.In (Out PFin) tr /\ List.In (Inp PFin) tr /\ List.In InEof tr /\ r_err s = false.
Proof. exact success_shape_proof. Qed.

Theorem failure_is_latched : forall needs tr s,
  receiver_run needs tr = Some s -> r_ret s = Some false -> r_err s = true.
Proof. exact failure_latched_proof. Qed.

(* receiver_lts_refines_acc: the acceptor is tied to the goroutine-level LTS of C04/C08
   (Model/Lts.v: receive loop, dynamicWalker.fill, the diff loop, the writer goroutines,
   receiver.run's FIN/ERR goroutine, syncStream mutex, bounded stream - and the whole sender on
   the other end).  For every LTS instance p, announced stats and needs predicate related by
   [LtsRAcc.rabs_ok] (same number of entries; "file" = regular; content needed (ENeed) iff
   the acceptor wants the entry: regular, no Linkname, needs path; non-empty payloads), every
   FAULT-FREE run of the LTS from its initial state (no injected fault, cancellation, endpoint
   failure or tear-down on either side; the transport closing the sender's direction after
   Send has returned is allowed) produces at the receiver's boundary - packets concretised by
   [LtsRAcc.receiver_events] (the i-th STAT received is stats[i], DATA id carries a non-empty
   payload, DATAEND id the empty one, a writer's REQ id |-> Out (PReq id) where the mutex is
   taken, EOF, the return at g.Wait()) - a trace that the acceptor follows, and the acceptor
   has recorded the return value of Receive exactly when the LTS has.  Hence the theorems of
   this file that do not ask [legal_sender tr] hold of those LTS runs as they stand; the others
   once [legal_sender] is shown of the run's boundary trace.  (It uses the invariants of C04/C08 about reachable and
   fault-free states - Proofs/Lts*.v - as lemmas; runs with faults are not covered.) *)
Theorem receiver_lts_refines_acc :
  forall (p : Lts.params) (stats : list stat) (needs : bytes -> bool) (pay : nat -> nat -> bytes)
         (emsg smsg : bytes) (ls : list Lts.label) (st : Lts.state),
  LtsRAcc.rabs_ok p stats needs pay ->
  LtsRAcc.no_faults ls = true ->
  Lts.run p (Lts.init p) ls = Some st ->
  exists a, receiver_run needs (LtsRAcc.lts_rtrace p stats pay emsg smsg (Lts.init p) ls) = Some a /\
            r_ret a = Lts.recv_ret st.
Proof. intros p stats needs pay emsg smsg ls st Habs. exact (LtsRAccP3.receiver_lts_refines_acc_proof p stats needs pay emsg smsg Habs ls st). Qed.

(* the abstraction is not vacuous: every announced sequence and needs predicate has an LTS
   instance (the library's constants, written out: 4 workers / 128 / 128 / 128; any stream
   capacities, one-chunk files) *)
Theorem lts_receiver_abstraction_exists :
  forall (needs : bytes -> bool) (stats : list stat) (capSR capRS : nat) (pay : nat -> nat -> bytes),
  (forall id k, pay id k <> []) ->
  LtsRAcc.rabs_ok (LtsRAcc.lts_rparams_of needs stats capSR capRS) stats needs pay.
Proof. exact LtsRAccP3.rabs_ok_params_of_proof. Qed.

Print Assumptions req_exactly_needed.
Print Assumptions receiver_lts_refines_acc.
Print Assumptions lts_receiver_abstraction_exists.
Print Assumptions needed_all_requested.
Print Assumptions stored_is_concat.
Print Assumptions stored_on_success.
Print Assumptions fin_after_everything.
Print Assumptions eof_before_fin_is_error.
Print Assumptions success_shape.
Print Assumptions failure_is_latched.

(* non-vacuity: STATs for a directory (id 0), two files (ids 1, 2), a hard link to the first (id 3)
   and a symlink (id 4); the file at id 2 is unchanged. *)
Definition mkst (p : bytes) (m : N) (ln : bytes) : stat :=
  {| st_path := p; st_mode := m; st_uid := 0; st_gid := 0; st_size := 0; st_mtime := 0;
     st_linkname := ln; st_devmajor := 0; st_devminor := 0; st_xattrs := [] |}.
Definition pD := [100]. Definition pA := [100; 47; 97]. Definition pB := [100; 47; 98].
Definition pH := [100; 47; 104]. Definition pL := [108].
Definition needs0 (p : bytes) : bool := negb (bytes_eqb p pB).
Definition S0 := Inp (PStat (Some (mkst pD (ModeDir + 493) []))).
Definition S1 := Inp (PStat (Some (mkst pA 420 []))).
Definition S2 := Inp (PStat (Some (mkst pB 420 []))).
Definition S3 := Inp (PStat (Some (mkst pH 420 pA))).
Definition S4 := Inp (PStat (Some (mkst pL (ModeSymlink + 511) pD))).
Definition SE := Inp (PStat None).

Example good_trace_accepted :
  receiver_accepts needs0
    [S0; S1; Out (PReq 1); S2; Inp (PData 1 [7]); S3; S4; Inp (PData 1 [8; 9]); SE; Inp (PData 1 []);
     Out PFin; Inp PFin; InEof; Return true] = Some true.
Proof. vm_compute. reflexivity. Qed.

(* requests for a directory, the unchanged file, the hard link, the symlink, a future id, and
   a second request for the same id are all rejected *)
Example wrong_requests_rejected :
  forall n, List.In n [0; 2; 3; 4; 5] ->
  receiver_accepts needs0 [S0; S1; S2; S3; S4; Out (PReq n)] = None.
Proof. intros n H. simpl in H. repeat (destruct H as [H|H]; [subst n; vm_compute; reflexivity|]). contradiction. Qed.
Example future_id_rejected : receiver_accepts needs0 [S0; Out (PReq 1)] = None.
Proof. vm_compute. reflexivity. Qed.
Example double_request_rejected : receiver_accepts needs0 [S0; S1; Out (PReq 1); Out (PReq 1)] = None.
Proof. vm_compute. reflexivity. Qed.

(* ids must count every STAT: requesting "file number 0" for d/a is rejected *)
Example renumbered_ids_rejected : receiver_accepts needs0 [S0; S1; Out (PReq 0)] = None.
Proof. vm_compute. reflexivity. Qed.

(* FIN before the end marker, before a terminator, or before a needed file was requested: rejected *)
Example early_fin_rejected :
  receiver_accepts needs0 [S0; S1; Out (PReq 1); Inp (PData 1 []); Out PFin] = None /\
  receiver_accepts needs0 [S0; S1; Out (PReq 1); SE; Inp (PData 1 [7]); Out PFin] = None /\
  receiver_accepts needs0 [S0; S1; SE; Out PFin] = None.
Proof. vm_compute. repeat split; reflexivity. Qed.

(* EOF before FIN: success rejected, failure accepted *)
Example early_eof_must_fail :
  receiver_accepts needs0 [S0; S1; InEof; Return true] = None /\
  receiver_accepts needs0 [S0; S1; InEof; Return false] = Some false /\
  receiver_accepts needs0 [S0; SE; Out PFin; InEof; Return true] = None.
Proof. vm_compute. repeat split; reflexivity. Qed.

(* the acceptor's stored payloads for the good trace: id 1 holds [7] then [8;9] *)
Example stored_payloads :
  option_map (fun s => r_stored s)
    (receiver_run needs0 [S0; S1; Out (PReq 1); S2; Inp (PData 1 [7]); Inp (PData 1 [8; 9]); Inp (PData 1 [])])
  = Some [(1, [[8; 9]; [7]])].
Proof. vm_compute. reflexivity. Qed.


(* the LTS instance of the five stats above (d/ d/a d/b d/h(link) l; d/b not needed), unbuffered
   stream, run by the first-enabled scheduler to the end (the transport closes after Send has
   returned): both calls return success, the receiver's boundary trace is an accepted complete
   trace in which exactly id 1 (d/a) is requested and its payload stored *)
Example lts_receiver_run_accepted :
  let stats0 := [mkst pD (ModeDir + 493) []; mkst pA 420 []; mkst pB 420 []; mkst pH 420 pA; mkst pL (ModeSymlink + 511) pD] in
  let p := LtsRAcc.lts_rparams_of needs0 stats0 0 0 in
  let ls := LtsRAcc.complete_run p 400 in
  let tr := LtsRAcc.lts_rtrace p stats0 (fun _ _ => [7]) [] [] (Lts.init p) ls in
  LtsRAcc.no_faults ls = true /\
  option_map Lts.send_ret (Lts.run p (Lts.init p) ls) = Some (Some true) /\
  option_map Lts.recv_ret (Lts.run p (Lts.init p) ls) = Some (Some true) /\
  receiver_accepts needs0 tr = Some true /\
  filter (fun e => match e with Out _ => true | _ => false end) tr = [Out (PReq 1); Out PFin] /\
  option_map (fun s => r_stored s) (receiver_run needs0 tr) = Some [(1, [[7]])].
Proof. vm_compute. repeat split; reflexivity. Qed.
