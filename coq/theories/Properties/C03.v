(* C03 — receiver containment: an untrusted sender cannot touch anything outside dest.
   This file contains only the property theorems (closed by [exact]), their [Print Assumptions]
   and non-vacuity examples closed by [vm_compute]; models are in Model/ (Fs.v: the file system,
   DiskWriterFs.v: DiskWriter.HandleChange, the receive loop and ReceiveOpt.Filter as sequences of
   system calls, RecvMeta.v: ReceiveOpt.MetadataOnly — which entries reach the walker, and the
   epilogue that writes dest/.fsutil-metadata), proofs in Proofs/ (FsP FsReachP FsFrameP FsSysP
   FsTreeP DwP RecvP OldListP RecvOldP RecvMetaP FsWfP C03P RejectP).

   receiver_contained covers Receive with its options: every packet list within [clean_packet]
   (below), every pre-existing destination (symlinks to anywhere, hard links
   shared with the outside, special files, an entry of any kind under the name .fsutil-metadata),
   both settings of ReceiveOpt.Merge, every MetadataOnly selector (or none), every admissible
   Filter (or none) and every prefix j of the effects. *)
From Coq Require Import List NArith Bool String Ascii.
From FS Require Import Sx Model.Path Model.Stat Model.Validator Model.Fs Model.DiskWriterFs Model.RecvMeta Model.RecvSpec.
From FS Require Import Proofs.ValidatorP Proofs.FsP Proofs.FsReachP Proofs.RecvP Proofs.FsWfP Proofs.C03P Proofs.RejectP.
Import ListNotations.
Open Scope N_scope.

(* [outside_unchanged D f f']: every inode that existed in f and is not a directory inside D has
   the same record in f' (type, entries / bytes / link target, mode, uid, gid, mtime, xattrs);
   D itself is still a directory with the same parent, mode, uid, gid, xattrs.  Hence every
   directory entry and inode outside D — D's own entry in its parent included — is as before,
   also for inodes that have a second name inside D.  (Link count and ctime are not part of the
   model's inode record: the correspondence oracle compares them too, except for inodes that
   had a name inside D before the run.)
   Hypotheses:
   [wf D f] — the part of f inside D is a well-formed tree (names are single non-empty components
     other than "." / "..", unique per directory; one entry per directory inode; D is a directory
     and not its own descendant; allocation counter above all inode numbers);
   the temporary names ".tmp.<n>" the writer may use are well-formed, not in use inside D and
     never a component of a path the sender names ([clean_packet], first part);
   [filter_ok fl] — what the Filter does to its copy of the stat keeps type bits and link name,
     and a path it rejects it rejects with everything below it (a caller obligation: see
     receiver_contained_any_filter_refuted);
   no transferred hard link names a path the Filter rejects ([clean_packet], second part; empty
     without a Filter).  This one depends on the stream: with a rejecting Filter the real
     receiver does link such an entry to whatever dest/<Linkname> resolves to — known finding
     filter-rejected-hardlink-source. *)
Theorem receiver_contained :
  forall (fl : rfilter) (mo : option (stat -> bool)) (f : fs) (root D : N) (dl merge : bool) (tmps : list bytes)
         (pks : list packet) (j : nat),
    filter_ok fl ->
    wf D f -> (forall t, tmpname tmps t -> okname t) -> tmp_unused D f tmps ->
    Forall (clean_packet tmps fl) pks ->
    outside_unchanged D f (recv_fs_prefix_opt f root D dl merge mo fl tmps pks j).
Proof. exact receiver_contained_opt. Qed.

(* the filters of the correspondence run (reject the listed paths and everything below, shift
   uid / gid) are admissible, and so is no filter *)
Theorem subtree_filters_admissible : forall ps ua ga, filter_ok (subtree_filter ps ua ga).
Proof. exact subtree_filter_ok. Qed.
Theorem no_filter_admissible : filter_ok no_filter.
Proof. exact no_filter_ok. Qed.

(* Without "rejected with everything below" the statement is FALSE of the model and of the code:
   dest holds d -> /out; the Filter rejects exactly "d"; STAT d (directory), STAT d/x (file).
   The change for d is skipped, the symlink stays, and d/x is created through it: /out gets an
   entry x.  (Replayed on the real code through the harness, see props/C03.json.) *)
Theorem receiver_contained_any_filter_refuted :
  exists (fl : rfilter) (f : fs) (root D : N) (tmps : list bytes) (pks : list packet) (j : nat),
    (forall s, st_mode (f_map fl s) = st_mode s) /\ (forall s, st_linkname (f_map fl s) = st_linkname s)
    /\ wf D f /\ (forall t, tmpname tmps t -> okname t) /\ tmp_unused D f tmps
    /\ Forall (clean_packet tmps fl) pks
    /\ ~ outside_unchanged D f (recv_fs_prefix_opt f root D false true None fl tmps pks j).
Proof. exact receiver_contained_any_filter_refuted_proof. Qed.

(* A stream that the stream-only specification (Model/RecvSpec.v) calls bad at packet b — a STAT
   whose path is not a clean relative path inside the root, not strictly after every earlier path,
   or whose parent was not sent before as a directory; a hard link to a path not sent before;
   content for an id no earlier STAT announced as a regular file — makes the receive call fail at
   or before b (error return, or the "closed channel" panic when a STAT follows the terminator),
   it never succeeds, and the file system is the one left by the packets before b: nothing of the
   offending packet or of any later one is applied.  No hypothesis on the file system, the
   destination, Merge or the temporary names; any Filter whose stat copy keeps type bits and
   link name (MetadataOnly = nil: for metadata transfers the statement with [spec_bad_m] is
   checked by the correspondence run only, see props/C03.json). *)
Theorem bad_stream_rejected :
  forall (fl : rfilter),
    (forall s, st_mode (f_map fl s) = st_mode s) -> (forall s, st_linkname (f_map fl s) = st_linkname s) ->
  forall (f : fs) (root D : N) (dl merge : bool) (tmps : list bytes) (pks : list packet) (b : nat),
    spec_bad pks sspec_init 0 = Some b ->
    let st := recv_run_f fl f root D dl merge tmps pks None in
    (exists k, (k <= b)%nat /\ (r_out st = Failed k \/ r_out st = Panicked k))
    /\ recv_succeeds st = false
    /\ r_fs st = r_fs (recv_run_f fl f root D dl merge tmps (firstn b pks) None).
Proof. exact bad_stream_rejected_f. Qed.

Print Assumptions receiver_contained.
Print Assumptions subtree_filters_admissible.
Print Assumptions no_filter_admissible.
Print Assumptions receiver_contained_any_filter_refuted.
Print Assumptions bad_stream_rejected.

(* non-vacuity: a hostile destination and a hostile stream inside the hypotheses *)
(* /out/f "O:f" ; /w/dest with l -> /out (symlink), m -> ../../out/f (symlink), a (file) *)
Definition ex_fs : fs :=
  let c := ctx_init in
  let f := run1 (sys_mkdir c fs_init (bs "/out") 493) in
  let f := match sys_open_wronly c f (bs "/out/f") true 420 with
           | (g, RFd i) => run1 (fd_pwrite g i 0 (bs "O:f")) | (g, _) => g end in
  let f := run1 (sys_mkdir c f (bs "/w") 493) in
  let f := run1 (sys_mkdir c f (bs "/w/dest") 493) in
  let f := run1 (sys_symlink c f (bs "/out") (bs "/w/dest/l")) in
  let f := run1 (sys_symlink c f (bs "../../out/f") (bs "/w/dest/m")) in
  let f := match sys_open_wronly c f (bs "/w/dest/a") true 384 with
           | (g, RFd i) => run1 (fd_pwrite g i 0 (bs "D:a")) | (g, _) => g end in
  f.
Definition ex_D : N := match resolve_ino ctx_init ex_fs (bs "/w/dest") true with inl i => i | inr _ => 0 end.

Definition mkst (p : string) (mode : N) (ln : string) (xs : list (bytes * bytes)) : stat :=
  {| st_path := bs p; st_mode := mode; st_uid := 1000; st_gid := 1000; st_size := 0; st_mtime := 1000000;
     st_linkname := bs ln; st_devmajor := 0; st_devminor := 0; st_xattrs := xs |}.
Definition ex_pks : list packet :=
  [ PStat (Some (mkst "l" (ModeDir + 493) "" []));              (* the symlink l becomes a directory ... *)
    PStat (Some (mkst "l/g" 420 "" []));                          (* ... with a file in it *)
    PData 1 (bs "new"); PData 1 [];
    PStat (Some (mkst "m" (ModeSymlink + 511) "/out/f" [(bs "user.x", bs "X")]));  (* symlink with xattrs *)
    PStat (Some (mkst "n" 511 "l/g" []));                         (* hard link to an entry sent before *)
    PStat (Some (mkst ".." (ModeDir + 493) "" [])) ].            (* and an escaping path: rejected *)

Definition ex_run : rstate := recv_fs ex_fs 1 ex_D false true [] ex_pks.

(* the hypotheses of the theorem hold for this case *)
Example example_in_domain : ex_D = 5 /\ domain_b 8 ex_fs ex_D [] no_filter ex_pks = true.
Proof. vm_compute. split; reflexivity. Qed.

(* the specification calls the stream bad at packet 6 (the path "..") *)
Example example_spec_bad : spec_bad ex_pks sspec_init 0 = Some 6%nat.
Proof. vm_compute. reflexivity. Qed.

(* the stream is rejected at the escaping path (packet 6), after the six effects of the first six packets *)
Example example_rejected : r_out ex_run = Failed 6 /\ r_applied ex_run = 6%nat.
Proof. vm_compute. split; reflexivity. Qed.

(* inside: l is now a directory holding g with the bytes sent, m names /out/f, n is a second name of g *)
Example example_inside_changed :
  let f' := r_fs ex_run in
  (match rwalk f' ex_D [bs "l"; bs "g"] with
   | Some i => match get f' i with Some {| i_kind := KFile d |} => Some d | _ => None end
   | None => None end) = Some (bs "new")
  /\ rwalk f' ex_D [bs "n"] = rwalk f' ex_D [bs "l"; bs "g"]
  /\ (match rwalk f' ex_D [bs "m"] with
      | Some i => match get f' i with Some {| i_kind := KLink t |} => Some t | _ => None end
      | None => None end) = Some (bs "/out/f").
Proof. vm_compute. repeat split; reflexivity. Qed.

(* outside: the records of /, /out, /out/f and /w are exactly as before *)
Example example_outside_same :
  map (get (r_fs ex_run)) [1; 2; 3; 4] = map (get ex_fs) [1; 2; 3; 4]
  /\ (match get ex_fs 3 with Some {| i_kind := KFile d |} => Some d | _ => None end) = Some (bs "O:f").
Proof. vm_compute. split; reflexivity. Qed.

(* without Merge the same stream first removes what it does not name: the old file a is gone,
   the symlink l has been replaced by a directory — and the outside is as before *)
Definition ex_run2 : rstate := recv_fs ex_fs 1 ex_D false false [] ex_pks.
Example example_nomerge :
  let f' := r_fs ex_run2 in
  r_out ex_run2 = Failed 6
  /\ rwalk ex_fs ex_D [bs "a"] = Some 8 /\ rwalk f' ex_D [bs "a"] = None
  /\ (match rwalk f' ex_D [bs "l"] with Some i => is_dir f' i | None => false end) = true
  /\ map (get f') [1; 2; 3; 4] = map (get ex_fs) [1; 2; 3; 4].
Proof. vm_compute. repeat split; reflexivity. Qed.

(* a metadata transfer into a destination that holds .fsutil-metadata -> /out/f (a symlink that
   leaves dest): the selector transfers only "l/g"; its pending parent l is handed to the walker
   first (the symlink l becomes a directory), m is only recorded and stays the old symlink; the
   epilogue removes the symlink before it writes the listing: /out/f keeps its bytes *)
Definition ex_fs3 : fs := run1 (sys_symlink ctx_init ex_fs (bs "/out/f") (bs "/w/dest/.fsutil-metadata")).
Definition ex_sel (s : stat) : bool := bytes_eqb (st_path s) (bs "l/g").
Definition ex_pks3 : list packet :=
  [ PStat (Some (mkst "l" (ModeDir + 493) "" []));
    PStat (Some (mkst "l/g" 420 "" []));
    PData 1 (bs "new"); PData 1 [];
    PStat (Some (mkst "m" (ModeSymlink + 511) "/out/d" []));
    PStat None; PFin ].
Definition ex_run3 : rstate := recv_fs_opt ex_fs3 1 ex_D false true (Some ex_sel) no_filter [] ex_pks3.
Example example_meta_in_domain : domain_b 8 ex_fs3 ex_D [] no_filter ex_pks3 = true.
Proof. vm_compute. reflexivity. Qed.
Example example_meta :
  let f' := r_fs ex_run3 in
  recv_class ex_run3 = 0
  /\ (match rwalk ex_fs3 ex_D [listing_name] with Some i => is_link ex_fs3 i | None => false end) = true
  /\ (match rwalk f' ex_D [listing_name] with
      | Some i => match get f' i with Some {| i_kind := KFile d |} => negb (is_nil d) | _ => false end
      | None => false end) = true
  /\ (match rwalk f' ex_D [bs "l"; bs "g"] with
      | Some i => match get f' i with Some {| i_kind := KFile d |} => Some d | _ => None end
      | None => None end) = Some (bs "new")
  /\ (match rwalk f' ex_D [bs "m"] with
      | Some i => match get f' i with Some {| i_kind := KLink t |} => Some t | _ => None end
      | None => None end) = Some (bs "../../out/f")
  /\ map (get f') [1; 2; 3; 4] = map (get ex_fs3) [1; 2; 3; 4].
Proof. vm_compute. repeat split; reflexivity. Qed.

(* a Filter that rejects l and everything below it: the symlink l stays, nothing is written
   through it; a hard link to l/g is outside the hypotheses (clean_packet) *)
Definition ex_fl : rfilter := subtree_filter [bs "l"] 100000 100000.
Definition ex_pks4 : list packet :=
  [ PStat (Some (mkst "l" (ModeDir + 493) "" []));
    PStat (Some (mkst "l/g" 420 "" []));
    PStat (Some (mkst "q" 420 "" [])); PData 2 (bs "Q"); PData 2 [];
    PStat None; PFin ].
Definition ex_run4 : rstate := recv_fs_opt ex_fs 1 ex_D false true None ex_fl [] ex_pks4.
Example example_filter :
  let f' := r_fs ex_run4 in
  domain_b 8 ex_fs ex_D [] ex_fl ex_pks4 = true
  /\ recv_class ex_run4 = 0
  /\ (match rwalk f' ex_D [bs "l"] with Some i => is_link f' i | None => false end) = true
  /\ (match rwalk f' ex_D [bs "q"] with
      | Some i => match get f' i with Some n => Some (m_uid (i_meta n)) | None => None end
      | None => None end) = Some 101000
  /\ map (get f') [1; 2; 3; 4] = map (get ex_fs) [1; 2; 3; 4]
  /\ domain_b 8 ex_fs ex_D [] ex_fl [PStat (Some (mkst "l/g" 420 "" [])); PStat (Some (mkst "q" 420 "l/g" []))] = false.
Proof. vm_compute. repeat split; reflexivity. Qed.
