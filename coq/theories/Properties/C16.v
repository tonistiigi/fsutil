(* C16 — Copy include/exclude selects exactly the reference set and creates no extra directories.

   Model: Model/CopierSel.v (copier.include/exclude with the parent's MatchInfo, the [copied] flag,
   createParentDirs, copyDirectory, copyDirectoryOnly, copyFileInfo/copyXAttrs on directories) over
   the pattern-list model of C10 (Model/Pattern.v; the single-pattern matcher [pmatch] is external).

   Source = a view (the tree C10's filtered walk runs over) with distinct sibling names, only
   directories having children (wf_tree).  Destination = any finite map from paths relative to the
   landing target to entries; "" is the target itself.  [copy_sel ... = (fs', log, None)]: the copy
   succeeded, left the destination [fs'] and materialised the source entries [log] (in this
   order; l_sel = the entry passed include/exclude itself, false = created on demand as a parent).
   The third argument of copy_sel is AlwaysReplaceExistingDestPaths: the statements about what a
   copy selects and writes are for [false]; the model with [true] (removeTargetIfNeeded after
   createParentDirs) is tied to the code by the correspondence only.

   keep_incr = included and not excluded, evaluated with MatchesUsingParentResults handed down
   from the top-level source (what copier.copy does); keep_naive = MatchesOrParentMatches on the
   whole path (the reference filter of C10).  flat_items V view = the entries of the full walk
   that V selects or that lie above a selected entry, in walk order (FilterWalk.flat_reference
   with contents); spec_ent says what each of them looks like afterwards (CopierSel.result). *)
From Coq Require Import List NArith Bool String.
From FS Require Import Sx Model.Path Model.Stat Model.Tree Model.Pattern Model.FilterWalk Model.CopierSel
  Proofs.PathP Proofs.PatternP Proofs.WitnessP Proofs.CopySelP Proofs.CopySelThmP Proofs.CopySelOkP Proofs.CopySelWitnessP.
Import ListNotations.

(* Copied = entries with the incremental verdict + their ancestors, nothing else.
   For every matcher, pattern lists, source tree and destination: a successful copy materialises
   exactly the flat reference over keep_incr, in walk order; every destination path other than the
   target itself holds afterwards what [spec_ent] computes from that list and the old content
   (in particular: paths outside the list are untouched, and a path exists afterwards iff it
   existed before or is in the list). *)
Theorem copy_selects_incr_reference :
  forall pmatch c rootst view fs0 fs' log,
    wf_tree view = true ->
    copy_sel pmatch c false (SrcDir rootst view) fs0 = (fs', log, None) ->
    log = flat_items (keep_incr pmatch c) view
    /\ map l_st log = flat_reference (keep_incr pmatch c) view
    /\ (forall q, q <> [] -> fs' q = spec_ent log fs0 q)
    /\ (forall q, q <> [] -> (fs' q <> None <-> (fs0 q <> None \/ In q (map l_path log)))).
Proof. exact copy_selects_proof. Qed.

(* The hypothesis "the copy succeeded" is not vacuous: creating parents on demand suffices.
   For every matcher, pattern lists and source tree: if every source path that exists in the
   destination has the same kind there (directory / non-directory) and the landing target is
   missing or a directory — an empty destination in particular — the copy succeeds, with and
   without AlwaysReplaceExistingDestPaths [repl]: no mkdir or create ever misses its parent
   directory. *)
Theorem copy_succeeds_on_compatible_destination :
  forall pmatch c repl rootst view fs0,
    wf_tree view = true ->
    (forall e o, In e (walk_root view) -> fs0 (st_path (fst e)) = Some o -> e_dir o = st_is_dir (fst e)) ->
    (forall o, fs0 [] = Some o -> e_dir o = true) ->
    exists fs' log, copy_sel pmatch c repl (SrcDir rootst view) fs0 = (fs', log, None).
Proof. exact (fun pmatch c repl rootst view fs0 Hwf => copy_succeeds_proof view Hwf pmatch c repl rootst fs0). Qed.

(* An entry of the source (a directory in particular) that is not selected and has no selected
   entry below it does not appear in the destination (unless it was there before). *)
Theorem no_extra_dirs :
  forall pmatch c rootst view fs0 fs' log,
    wf_tree view = true ->
    copy_sel pmatch c false (SrcDir rootst view) fs0 = (fs', log, None) ->
    forall e, In e (walk_root view) ->
      keep_incr pmatch c (st_path (fst e)) = false ->
      (forall e', In e' (walk_root view) ->
         has_prefix (st_path (fst e) ++ [sep]) (st_path (fst e')) = true -> keep_incr pmatch c (st_path (fst e')) = false) ->
      fs0 (st_path (fst e)) = None -> fs' (st_path (fst e)) = None.
Proof. exact no_extra_dirs_proof. Qed.

(* Parents created on demand carry the source directory's metadata.
   An item of the log that did not pass include/exclude itself is a directory of the source tree;
   if the destination had nothing at its path it is a directory afterwards with the source
   directory's permission+special bits, owner and (when the source's xattr keys are sorted) xattrs (timestamps are not represented: the
   property does not claim them); if something was there, it was only chmod'ed to the source
   directory's mode (owner, xattrs, content of the existing entry stay). *)
Theorem lazy_parent_metadata :
  forall pmatch c rootst view fs0 fs' log,
    wf_tree view = true ->
    copy_sel pmatch c false (SrcDir rootst view) fs0 = (fs', log, None) ->
    forall it, In it log -> l_sel it = false ->
      In (l_st it, l_ct it) (walk_root view) /\ st_is_dir (l_st it) = true /\
      match fs0 (l_path it) with
      | None => exists e, fs' (l_path it) = Some e /\ st_is_dir (fst e) = true
                /\ perm_of (st_mode (fst e)) = perm_of (st_mode (l_st it))
                /\ st_uid (fst e) = st_uid (l_st it) /\ st_gid (fst e) = st_gid (l_st it)
                /\ (keys_sorted (st_xattrs (l_st it)) = true -> st_xattrs (fst e) = st_xattrs (l_st it))
      | Some old => fs' (l_path it) = Some (chmod_stat (l_st it) (fst old), snd old)
      end.
Proof. exact lazy_parent_metadata_proof. Qed.

(* Copy vs filtered walk.
   For ALL pattern lists, matchers and trees: what the copier materialises is, stat for stat and
   in the same order, what filterFS.Walk without its two SkipDir shortcuts reports ... *)
Theorem copy_eq_filter_walk_unpruned :
  forall pmatch c rootst view fs0 fs' log,
    wf_tree view = true ->
    copy_sel pmatch c false (SrcDir rootst view) fs0 = (fs', log, None) ->
    map l_st log = filter_walk pmatch id_map (no_prune c) view.
Proof. exact copy_eq_filter_walk_unpruned_proof. Qed.

(* ... and what the walk as the code runs it reports, under the hypotheses of C10's
   prune_unobservable (literal reading of prefix-only patterns by the external matcher;
   regex-safe literals in the L/* patterns the shortcuts rely on) *)
Theorem copy_eq_filter_walk :
  forall pmatch c rootst view fs0 fs' log,
    prefix_semantics pmatch -> cfg_star_safe c = true -> wf_tree view = true ->
    copy_sel pmatch c false (SrcDir rootst view) fs0 = (fs', log, None) ->
    map l_st log = filter_walk pmatch id_map c view.
Proof. exact copy_eq_filter_walk_proof. Qed.

(* without cfg_star_safe the statement is FALSE (C10's known finding unsafe-star-literal seen
   from the copier): include ["a{2}/*"], tree aa/x, matcher answering as the real library: the
   copier copies aa and aa/x, the walk prunes aa and reports nothing.  Replayed on the real
   code: corpus/C16/witnesses.case (kind 1602). *)
Theorem copy_ne_filter_walk_refuted :
  exists pmatch c rootst view fs0 fs' log,
    prefix_semantics pmatch /\ wf_tree view = true /\ cfg_star_safe c = false /\
    copy_sel pmatch c false (SrcDir rootst view) fs0 = (fs', log, None) /\
    map l_st log <> filter_walk pmatch id_map c view.
Proof. exact copy_ne_filter_walk_refuted_proof. Qed.

(* Copy vs the naive reference (the reference filter of C10),
   under the computable condition no_late_shadow on every path of the tree *)
Theorem copy_eq_naive :
  forall pmatch c rootst view fs0 fs' log,
    wf_tree view = true -> wf_strict view = true -> all_paths (nls_path pmatch c) view = true ->
    copy_sel pmatch c false (SrcDir rootst view) fs0 = (fs', log, None) ->
    log = flat_items (keep_naive pmatch c) view.
Proof. exact copy_eq_naive_proof. Qed.

(* without it: FALSE — known finding K1 (moby/patternmatcher) on the copier: include
   ["d"; "!d/c"; "d"], tree d/{c,e}: the copier copies d, d/e; the naive reference d, d/c, d/e.
   Replayed on the real copy.Copy: corpus/C16/witnesses.case (kind 1601). *)
Theorem copy_ne_naive_refuted :
  exists pmatch c rootst view fs0 fs' log,
    prefix_semantics pmatch /\ wf_tree view = true /\ wf_strict view = true /\
    all_paths (nls_path pmatch c) view = false /\
    copy_sel pmatch c false (SrcDir rootst view) fs0 = (fs', log, None) /\
    log <> flat_items (keep_naive pmatch c) view.
Proof. exact copy_ne_naive_refuted_proof. Qed.

(* A single non-directory as the source: the patterns are not consulted.  (This holds by
   construction of the model: copy_sel on SrcFile does not mention pmatch or the pattern lists,
   as copier.copy is entered with srcComponents = "" for it; what ties that to the real Copy is
   the correspondence.) *)
Theorem single_file_source_ignores_patterns :
  forall pmatch c pmatch' c' repl st ct fs,
    copy_sel pmatch c repl (SrcFile st ct) fs = copy_sel pmatch' c' repl (SrcFile st ct) fs.
Proof. exact single_file_proof. Qed.

Print Assumptions copy_selects_incr_reference.
Print Assumptions copy_succeeds_on_compatible_destination.
Print Assumptions no_extra_dirs.
Print Assumptions lazy_parent_metadata.
Print Assumptions copy_eq_filter_walk_unpruned.
Print Assumptions copy_eq_filter_walk.
Print Assumptions copy_ne_filter_walk_refuted.
Print Assumptions copy_eq_naive.
Print Assumptions copy_ne_naive_refuted.
Print Assumptions single_file_source_ignores_patterns.

(* Non-vacuity: the tree of filter_test.go with distinctive directory metadata; the same
   inputs are run against the real copy.Copy by corpus/C16/examples.case. *)
Open Scope string_scope.

Definition look : list string :=
  ["a"; "a/b"; "a/b/bar"; "a/b/bar/fop"; "a/b/bar/foo"; "a/b/baz"; "bar"; "baz"; "foo"; "foo2"].

(* include a/b/bar/fop into an empty destination: a, a/b, a/b/bar are created on demand with the
   source directories' mode (sticky bit included), owner and xattrs; no other directory appears *)
Example ex_deferred_parents :
  run_ex pm_lit cfg_deep empty_dst look =
  (None,
   [(bs "a", false); (bs "a/b", false); (bs "a/b/bar", false); (bs "a/b/bar/fop", true)],
   [Some ((ModeDir + 457)%N, 0%N, 7%N, [(bs "user.kb", [118%N])]);
    Some ((ModeDir + ModeSticky + 511)%N, 5%N, 0%N, []);
    Some ((ModeDir + 448)%N, 1000%N, 5%N, [(bs "user.ka", [1%N; 2%N])]);
    Some (420%N, 0%N, 0%N, []); None; None; None; None; None; None])
  /\ wf_tree c16_view = true.
Proof. vm_compute. split; reflexivity. Qed.

(* the same when a exists already (mode 0500, uid 9, an xattr): a is only chmod'ed *)
Example ex_existing_parent_chmod_only :
  run_ex pm_lit cfg_deep dst_with_a ["a"; "a/b"] =
  (None,
   [(bs "a", false); (bs "a/b", false); (bs "a/b/bar", false); (bs "a/b/bar/fop", true)],
   [Some ((ModeDir + 457)%N, 9%N, 0%N, [(bs "user.old", [9%N])]);
    Some ((ModeDir + ModeSticky + 511)%N, 5%N, 0%N, [])]).
Proof. vm_compute. reflexivity. Qed.

(* a FILE named a in the destination where the parent a is needed: createParentDirs reports it *)
Example ex_parent_is_a_file : run_ex pm_lit cfg_deep dst_file_a [] = (Some EDirOverNondir, [], []).
Proof. vm_compute. reflexivity. Qed.

(* **, !, trailing /*, directories that match but have no selected descendant (a/b/baz, foo), a
   directory in which nothing matches (baz): copy = filtered walk = flat naive reference *)
Definition cfg_mix : cfg :=
  {| c_inc := Some [ip "a/b/*"; ip "**/foo"; xp "foo/**"]; c_exc := Some [ip "a/b/bar/*"; xp "a/b/bar/fop"; ip "foo2"];
     c_prune := true |}.
Definition pm_c16 : list N -> list N -> bool :=
  lit_pmatch (fun P q =>
    if bytes_eqb P (bs "**/foo") then
      bytes_eqb q (bs "foo") || match strip_suffix (bs "/foo") q with Some _ => true | None => false end
    else false).
Example ex_mixed :
  err_of pm_c16 cfg_mix ft_view empty_dst = None
  /\ lpaths (log_of pm_c16 cfg_mix ft_view empty_dst)
     = map bs ["a"; "a/b"; "a/b/bar"; "a/b/bar/fop"; "a/b/baz"; "bar"; "bar/foo"; "foo"]
  /\ map l_sel (log_of pm_c16 cfg_mix ft_view empty_dst) = [false; false; true; true; true; false; true; true]
  /\ map l_st (log_of pm_c16 cfg_mix ft_view empty_dst) = filter_walk pm_c16 id_map cfg_mix ft_view
  /\ log_of pm_c16 cfg_mix ft_view empty_dst = flat_items (keep_naive pm_c16 cfg_mix) ft_view
  /\ (wf_tree ft_view = true /\ wf_strict ft_view = true /\ cfg_star_safe cfg_mix = true
      /\ all_paths (nls_path pm_c16 cfg_mix) ft_view = true).
Proof. vm_compute. repeat split; reflexivity. Qed.
