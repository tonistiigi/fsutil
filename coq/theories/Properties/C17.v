(* C17 — Tar export round-trips the filesystem view.
   Statements of the property, each closed by [exact] of a lemma of Proofs/ or by a few lines
   from a more general one; examples are computed here; [Print Assumptions] of each.
   Model: Model/TarHdr.v (+ Model/Hardlinks.v for the hard-link reset WriteTar applies first). *)
From Coq Require Import List NArith ZArith Bool.
From FS Require Import Sx Model.Path Model.Stat Model.Tree Model.Hardlinks Model.TarHdr Proofs.TarP Proofs.TarExtractP Proofs.TarSpecP Proofs.TarFilterP.
Import ListNotations.
Open Scope N_scope.

(* WriteTar (the sequential program with archive/tar's size accounting and header
   checks) on an exportable view succeeds and writes exactly one member per entry of the
   listing it walks, in walk order; member i is the header of entry i, and its name is the
   entry's path with a trailing slash exactly for directories. *)
Theorem members_are_view :
  forall v, wf_view v ->
    write_tar v = TarOk (tar_members v)
    /\ Forall2 member_of (reset_entries (walk_root v)) (tar_members v).
Proof. exact members_are_view_proof. Qed.

(* ... and on a view whose hard links are closed (every link member names an earlier
   regular file of the view) the hard-link reset changes nothing: the members are the
   view's own entries. *)
Theorem members_are_view_closed :
  forall v, wf_listing_b (walk_root v) = true -> links_closed (walk_root v) = true ->
    wf_view v
    /\ write_tar v = TarOk (tar_members v)
    /\ Forall2 member_of (walk_root v) (tar_members v).
Proof. exact members_are_view_closed_proof. Qed.

(* A payload is written exactly for regular, non-link entries of positive size
   (all stats, no well-formedness needed). *)
Theorem payload_iff_regular_nonempty_nonlink :
  forall s, has_payload (hdr_of_stat s) = true <->
    (mode_is_regular (st_mode s) = true /\ st_linkname s = [] /\ (0 < sint (st_size s))%Z).
Proof. exact payload_iff_proof. Qed.

(* For every member the declared size is the number of bytes handed to the archive
   writer — also for hard-link members (Stat.Size = full size, declared 0, no payload) —
   so archive/tar sees neither a short nor a long write. *)
Theorem payload_size_matches :
  forall v, wf_view v ->
    Forall (fun m : member => h_size (fst m) = blen (snd m)) (tar_members v).
Proof. exact payload_size_matches_proof. Qed.

(* Header -> archive/tar (mtime rounded to the nearest second) -> extractor's inverse gives
   the stat back: path, mode incl. type / setuid / setgid / sticky, uid, gid, link name,
   device numbers and xattrs exactly; the mtime to the second; Size where the header
   carries it (regular non-link files), 0 otherwise. *)
Theorem hdr_roundtrip :
  forall s, wf_stat s ->
    stat_of_hdr (archived (hdr_of_stat s)) = round_mtime_to_second (header_size_only s).
Proof. exact hdr_roundtrip_proof. Qed.

Theorem hdr_roundtrip_plain_file :
  forall s, wf_stat s -> carries_size s = true ->
    stat_of_hdr (archived (hdr_of_stat s)) = round_mtime_to_second s.
Proof. exact hdr_roundtrip_plain_file_proof. Qed.

(* "Including for filtered views": for ANY listing handed to WriteTar (the walk of a filtered
   FS), the members are the entries of that listing after the hard-link reset, one each, in
   order, sizes matching. *)
Theorem members_are_listing :
  forall l, wf_listing_b (reset_entries l) = true ->
    write_tar_listing l = TarOk (tar_members_listing l)
    /\ Forall2 member_of (reset_entries l) (tar_members_listing l)
    /\ Forall (fun m : member => h_size (fst m) = blen (snd m)) (tar_members_listing l).
Proof. exact members_are_listing_proof. Qed.

(* Extracting the archive reproduces the view: same entries in the same order, every stat
   field and all bytes, with the mtime to the second and Size only on regular files (dropped
   on directories, symlinks, devices, fifos); hard-link members get size and bytes back from
   the member they name.  [extracted e] = (round_mtime_to_second (Size only if regular), bytes). *)
Theorem extract_roundtrip :
  forall v, wf_listing_b (walk_root v) = true -> links_closed (walk_root v) = true ->
    extract (archive v) = map extracted (walk_root v).
Proof. exact extract_roundtrip_proof. Qed.

(* The same for ANY listing handed to WriteTar (the walk of a filtered FS, composition with
   C10/C11): what comes back is the listing WriteTar ends up walking, i.e. the listing after
   its hard-link reset ... *)
Theorem extract_listing_roundtrip :
  forall l, wf_listing_b (reset_entries l) = true -> links_closed (reset_entries l) = true ->
    extract (map archived_member (tar_members_listing l)) = map extracted (reset_entries l).
Proof. exact extract_listing_roundtrip_proof. Qed.

(* ... which is the listing itself when its own links are closed. *)
Theorem extract_closed_listing_roundtrip :
  forall l, wf_listing_b l = true -> links_closed l = true ->
    extract (map archived_member (tar_members_listing l)) = map extracted l.
Proof. exact extract_closed_listing_roundtrip_proof. Qed.

(* Oracle = specification, proved: the model's archive satisfies the member-by-member
   specification that the correspondence run evaluates on the REAL archive (members_match:
   name, typeflag, mode bits, owners, |mtime difference| < 1 s on a whole second, link name,
   device numbers, xattrs, exact payload, declared size = payload length) against the listing
   after the hard-link reset; and with closed links every hard-link member names an earlier
   regular member.  For any listing (filtered or not) ... *)
Theorem model_meets_member_spec :
  forall l, wf_listing_b (reset_entries l) = true -> forallb mtime_in_range (reset_entries l) = true ->
    members_match (reset_entries l) (map archived_member (tar_members_listing l)) = true
    /\ (links_closed (reset_entries l) = true ->
        links_resolve (map archived_member (tar_members_listing l)) = true).
Proof. exact model_meets_member_spec_proof. Qed.

(* ... and for a whole view with closed links, against the view's own walk. *)
Theorem model_meets_member_spec_view :
  forall v, wf_listing_b (walk_root v) = true -> links_closed (walk_root v) = true ->
    forallb mtime_in_range (walk_root v) = true ->
    members_match (walk_root v) (archive v) = true /\ links_resolve (archive v) = true.
Proof. exact model_meets_member_spec_view_proof. Qed.

(* Composition with the C11 hard-link reset on FILTERED views (regression for /repo dd2568d).
   l is any listing the filters leave of a canonical walk (Hardlinks.wf_links: distinct paths,
   a link names an EARLIER plain non-link entry if it names a kept entry at all) — in
   particular the first member of a link group may have been excluded.  If the members of a
   link group have the same type (one inode), the archive is self-contained: every hard-link
   member names an earlier regular member of the archive. *)
Theorem filtered_links_resolve :
  forall l, wf_links (map fst l) = true -> group_types_agree l = true ->
    wf_listing_b (reset_entries l) = true ->
    links_resolve (map archived_member (tar_members_listing l)) = true.
Proof. exact filtered_links_resolve_proof. Qed.

(* If they also have the same size and bytes (and only regular files have bytes), the listing
   WriteTar ends up walking has closed links ... *)
Theorem filtered_links_closed :
  forall l, wf_links (map fst l) = true -> group_types_agree l = true -> group_contents_agree l = true ->
    no_content_unless_regular l = true ->
    wf_listing_b (reset_entries l) = true ->
    links_closed (reset_entries l) = true.
Proof. exact filtered_links_closed_proof. Qed.

(* ... so that extracting the archive of the filtered view gives back exactly the kept entries,
   the first kept member of each link group as a regular file with the bytes and the later
   ones as links to it. *)
Theorem extract_filtered_roundtrip :
  forall l, wf_links (map fst l) = true -> group_types_agree l = true -> group_contents_agree l = true ->
    no_content_unless_regular l = true ->
    wf_listing_b (reset_entries l) = true ->
    extract (map archived_member (tar_members_listing l)) = map extracted (reset_entries l).
Proof. exact extract_filtered_roundtrip_proof. Qed.

(* The write side holds on a wider domain: a link name may also sit on a fifo or a device (the
   second name of such an inode, as the on-disk walker reports it).  WriteTar succeeds, emits one
   member per entry in order with matching sizes, and the members meet the member-by-member
   specification, in which such an entry must be a hard-link ('1') member without payload. *)
Theorem members_are_listing_wide :
  forall l, wf_listing_wb (reset_entries l) = true ->
    write_tar_listing l = TarOk (tar_members_listing l)
    /\ Forall2 member_of (reset_entries l) (tar_members_listing l)
    /\ Forall (fun m : member => h_size (fst m) = blen (snd m)) (tar_members_listing l).
Proof. exact members_are_listing_wide_proof. Qed.

Theorem model_meets_member_spec_wide :
  forall l, wf_listing_wb (reset_entries l) = true -> forallb mtime_in_range (reset_entries l) = true ->
    members_match (reset_entries l) (map archived_member (tar_members_listing l)) = true.
Proof. exact model_meets_member_spec_wide_proof. Qed.

Print Assumptions members_are_view.
Print Assumptions members_are_listing_wide.
Print Assumptions model_meets_member_spec_wide.
Print Assumptions members_are_listing.
Print Assumptions extract_roundtrip.
Print Assumptions extract_listing_roundtrip.
Print Assumptions extract_closed_listing_roundtrip.
Print Assumptions model_meets_member_spec.
Print Assumptions model_meets_member_spec_view.
Print Assumptions filtered_links_resolve.
Print Assumptions filtered_links_closed.
Print Assumptions extract_filtered_roundtrip.
Print Assumptions members_are_view_closed.
Print Assumptions payload_iff_regular_nonempty_nonlink.
Print Assumptions payload_size_matches.
Print Assumptions hdr_roundtrip.
Print Assumptions hdr_roundtrip_plain_file.

Definition mkst (mode uid gid size mtime : N) (ln : bytes) (maj min : N) (x : list (bytes * bytes)) : stat :=
  {| st_path := []; st_mode := mode; st_uid := uid; st_gid := gid; st_size := size; st_mtime := mtime;
     st_linkname := ln; st_devmajor := maj; st_devminor := min; st_xattrs := x |}.
Definition hello : bytes := [104; 101; 108; 108; 111].
Definition n_d : bytes := [100]. Definition n_e : bytes := [101]. Definition n_f : bytes := [102].
Definition n_g : bytes := [103].
Definition p_df : bytes := [100; 47; 102].   (* "d/f" *)
Definition st_f : stat :=   (* -rwsr-xr-x 1000:5, 5 bytes, mtime ...999999999 ns, xattr with NUL *)
  mkst (ModeSetuid + 493) 1000 5 5 1600000000999999999 [] 0 0 [([117; 115; 101; 114; 46; 107], [0; 1])].
Definition view1 : list node :=     (* children in bytewise name order, as a walk lists them *)
  [ Node [98] (mkst (ModeDevice + 432) 0 6 0 0 [] 8 2097151 []) [] [];
    Node [99] (mkst (ModeDevice + ModeCharDevice + 384) 0 0 0 0 [] 1 3 []) [] [];
    Node n_d (mkst (ModeDir + ModeSticky + 511) 0 0 0 1600000000500000000 [] 0 0 []) []
      [ Node n_e (mkst 420 0 0 0 0 [] 0 0 []) [] [];                                (* d/e  empty file *)
        Node n_f st_f hello [];                                                      (* d/f *)
        Node n_g (set_linkname st_f p_df) hello [];                                  (* d/g  hard link to d/f *)
        Node (repeat 110 120) (mkst (ModeDir + ModeSetgid + 448) 0 3000000 0 1 [] 0 0 []) [] [] ];  (* 120-byte name, PAX gid *)
    Node [112] (mkst (ModeNamedPipe + 420) 0 0 0 0 [] 0 0 []) [] [];
    Node [195; 169] (mkst (ModeSymlink + 511) 0 0 4 (two64 - 1) [46; 46; 47; 120] 0 0 []) [] [] ].  (* "é" -> ../x, mtime -1 ns *)

Example view1_wf :
  wf_listing_b (walk_root view1) = true /\ links_closed (walk_root view1) = true
  /\ length (walk_root view1) = 9%nat.
Proof. vm_compute. repeat split; reflexivity. Qed.

Example view1_archive :
  write_tar view1 = TarOk (tar_members view1)
  /\ map (fun m : member => (h_typeflag (fst m), snd m)) (tar_members view1)
     = [(TypeBlock, []); (TypeChar, []); (TypeDir, []); (TypeReg, []); (TypeReg, hello); (TypeLink, []);
        (TypeDir, []); (TypeFifo, []); (TypeSymlink, [])]
  /\ map (fun m : member => h_name (fst m)) (firstn 4 (skipn 2 (tar_members view1)))
     = [[100; 47]; [100; 47; 101]; [100; 47; 102]; [100; 47; 103]]
  /\ map (fun m : member => h_mode (fst m)) (firstn 3 (skipn 2 (tar_members view1))) = [1023; 420; 2541]   (* 01777 0644 04755 *)
  /\ members_match (walk_root view1) (archive view1) = true
  /\ links_resolve (archive view1) = true.
Proof. vm_compute. repeat split; reflexivity. Qed.

Example view1_extracts :
  extract (archive view1) = map extracted (walk_root view1)
  /\ forallb mtime_in_range (walk_root view1) = true
  /\ nth_error (extract (archive view1)) 5
     = Some (round_mtime_to_second (set_path (set_linkname st_f p_df) [100; 47; 103]), hello).   (* the link member, whole *)
Proof. vm_compute. repeat split; reflexivity. Qed.

(* mtime ...999999999 ns is archived as the NEXT second, -1 ns as second 0 *)
Example rounding :
  round_sec 1600000000999999999 = 1600000001%Z /\ round_sec 1600000000500000000 = 1600000001%Z
  /\ round_sec 1600000000499999999 = 1600000000%Z /\ round_sec (two64 - 1) = 0%Z
  /\ round_sec (two64 - 500000001) = (-1)%Z.
Proof. vm_compute. repeat split; reflexivity. Qed.

(* a filtered listing that lost the first member of a link group: the reset makes the kept
   member a regular member carrying the bytes (the witness of the repaired defect) *)
Example filtered_link_group :
  let l := [(set_path (set_linkname st_f p_df) [103], hello)] in
  map (fun m : member => (h_typeflag (fst m), h_linkname (fst m), snd m)) (tar_members_listing l)
  = [(TypeReg, [], hello)]
  /\ map (fun m : member => (h_typeflag (fst m), h_linkname (fst m), snd m)) (tar_of_listing l)
  = [(TypeLink, p_df, [])].
Proof. vm_compute. split; reflexivity. Qed.

(* the same filtered listing plus a second kept member of the group, "h" -> d/f: WriteTar
   walks [g (now a plain file); h -> g]; its own links are NOT closed (d/f is gone), those of
   the reset listing are, the archive extracts to the reset listing, and it meets the
   member-by-member specification *)
Definition filtered2 : list entry :=
  [(set_path (set_linkname st_f p_df) [103], hello); (set_path (set_linkname st_f p_df) [104], hello)].
Example filtered_extracts :
  links_closed filtered2 = false
  /\ wf_listing_b (reset_entries filtered2) = true /\ links_closed (reset_entries filtered2) = true
  /\ forallb mtime_in_range (reset_entries filtered2) = true
  /\ map (fun e : entry => st_linkname (fst e)) (reset_entries filtered2) = [[]; [103]]
  /\ extract (map archived_member (tar_members_listing filtered2)) = map extracted (reset_entries filtered2)
  /\ members_match (reset_entries filtered2) (map archived_member (tar_members_listing filtered2)) = true
  /\ links_resolve (map archived_member (tar_members_listing filtered2)) = true
  /\ links_resolve (map archived_member (tar_of_listing filtered2)) = false.   (* without the reset: dangling *)
Proof. vm_compute. repeat split; reflexivity. Qed.

(* the hypotheses of the filtered-view theorems hold on filtered2 and on view1's walk with
   d/f filtered out (d/g, the link to it, is kept and becomes a regular member with the bytes) *)
Definition view1_without_df : list entry :=
  filter (fun e : entry => negb (bytes_eqb (st_path (fst e)) p_df)) (walk_root view1).
Example filtered_hypotheses :
  wf_links (map fst filtered2) = true /\ group_types_agree filtered2 = true
  /\ group_contents_agree filtered2 = true /\ no_content_unless_regular filtered2 = true
  /\ length view1_without_df = 8%nat /\ links_closed view1_without_df = false
  /\ wf_links (map fst view1_without_df) = true /\ group_types_agree view1_without_df = true
  /\ group_contents_agree view1_without_df = true /\ no_content_unless_regular view1_without_df = true
  /\ wf_listing_b (reset_entries view1_without_df) = true
  /\ map (fun m : member => (h_typeflag (fst m), snd m)) (tar_members_listing view1_without_df)
     = [(TypeBlock, []); (TypeChar, []); (TypeDir, []); (TypeReg, []); (TypeReg, hello);
        (TypeDir, []); (TypeFifo, []); (TypeSymlink, [])]
  /\ links_resolve (map archived_member (tar_members_listing view1_without_df)) = true
  /\ extract (map archived_member (tar_members_listing view1_without_df))
     = map extracted (reset_entries view1_without_df).
Proof. vm_compute. repeat split; reflexivity. Qed.

(* group_types_agree is needed: a "link" to a fifo passes the hard-link validator, but tar
   cannot express it (a '1' member must name a '0' member) *)
Example group_types_needed :
  let l := [(set_path (mkst (ModeNamedPipe + 420) 0 0 0 0 [] 0 0 []) n_e, []);
            (set_path (mkst 420 0 0 0 0 n_e 0 0 []) n_f, [])] in
  wf_links (map fst l) = true /\ wf_listing_b (reset_entries l) = true /\ group_types_agree l = false
  /\ links_resolve (map archived_member (tar_members_listing l)) = false.
Proof. vm_compute. repeat split; reflexivity. Qed.

(* link groups of non-regular inodes: a fifo and a character device with two names each.  Outside
   the narrow (invertible) domain, inside the write domain; the second names are '1' members *)
Definition special_links : list entry :=
  [(set_path (mkst (ModeNamedPipe + 420) 0 0 0 0 [] 0 0 []) n_e, []);
   (set_path (mkst (ModeNamedPipe + 420) 0 0 0 0 n_e 0 0 []) n_f, []);
   (set_path (mkst (ModeDevice + ModeCharDevice + 384) 0 0 0 0 [] 1 3 []) n_g, []);
   (set_path (mkst (ModeDevice + ModeCharDevice + 384) 0 0 0 0 n_g 1 3 []) [104], [])].
Example special_link_groups :
  wf_listing_b (reset_entries special_links) = false /\ wf_listing_wb (reset_entries special_links) = true
  /\ map (fun m : member => (h_typeflag (fst m), h_linkname (fst m))) (tar_members_listing special_links)
     = [(TypeFifo, []); (TypeLink, n_e); (TypeChar, []); (TypeLink, n_g)]
  /\ members_match (reset_entries special_links) (map archived_member (tar_members_listing special_links)) = true.
Proof. vm_compute. repeat split; reflexivity. Qed.

(* the mtime hypothesis of model_meets_member_spec is needed: at the top of the int64 range
   rounding to the nearest second leaves the range, and the specification is not met *)
Example mtime_out_of_range :
  let l := [(set_path (mkst 420 0 0 0 (two63 - 1) [] 0 0 []) n_e, [])] in
  wf_listing_b (reset_entries l) = true /\ forallb mtime_in_range (reset_entries l) = false
  /\ members_match (reset_entries l) (map archived_member (tar_members_listing l)) = false.
Proof. vm_compute. repeat split; reflexivity. Qed.

(* outside the well-formed domain the writer fails: Size larger / smaller than the bytes
   served, a socket, an xattr name containing '=' *)
Example not_wf_fails :
  write_tar [Node n_e (mkst 420 0 0 1 0 [] 0 0 []) [] []; Node n_f (mkst 420 0 0 0 0 [] 0 0 []) [] []] = TarErr 1
  /\ write_tar [Node n_e (mkst 420 0 0 1 0 [] 0 0 []) hello []] = TarErr 0
  /\ write_tar [Node n_e (mkst (ModeSocket + 420) 0 0 0 0 [] 0 0 []) [] []] = TarErr 0
  /\ write_tar [Node n_e (mkst 420 0 0 0 0 [] 0 0 [([97; 61; 98], [1])]) [] []] = TarErr 0.
Proof. vm_compute. repeat split; reflexivity. Qed.

(* source equivalences (tools/go2coq; gen/SrcFns.v is regenerated from /repo on every run): the
   methods of fs.go's StatInfo — the os.FileInfo that WriteTar hands to tar.FileInfoHeader — as
   translated from the source. ModTime: the (sec, nsec) pair given to time.Unix, computed with Go's
   truncating / and % on the signed int64 (Prims.i64_quot / i64_rem), denotes exactly the instant
   Stat.ModTime ns after the epoch (what h_mtime / round_ns take it to be), with |nsec| < 1e9 and
   the sign of the dividend; Size, Mode, IsDir are the field / the model predicate *)
From FSGen Require SrcFns.
From FS Require Src.Prims Proofs.Src.StatInfoModTimeEq Proofs.Src.StatInfoSizeEq Proofs.Src.StatInfoModeEq Proofs.Src.StatInfoIsDirEq.
Theorem StatInfo_ModTime_src_eq : forall s,
  let t := SrcFns.StatInfo_ModTime s in
  let m := Prims.sint64 (st_mtime (SrcFns.StatInfo_Stat s)) in
  Prims.time_ns t = m /\
  (Z.abs (Prims.sint64 (snd t)) < 1000000000)%Z /\ (0 <= Prims.sint64 (snd t) * m)%Z.
Proof. exact StatInfoModTimeEq.StatInfo_ModTime_src_eq. Qed.
Theorem StatInfo_ModTime_is_model_instant : forall s,
  (st_mtime (SrcFns.StatInfo_Stat s) < 18446744073709551616)%N ->
  Prims.time_ns (SrcFns.StatInfo_ModTime s) = sint (st_mtime (SrcFns.StatInfo_Stat s)).
Proof. exact StatInfoModTimeEq.StatInfo_ModTime_is_model_instant. Qed.
Theorem StatInfo_Size_src_eq : forall s, SrcFns.StatInfo_Size s = st_size (SrcFns.StatInfo_Stat s).
Proof. exact StatInfoSizeEq.StatInfo_Size_src_eq. Qed.
Theorem StatInfo_Mode_src_eq : forall s, SrcFns.StatInfo_Mode s = st_mode (SrcFns.StatInfo_Stat s).
Proof. exact StatInfoModeEq.StatInfo_Mode_src_eq. Qed.
Theorem StatInfo_IsDir_src_eq : forall s, SrcFns.StatInfo_IsDir s = st_is_dir (SrcFns.StatInfo_Stat s).
Proof. exact StatInfoIsDirEq.StatInfo_IsDir_src_eq. Qed.
Print Assumptions StatInfo_ModTime_src_eq.
Print Assumptions StatInfo_ModTime_is_model_instant.
Print Assumptions StatInfo_Size_src_eq.
Print Assumptions StatInfo_Mode_src_eq.
Print Assumptions StatInfo_IsDir_src_eq.
