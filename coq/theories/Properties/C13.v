(* C13 — Copy preserves the tree like cp -a, under every option combination.
   The property theorems, their [Print Assumptions], non-vacuity examples.  The i-th-match theorems
   are closed by [exact]; the one-literal-source ones are derived here from them (srcs = [src],
   i = 0: [literal_nth]); copy_into_empty_faithful_ensure_partial from landing_clear_of_prefix.
   The model of /repo/copy is Model/Copier.v, the relation "the copy is the source" is [tree_iso] /
   [faithful_dent] of Model/CopySpec.v, proofs in Proofs/Copy*P.v (see Properties/C15.v for the
   reading guide of [copy_top], [overlay_all], [wf_src], [wf_fs]).

   [overlay_all] is used here only to NAME what the call does: the landing path of the source
   ([xr_landings]), whether the landing path was an existing directory when the copy proper
   started ([xr_merged]: such a directory is merged into and keeps its own metadata, only its
   type and timestamp are claimed), the set of paths the call may create ([xr_paths]), and the
   directories it made ([xr_view] with [x_mk]).
   [faithful_dent o ms sd d]: d has the type of sd (a socket becomes an empty regular file),
   the requested mode or sd's permission + setuid/setgid/sticky bits (symlinks keep theirs),
   the requested owner or sd's, the requested time or sd's nanosecond mtime, sd's device number,
   symlink target verbatim, xattrs and bytes.  [iso_at ... rel]: at the relative path rel the
   source and the destination below the landing path both have nothing, or the destination
   entry is a faithful copy of the source entry.
   Theorems without _wild: one literal source (o_wild o = false); with _wild: the i-th match,
   landing [apart] from the others; link groups ([links_consistent]: the names of one
   multiply-linked regular file carry one dentry) included in both.  See props/C13.json. *)
From Coq Require Import List NArith Bool.
From FS Require Import Sx Model.Path Model.SymMode Model.Copier Model.CopySpec
  Proofs.CopierP Proofs.CopyOpsP Proofs.CopyTopP Proofs.CopyThmP Proofs.CopyFaithP Proofs.CopyEx Proofs.CopyWildP.
Import ListNotations.
Open Scope N_scope.
Open Scope bool_scope.

(* For every well-formed source (link groups included) and empty destination:
   tree_iso o ms merged sn L (result) = at every relative path the destination entry is a
   faithful copy of the source entry or both have nothing, AND two copied regular files share
   an inode iff their sources do.  (several sources: copy_into_empty_faithful_wild_partial below)
   [landing_clear]: the directories MkdirAll makes for the dst argument do not lie below the
   landing path unless the source has them too.  A hypothesis here; reduced to a condition on the
   ensure path by landing_clear_of_ensure_prefix.  (Without ensureDstPath ignoring a final "..",
   dst = "a/x/.." violates it: finding dst-dotdot-extra-directory.) *)
Theorem copy_into_empty_faithful_partial :
  forall o sroot, wf_src sroot -> links_consistent sroot ->
  forall fs src dst r ms sn L m,
    o_wild o = false -> empty_dst fs ->
    overlay_all o sroot (view_of_fs fs) src dst = inl r ->
    parse_of o = Some ms -> s_resolve sroot (rooted src) = inl sn ->
    xr_landings r = [L] -> xr_merged r = [m] -> landing_clear r sn L ->
    exists st', copy_top o sel_all sroot fs src dst = (st', None) /\
                tree_iso o ms m sn L (view_of_fs (c_fs st')).
Proof.
  intros o sroot Hsrc Hlc fs src dst r ms sn L m Hw Hemp Eo Hp Hs HL Hm Hclear. destruct (literal_nth r L HL) as [HL0 Hap].
  destruct (copy_into_empty_faithful_wild_proof o sroot Hsrc Hlc fs src dst r ms [src] 0%nat src sn L m Hemp Eo Hp)
    as (st' & E & _ & T); auto; [rewrite Hw; auto|rewrite Hm; auto|eauto].
Qed.

(* On ANY destination: every copied entry (the landing directory itself excepted when it is
   merged into) carries the requested owner, the requested octal or symbolic mode (symlinks
   excepted), the requested time and the source's type; every directory the call made above the
   target carries the requested owner and time (after fixCreatedParentDirs). *)
Theorem copy_options_applied_partial :
  forall o sroot, wf_src sroot -> links_consistent sroot ->
  forall fs src dst r ms sn L m,
    o_wild o = false -> wf_fs fs ->
    overlay_all o sroot (view_of_fs fs) src dst = inl r ->
    parse_of o = Some ms -> s_resolve sroot (rooted src) = inl sn ->
    xr_landings r = [L] -> xr_merged r = [m] ->
    exists st', copy_top o sel_all sroot fs src dst = (st', None) /\
      (forall rel s, s_lookup sn rel = Some s -> (rel = [] -> m = false) ->
         exists i d, view_of_fs (c_fs st') (L ++ rel) = Some (i, d) /\
           d_uid d = fst (info_owner o (sdent s)) /\ d_gid d = snd (info_owner o (sdent s)) /\
           (is_lnk (sdent s) = false -> perm12 d = info_mode o ms (sdent s)) /\
           d_mtime d = info_time o (sdent s) /\ ftype d = copy_type (sdent s)) /\
      (forall p e, xr_view r p = Some e -> x_mk e = true ->
         exists i d, view_of_fs (c_fs st') p = Some (i, d) /\
           (forall u g, o_chown o = Some (u, g) -> d_uid d = u /\ d_gid d = g) /\
           (forall t, o_utime o = Some t -> d_mtime d = t)).
Proof.
  intros o sroot Hsrc Hlc fs src dst r ms sn L m Hw Hfs Eo Hp Hs HL Hm. destruct (literal_nth r L HL) as [HL0 Hap].
  apply (copy_options_applied_wild_proof o sroot Hsrc Hlc fs src dst r ms [src] 0%nat src sn L m Hfs Eo Hp); auto;
    [rewrite Hw; auto|rewrite Hm; auto].
Qed.

(* The change notifier: the notifications for non-directories are, in order, exactly the
   destination paths of the non-directories of the source ([nd_paths]: one entry per source
   non-directory), and a directory is only ever notified with the path of a source directory. *)
Theorem notifier_exact_partial :
  forall o sroot, wf_src sroot -> links_consistent sroot ->
  forall fs src dst r ms sn L,
    o_wild o = false -> wf_fs fs ->
    overlay_all o sroot (view_of_fs fs) src dst = inl r ->
    parse_of o = Some ms -> s_resolve sroot (rooted src) = inl sn -> xr_landings r = [L] ->
    exists st', copy_top o sel_all sroot fs src dst = (st', None) /\
      map fst (filter (fun pb => negb (snd pb)) (rev (c_notifs st'))) = nd_paths L sn /\
      (forall q, In q (nd_paths L sn) <->
                 exists rel s, q = L ++ rel /\ s_lookup sn rel = Some s /\ is_dir (sdent s) = false) /\
      (forall q, In (q, true) (rev (c_notifs st')) ->
                 exists rel s, q = L ++ rel /\ s_lookup sn rel = Some s /\ is_dir (sdent s) = true).
Proof.
  intros o sroot Hsrc Hlc fs src dst r ms sn L Hw Hfs Eo _ Hs HL.
  destruct (notifier_exact_wild_proof o sroot Hsrc Hlc fs src dst r [src] [sn] Hfs Eo) as (st' & E1 & _ & EN & ED);
    [rewrite Hw; auto|repeat constructor; auto|].
  pose proof (s_resolve_wf_src sroot Hsrc _ _ Hs) as Hwfn.
  exists st'. rewrite HL in *. simpl in EN. rewrite app_nil_r in EN. do 2 (split; auto). split.
  - intro q. split; [apply nd_paths_spec; auto|]. intros (rel & s & -> & A & B). eapply nd_paths_complete; eauto.
  - intros q Hq. destruct (ED q Hq) as ([|[|j]] & Lj & snj & rel & s1 & A & B & C); try discriminate.
    inversion A; inversion B; subst. eauto.
Qed.

(* Several sources (AllowWildcards), the i-th match.
   [srcs] are the matches of the pattern in copy order ([resolve_wild]; one literal source is the
   case srcs = [src], i = 0), [xr_landings r] / [xr_merged r] their landing paths / merged flags.
   [apart L Lj]: neither landing path is a prefix of the other - the i-th match is not copied
   over, into or under by another match (with colliding landings a later match merges into or
   replaces an earlier one: that is the overlay, Properties/C15.v).
   Then below its landing path the destination IS the i-th source tree, entry by entry
   ([iso_at] for every relative path) - link groups and wildcards together included -, and with
   the source's inode partition ([tree_iso]) whenever the exact partition is available (no link
   groups, or a literal source; for wildcards with link groups the partition can split, known
   finding hardlink-group-split-after-overwrite, Properties/C15.v). *)
Theorem copy_into_empty_faithful_wild_partial :
  forall o sroot, wf_src sroot -> links_consistent sroot ->
  forall fs src dst r ms srcs i s sn L m,
    empty_dst fs -> overlay_all o sroot (view_of_fs fs) src dst = inl r -> parse_of o = Some ms ->
    (if o_wild o then resolve_wild sroot src else inl [src]) = inl srcs ->
    nth_error srcs i = Some s -> s_resolve sroot (rooted s) = inl sn ->
    nth_error (xr_landings r) i = Some L -> nth_error (xr_merged r) i = Some m ->
    (forall j Lj, j <> i -> nth_error (xr_landings r) j = Some Lj -> apart L Lj) ->
    landing_clear r sn L ->
    exists st', copy_top o sel_all sroot fs src dst = (st', None) /\
      (forall rel, iso_at o ms m sn L (view_of_fs (c_fs st')) rel = true) /\
      (no_link_groups sroot \/ o_wild o = false -> tree_iso o ms m sn L (view_of_fs (c_fs st'))).
Proof. exact copy_into_empty_faithful_wild_proof. Qed.

(* options on the entries of the i-th match, on ANY destination *)
Theorem copy_options_applied_wild_partial :
  forall o sroot, wf_src sroot -> links_consistent sroot ->
  forall fs src dst r ms srcs i s sn L m,
    wf_fs fs -> overlay_all o sroot (view_of_fs fs) src dst = inl r -> parse_of o = Some ms ->
    (if o_wild o then resolve_wild sroot src else inl [src]) = inl srcs ->
    nth_error srcs i = Some s -> s_resolve sroot (rooted s) = inl sn ->
    nth_error (xr_landings r) i = Some L -> nth_error (xr_merged r) i = Some m ->
    (forall j Lj, j <> i -> nth_error (xr_landings r) j = Some Lj -> apart L Lj) ->
    exists st', copy_top o sel_all sroot fs src dst = (st', None) /\
      (forall rel s1, s_lookup sn rel = Some s1 -> (rel = [] -> m = false) ->
         exists i1 d, view_of_fs (c_fs st') (L ++ rel) = Some (i1, d) /\
           d_uid d = fst (info_owner o (sdent s1)) /\ d_gid d = snd (info_owner o (sdent s1)) /\
           (is_lnk (sdent s1) = false -> perm12 d = info_mode o ms (sdent s1)) /\
           d_mtime d = info_time o (sdent s1) /\ ftype d = copy_type (sdent s1)) /\
      (forall p e, xr_view r p = Some e -> x_mk e = true ->
         exists i1 d, view_of_fs (c_fs st') p = Some (i1, d) /\
           (forall u g, o_chown o = Some (u, g) -> d_uid d = u /\ d_gid d = g) /\
           (forall t, o_utime o = Some t -> d_mtime d = t)).
Proof. exact copy_options_applied_wild_proof. Qed.

(* the notifier for several sources (no condition on the landing paths): the notifications for
   non-directories are, match by match and in order, the destination paths of the source
   non-directories ([nd_paths_all]: nd_paths of the 1st match at its landing path, then of the 2nd ...),
   and a directory is only ever notified with the destination path of a source directory of some match *)
Theorem notifier_exact_wild :
  forall o sroot, wf_src sroot -> links_consistent sroot ->
  forall fs src dst r srcs sns,
    wf_fs fs -> overlay_all o sroot (view_of_fs fs) src dst = inl r ->
    (if o_wild o then resolve_wild sroot src else inl [src]) = inl srcs ->
    Forall2 (fun s sn => s_resolve sroot (rooted s) = inl sn) srcs sns ->
    exists st', copy_top o sel_all sroot fs src dst = (st', None) /\
      length (xr_landings r) = length srcs /\
      map fst (filter (fun pb => negb (snd pb)) (rev (c_notifs st'))) = nd_paths_all (xr_landings r) sns /\
      (forall q, In (q, true) (rev (c_notifs st')) ->
         exists j Lj snj rel s1, nth_error (xr_landings r) j = Some Lj /\ nth_error sns j = Some snj /\
           q = Lj ++ rel /\ s_lookup snj rel = Some s1 /\ is_dir (sdent s1) = true).
Proof. exact notifier_exact_wild_proof. Qed.

(* landing_clear discharged (one literal source): the directories made for the copy proper and the
   source's own paths never violate it; what remains is ensureDstPath, and for that it is enough
   that the resolved ensure path of dst ([ensure_arg]: dst without its last component, or dst itself
   when that is empty, "." or "..") is a prefix of the landing path - e.g. every dst for which
   ensure_arg dst = [] ("n", ""), dst = "/", "a/b/", "a/b".  (dst = "a/x/..": ensure path and landing
   are both a, see ex_dotdot_repaired.) *)
Theorem landing_clear_of_ensure_prefix :
  forall o sroot, wf_src sroot ->
  forall V0 src dst r sn L,
    o_wild o = false -> x_isdir (xview_of V0 []) = true -> overlay_all o sroot V0 src dst = inl r ->
    s_resolve sroot (rooted src) = inl sn -> xr_landings r = [L] ->
    (ensure_arg dst <> [] -> forall ep, spec_resolve (xview_of V0) (ensure_arg dst) = inl ep -> exists t, L = ep ++ t) ->
    landing_clear r sn L.
Proof. exact landing_clear_of_prefix. Qed.

(* ... and the cp -a theorem with that hypothesis instead of landing_clear *)
Theorem copy_into_empty_faithful_ensure_partial :
  forall o sroot, wf_src sroot -> links_consistent sroot ->
  forall fs src dst r ms sn L m,
    o_wild o = false -> empty_dst fs ->
    overlay_all o sroot (view_of_fs fs) src dst = inl r ->
    parse_of o = Some ms -> s_resolve sroot (rooted src) = inl sn ->
    xr_landings r = [L] -> xr_merged r = [m] ->
    (ensure_arg dst <> [] -> forall ep, spec_resolve (xview_of (view_of_fs fs)) (ensure_arg dst) = inl ep -> exists t, L = ep ++ t) ->
    exists st', copy_top o sel_all sroot fs src dst = (st', None) /\
                tree_iso o ms m sn L (view_of_fs (c_fs st')).
Proof.
  intros o sroot Hsrc Hlc fs src dst r ms sn L m Hw Hemp Eo Hp Hs HL Hm Hens.
  eapply copy_into_empty_faithful_partial; eauto.
  destruct Hemp as (Hfs & _). destruct (inv_init o fs Hfs) as (_ & Hroot & _).
  eapply landing_clear_of_prefix; eauto.
Qed.

Print Assumptions copy_into_empty_faithful_partial.
Print Assumptions copy_into_empty_faithful_wild_partial.
Print Assumptions copy_options_applied_wild_partial.
Print Assumptions notifier_exact_wild.
Print Assumptions landing_clear_of_ensure_prefix.
Print Assumptions copy_into_empty_faithful_ensure_partial.
Print Assumptions copy_options_applied_partial.
Print Assumptions notifier_exact_partial.

Example ex_hypotheses :
  wf_src ex_src /\ links_consistent ex_src /\ empty_dst fs_empty /\ wf_src ex_src_links /\ links_consistent ex_src_links.
Proof.
  exact (conj (proj1 ex_src_wf) (conj (links_consistent_nolinks _ (proj2 ex_src_wf))
        (conj (conj fs_empty_wf fs_empty_empty) ex_src_links_wf))).
Qed.

Definition ex_rels : list (list (list N)) :=
  [ []; [n_d]; [n_d; n_f]; [n_d; n_l]; [n_p]; [n_x]; [n_d; n_x]; [n_f] ].

(* the whole source into the empty destination: lands on the root (merged: the root keeps its
   metadata), everything below is a faithful copy: setgid directory with owner 7:8 and an
   xattr, 0640 file with ns mtime, symlink, fifo *)
Example ex_whole_tree :
  match overlay_all o_plain ex_src (view_of_fs fs_empty) [] s_slash,
        copy_top o_plain sel_all ex_src fs_empty [] s_slash with
  | inl r, (st', None) =>
      (match xr_landings r, xr_merged r with
       | [L], [m] => path_eqb L [] && m && tree_iso_b o_plain None m ex_src L (view_of_fs (c_fs st')) ex_rels
       | _, _ => false end) &&
      (match lstat (c_fs st') [n_d], lstat (c_fs st') [n_d; n_f], lstat (c_fs st') [n_d; n_l], lstat (c_fs st') [n_p] with
       | Some d, Some f, Some l, Some p =>
           N.eqb (d_mode d) (S_IFDIR + 1517) && N.eqb (d_uid d) 7 && N.eqb (d_gid d) 8 && N.eqb (d_mtime d) 1000 &&
           N.eqb (d_mode f) (S_IFREG + 416) && N.eqb (d_mtime f) 5000000001 && bytes_eqb (d_content f) [104; 105] &&
           N.eqb (d_mode l) (S_IFLNK + 511) && bytes_eqb (d_target l) n_f && N.eqb (d_mode p) (S_IFIFO + 420)
       | _, _, _, _ => false end) &&
      (match rev (c_notifs st') with
       | [(q1, true); (q2, false); (q3, false); (q4, false)] =>
           path_eqb q1 [n_d] && path_eqb q2 [n_d; n_f] && path_eqb q3 [n_d; n_l] && path_eqb q4 [n_p]
       | _ => false end)
  | _, _ => false
  end = true.
Proof. vm_compute. reflexivity. Qed.

(* sub-directory d to the not yet existing x/y with chown 100:200, mode 0700, utime 42:
   MkdirAll makes x (owner and time as requested), the copy lands at x/y, every entry has the
   requested owner, mode (the symlink keeps 0777) and time *)
Example ex_options :
  match overlay_all o_all ex_src (view_of_fs fs_empty) n_d [120; 47; 121],
        copy_top o_all sel_all ex_src fs_empty n_d [120; 47; 121] with
  | inl r, (st', None) =>
      (match xr_landings r, xr_merged r, s_lookup ex_src [n_d] with
       | [L], [m], Some sn => path_eqb L [n_x; n_y] && negb m &&
                              tree_iso_b o_all None m sn L (view_of_fs (c_fs st')) [ []; [n_f]; [n_l]; [n_x] ]
       | _, _, _ => false end) &&
      (match lstat (c_fs st') [n_x], lstat (c_fs st') [n_x; n_y], lstat (c_fs st') [n_x; n_y; n_f], lstat (c_fs st') [n_x; n_y; n_l] with
       | Some x, Some y, Some f, Some l =>
           N.eqb (d_uid x) 100 && N.eqb (d_gid x) 200 && N.eqb (d_mtime x) 42 &&
           N.eqb (d_mode y) (S_IFDIR + 448) && N.eqb (d_uid y) 100 && N.eqb (d_mtime y) 42 &&
           N.eqb (d_mode f) (S_IFREG + 448) && N.eqb (d_gid f) 200 && N.eqb (d_mtime f) 42 &&
           N.eqb (d_mode l) (S_IFLNK + 511) && N.eqb (d_uid l) 100 && N.eqb (d_mtime l) 42
       | _, _, _, _ => false end)
  | _, _ => false
  end = true.
Proof. vm_compute. reflexivity. Qed.

(* dst = "a/x/.." with dir-contents copies the contents of d into a and does not create a/x
   (ensureDstPath ignores a final "..") *)
Example ex_dotdot_repaired :
  match copy_top o_dc sel_all ex_src fs_empty n_d [97; 47; 120; 47; 46; 46] with
  | (st', None) =>
      (match lstat (c_fs st') [n_a; n_f], lstat (c_fs st') [n_a; n_x] with
       | Some f, None => is_reg f | _, _ => false end)
  | _ => false
  end = true.
Proof. vm_compute. reflexivity. Qed.

(* link groups: d/f, d/g and h are three names of one source inode; into the empty destination
   the three copies share one inode, d/x has its own: tree_iso_b including the partition *)
Example ex_link_group :
  match overlay_all o_plain ex_src_links (view_of_fs fs_empty) [] s_slash,
        copy_top o_plain sel_all ex_src_links fs_empty [] s_slash with
  | inl r, (st', None) =>
      (match xr_landings r, xr_merged r with
       | [L], [m] => tree_iso_b o_plain None m ex_src_links L (view_of_fs (c_fs st'))
                       [ []; [n_d]; [n_d; n_f]; [n_d; n_g]; [n_d; n_x]; [n_h]; [n_x] ]
       | _, _ => false end) &&
      (match names (c_fs st') [n_d; n_f], names (c_fs st') [n_d; n_g], names (c_fs st') [n_h], names (c_fs st') [n_d; n_x] with
       | Some a, Some b, Some c, Some d => N.eqb a b && N.eqb b c && negb (N.eqb a d)
       | _, _, _, _ => false end)
  | _, _ => false
  end = true.
Proof. vm_compute. reflexivity. Qed.

(* wildcard "*" over the source with a link group into the not yet existing n/: two matches
   (d and h) land apart at n/d and n/h; each is its source tree entry by entry; the notifier
   reports d/f d/g d/x h in this order *)
Example ex_wild_matches :
  match overlay_all o_wild_on ex_src_links (view_of_fs fs_empty) [42] [110; 47],
        copy_top o_wild_on sel_all ex_src_links fs_empty [42] [110; 47],
        resolve_wild ex_src_links [42] with
  | inl r, (st', None), inl [s1; s2] =>
      (match xr_landings r, xr_merged r, s_resolve ex_src_links (rooted s1), s_resolve ex_src_links (rooted s2) with
       | [L1; L2], [m1; m2], inl sn1, inl sn2 =>
           apart_b L1 L2 && path_eqb L1 [[110]; n_d] && path_eqb L2 [[110]; n_h] &&
           forallb (iso_at o_wild_on None m1 sn1 L1 (view_of_fs (c_fs st'))) [ []; [n_f]; [n_g]; [n_x]; [n_h]; [n_d] ] &&
           forallb (iso_at o_wild_on None m2 sn2 L2 (view_of_fs (c_fs st'))) [ []; [n_f]; [n_x] ] &&
           (match map fst (filter (fun pb => negb (snd pb)) (rev (c_notifs st'))), nd_paths_all [L1; L2] [sn1; sn2] with
            | [q1; q2; q3; q4], [q1'; q2'; q3'; q4'] =>
                path_eqb q1 [[110]; n_d; n_f] && path_eqb q2 [[110]; n_d; n_g] && path_eqb q3 [[110]; n_d; n_x] &&
                path_eqb q4 [[110]; n_h] && path_eqb q1 q1' && path_eqb q2 q2' && path_eqb q3 q3' && path_eqb q4 q4'
            | _, _ => false end)
       | _, _, _, _ => false end)
  | _, _, _ => false
  end = true.
Proof. vm_compute. reflexivity. Qed.

(* ... and without link groups with the inode partition: "*" over ex_src into "/" *)
Example ex_wild_partition :
  match overlay_all o_wild_on ex_src (view_of_fs fs_empty) [42] s_slash,
        copy_top o_wild_on sel_all ex_src fs_empty [42] s_slash,
        resolve_wild ex_src [42] with
  | inl r, (st', None), inl [s1; s2] =>
      (match xr_landings r, xr_merged r, s_resolve ex_src (rooted s1), s_resolve ex_src (rooted s2) with
       | [L1; L2], [m1; m2], inl sn1, inl sn2 =>
           apart_b L1 L2 &&
           tree_iso_b o_wild_on None m1 sn1 L1 (view_of_fs (c_fs st')) [ []; [n_f]; [n_l]; [n_x] ] &&
           tree_iso_b o_wild_on None m2 sn2 L2 (view_of_fs (c_fs st')) [ []; [n_f] ]
       | _, _, _, _ => false end)
  | _, _, _ => false
  end = true.
Proof. vm_compute. reflexivity. Qed.

(* the hypothesis of landing_clear_of_ensure_prefix on the case of ex_options (dst "x/y": the ensure
   path resolves to x, the copy lands at x/y) and on dst "/" (ensure path = the root) *)
Example ex_ensure_prefix :
  match overlay_all o_all ex_src (view_of_fs fs_empty) n_d [120; 47; 121],
        spec_resolve (xview_of (view_of_fs fs_empty)) (ensure_arg [120; 47; 121]),
        overlay_all o_plain ex_src (view_of_fs fs_empty) [] s_slash,
        spec_resolve (xview_of (view_of_fs fs_empty)) (ensure_arg s_slash) with
  | inl r, inl ep, inl r', inl ep' =>
      (match xr_landings r, xr_landings r' with
       | [L], [L'] => is_prefix ep L && path_eqb ep [n_x] && path_eqb L [n_x; n_y] && is_prefix ep' L'
       | _, _ => false end)
  | _, _, _, _ => false
  end = true.
Proof. vm_compute. reflexivity. Qed.

