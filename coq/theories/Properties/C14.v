(* C14 — Copy never writes outside the destination root nor reads outside the source root.
   Statements of the property, each closed by [exact] of a lemma of Proofs/ or by a few lines from
   more general ones; the examples are computed here; [Print Assumptions] of each.
   Stated: the lexical half (copy.rootPath and fs.RootPath start from filepath.Join("/", p)), the
   shape of fs.RootPath's result, the syscall-level containment theorems copy_rec_contained /
   copy_contained over the file-system model (writes stay at or below dstRoot) and, for disjoint
   roots, copy_reads_inside (the copier's source reads stay at or below srcRoot).  What remains
   unproved (overlapping roots on the read side; fs.RootPath's own Lstat calls, for which the
   claim is refuted) is listed in props/C14.json. *)
From Coq Require Import List NArith Bool.
From FS Require Import Sx Model.Path Model.Fs Model.RootPath Model.CopyFs Model.CopyFsSpec Model.CopyFsMeta
  Proofs.Lex Proofs.PathP Proofs.CleanP Proofs.RootPathP Proofs.RootPathWitnessP Proofs.CopyContainedP
  Proofs.CopyFsWitnessP Proofs.CopyFsMetaP.
Import ListNotations.

(* Whatever the argument (any number of "..", empty components, dots, separators), the
   cleaned rooted path is absolute and has no ".." component: it denotes a location at
   or below the root. *)
Theorem clean_rooted_no_dotdot :
  forall p, is_abs (clean (sep :: p)) = true /\
            forall c, In c (comps (clean (sep :: p))) -> c <> s_dotdot.
Proof. exact clean_rooted_no_dotdot_proof. Qed.
Print Assumptions clean_rooted_no_dotdot.

Example clamp_examples :
  clean (sep :: [46;46;47;46;46;47;111]) = [47; 111]          (* "/../../o"  -> "/o" *)
  /\ clean (sep :: [97;47;46;46;47;46;46]) = [47]             (* "/a/../.."  -> "/"  *)
  /\ clean (sep :: [47;47;97;47;46;47;98]) = [47;97;47;98].   (* "///a/./b"  -> "/a/b" *)
Proof. vm_compute. repeat split. Qed.

(* fs.RootPath / copy.rootPath over the syscall-level file-system model (Model/Fs.v).
   Vocabulary (Model/RootPath.v): [render cs] = "/c1/.../cn"; [lex_name_ok] = a name (non-empty, no
   separator, not "." / ".."), [name_ok] = such a name without NUL byte; [plain_dir f d cs = Some i] = cs leads from directory d to
   directory i through real directories; [link_free f d cs] = no prefix of cs, looked up from d
   without following anything, is a symlink (missing entries allowed: "does not exist yet").
   Scope: root is a clean absolute path whose own components are real directories. *)

(* For EVERY file system, path argument (absolute, ".."-laden, through dangling or looping
   links, ...) and outcome: when fs.RootPath succeeds its result is root followed by names only,
   and no prefix of it below root is a symlink. *)
Theorem rootpath_result_link_free :
  forall c f rcs dr p out,
    forallb name_ok rcs = true ->
    plain_dir f (c_root c) rcs = Some dr ->
    root_path c f (render rcs) p = inl out ->
    exists cs, out = render (rcs ++ cs) /\ forallb name_ok cs = true /\ link_free f dr cs = true.
Proof. exact rootpath_result_link_free_proof. Qed.
Print Assumptions rootpath_result_link_free.

(* copy.rootPath: the same with followLinks; without it the final name is not examined. *)
Theorem copy_rootpath_result_link_free :
  forall c f rcs dr p follow out,
    forallb name_ok rcs = true ->
    plain_dir f (c_root c) rcs = Some dr ->
    copy_root_path c f (render rcs) p follow = inl out ->
    exists cs, out = render (rcs ++ cs) /\ forallb lex_name_ok cs = true /\
               forallb name_ok (if follow then cs else removelast cs) = true /\
               link_free f dr (if follow then cs else removelast cs) = true.
Proof. exact copy_rootpath_result_link_free_proof. Qed.
Print Assumptions copy_rootpath_result_link_free.

(* Such a path names the same directory entry and inode for every process root (the real one,
   or root itself as after chroot), with or without following the final component, whatever the
   kernel's symlink budget: "as if root were /" holds for the RESULT. *)
Theorem link_free_resolution_rootless :
  forall f dr cs,
    forallb lex_name_ok cs = true -> link_free f dr cs = true ->
    forall fuel rt1 rt2 fl1 fl2 n1 n2,
      walk fuel f rt1 dr cs fl1 n1 = walk fuel f rt2 dr cs fl2 n2.
Proof. exact link_free_resolution_rootless_proof. Qed.
Print Assumptions link_free_resolution_rootless.

(* rootpath_is_chroot_resolution — "root_path = Fs.v resolution with the process root set to
   root, for every fs and path" — is FALSE: RootPath substitutes link TARGET TEXT and lets
   filepath.Join cancel ".." lexically.  Witness (real code: corpus/C14/rootpath-not-chroot.case):
   root /j, p/y -> /r/s, p/a -> y/..; chroot resolves "p/a" to /r, RootPath to /p. *)
Theorem rootpath_is_chroot_resolution_refuted :
  exists (f : fs) (rcs : list bytes) (dr : N) (p out : bytes) (r1 r2 : lres),
    forallb name_ok rcs = true /\ plain_dir f (c_root ctx_init) rcs = Some dr /\
    root_path ctx_init f (render rcs) p = inl out /\
    copy_root_path ctx_init f (render rcs) p true = inl out /\
    resolve {| c_root := dr; c_cwd := dr |} f p true = inl r1 /\
    resolve ctx_init f out true = inl r2 /\
    l_ino r1 <> l_ino r2.
Proof. exact rootpath_is_chroot_resolution_refuted_proof. Qed.
Print Assumptions rootpath_is_chroot_resolution_refuted.

(* RootPath's Lstat calls are ordinary, un-rooted lookups: an absolute symlink in the middle of a
   multi-component link target sends them outside root, and the outcome depends on what is there.
   Two file systems identical at and below root, different results
   (real code: corpus/C14/rootpath-reads-outside.case).  The result itself stays below root
   (rootpath_result_link_free). *)
Theorem rootpath_reads_outside_root_refuted :
  exists (f f' : fs) (rcs : list bytes) (dr : N) (p : bytes),
    forallb name_ok rcs = true /\
    plain_dir f (c_root ctx_init) rcs = Some dr /\ plain_dir f' (c_root ctx_init) rcs = Some dr /\
    get f dr = get f' dr /\ tree_below 64 f dr [] = tree_below 64 f' dr [] /\
    root_path ctx_init f (render rcs) p <> root_path ctx_init f' (render rcs) p.
Proof. exact rootpath_reads_outside_root_refuted_proof. Qed.
Print Assumptions rootpath_reads_outside_root_refuted.

(* non-vacuity: a successful run through an absolute link, a "..", and a dangling final link *)
Example rootpath_examples :
  root_path ctx_init wA (render [[106]]) [112;47;121;47;46;46;47;46;46;47;46;46;47;112;47;121] = inl [47;106;47;114;47;115]
  (* "p/y/../../../p/y" -> "/j/r/s" *)
  /\ plain_dir wA 1 [[106]] = Some 2
  /\ link_free wA 2 [[114];[115]] = true /\ link_free wA 2 [[112];[121]] = false.
Proof. vm_compute. repeat split. Qed.

(* The copier over the syscall-level model (Model/CopyFs.v, validated against the real copy.Copy
   by kind 1404).  Vocabulary (Model/CopyFsSpec.v): [chain f d cs e] = the names cs lead from
   directory d to directory e through real directories; [inside_dir f dr i] = i is dr or a
   directory below it; [fs_wf] = allocation counter above all numbers in use, unique proper entry
   names, one parent entry per directory, no directory below itself. *)

(* copier.copy / copyDirectory (copy_rec) into "<dstRoot>/cs/pend/x" where cs are real directories
   and pend are the parents whose creation is deferred (IncludePatterns: the uncopied entries of
   the parentDirs stack ps are exactly the paths "<dstRoot>/cs/p1", "<dstRoot>/cs/p1/p2", …;
   whatever lies at those names in the destination — symlinks to the outside included):
   whatever the source, the options, the selector (ANY include / exclude functions), the symlinks
   and hard links below, of the inodes that existed before only DIRECTORIES at or below dstRoot can
   have changed: no file anywhere (not even one inside dstRoot that is also linked from outside),
   no directory outside, not dstRoot's entry in its parent. *)
Theorem copy_rec_contained :
  forall fuel c o sl src comps ow pinc pexc f0 dr dcs cs pend x d ps s' r,
    fs_wf f0 ->
    forallb name_ok dcs = true -> chain f0 (c_root c) dcs dr -> (length dcs < rfuel)%nat ->
    forallb name_ok cs = true -> forallb name_ok pend = true -> name_ok x = true -> chain f0 dr cs d ->
    uncopied_targets ps = deferred_targets dcs cs pend ->
    copy_rec fuel c o sl src comps (render (dcs ++ cs ++ pend ++ [x])) ow pinc pexc (cst_with_parents f0 ps) = (s', r) ->
    forall i, (i < f_next f0)%N -> ~ inside_dir f0 dr i -> get (s_fs s') i = get f0 i.
Proof. exact copy_rec_contained_proof. Qed.
Print Assumptions copy_rec_contained.

(* Copy (copy_top): argument resolution through fs.RootPath, MkdirAll, prepareTargetDir, the loop
   over the (wildcard) sources, copier.copy with the hard-link map (forgetLinkSources) and the
   deferred fixCreatedParentDirs (stillBelow), include / exclude selection with the deferred
   parents (createParentDirs BEFORE removeTargetIfNeeded) — the code as repaired after the escapes
   found (corpus/C14/hardlink-path-reresolved.case, created-dir-path-replaced.case,
   deferred-parent-symlink.case).
   For every well-formed file system, every option set of the model (follow-links, always-replace,
   dir-contents, chown, utime, mode), every selector (osl = None: invalid patterns; Some sl: ANY
   include / exclude functions — the matcher is a parameter), every source / destination argument
   and EVERY list of wildcard matches: of the inodes that existed before, only directories at or below dstRoot can have
   changed.  Hence nothing outside dstRoot changes: no outside file or directory (content, metadata,
   entries), no inode hard-linked from outside, not dstRoot's own entry in its parent.
   srcRoot and dstRoot are clean absolute paths whose components are real directories; srcRoot is
   dstRoot or lies outside it; no NUL byte in the source arguments. *)
Theorem copy_contained :
  forall fuel c o osl scs src dcs dst matches f0 dr sr s' res,
    fs_wf f0 ->
    forallb name_ok dcs = true -> chain f0 (c_root c) dcs dr -> (length dcs < rfuel)%nat ->
    forallb name_ok scs = true -> chain f0 (c_root c) scs sr -> (length scs < rfuel)%nat ->
    (scs = dcs \/ ~ inside_dir f0 dr sr) ->
    has_nul src = false -> (forall l, matches = Some l -> forallb (fun m => negb (has_nul m)) l = true) ->
    copy_top fuel c o osl (render scs) src (render dcs) dst matches (cst_init f0) = (s', res) ->
    forall i, (i < f_next f0)%N -> ~ inside_dir f0 dr i -> get (s_fs s') i = get f0 i.
Proof. exact copy_contained_proof. Qed.
Print Assumptions copy_contained.

(* The source side.  s_reads is the model's log of the inodes named by the copier's own source-path
   calls: Lstat of every entry it visits, the directory listings, os.Open of regular files, os.Stat of
   the deferred parents (createParentDirs), the xattr reads (readlink names the inode Lstat did).
   For every well-formed file system, every option set, selector, source / destination argument and
   list of wildcard matches, when srcRoot and dstRoot are disjoint (neither lies at or below the
   other): every inode read is srcRoot, a directory below it reached through real directories, or an
   entry of such a directory — all in the INITIAL file system (the tree below srcRoot does not change
   during the copy): the walk never follows a symlink out of srcRoot, whatever the links point to.
   Not included: the Lstat calls inside fs.RootPath on the components of the path ARGUMENTS (they do
   leave the root: rootpath_reads_outside_root_refuted) and reads on the destination side. *)
Theorem copy_reads_inside :
  forall fuel c o osl scs src dcs dst matches f0 dr sr s' res,
    fs_wf f0 ->
    forallb name_ok dcs = true -> chain f0 (c_root c) dcs dr -> (length dcs < rfuel)%nat ->
    forallb name_ok scs = true -> chain f0 (c_root c) scs sr -> (length scs < rfuel)%nat ->
    ~ inside_dir f0 dr sr -> ~ inside_dir f0 sr dr ->
    has_nul src = false -> (forall l, matches = Some l -> forallb (fun m => negb (has_nul m)) l = true) ->
    copy_top fuel c o osl (render scs) src (render dcs) dst matches (cst_init f0) = (s', res) ->
    forall i, In i (s_reads s') -> src_reach f0 sr i.
Proof. exact copy_reads_inside_proof. Qed.
Print Assumptions copy_reads_inside.

(* Overlapping roots (srcRoot = dstRoot, or dstRoot below srcRoot): the tree below srcRoot changes
   during the copy, and copy_reads_inside in its present form does not apply.  What is static whatever
   the roots: a directory that existed before and is reached from any directory a through real
   directories after the copy (any state of the invariant) was reached from a by the same names
   initially — the copier never links or moves an old directory, and the directories it creates
   contain no old ones.  So an old directory found below srcRoot was below srcRoot from the start.
   (The guarantee for the reads themselves, "of the inodes that existed before, the copier reads only
   those at or below srcRoot", is checked on every run of kind 1404, overlapping roots included; its
   proof for overlapping roots is listed as unproved in props/C14.json.) *)
Theorem copy_old_dirs_static :
  forall fuel c o osl scs src dcs dst matches f0 dr sr s' res,
    fs_wf f0 ->
    forallb name_ok dcs = true -> chain f0 (c_root c) dcs dr -> (length dcs < rfuel)%nat ->
    forallb name_ok scs = true -> chain f0 (c_root c) scs sr -> (length scs < rfuel)%nat ->
    (scs = dcs \/ ~ inside_dir f0 dr sr) ->
    has_nul src = false -> (forall l, matches = Some l -> forallb (fun m => negb (has_nul m)) l = true) ->
    copy_top fuel c o osl (render scs) src (render dcs) dst matches (cst_init f0) = (s', res) ->
    forall a ns d, chain (s_fs s') a ns d -> (d < f_next f0)%N -> chain f0 a ns d.
Proof. exact copy_old_dirs_static_proof. Qed.
Print Assumptions copy_old_dirs_static.

(* Overlapping roots, the case that closes.  dstRoot may lie BELOW srcRoot (srcRoot is not inside
   dstRoot); the source argument is a single name y (no wildcards, FollowLinks off) that names a
   directory st of srcRoot, and st and dstRoot are disjoint (neither at or below the other) — "copy
   the sibling directory y into the directory dstRoot of the same tree".  Then every inode the
   copier's source-path calls name is st, a directory below it or an entry of one, in the initial
   file system: the walk stays in the part of the source tree that the copy cannot change.
   The FULL statement, not proved (props/C14.json, unproved_statements):
     forall roots with srcRoot = dstRoot, dstRoot below srcRoot or srcRoot below dstRoot, every source
     argument / FollowLinks / wildcard match list:
       forall i, In i (s_reads s') -> (i < f_next f0)%N -> src_reach f0 sr i
   It needs the dynamic invariant "no prefix of a pending source path (the directories on the
   recursion stack and the entry being copied) becomes a symlink" through every destination operation;
   the statement is evaluated as an oracle on every run of kind 1404 (class copyfs-overlapping-roots). *)
Theorem copy_reads_inside_overlap_partial :
  forall fuel c o osl scs y dcs dst f0 dr sr st s' res,
    fs_wf f0 ->
    forallb name_ok dcs = true -> chain f0 (c_root c) dcs dr -> (length dcs < rfuel)%nat ->
    forallb name_ok scs = true -> chain f0 (c_root c) scs sr -> (length scs + 1 < rfuel)%nat ->
    ~ inside_dir f0 dr sr ->
    name_ok y = true -> blookup y (dents f0 sr) = Some st -> is_dir f0 st = true ->
    ~ inside_dir f0 dr st -> ~ inside_dir f0 st dr ->
    o_follow o = false ->
    copy_top fuel c o osl (render scs) y (render dcs) dst None (cst_init f0) = (s', res) ->
    forall i, In i (s_reads s') -> src_reach f0 st i.
Proof. exact copy_reads_inside_overlap_partial_proof. Qed.
Print Assumptions copy_reads_inside_overlap_partial.

(* A symlink met at a target name "<dstRoot>/cs/x" (cs real directories) is never traversed:
   ensureEmptyFileTarget (non-directory source) unlinks it — the name is gone, the link inode and
   whatever it points to untouched — and copyDirectoryOnly (directory source) reports the conflict
   without touching anything.  (That no later call goes through such a link either is part of
   copy_contained: the outside is unchanged whatever the links point to.) *)
Theorem dest_symlink_never_followed_partial :
  forall c f0 dr dcs cs x d i t m,
    fs_wf f0 ->
    forallb name_ok dcs = true -> chain f0 (c_root c) dcs dr -> (length dcs < rfuel)%nat ->
    forallb name_ok cs = true -> name_ok x = true -> chain f0 dr cs d ->
    blookup x (dents f0 d) = Some i -> get f0 i = Some {| i_kind := KLink t; i_meta := m |} ->
    (forall s' r, ensure_empty_file_target c (render (dcs ++ cs ++ [x])) (cst_init f0) = (s', r) -> r = inl tt ->
        blookup x (dents (s_fs s') d) = None /\ get (s_fs s') i = get f0 i) /\
    (forall fi ow s' r, copy_directory_only c (render (dcs ++ cs ++ [x])) fi ow (cst_init f0) = (s', r) ->
        (exists e, r = inr e) /\ s_fs s' = f0).
Proof.
  intros c f0 dr dcs cs x d i t m W H1 H2 H3 H4 H5 H6 H7 H8. split.
  - intros s' r. exact (dest_symlink_unlinked c f0 dr dcs cs x d i t m W H1 H2 H3 H4 H5 H6 H7 H8 s' r).
  - intros fi ow s' r. exact (dest_symlink_reported c f0 dr dcs cs x d i t m W H1 H2 H3 H4 H5 H6 H7 H8 fi ow s' r).
Qed.
Print Assumptions dest_symlink_never_followed_partial.

(* The metadata calls.  The copier model's calls for ownership, times and xattrs are
   sys_lchown / sys_utimens / sys_lsetxattr (in the real code: os.Lchown, utimensat with
   AT_SYMLINK_NOFOLLOW, LSetxattr; that the model issues no others is read off Model/CopyFs.v,
   not stated here), and each of these changes nothing but the inode the path names
   WITHOUT following a final symlink.  chmod, which follows, is behind a "not a symlink" guard:
   copyFileInfo of a symlink source is exactly Lchown + no-follow Utimes (no chmod), and
   copyDirectoryOnly, which chmods an existing destination directory, reports a symlink found there
   and changes nothing.  (The flavours of the REAL calls are compared with this by kind 1405, which
   runs copy.Copy under strace.) *)
Theorem metadata_calls_nofollow :
  (forall c f p u g f' r, sys_lchown c f p u g = (f', r) -> nofollow_call c f p f') /\
  (forall c f p t f' r, sys_utimens c f p t = (f', r) -> nofollow_call c f p f') /\
  (forall c f p k v f' r, sys_lsetxattr c f p k v = (f', r) -> nofollow_call c f p f') /\
  (forall c o fi name, kind_is_link fi = true ->
     forall s, copy_file_info c o fi name s = copy_file_info_link c o fi name s) /\
  (forall c dst fi ow s i t m,
     snd (sys_lstat c (s_fs s) dst) = RStat i {| i_kind := KLink t; i_meta := m |} ->
     exists e, copy_directory_only c dst fi ow s =
               ({| s_fs := s_fs s; s_links := s_links s; s_parents := s_parents s; s_reads := s_reads s |}, inr e)).
Proof. exact metadata_calls_nofollow_proof. Qed.
Print Assumptions metadata_calls_nofollow.

(* non-vacuity: the witness of the hard-link-path escape on the model of the repaired code.
   /o/h (inode 3, mode 0600) is outside; Copy("/s", "?/?" = p/h q/h r/g, "/d", "/") succeeds, the
   destination holds g (a fresh regular file, not a link to the symlink) and h (the symlink), and
   /o/h is untouched. *)
Example copy_examples :
  snd wC_run = inl tt
  /\ resolve_ino ctx_init wC [47;111;47;104] false = inl 3
  /\ get (s_fs (fst wC_run)) 3 = get wC 3
  /\ map (fun e => fst (fst e)) (tree_below 8 (s_fs (fst wC_run)) 5 []) = [[103]; [104]]
  /\ resolve_ino ctx_init (s_fs (fst wC_run)) [47;100;47;103] true = inl 13.
Proof. vm_compute. repeat split. Qed.

(* non-vacuity of the deferred-parent case: the witness of corpus/C14/deferred-parent-symlink.case on
   the model of the repaired order.  /o/d/a (inode 4) is outside, /d/b -> /o/d; Copy("/s", "/", "/d",
   "/") with IncludePatterns ["b/a"], AlwaysReplaceExistingDestPaths, CopyDirContents reports the
   conflict at /d/b and /o/d/a is still there, unchanged. *)
Example copy_deferred_parent_example :
  (exists e, snd wD_run = inr e)
  /\ resolve_ino ctx_init wD [47;111;47;100;47;97] false = inl 4
  /\ resolve_ino ctx_init (s_fs (fst wD_run)) [47;111;47;100;47;97] false = inl 4
  /\ get (s_fs (fst wD_run)) 4 = get wD 4.
Proof. vm_compute. repeat split. eexists; reflexivity. Qed.

(* non-vacuity of copy_reads_inside: what the two runs above read.  wC: only p/h = r/g (inode 7) and
   the symlink q/h itself (9) — never its target /o/h (3); wD: srcRoot (5), b (7), b/a (8). *)
Example copy_reads_examples :
  s_reads (fst wC_run) = [7; 7; 7; 7; 9; 9; 9; 7; 7; 7; 7]%N
  /\ s_reads (fst wD_run) = [7; 8; 7; 7; 5; 5; 5]%N.
Proof. vm_compute. split; reflexivity. Qed.
