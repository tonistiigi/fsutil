(* C05 — Change notifications mirror exactly what changed in dest, with true digests
   (abstract layer).  Statements of the property, each closed by [exact] of a lemma of Proofs/ or
   by a few lines from a more general one; the examples (among them the witness
   [honesty_needed]) are computed here; [Print Assumptions] of each.
   Models: Model/Diff.v, Model/AbsDest.v (abstract DiskWriter.HandleChange / processChange,
   notifications, [replay] = what a consumer of the notifications can rebuild: path ->
   (stat, digest); [nview D] = that view of a destination map; H / hdr = the hash and the header
   bytes of the caller's ContentHasher, arbitrary).
   Vocabulary: see Properties/C02.v.

   The receiver's Filter (ReceiveOpt.Filter, handed to the differ and to the DiskWriter) is the
   parameter [wf] of [receive_abs_f] (theorems *_filtered below): the writer works on a copy of
   the stat rewritten by the filter — that is what reaches the disk —, the notification and the
   hashed header keep the stat AS SENT.  [filter_ok wf]: the filter never answers "skip" and keeps
   path, type bits and link name.  All other theorems are the case "no filter".
   Not here: the order in which file contents
   complete — the model emits the notification of a regular file at the position of its
   HandleChange call; [notify_order_independent] below shows that ANY order in which no
   notification precedes a notification for one of its ancestors rebuilds the same view (the
   real notification of a regular file is emitted by a goroutine started by its own
   HandleChange call, hence after those of its ancestor directories; all others come in path
   order); the timing-dependent hard-link exception (the destination listing is an input at
   this layer).

   Hard links.  A notification carries the stat AS SENT; the destination gives a new hard link
   the metadata of the inode it joins (AbsDest.link_stat: os.Link, no rewriteMetadata).  The two
   agree exactly when the sender is honest — every hard-link entry carries the metadata of the
   entry it names, which is what every walk produces.  Decidable forms of that hypothesis:
     recv_honest m d A B      every hard-link change the writer applies announces the stat the
                              new name then shows (judged along the run; any listings, any mode)
     links_meta B             listing level: a hard-link entry of B has the mode, uid, gid, size,
                              mtime, device numbers and xattrs of the entry of B it names
     link_xattrs_kept d A B   a link target that stays in place (same identity key in A and B)
                              has the same xattrs in A and B (xattrs are not part of the key)
   [honesty_needed] below: without it the replayed view differs from the destination. *)
From Coq Require Import List NArith Bool Sorting.Sorted.
From FS Require Import Sx Model.Path Model.Stat Model.Diff Model.AbsDest
  Proofs.DiffP Proofs.AbsDestP Proofs.ReceiveP Proofs.ReplayP Proofs.NotifyOrderP Proofs.FilterRecvP.
From Coq Require Import Sorting.Permutation.
Import ListNotations.
Open Scope N_scope.

Notation idf := (fun s : stat => s).

(* No hypothesis on the listings: for ALL listings, both modes, even when the transfer stops on
   an error — provided the hard-link changes applied are honest — replaying the notifications on
   the consumer's view of the old destination gives exactly the consumer's view of the
   destination as the writer left it (the stat each path shows + digest of header and stored
   bytes; removed subtrees gone). *)
Theorem notify_replays_any : forall (H : bytes -> bytes) (hdr : stat -> bytes) d A B m,
  recv_honest m d A B = true ->
  let r := receive_abs H hdr m d A B in
  replay (ds_notifs r) (nview H hdr (dest_of A)) = nview H hdr (ds_map r).
Proof. exact ReceiveP.notify_replays_any. Qed.

(* ... and under the hypotheses (both listings sorted and ancestor-closed, hard links name an
   earlier entry that is neither a directory nor a symlink and carry its metadata, same identity key => same bytes, link targets
   that stay in place have the source's xattrs) the transfer does not fail, every hard-link
   change is honest, and that new destination is the source's view: at every path the same
   identity key as the source's entry and, for regular files and hard links, the same bytes;
   nothing where the source has nothing. *)
Theorem notify_replays : forall (H : bytes -> bytes) (hdr : stat -> bytes) d A B,
  wf_listing (map fst A) -> wf_listing (map fst B) -> links_ok B -> identity_faithful d A B ->
  links_meta B -> link_xattrs_kept d A B ->
  let r := receive_abs H hdr Fresh d A B in
  ds_err r = false /\
  recv_honest Fresh d A B = true /\
  replay (ds_notifs r) (nview H hdr (dest_of A)) = nview H hdr (ds_map r) /\
  forall p, view_equiv (alookup p (ds_map r)) (efind p B).
Proof.
  intros H hdr d A B HwA HwB Hl Hf Hm Hxk. cbv zeta.
  destruct (receive_fresh_proof H hdr d A B HwA HwB Hl Hf Hm) as (He & _ & Hv & _).
  pose proof (receive_fresh_honest H hdr d A B HwA HwB Hl Hf Hm Hxk) as Hh.
  split; auto. split; auto. split; auto. apply (ReceiveP.notify_replays_any H hdr d A B Fresh Hh).
Qed.

(* With an honest sender that is not known to keep xattrs (the weaker listing-level hypothesis):
   still no failure and the source's identity key and bytes at every path. *)
Theorem transfer_shows_source : forall (H : bytes -> bytes) (hdr : stat -> bytes) d A B,
  wf_listing (map fst A) -> wf_listing (map fst B) -> links_ok B -> identity_faithful d A B ->
  links_meta B ->
  let r := receive_abs H hdr Fresh d A B in
  ds_err r = false /\ forall p, view_equiv (alookup p (ds_map r)) (efind p B).
Proof.
  intros H hdr d A B HwA HwB Hl Hf Hm. cbv zeta.
  destruct (receive_fresh_proof H hdr d A B HwA HwB Hl Hf Hm) as (He & _ & Hv & _). auto.
Qed.

(* ... and whatever metadata the hard-link entries carry: no failure, every path of the source
   present as a directory / non-directory like the source's entry, with the source's bytes, and
   with the source's identity key unless it is a hard link. *)
Theorem transfer_shows_source_weak : forall (H : bytes -> bytes) (hdr : stat -> bytes) d A B,
  wf_listing (map fst A) -> wf_listing (map fst B) -> links_ok B -> identity_faithful d A B ->
  let r := receive_abs H hdr Fresh d A B in
  ds_err r = false /\ forall p, view_equiv_w (alookup p (ds_map r)) (efind p B).
Proof.
  intros H hdr d A B HwA HwB Hl Hf. cbv zeta.
  destruct (receive_fresh_weak H hdr d A B HwA HwB Hl Hf) as (He & _ & Hv & _). auto.
Qed.

(* (No honesty needed from here to notify_digest.)
   The notifications are exactly the images of the changes of the specification (C02
   diff_changes_exact): one per added path, one per common path whose identity differs — a
   regular file whose content is transferred is announced as ADD, everything else with the
   kind of the change —, one delete per top-most removed path; nothing for a path that exists
   unchanged; no path twice. *)
Theorem notify_exact : forall (H : bytes -> bytes) (hdr : stat -> bytes) d A B,
  wf_listing (map fst A) -> wf_listing (map fst B) -> links_ok B -> identity_faithful d A B ->
  let r := receive_abs H hdr Fresh d A B in
  ds_err r = false /\
  ds_notifs r = map (notif_of (src_of B) H hdr) (diff idf d (map fst A) (map fst B)) /\
  (forall n, In n (ds_notifs r) <->
     exists c, spec_change idf d (map fst A) (map fst B) c /\ n = notif_of (src_of B) H hdr c) /\
  NoDup (map notif_path (ds_notifs r)).
Proof. exact notify_exact_proof. Qed.

(* The digest announced for a path is the hash of the header of the stat as sent followed by
   exactly the bytes the destination finally holds there; header only when no content is
   transferred (directories, links, special files). *)
Theorem notify_digest : forall (H : bytes -> bytes) (hdr : stat -> bytes) d A B,
  wf_listing (map fst A) -> wf_listing (map fst B) -> links_ok B -> identity_faithful d A B ->
  let r := receive_abs H hdr Fresh d A B in
  forall k p st dg, In (k, p, Some (st, dg)) (ds_notifs r) ->
  exists e, alookup p (ds_map r) = Some e /\
            dg = H (hdr st ++ (if wants_content st then de_bytes e else [])).
Proof. exact notify_digest_proof. Qed.

(* With the receiver's Filter: as far as destination, requests and failure are concerned, a transfer through the filter is
   the plain transfer of the source with every stat rewritten by the filter ([filter_entries]);
   the writer executed exactly the rewritten changes of that transfer, and the notifications
   are the images of the changes AS RECEIVED. *)
Theorem filtered_transfer_reduces : forall wf, filter_ok wf ->
  forall (H : bytes -> bytes) (hdr : stat -> bytes) d A B m,
  wf_listing (map fst A) -> wf_listing (map fst B) ->
  let r := receive_abs_f wf H hdr m d A B in
  let r' := receive_abs H hdr m d A (filter_entries wf B) in
  ds_map r = ds_map r' /\ ds_err r = ds_err r' /\ ds_reqs r = ds_reqs r' /\
  map (restat wf) (ds_changes r) = ds_changes r' /\
  ds_notifs r = map (notif_of (src_of B) H hdr) (ds_changes r) /\
  (ds_err r = false ->
   ds_changes r = diff (filter_stat wf) d (match m with Fresh => map fst A | Merge => [] end) (map fst B)).
Proof. exact receive_abs_f_reduce. Qed.

(* notify_exact with a filter: no failure; the notifications are exactly the images — with the
   stat AS SENT and the digest of ITS header — of the changes of the specification for the
   differ with that filter; no path twice.  [identity_faithful] speaks of the filtered source:
   same identity key after the filter => same bytes. *)
Theorem notify_exact_filtered : forall wf, filter_ok wf ->
  forall (H : bytes -> bytes) (hdr : stat -> bytes) d A B,
  wf_listing (map fst A) -> wf_listing (map fst B) -> links_ok B ->
  identity_faithful d A (filter_entries wf B) ->
  let r := receive_abs_f wf H hdr Fresh d A B in
  ds_err r = false /\
  ds_notifs r = map (notif_of (src_of B) H hdr) (diff (filter_stat wf) d (map fst A) (map fst B)) /\
  (forall n, In n (ds_notifs r) <->
     exists c, spec_change (filter_stat wf) d (map fst A) (map fst B) c /\ n = notif_of (src_of B) H hdr c) /\
  NoDup (map notif_path (ds_notifs r)).
Proof. exact notify_exact_f_proof. Qed.

(* notify_digest with a filter: the digest announced is the hash of the header of the stat AS
   SENT followed by the bytes the destination finally holds; the destination's own stat at that
   path is the FILTERED one (identity key; for a hard link: that of the inode it joined). *)
Theorem notify_digest_filtered : forall wf, filter_ok wf ->
  forall (H : bytes -> bytes) (hdr : stat -> bytes) d A B,
  wf_listing (map fst A) -> wf_listing (map fst B) -> links_ok B ->
  identity_faithful d A (filter_entries wf B) ->
  let r := receive_abs_f wf H hdr Fresh d A B in
  forall k p st dg, In (k, p, Some (st, dg)) (ds_notifs r) ->
  exists e, alookup p (ds_map r) = Some e /\
            dg = H (hdr st ++ (if wants_content st then de_bytes e else [])) /\
            (is_hardlink st = false -> same_file DMetadata (de_stat e) (filter_stat wf st) = true).
Proof. exact notify_digest_f_proof. Qed.

(* Order independence, general form: two lists of notifications that are permutations of each
   other, without duplicate paths, both "ancestors first" (no notification is followed by one
   for an ancestor of its path), rebuild the same view from any starting view. *)
Theorem replay_order_independent : forall ns ns',
  NoDup (map npath ns) -> ancestors_first ns -> Permutation ns ns' -> ancestors_first ns' ->
  forall M p, alookup p (replay ns' M) = alookup p (replay ns M).
Proof. exact ReplayP.replay_order_independent. Qed.

(* ... hence the notifications of a transfer, received in ANY ancestors-first order — whatever
   the completion order of the file contents — rebuild the view of the new destination. *)
Theorem notify_order_independent : forall (H : bytes -> bytes) (hdr : stat -> bytes) d A B,
  wf_listing (map fst A) -> wf_listing (map fst B) -> links_ok B -> identity_faithful d A B ->
  links_meta B -> link_xattrs_kept d A B ->
  let r := receive_abs H hdr Fresh d A B in
  forall ns', Permutation (ds_notifs r) ns' -> ancestors_first ns' ->
  forall p, alookup p (replay ns' (nview H hdr (dest_of A))) = alookup p (nview H hdr (ds_map r)).
Proof. exact notify_order_independent_proof. Qed.

Print Assumptions notify_replays_any.
Print Assumptions replay_order_independent.
Print Assumptions notify_order_independent.
Print Assumptions notify_replays.
Print Assumptions transfer_shows_source.
Print Assumptions transfer_shows_source_weak.
Print Assumptions notify_exact.
Print Assumptions notify_digest.
Print Assumptions filtered_transfer_reduces.
Print Assumptions notify_exact_filtered.
Print Assumptions notify_digest_filtered.

Definition mk (p : bytes) (mode uid gid size mtime : N) (ln : bytes) : stat :=
  {| st_path := p; st_mode := mode; st_uid := uid; st_gid := gid; st_size := size; st_mtime := mtime;
     st_linkname := ln; st_devmajor := 0; st_devminor := 0; st_xattrs := [] |}.
Definition pa := [97]. Definition pb := [98]. Definition pc := [99].
Definition p_ax := [97; 47; 120]. Definition p_by := [98; 47; 121].
Definition dir (p : bytes) (perm : N) := mk p (ModeDir + perm) 0 0 0 7 [].
Definition file (p : bytes) (mt : N) := mk p 420 0 0 3 mt [].
(* transparent hash, header = path + a marker *)
Definition Hx (b : bytes) : bytes := b.
Definition hx (s : stat) : bytes := st_path s ++ [0].

Definition exA : list entry :=
  [ (dir pa 448, []); (file p_ax 1, [1;1;1]);      (* a/ 0700 -> 0755 : metadata only (F5) *)
    (dir pb 493, []); (file p_by 1, [2;2;2]);      (* b/ -> file b *)
    (file pc 1, [3;3;3]) ].                        (* c deleted *)
Definition exB : list entry :=
  [ (dir pa 493, []); (file p_ax 1, [1;1;1]); (file pb 5, [8;8]) ].

(* exB plus c as a NEW NAME of the unchanged a/x (c was a file of its own), honestly announced *)
Definition exBl : list entry := exB ++ [ (mk pc 420 0 0 3 1 p_ax, [1;1;1]) ].
(* the same, announced with another mode and owner than a/x has *)
Definition exBd : list entry := exB ++ [ (mk pc 384 7 0 3 1 p_ax, [1;1;1]) ].

Example hypotheses_satisfiable :
  (wf_listing (map fst exA) /\ wf_listing (map fst exB) /\ links_ok exB
   /\ identity_faithful DMetadata exA exB /\ links_meta exB /\ link_xattrs_kept DMetadata exA exB)
  /\ (wf_listing (map fst exBl) /\ links_ok exBl /\ identity_faithful DMetadata exA exBl
      /\ links_meta exBl /\ link_xattrs_kept DMetadata exA exBl).
Proof.
  split.
  - split; [apply listing_ok_b_iff; vm_compute; reflexivity|].
    split; [apply listing_ok_b_iff; vm_compute; reflexivity|].
    split; [apply links_ok_b_sound; vm_compute; reflexivity|].
    split; [apply identity_faithful_b_sound; vm_compute; reflexivity|].
    split; [apply links_meta_b_sound; vm_compute; reflexivity|].
    apply link_xattrs_kept_b_sound; vm_compute; reflexivity.
  - split; [apply listing_ok_b_iff; vm_compute; reflexivity|].
    split; [apply links_ok_b_sound; vm_compute; reflexivity|].
    split; [apply identity_faithful_b_sound; vm_compute; reflexivity|].
    split; [apply links_meta_b_sound; vm_compute; reflexivity|].
    apply link_xattrs_kept_b_sound; vm_compute; reflexivity.
Qed.

(* an honest new hard link: announced as a modify with a header-only digest, it shares inode
   class and bytes with a/x, and the replayed view is the destination *)
Example example_link_notification :
  let r := receive_abs Hx hx Fresh DMetadata exA exBl in
  recv_honest Fresh DMetadata exA exBl = true
  /\ nth_error (ds_notifs r) 2 = Some (KModify, pc, Some (mk pc 420 0 0 3 1 p_ax, [99; 0]))
  /\ option_map de_ino (alookup pc (ds_map r)) = option_map de_ino (alookup p_ax (ds_map r))
  /\ option_map de_bytes (alookup pc (ds_map r)) = Some [1;1;1]
  /\ replay (ds_notifs r) (nview Hx hx (dest_of exA)) = nview Hx hx (ds_map r).
Proof. vm_compute. repeat split; reflexivity. Qed.

(* the hypothesis is needed: a hard link announced with another mode and owner than its target
   shows the target's (the inode's) — the notification says 0600 uid 7, the destination has
   0644 uid 0, under the announced path and link name *)
Example honesty_needed :
  let r := receive_abs Hx hx Fresh DMetadata exA exBd in
  ds_err r = false
  /\ links_ok exBd /\ recv_honest Fresh DMetadata exA exBd = false /\ links_meta_b exBd = false
  /\ option_map fst (alookup pc (replay (ds_notifs r) (nview Hx hx (dest_of exA)))) = Some (mk pc 384 7 0 3 1 p_ax)
  /\ option_map fst (alookup pc (nview Hx hx (ds_map r))) = Some (mk pc 420 0 0 3 1 p_ax).
Proof.
  cbv zeta. split; [vm_compute; reflexivity|]. split; [apply links_ok_b_sound; vm_compute; reflexivity|].
  vm_compute. repeat split; reflexivity.
Qed.

(* the directory whose mode changed is notified (modify, header-only digest), the file
   replacing a directory is announced as ADD with header + content, its old subtree is not
   mentioned, the deleted file is; replaying that on the old view gives the new view *)
Example example_notifications :
  let r := receive_abs Hx hx Fresh DMetadata exA exB in
  ds_notifs r = [ (KModify, pa, Some (dir pa 493, [97; 0]));
                  (KAdd, pb, Some (file pb 5, [98; 0; 8; 8]));
                  (KDelete, pc, None) ]
  /\ map fst (replay (ds_notifs r) (nview Hx hx (dest_of exA))) = [pb; pa; p_ax]
  /\ alookup p_ax (replay (ds_notifs r) (nview Hx hx (dest_of exA))) = Some (file p_ax 1, [97; 47; 120; 0; 1; 1; 1]).
Proof. vm_compute. repeat split; reflexivity. Qed.

(* merge mode: the destination walker is empty, everything of the source is an add *)
Example example_merge :
  let r := receive_abs Hx hx Merge DMetadata exA exB in
  map (fun n => (fst (fst n))) (ds_notifs r) = [KAdd; KAdd; KAdd]
  /\ ds_reqs r = [p_ax; pb]
  /\ option_map de_bytes (alookup pc (ds_map r)) = Some [3;3;3]   (* c is kept *)
  /\ alookup p_by (ds_map r) = None.                              (* below the replaced directory *)
Proof. vm_compute. repeat split; reflexivity. Qed.

(* a umask-022 filter: the kept directory a/ (0700 -> 0777 at the source) is notified with the
   stat AS SENT (0777) and the header of that stat, the destination holds 0755; the new file b
   (0666 as sent) is stored 0644 and announced 0666 *)
Example filter_ok_satisfiable : filter_ok umask22.
Proof. exact umask22_ok. Qed.
Definition exBf : list entry :=
  [ (dir pa 511, []); (file p_ax 1, [1;1;1]); (mk pb 438 0 0 2 5 [], [8;8]) ].
Example example_filtered :
  let r := receive_abs_f umask22 Hx hx Fresh DMetadata exA exBf in
  ds_notifs r = [ (KModify, pa, Some (dir pa 511, [97; 0]));
                  (KAdd, pb, Some (mk pb 438 0 0 2 5 [], [98; 0; 8; 8]));
                  (KDelete, pc, None) ]
  /\ option_map (fun e => st_mode (de_stat e)) (alookup pa (ds_map r)) = Some (ModeDir + 493)
  /\ option_map (fun e => st_mode (de_stat e)) (alookup pb (ds_map r)) = Some 420
  /\ ds_reqs r = [pb]
  /\ identity_faithful_b DMetadata exA (filter_entries umask22 exBf) = true
  (* a second synchronisation through the same filter finds nothing to do *)
  /\ ds_notifs (receive_abs_f umask22 Hx hx Fresh DMetadata (dest_listing exBf (ds_map r)) exBf) = [].
Proof. vm_compute. repeat split; reflexivity. Qed.
