(* C12: the stream validator accepts exactly ordered, parent-closed, contained sequences.
   Statements, non-vacuity examples, the literals obligation from FromSource, and the
   source equivalences for ComparePath / HandleChange. *)
From Coq Require Import List NArith Bool.
From FS Require Import Sx Model.Path Model.Validator Proofs.Lex Proofs.PathP Proofs.ValidatorP.
From FSGen Require FromSource.
Import ListNotations.

(* The path comparison equals comparing paths component by component
   (components = maximal separator-free runs, compared bytewise). *)
Theorem compare_path_componentwise :
  forall p q, compare_path p q = lex_cmp (comps p) (comps q).
Proof. exact PathP.compare_path_componentwise. Qed.

(* ... and it is a strict total order on all byte strings. *)
Theorem compare_path_strict_total :
  (forall p, compare_path p p <> Lt) /\
  (forall p q r, compare_path p q = Lt -> compare_path q r = Lt -> compare_path p r = Lt) /\
  (forall p q, compare_path p q = Eq <-> p = q) /\
  (forall p q, compare_path q p = CompOpp (compare_path p q)) /\
  (forall p q, compare_path p q = Lt \/ p = q \/ compare_path q p = Lt).
Proof.
  exact (conj compare_path_irrefl (conj compare_path_trans (conj compare_path_eq
        (conj compare_path_opp compare_path_total)))).
Qed.

(* The validator (model of validator.go) rejects at exactly the first element that
   breaks "clean relative path, not '.', not '..', not below '..', strictly
   ascending, parent accepted earlier as a non-deleted directory (or root)";
   None = whole sequence accepted.  Equality of the indices gives "iff" and
   "rejects at the first offender" at once, for sequences of every length. *)
Theorem validator_accepts_iff_spec :
  forall its, run_validator its = spec_first_bad its.
Proof. exact validator_accepts_iff_spec_proof. Qed.

Print Assumptions compare_path_componentwise.
Print Assumptions compare_path_strict_total.
Print Assumptions validator_accepts_iff_spec.

(* Non-vacuity: a non-trivial sequence is accepted, single corruptions are rejected at
   the right index. *)
Definition s (l : list N) := l.
Definition A := 97%N. Definition B := 98%N. Definition C := 99%N.
Definition mk (k : N) (p : list N) (d : bool) := {| vkind := k; vpath := p; visdir := d |}.
Definition good : list vitem :=
  [ mk 0 [A] true;                       (* a/        *)
    mk 0 [A; 47; B] true;                (* a/b/      *)
    mk 0 [A; 47; B; 47; C] false;        (* a/b/c     *)
    mk 0 [A; 47; C] false;               (* a/c       pop to a *)
    mk 0 [A; 32; B] false;               (* "a b"     space < '/' but sorts after a/... *)
    mk 0 [A; 45; B] true;                (* a-b/      *)
    mk 0 [A; 45; B; 47; A] false;        (* a-b/a     *)
    mk 2 [B] true;                       (* delete b  *)
    mk 0 [C] false ].                    (* c         *)
Example good_accepted : run_validator good = None /\ spec_first_bad good = None.
Proof. vm_compute. split; reflexivity. Qed.
Example child_of_deleted_rejected :
  run_validator (good ++ [mk 0 [B; 47; A] false]) = Some 9%nat.
Proof. vm_compute. reflexivity. Qed.
Example bytewise_order_rejected :   (* "a b" before "a/b": bytewise ascending, path-wise not *)
  run_validator [mk 0 [A] true; mk 0 [A; 32; B] false; mk 0 [A; 47; B] false] = Some 2%nat.
Proof. vm_compute. reflexivity. Qed.
Example dot_and_dotdot_rejected :
  run_validator [mk 0 [46] true] = Some 0%nat /\ run_validator [mk 0 [46; 46] false] = Some 0%nat.
Proof. vm_compute. split; reflexivity. Qed.

(* Source-derived obligation (regenerated from /repo on every run): the string
   literals HandleChange compares the path against include ".", ".." and "../",
   i.e. the lexical rejections the model's vsplit/ok_path encode. *)
Example from_source_validator_literals :
  forallb (fun l => existsb (bytes_eqb l) FromSource.validator_literals)
          [s_dot; s_dotdot; s_dotdotsep] = true.
Proof. vm_compute. reflexivity. Qed.

(* Source equivalence (tools/go2coq; gen/SrcFns.v is regenerated from /repo on every run): the
   Gallina definition translated from validator.go's ComparePath equals the model compare_path
   (the sign of Go's int result, which is all its callers use), and its loop never runs out of
   the fuel the translator derived. *)
From Coq Require ZArith.
From FSGen Require SrcFns.
From FS Require Proofs.Src.ComparePathEq.
Theorem ComparePath_src_eq :
  forall a b, option_map (fun z => BinInt.Z.compare z BinNums.Z0) (SrcFns.ComparePath a b) = Some (compare_path a b).
Proof. exact ComparePathEq.ComparePath_src_eq. Qed.
Print Assumptions ComparePath_src_eq.

(* The validator itself (tools/go2coq): the method HandleChange of Validator, translated from validator.go on
   this run into a state transformer on the generated records (parentDirs = list of parent, bottom first;
   sort.Search = Go's binary search with the func literal as predicate; ComparePath through its own
   translation).  abs_state reads a Go state as the model's stack (top first; the nil slice as the initial
   stack), vinv is the representation invariant (directories strictly descending from the top under
   compare_path, bottom directory ""), item_of packs the arguments as the model's item.
   One step equals the model's vstep on every state satisfying vinv; folded over a sequence from the zero
   Validator it equals run_validator (every reachable state satisfies vinv), so the main theorem above
   holds of the translated code. *)
From FS Require Src.Prims Proofs.Src.ValidatorHandleChangeEq.
Theorem HandleChange_src_eq : forall v kind p fi,
  ValidatorHandleChangeEq.vinv (ValidatorHandleChangeEq.abs_state v) ->
  match SrcFns.Validator_HandleChange v kind p fi None with
  | None => False
  | Some (v', e) =>
    match vstep (ValidatorHandleChangeEq.abs_state v) (ValidatorHandleChangeEq.item_of kind p fi) with
    | Some stk' => e = None /\ ValidatorHandleChangeEq.abs_state v' = stk'
    | None => e <> None
    end
  end.
Proof. exact ValidatorHandleChangeEq.HandleChange_src_eq. Qed.
Theorem HandleChange_err_passthrough : forall v kind p fi m,
  SrcFns.Validator_HandleChange v kind p fi (Some m) = Some (v, Some m).
Proof. exact ValidatorHandleChangeEq.HandleChange_err_passthrough. Qed.
Theorem run_go_is_run_validator : forall its,
  ValidatorHandleChangeEq.run_go SrcFns.Validator_zero its 0 = Some (run_validator its).
Proof. exact ValidatorHandleChangeEq.run_go_is_run_validator. Qed.
Theorem translated_validator_accepts_iff_spec : forall its,
  ValidatorHandleChangeEq.run_go SrcFns.Validator_zero its 0 = Some (spec_first_bad its).
Proof. exact ValidatorHandleChangeEq.translated_validator_accepts_iff_spec. Qed.
Print Assumptions HandleChange_src_eq.
Print Assumptions HandleChange_err_passthrough.
Print Assumptions run_go_is_run_validator.
Print Assumptions translated_validator_accepts_iff_spec.
