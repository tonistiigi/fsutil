(* C18 — Following links yields a terminating, closed, minimal include set.
   Statements of the property, each closed by [exact] of a lemma of Proofs/ (after instantiating
   section variables) or by a few lines from a more general one; the four _refuted theorems, the
   definitions they need and the examples are computed here; [Print Assumptions] of each.
   The model is Model/FollowLinks.v.

   [gmatch] (path/filepath.Match) is universally quantified in every theorem; the
   refutation witnesses and examples use [go_match], the transcription of Go's
   algorithm that the correspondence run plugs into the model. *)
From Coq Require Import List NArith Bool.
From FS Require Import Sx Model.Path Model.Stat Model.Tree Model.FollowLinks Model.Pattern Model.FilterWalk
     Model.FollowTransfer Proofs.PatternP Proofs.FollowLinksP Proofs.FollowLinksClosedP Proofs.FollowLinksWildP
     Proofs.FollowTransferP Proofs.FollowTransferStarP.
Import ListNotations.
Open Scope N_scope.

(* termination: every tree (any cycle shape), every request list (wildcards anywhere) *)
Theorem follow_terminates :
  forall gmatch view reqs, follow_links gmatch view (fuel_bound view reqs) reqs <> OutOfFuel.
Proof. exact FollowLinksP.follow_terminates_proof. Qed.

(* the correspondence run evaluates the same fuel without building the candidate keys *)
Theorem fuel_bound_fast_eq :
  forall view reqs, fuel_bound_fast view reqs = fuel_bound view reqs.
Proof. exact FollowLinksP.fuel_bound_fast_eq_proof. Qed.

(* the result is sorted bytewise (strictly), no element is inside another (strings.HasPrefix(b,
   a+"/")), it is nil exactly when "." was resolved, and a request that denotes the root makes it
   nil *)
Theorem result_sorted_minimal :
  forall gmatch view fuel reqs,
    (forall l, follow_links gmatch view fuel reqs = Ok l -> sorted_b l = true /\ minimal_b l = true) /\
    (forall st, follow_state gmatch view fuel reqs = Ok st ->
       (In s_dot (resolved st) <-> follow_links_opt gmatch view fuel reqs = Ok None)) /\
    (forall r l, In r reqs -> norm_clamp (comps r) = [] ->
       follow_links gmatch view fuel reqs = Ok l -> l = []).
Proof. exact FollowLinksP.result_sorted_minimal_proof. Qed.

(* closure, part 1 (full): whatever the resolver put into [resolved] is in the result or strictly
   inside one of its elements; nothing else is in the result *)
Theorem result_covers_resolved :
  forall gmatch view fuel reqs st l,
    follow_state gmatch view fuel reqs = Ok st -> follow_links_opt gmatch view fuel reqs = Ok (Some l) ->
    (forall x, In x (resolved st) -> exists e, In e l /\ (e = x \/ inside e x = true)) /\
    (forall e, In e l -> In e (resolved st)).
Proof. exact FollowLinksP.result_covers_resolved_proof. Qed.

(* closure, part 2 (full): every symlink the independent resolver chroot_resolve traverses for every
   wildcard expansion of every request, and the entry it reaches, is in or below an element of the
   result (read as a pattern list for the include matcher); the result is nil when the root is
   reached. All trees: relative / absolute links, ".." beyond the root, chains, cycles, links in
   intermediate components, dangling links; wildcards in the last component of a request. [fuel] is
   arbitrary: the statement is about any run that did not run out of fuel (follow_terminates:
   fuel_bound view reqs is such a run). Each of the four hypotheses no_revisit / lexical_safe /
   wild_last_only / links_literal is necessary: dropping it makes the statement false (the four
   _refuted theorems below = the four known findings). *)
Theorem result_closed :
  forall gmatch view reqs (fuel : nat) (isnil : bool) (res : list bytes),
    FollowLinks.wf_view view = true ->
    follow_links_opt gmatch view fuel reqs = Ok (if isnil then None else Some res) ->
    no_revisit gmatch view fuel reqs = true ->
    lexical_safe view reqs = true ->
    wild_last_only reqs = true ->
    links_literal view = true ->
    closed_b gmatch view isnil res reqs = true.
Proof. exact FollowLinksWildP.result_closed_proof. Qed.

(* the same with a weaker hypothesis on link targets: a component of a link target may contain
   pattern characters as long as, among the names that occur in the tree, it matches exactly its own
   text (then readSymlink's pattern reading and the literal reading coincide). links_literal implies
   links_selfmatch. *)
Theorem result_closed_selfmatch :
  forall gmatch view reqs (fuel : nat) (isnil : bool) (res : list bytes),
    FollowLinks.wf_view view = true ->
    follow_links_opt gmatch view fuel reqs = Ok (if isnil then None else Some res) ->
    no_revisit gmatch view fuel reqs = true ->
    lexical_safe view reqs = true ->
    wild_last_only reqs = true ->
    links_selfmatch gmatch view = true ->
    closed_b gmatch view isnil res reqs = true.
Proof. exact FollowLinksWildP.result_closed_selfmatch_proof. Qed.

(* the consequence clause, as a composition with C10's model of filterFS.Walk: NewFilterFS(view,
   {FollowPaths: reqs}) computes FollowLinks, appends the result to the include patterns
   (follow_cfg: patternmatcher.New on the appended targets) and walks with them (filter_walk, no map
   function). That walk reports every symlink the independent resolver traverses for every request
   and the entry it reaches - so each request resolves in the copy as in the source. PARTIAL: proved
   for plain inputs (plain_inputs: no component of a request or link target contains a pattern
   character * [ ] ? ^ \, starts with '!' or starts / ends with white space), for which
   patternmatcher.New reads every result element as the literal path it is; [pmatch] (Pattern.match
   of moby/patternmatcher) is universally quantified under C10's hypothesis prefix_semantics (a
   literal pattern matches exactly itself). Outside plain inputs the statement is false of the real
   code: known finding follow-path-result-reinterpreted-as-pattern (a followed path "!x", " x",
   "a\b" is re-parsed as a pattern and not walked). *)
Theorem transfer_resolves_same_partial :
  forall pmatch gmatch view reqs,
    prefix_semantics pmatch ->
    FollowLinks.wf_view view = true ->
    plain_inputs view reqs = true ->
    forall (fuel : nat) (follow : option (list bytes)),
      follow_links_opt gmatch view fuel reqs = Ok follow ->
      no_revisit gmatch view fuel reqs = true ->
      lexical_safe view reqs = true ->
      exists c, follow_cfg follow = Some c /\
        forall r o x, In r reqs -> In o (chroot_resolve_all gmatch view r) -> needed o x ->
          In (joinc x) (map st_path (filter_walk pmatch id_map c view)).
Proof. exact FollowTransferP.transfer_resolves_same_partial_proof. Qed.

(* the same for requests whose LAST component is a bare star (d/star): FollowLinks then keeps the
   pattern d/star in its result, the one non-literal pattern shape to which C10's prefix_semantics
   gives a meaning (L/star matches L/ followed by one component, for regex-safe L). star_inputs:
   every component of a link target and every component of a (cleaned) request is plain and
   regex-safe (ASCII, none of the braces and bar), except that the last component of a request may
   be a bare star. The result must not contain the bare pattern "star" itself (a request star at the
   root, or below a link to the root): that shape is a general glob for the library. Other wildcards
   (l-star, ?, classes) would need a hypothesis tying Pattern.match's regexp translation to
   filepath.Match: not covered. *)
Theorem transfer_resolves_same_star_partial :
  forall pmatch gmatch view reqs,
    prefix_semantics pmatch ->
    FollowLinks.wf_view view = true ->
    star_inputs view reqs = true ->
    forall (fuel : nat) (follow : option (list bytes)),
      follow_links_opt gmatch view fuel reqs = Ok follow ->
      no_revisit gmatch view fuel reqs = true ->
      lexical_safe view reqs = true ->
      (forall res, follow = Some res -> ~ In s_star res) ->
      exists c, follow_cfg follow = Some c /\
        forall r o x, In r reqs -> In o (chroot_resolve_all gmatch view r) -> needed o x ->
          In (joinc x) (map st_path (filter_walk pmatch id_map c view)).
Proof. exact FollowTransferStarP.transfer_resolves_same_star_proof. Qed.

(* what FollowLinks returns is a fixed point of dedupePaths: running dedupePaths once more over a
   FollowPaths-only include list (as NewFilterFS did before the fix of finding
   dedupe-order-sensitive-includes) changes nothing, so follow_cfg describes both versions *)
Theorem follow_targets_dedupe_fixpoint :
  forall gmatch view fuel reqs l,
    follow_links_opt gmatch view fuel reqs = Ok (Some l) -> dedupe_paths l = Some l.
Proof. exact FollowTransferP.follow_targets_dedupe_fixpoint_proof. Qed.

Definition dirmode : N := 2147484141.   (* ModeDir | 0755 *)
Definition lnkmode : N := 134218239.    (* ModeSymlink | 0777 *)
Definition mkst (m : N) (l : bytes) : stat :=
  {| st_path := []; st_mode := m; st_uid := 0; st_gid := 0; st_size := 0; st_mtime := 0;
     st_linkname := l; st_devmajor := 0; st_devminor := 0; st_xattrs := [] |}.
Definition D (name : bytes) (kids : list node) : node := Node name (mkst dirmode []) [] kids.
Definition F (name : bytes) : node := Node name (mkst 420 []) name [].
Definition L (name target : bytes) : node := Node name (mkst lnkmode target) [] [].

Definition refutes (view : list node) (reqs : list bytes) (res : list bytes) (nr ls wl ll : bool) : Prop :=
  FollowLinks.wf_view view = true /\
  follow_links_opt go_match view (fuel_bound view reqs) reqs = Ok (Some res) /\
  no_revisit go_match view (fuel_bound view reqs) reqs = nr /\
  lexical_safe view reqs = ls /\ wild_last_only reqs = wl /\ links_literal view = ll /\
  links_selfmatch go_match view = ll /\
  closed_b go_match view false res reqs = false.

(* K4: self -> ., a; request self/self/a returns [self]; a is never included *)
Theorem result_closed_refuted :
  exists view reqs res, refutes view reqs res false true true true.
Proof.
  exists [F [97]; L [115;101;108;102] [46]], [[115;101;108;102;47;115;101;108;102;47;97]], [[115;101;108;102]].
  vm_compute. repeat split; reflexivity.
Qed.

(* '..' removed lexically: d/, d/e/, d/a, a, x -> d/e; request x/../a returns [a] *)
Theorem result_closed_lexical_refuted :
  exists view reqs res, refutes view reqs res true false true true.
Proof.
  exists [F [97]; D [100] [F [97]; D [101] []]; L [120] [100;47;101]], [[120;47;46;46;47;97]], [[97]].
  vm_compute. repeat split; reflexivity.
Qed.

(* wildcard in a middle component: d/, d/l -> t, d/t; request */l returns [*/l] *)
Theorem result_closed_wildcard_refuted :
  exists view reqs res, refutes view reqs res true true false true.
Proof.
  exists [D [100] [L [108] [116]; F [116]]], [[42;47;108]], [[42;47;108]].
  vm_compute. repeat split; reflexivity.
Qed.

(* link target read as a pattern: [a] -> x, l -> [a], x; request l returns [[a], l] *)
Theorem result_closed_linkglob_refuted :
  exists view reqs res, refutes view reqs res true true true false.
Proof.
  exists [L [91;97;93] [120]; L [108] [91;97;93]; F [120]], [[108]], [[91;97;93]; [108]].
  vm_compute. repeat split; reflexivity.
Qed.

(* non-vacuity: the model computes the results of the Go test-suite examples, the specification
   accepts them, and the independent resolver goes where Linux goes *)
(* TestFollowLinks: dir/foo, dir/l1 -> foo, l2 -> dir/l1, bar, baz; [l2, bar] *)
Definition v_chain : list node :=
  [F [98;97;114]; F [98;97;122]; D [100;105;114] [F [102;111;111]; L [108;49] [102;111;111]]; L [108;50] [100;105;114;47;108;49]].
Example chain_followed :
  follow_links go_match v_chain (fuel_bound v_chain [[108;50]; [98;97;114]]) [[108;50]; [98;97;114]]
    = Ok [[98;97;114]; [100;105;114;47;102;111;111]; [100;105;114;47;108;49]; [108;50]] /\
  closed_b go_match v_chain false [[98;97;114]; [100;105;114;47;102;111;111]; [100;105;114;47;108;49]; [108;50]] [[108;50]; [98;97;114]] = true /\
  no_revisit go_match v_chain (fuel_bound v_chain [[108;50]; [98;97;114]]) [[108;50]; [98;97;114]] = true /\
  chroot_resolve go_match v_chain [108;50] =
    {| traversed := [[[100;105;114]; [108;49]]; [[108;50]]]; final := Reached [[100;105;114]; [102;111;111]] |}.
Proof. vm_compute. repeat split; reflexivity. Qed.

(* TestFollowLinksLoop: l1 -> l1, l2 -> l3, l3 -> l2; [l1, l3] terminates with all three *)
Definition v_loop : list node := [L [108;49] [108;49]; L [108;50] [108;51]; L [108;51] [108;50]].
Example cycles_terminate :
  follow_links go_match v_loop (fuel_bound v_loop [[108;49]; [108;51]]) [[108;49]; [108;51]] = Ok [[108;49]; [108;50]; [108;51]] /\
  closed_b go_match v_loop false [[108;49]; [108;50]; [108;51]] [[108;49]; [108;51]] = true /\
  final (chroot_resolve go_match v_loop [108;51]) = Failed.
Proof. vm_compute. repeat split; reflexivity. Qed.

(* F8: "../a" is clamped at the root; absolute targets restart at the root; ".." beyond the root stays there *)
Definition v_abs : list node :=
  [F [98;97;122]; D [100;105;114] [L [108;49] [47;102;111;111;47;98;97;114;47;98;97;122]]; D [102;111;111] [L [98;97;114] [46;46;47;46;46;47;46;46;47]]].
Example clamped_at_root :
  follow_links go_match v_abs (fuel_bound v_abs [[46;46;47;98;97;122]]) [[46;46;47;98;97;122]] = Ok [[98;97;122]] /\
  follow_links go_match v_abs (fuel_bound v_abs [[100;105;114;47;108;49]]) [[100;105;114;47;108;49]] = Ok [[98;97;122]; [100;105;114;47;108;49]; [102;111;111;47;98;97;114]] /\
  closed_b go_match v_abs false [[98;97;122]; [100;105;114;47;108;49]; [102;111;111;47;98;97;114]] [[100;105;114;47;108;49]] = true /\
  final (chroot_resolve go_match v_abs [100;105;114;47;108;49]) = Reached [[98;97;122]].
Proof. vm_compute. repeat split; reflexivity. Qed.

(* a link to the root gives the nil result; wildcards expand over symlinks; the dedupe regression *)
Example root_and_wildcards :
  follow_links_opt go_match [L [108] [47]; F [120]] 5 [[108]] = Ok None /\
  follow_links go_match v_chain (fuel_bound v_chain [[100;105;114;47;42]]) [[100;105;114;47;42]] = Ok [[100;105;114;47;42]; [100;105;114;47;102;111;111]] /\
  follow_links go_match v_chain (fuel_bound v_chain [[108;63]]) [[108;63]] = Ok [[100;105;114;47;102;111;111]; [100;105;114;47;108;49]; [108;63]] /\
  closed_b go_match v_chain false [[100;105;114;47;102;111;111]; [100;105;114;47;108;49]; [108;63]] [[108;63]] = true /\
  dedupe_paths (sort_bytes [[97;47;122]; [97;33]; [97]]) = Some [[97]; [97;33]] /\
  dedupe_paths (sort_bytes [[97;47;122]; [97;33]; [46]; [97]]) = None.
Proof. vm_compute. repeat split; reflexivity. Qed.

(* the hypotheses of result_closed / result_closed_selfmatch are jointly satisfiable on
   non-trivial cases: a chain of links through a directory; three cycles; an absolute link
   and ".." beyond the root; a link to the root (nil result); wildcard requests that expand
   over links; a link target f* where an entry is literally named f* *)
Definition closed_hyps (view : list node) (reqs : list bytes) (fuel : nat) (isnil : bool) (res : list bytes)
           (ll : bool) : Prop :=
  FollowLinks.wf_view view = true /\
  follow_links_opt go_match view fuel reqs = Ok (if isnil then None else Some res) /\
  no_revisit go_match view fuel reqs = true /\ lexical_safe view reqs = true /\
  wild_last_only reqs = true /\ links_literal view = ll /\ links_selfmatch go_match view = true.
Definition v_self : list node := [L [102;42] [120]; L [108] [102;42]; F [120]].
Example closed_hyps_instances :
  closed_hyps v_chain [[108;50]; [98;97;114]] (fuel_bound v_chain [[108;50]; [98;97;114]]) false
    [[98;97;114]; [100;105;114;47;102;111;111]; [100;105;114;47;108;49]; [108;50]] true /\
  closed_hyps v_loop [[108;49]; [108;51]] (fuel_bound v_loop [[108;49]; [108;51]]) false [[108;49]; [108;50]; [108;51]] true /\
  closed_hyps v_abs [[100;105;114;47;108;49]] (fuel_bound v_abs [[100;105;114;47;108;49]]) false
    [[98;97;122]; [100;105;114;47;108;49]; [102;111;111;47;98;97;114]] true /\
  closed_hyps [L [108] [47]; F [120]] [[108]] 5 true [] true /\
  closed_hyps v_chain [[100;105;114;47;42]] (fuel_bound v_chain [[100;105;114;47;42]]) false
    [[100;105;114;47;42]; [100;105;114;47;102;111;111]] true /\
  closed_hyps v_chain [[42]] (fuel_bound v_chain [[42]]) false
    [[42]; [100;105;114;47;102;111;111]; [100;105;114;47;108;49]] true /\
  closed_hyps v_self [[108]] (fuel_bound v_self [[108]]) false [[102;42]; [108]; [120]] false.
Proof. vm_compute. repeat split; reflexivity. Qed.

(* the transfer composition on the examples: the inputs are plain, and the walk with the
   FollowLinks result as include patterns (literal matcher) reports the chain / the absolute
   target and the directories above them / the three cycles *)
Definition walked (view : list node) (reqs : list bytes) : option (list bytes) :=
  match follow_links_opt go_match view (fuel_bound view reqs) reqs with
  | Ok f => match follow_cfg f with
            | Some c => Some (map st_path (filter_walk (lit_pmatch go_match) id_map c view))
            | None => None
            end
  | OutOfFuel => None
  end.
Example transfer_instances :
  plain_inputs v_chain [[108;50]; [98;97;114]] = true /\
  walked v_chain [[108;50]; [98;97;114]] =
    Some [[98;97;114]; [100;105;114]; [100;105;114;47;102;111;111]; [100;105;114;47;108;49]; [108;50]] /\
  plain_inputs v_abs [[100;105;114;47;108;49]] = true /\
  walked v_abs [[100;105;114;47;108;49]] =
    Some [[98;97;122]; [100;105;114]; [100;105;114;47;108;49]; [102;111;111]; [102;111;111;47;98;97;114]] /\
  plain_inputs v_loop [[108;49]; [108;51]] = true /\
  walked v_loop [[108;49]; [108;51]] = Some [[108;49]; [108;50]; [108;51]] /\
  plain_inputs [F [33;120]] [[33;120]] = false.
Proof. vm_compute. repeat split; reflexivity. Qed.

(* a star request: dir/star on the chain tree keeps the pattern dir/star and adds dir/foo (target
   of dir/l1); the walk with these includes reports dir and everything directly below it *)
Example transfer_star_instances :
  star_inputs v_chain [[100;105;114;47;42]] = true /\
  plain_inputs v_chain [[100;105;114;47;42]] = false /\
  follow_links_opt go_match v_chain (fuel_bound v_chain [[100;105;114;47;42]]) [[100;105;114;47;42]] =
    Ok (Some [[100;105;114;47;42]; [100;105;114;47;102;111;111]]) /\
  walked v_chain [[100;105;114;47;42]] =
    Some [[100;105;114]; [100;105;114;47;102;111;111]; [100;105;114;47;108;49]] /\
  star_inputs v_chain [[108;50]; [98;97;114]] = true.
Proof. vm_compute. repeat split; reflexivity. Qed.

Print Assumptions follow_terminates.
Print Assumptions fuel_bound_fast_eq.
Print Assumptions result_sorted_minimal.
Print Assumptions result_covers_resolved.
Print Assumptions result_closed.
Print Assumptions result_closed_selfmatch.
Print Assumptions transfer_resolves_same_partial.
Print Assumptions follow_targets_dedupe_fixpoint.
Print Assumptions transfer_resolves_same_star_partial.
Print Assumptions result_closed_refuted.
Print Assumptions result_closed_lexical_refuted.
Print Assumptions result_closed_wildcard_refuted.
Print Assumptions result_closed_linkglob_refuted.

(* source equivalences (tools/go2coq; gen/SrcFns.v is regenerated from /repo on every run): the
   Gallina definitions translated from followlinks.go's containsWildcards (Linux: runtime.GOOS =
   "linux") and dedupePaths (nested range loops with `continue loop`) equal the models; the model's
   None is the nil slice Go returns on ".", which the translation renders as the empty list *)
From FSGen Require SrcFns.
From FS Require Proofs.Src.ContainsWildcardsEq Proofs.Src.DedupePathsEq.
Theorem containsWildcards_src_eq :
  forall s, SrcFns.containsWildcards s = Some (contains_wildcards s).
Proof. exact ContainsWildcardsEq.containsWildcards_src_eq. Qed.
Theorem dedupePaths_src_eq :
  forall l, SrcFns.dedupePaths l = Some (match dedupe_paths l with Some r => r | None => [] end).
Proof. exact DedupePathsEq.dedupePaths_src_eq. Qed.
Print Assumptions containsWildcards_src_eq.
Print Assumptions dedupePaths_src_eq.
