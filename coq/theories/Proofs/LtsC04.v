(* C04: torn_down_terminates put together from the measure and progress, and two deadlocked
   states found by running a trace: the regression witness for fix 6c5966d (queue() without the
   ctx.Done branch: Send never returns) and a receiver-side error without tear-down. *)
From Coq Require Import List Arith Bool PeanoNat Lia.
From FS Require Import Model.Lts Model.LtsExplore Proofs.LtsInv Proofs.LtsSafe Proofs.LtsTerm.
Import ListNotations.

Lemma step_in_all_labels : forall p st l st', step p st l = Some st' -> In l (all_labels st).
Proof.
  intros p st l st' H. unfold all_labels.
  destruct l; try (apply in_or_app; left; cbn; tauto).
  (* a worker or writer label moves only if its index is in range *)
  all: cbn in H;
    unfold step_worker, step_worker_openerr, step_worker_readerr, step_writer, step_writer_ctx, step_writer_cberr in H;
    destruct (nth_error _ j) eqn:E; try discriminate H; apply nth_error_some_lt in E;
    apply in_or_app; right; apply in_or_app.
  1-3: left. 4-6: right.
  all: apply in_flat_map; exists j; split; [apply in_seq; lia | cbn; tauto].
Qed.

Lemma enabled_nil_no_step : forall p st, enabled p st = [] -> forall l, step p st l = None.
Proof.
  intros p st E l. destruct (step p st l) eqn:S; auto. exfalso.
  assert (In l (enabled p st)).
  { unfold enabled. apply filter_In. split. eapply step_in_all_labels; eauto. rewrite S. reflexivity. }
  rewrite E in H. contradiction.
Qed.

(* torn_down_terminates: for every W >= 1, P, C, C2, stream capacities, entry list, and every
   reachable state in which the stream is torn down *)
Lemma torn_down_terminates_proof : forall p st,
  p_W p >= 1 -> p_old_queue p = false -> reachable p st -> torn_down st = true ->
  (* (a) every step strictly decreases the measure and stays torn down *)
  (forall l st', step p st l = Some st' -> mu st' < mu st /\ torn_down st' = true) /\
  (* (b) unless both calls have returned and every goroutine has ended, a goroutine can move *)
  (final st = false -> exists l, is_env l = false /\ step p st l <> None) /\
  (* hence: every execution from st has at most mu st steps ... *)
  (forall ls st', run p st ls = Some st' -> length ls <= mu st) /\
  (* ... and an execution that cannot be extended has ended with both calls returned and
     no goroutine live *)
  (forall ls st', run p st ls = Some st' -> enabled p st' = [] -> final st' = true).
Proof.
  intros p st HW HQ R T.
  assert (B: forall ls st', run p st ls = Some st' -> length ls + mu st' <= mu st /\ torn_down st' = true).
  { intros ls st'. apply (run_bounded p (fun _ => true) _ mu (fun s l s' Ts _ => torn_step p s l s' Ts)); auto.
    apply forallb_forall. reflexivity. }
  split; [intros l st'; apply torn_step; exact T|]. repeat split.
  - intro NF. apply progress_proof; auto.
  - intros ls st' H. destruct (B _ _ H). lia.
  - intros ls st' H E. destruct (B _ _ H) as [_ T'].
    pose proof (run_reachable _ _ _ _ R H) as R'.
    destruct (final st') eqn:F; auto. exfalso.
    destruct (progress_proof p st' HW HQ R' T' F) as (l & _ & S).
    apply S. apply enabled_nil_no_step. exact E.
Qed.

(* Regression witness for fix 6c5966d.
   W = 1, cap(sendpipeline) = 0, two files whose content is requested.  The worker takes
   file 0 and is inside SendMsg(DATA) when the stream is torn down; the request loop has
   received REQ 1 and sits in queue() on the pipeline send.  The worker returns the stream
   error and exits; nobody will ever receive from the pipeline.  With the old queue()
   (unconditional channel send) no label is enabled in the resulting state although Send has
   not returned. *)
Definition oldq_params : params :=
  {| p_W := 1; p_P := 0; p_C := 1; p_C2 := 1; p_capSR := 1; p_capRS := 2;
     p_entries := [ {| e_file := true; e_chunks := 1; e_kind := ENeed |};
                    {| e_file := true; e_chunks := 1; e_kind := ENeed |} ];
     p_old_queue := true |}.
Definition oldq_trace : list label :=
  [LReq; LSWalk; LSWalk; LSWalk; LRecvLoop; LRecvLoop; LRecvLoop;
   LFill; LFill; LDiff; LDiff; LWriter 0; LWriter 0;
   LWriter 0; LSWalk; LSWalk; LSWalk; LRecvLoop; LRecvLoop; LRecvLoop;
   LFill; LFill; LDiff; LDiff; LWriter 1; LWriter 1;
   LWriter 1; LReq; LReq; LWorker 0; LWorker 0;
   LWorker 0; LWorker 0; LWorker 0; LReq; LReq; LSWalk; LEnvTearDown;
   LWorker 0; LRecvLoop; LWriterCtx 1; LWriterCtx 0; LDiffCtx;
   LFillCtx; LFill; LFill; LDiffOuter; LDiffOuter; LDiffOuter;
   LRecvRet; LSWalk; LSWalk; LSWalk; LSWalk].

Definition stuck_b (skip : label -> bool) (p : params) (st : state) : bool :=
  forallb (fun l => skip l || is_none (step p st l)) (all_labels st).

Lemma stuck_b_sound : forall skip p st, stuck_b skip p st = true ->
  forall l, skip l = false -> step p st l = None.
Proof.
  intros skip p st H l E. destruct (step p st l) eqn:S; auto. exfalso.
  unfold stuck_b in H. rewrite forallb_forall in H.
  specialize (H l (step_in_all_labels _ _ _ _ S)). rewrite E, S in H. discriminate.
Qed.

Lemma old_queue_deadlock_proof :
  exists p ls st,
    p_W p >= 1 /\ p_old_queue p = true /\ run p (init p) ls = Some st /\ reachable p st /\
    torn_down st = true /\ send_ret st = None /\ final st = false /\
    (forall l, step p st l = None).
Proof.
  exists oldq_params, oldq_trace.
  destruct (run oldq_params (init oldq_params) oldq_trace) as [st|] eqn:E.
  2:{ vm_compute in E. discriminate E. }
  exists st. split; [cbn; lia|]. split; [reflexivity|]. split; [reflexivity|].
  split; [eapply run_reachable; [apply reach_init | exact E]|].
  assert (X: torn_down st = true /\ send_ret st = None /\ final st = false /\ stuck_b (fun _ => false) oldq_params st = true).
  { vm_compute in E. injection E as E. subst st. vm_compute. repeat split; reflexivity. }
  destruct X as (X1 & X2 & X3 & X4). repeat split; auto. intro l. exact (stuck_b_sound _ _ _ X4 l eq_refl).
Qed.

(* Without tear-down a receiver-side error can stop everything.
   W = 1, every capacity 0, three requested files and a directory whose NotifyHashed fails,
   two more entries behind it.  File 0 is with the worker (waiting for the stream mutex that
   the walker holds), REQ 1 has been received and the request loop sits in queue(), the writer
   of file 2 is inside SendMsg(REQ) holding the receiver's stream mutex, the receive loop is
   parked in dynamicWalker.update.  The callback error closes the walker: the receive loop
   returns, the goroutine that has to send ERR waits for the mutex, the walker is inside
   SendMsg(end of walk) with nobody receiving.  Neither call has returned, so nobody tears the
   stream down; no goroutine can move.  (3 outstanding requests > P + W + cap(r->s) = 1.) *)
Definition nt_params : params :=
  {| p_W := 1; p_P := 0; p_C := 0; p_C2 := 0; p_capSR := 0; p_capRS := 0;
     p_entries := [ {| e_file := true; e_chunks := 1; e_kind := ENeed |};
                    {| e_file := true; e_chunks := 1; e_kind := ENeed |};
                    {| e_file := true; e_chunks := 1; e_kind := ENeed |};
                    {| e_file := false; e_chunks := 0; e_kind := EMeta |};
                    {| e_file := false; e_chunks := 0; e_kind := ESame |};
                    {| e_file := false; e_chunks := 0; e_kind := ESame |} ];
     p_old_queue := false |}.
Definition nt_trace : list label :=
  [LSWalk; LSWalk; LSWalk; LSWalk; LSWalk; LRecvLoop; LRecvLoop;
   LRecvLoop; LSWalk; LSWalk; LSWalk; LRecvLoop; LRecvLoop; LFill;
   LFill; LRecvLoop; LSWalk; LSWalk; LSWalk; LRecvLoop; LRecvLoop;
   LFill; LDiff; LDiff; LFill; LRecvLoop; LSWalk; LSWalk; LSWalk;
   LRecvLoop; LRecvLoop; LFill; LDiff; LDiff; LFill; LRecvLoop; LSWalk;
   LSWalk; LSWalk; LRecvLoop; LRecvLoop; LFill; LDiff; LDiff; LFill;
   LRecvLoop; LSWalk; LSWalk; LSWalk; LRecvLoop; LRecvLoop; LFill;
   LDiff; LWriter 0; LWriter 0; LWriter 1; LWriter 2; LReq;
   LWriter 0; LWriter 1; LReq; LReq; LReq; LWriter 1;
   LWriter 2; LReq; LWorker 0; LWorker 0; LWorker 0;
   LWorker 0; LDiffCbErr; LFillCtx; LFill; LFill; LRecvLoopClosed;
   LWriterCtx 0; LWriterCtx 1; LDiffOuter].

Lemma no_teardown_deadlock_proof :
  exists p ls st,
    p_W p >= 1 /\ p_old_queue p = false /\ run p (init p) ls = Some st /\
    filter is_env ls = [LDiffCbErr] /\
    torn_down st = false /\ s_broken st = false /\ r_broken st = false /\
    send_ret st = None /\ recv_ret st = None /\ final st = false /\
    length (reqs st) + length (filter (fun w => match wr_pc w with WR_Send => true | _ => false end) (wrs st))
      > p_P p + p_W p + p_capRS p /\
    (forall l, is_env l = false -> step p st l = None).
Proof.
  exists nt_params, nt_trace.
  destruct (run nt_params (init nt_params) nt_trace) as [st|] eqn:E.
  2:{ vm_compute in E. discriminate E. }
  exists st. split; [cbn; lia|]. split; [reflexivity|]. split; [reflexivity|]. split; [reflexivity|].
  assert (X: torn_down st = false /\ s_broken st = false /\ r_broken st = false /\
             send_ret st = None /\ recv_ret st = None /\ final st = false /\
             (p_P nt_params + p_W nt_params + p_capRS nt_params <?
              length (reqs st) + length (filter (fun w => match wr_pc w with WR_Send => true | _ => false end) (wrs st))) = true /\
             stuck_b is_env nt_params st = true).
  { vm_compute in E. injection E as E. subst st. vm_compute. repeat split; reflexivity. }
  destruct X as (X1 & X2 & X3 & X4 & X5 & X6 & X7 & X8). repeat split; auto.
  - apply Nat.ltb_lt in X7. exact X7.
  - exact (stuck_b_sound _ _ _ X8).
Qed.
