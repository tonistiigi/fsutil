(* C11 — composition with the receiver (Proofs/ReceiveP.receive_fresh_proof): what the sender
   announces and delivers for a filtered source satisfies the receiver theorem's hypotheses, so
   the transfer does not fail and the destination shows exactly the filtered view with the
   source's bytes. *)
From Coq Require Import List NArith Bool Sorting.Sorted.
From FS Require Model.Walk Proofs.WalkP.
From FS Require Import Sx Model.Path Model.Stat Model.Tree Model.Pattern Model.FilterWalk
  Model.Hardlinks Model.Validator Model.Diff Model.AbsDest Model.SenderView
  Proofs.Lex Proofs.PathP Proofs.ListAux Proofs.PatternP Proofs.FilterP Proofs.ValidatorP Proofs.DiffP
  Proofs.AbsDestP Proofs.ReceiveP Proofs.HardlinksP Proofs.RefValidP Proofs.SenderViewP.
Import ListNotations.
Open Scope bool_scope.

Definition keq2 (s' s : stat) : Prop :=
  keq s' s /\ special_bits (st_mode s') = special_bits (st_mode s).

Lemma is_reg_keq2 s' s : keq2 s' s -> is_reg s' = is_reg s.
Proof.
  intros [(_ & H1 & H2 & _) H3]. unfold is_reg, st_is_dir, is_special.
  change (has_bits (st_mode s') ModeDevice || has_bits (st_mode s') ModeNamedPipe) with (special_bits (st_mode s')).
  change (has_bits (st_mode s) ModeDevice || has_bits (st_mode s) ModeNamedPipe) with (special_bits (st_mode s)).
  rewrite H1, H2, H3. reflexivity.
Qed.

(* AbsDest.is_node IS Hardlinks.hl_plain: neither directory nor symbolic link *)
Lemma is_node_plain s : is_node s = hl_plain s.
Proof. reflexivity. Qed.

Lemma is_reg_plain s : is_reg s = true -> hl_plain s = true.
Proof.
  unfold is_reg, hl_plain, st_is_dir. rewrite !andb_true_iff. intros [[H1 _] H2]. auto.
Qed.

Lemma orig_rep_keq s' s : keq s' s -> orig_rep s' = orig_rep s.
Proof. intros (E1 & _ & _ & E2). unfold orig_rep. rewrite E1, E2. reflexivity. Qed.

Lemma efind_map (g : stat -> bytes) l p :
  efind p (map (fun s => (s, g s)) l) =
  option_map (fun s => (s, g s)) (find (fun s => bytes_eqb (st_path s) p) l).
Proof.
  unfold efind. induction l as [|s l IH]; [reflexivity|]. cbn [map find fst].
  destruct (bytes_eqb (st_path s) p); [reflexivity|exact IH].
Qed.

Section Transfer.
Variable pmatch : bytes -> bytes -> bool.
Variable mapfn : bytes -> stat -> mres * stat.
Variable c : cfg.
Hypothesis Hshape : map_keeps_shape mapfn.
Hypothesis Hdirs : map_never_drops_dirs mapfn.
Hypothesis Hspecial : map_keeps_special mapfn.
Variable view : list node.
Hypothesis Hwf : wf_source view = true.
Hypothesis Hlinks : source_links_ok view = true.
Hypothesis Hcoh : groups_coherent view.
Hypothesis Hnls : all_paths (nls_path pmatch c) view = true.

Notation l := (filter_walk pmatch mapfn c view).
Notation f := (reset_spec_entry (filter_walk pmatch mapfn c view)).
Notation sv := (sender_view pmatch mapfn c view).
Notation sent := (sent_content pmatch c view).

Lemma sv_eq : sv = map f l.
Proof. apply sv_spec; auto. Qed.

Lemma walk_nodup : NoDup (map (fun e : Tree.entry => st_path (fst e)) (walk_root view)).
Proof. exact (proj2 (WalkP.view_walk_sorted_proof view (wf_source_walkp view Hwf))). Qed.

Lemma content_at_in ss bs : In (ss, bs) (walk_root view) -> content_at view (st_path ss) = bs.
Proof.
  intros Hin. unfold content_at.
  destruct (find (fun e : Tree.entry => bytes_eqb (st_path (fst e)) (st_path ss)) (walk_root view)) as [e|] eqn:E.
  - apply find_some in E. destruct E as [He Ee]. apply bytes_eqb_eq in Ee.
    assert (X : e = (ss, bs)).
    { apply (NoDup_map_inj (fun x : Tree.entry => st_path (fst x)) (walk_root view) _ _ walk_nodup); auto. }
    rewrite X. reflexivity.
  - exfalso. pose proof (find_none _ _ E (ss, bs) Hin) as X. cbn [fst] in X. rewrite bytes_eqb_refl in X. discriminate.
Qed.

Lemma fw_entry s : In s l -> exists ss bs, In (ss, bs) (walk_root view) /\ keq2 s ss.
Proof.
  intros Hin.
  assert (HK : forall p s0, keq2 (snd (mapfn p s0)) s0) by (intros p s0; split; [apply Hshape|apply Hspecial]).
  destruct (rsub_in _ _ _ (fw_rsub_gen pmatch mapfn c keq2 HK view Hwf) s Hin) as ([ss bs] & He & Hk).
  exists ss, bs. auto.
Qed.

Lemma sent_eq s : In s l -> st_is_dir s = false -> sent (st_path s) = content_at view (st_path s).
Proof.
  intros Hin Hnd. unfold sent_content.
  rewrite (reported_file_opens pmatch mapfn c Hshape view Hwf Hnls s Hin Hnd). reflexivity.
Qed.

Lemma f_shape s : st_path (f s) = st_path s /\ st_mode (f s) = st_mode s.
Proof. apply reset_spec_entry_shape. Qed.

Lemma is_reg_f s : is_reg (f s) = is_reg s.
Proof. apply is_reg_mode_eq. apply f_shape. Qed.

Lemma is_node_f s : is_node (f s) = is_node s.
Proof. apply is_node_mode_eq. apply f_shape. Qed.

Lemma fw_sorted : sorted l.
Proof. exact (proj1 (proj1 (fw_wf_listing pmatch mapfn c Hshape Hdirs view Hwf))). Qed.

Lemma sender_links_ok : links_ok (sender_entries pmatch mapfn c view).
Proof.
  intros sb bb Hin Hhl. unfold sender_entries in Hin. rewrite sv_eq in Hin.
  apply in_map_iff in Hin. destruct Hin as (sb' & E & Hsb'). inversion E; subst sb' bb. clear E.
  apply in_map_iff in Hsb'. destruct Hsb' as (s & <- & Hs).
  unfold is_hardlink in Hhl. apply andb_true_iff in Hhl. destruct Hhl as [Hreg Hln].
  rewrite is_node_f in Hreg. pose proof Hreg as Hp. rewrite is_node_plain in Hp.
  destruct (first_rep_some l s Hs Hp) as (r & Hr).
  assert (Efs : f s = if bytes_eqb r (st_path s) then set_linkname s [] else set_linkname s r).
  { unfold reset_spec_entry. rewrite Hp. cbn [negb]. rewrite Hr. reflexivity. }
  destruct (bytes_eqb r (st_path s)) eqn:Ers.
  { rewrite Efs in Hln. cbn in Hln. discriminate. }
  apply bytes_eqb_neq in Ers.
  destruct (in_split _ _ Hs) as (pre & post & El).
  assert (Hr' := Hr). rewrite El in Hr'.
  destruct (first_rep_before pre s post _ r Hp eq_refl Hr') as [X|(t & Ht & Ept & Hpt & Eot)]; [congruence|].
  assert (Htl : In t l) by (rewrite El; apply in_or_app; auto).
  (* the representative is emitted with empty link name *)
  assert (Eft : f t = set_linkname t []).
  { unfold reset_spec_entry. rewrite Hpt. cbn [negb]. rewrite Eot, Hr, <- Ept, bytes_eqb_refl. reflexivity. }
  (* same inode in the source: same bytes, same type *)
  destruct (fw_entry s Hs) as (ss & bs & Hss & Hks). destruct (fw_entry t Htl) as (ts & bt & Hts & Hkt).
  assert (Hcoh' : bs = bt /\ st_mode ss = st_mode ts).
  { apply (Hcoh ss bs ts bt Hss Hts).
    - rewrite <- (keq_plain _ _ (proj1 Hks)). exact Hp.
    - rewrite <- (keq_plain _ _ (proj1 Hkt)). exact Hpt.
    - rewrite <- (orig_rep_keq _ _ (proj1 Hks)), <- (orig_rep_keq _ _ (proj1 Hkt)). symmetry. exact Eot. }
  destruct Hcoh' as [Eb Em].
  assert (Hregt : is_reg t = is_reg s).
  { rewrite (is_reg_keq2 _ _ Hkt), <- (is_reg_mode_eq _ _ Em), <- (is_reg_keq2 _ _ Hks). reflexivity. }
  assert (Hnt : is_node t = true) by (rewrite is_node_plain; exact Hpt).
  exists (f t), (sent (st_path (f t))). repeat split.
  - unfold sender_entries. rewrite sv_eq. apply in_map_iff. exists (f t). split; auto. apply in_map; auto.
  - rewrite (proj1 (f_shape t)), Efs. cbn [set_linkname st_linkname]. exact Ept.
  - rewrite (proj1 (f_shape t)), (proj1 (f_shape s)).
    pose proof fw_sorted as HS. unfold sorted in HS. rewrite El in HS.
    destruct (SS_app_inv _ _ _ _ HS) as [Hbefore _]. rewrite Forall_forall in Hbefore. apply (Hbefore t Ht).
  - rewrite is_node_f. exact Hnt.
  - rewrite !is_reg_f, Hregt. auto.
  - rewrite (proj1 (f_shape t)), (proj1 (f_shape s)).
    rewrite (sent_eq t Htl) by (apply is_node_not_dir; auto).
    rewrite (sent_eq s Hs) by (apply is_node_not_dir; auto).
    rewrite (proj1 (proj1 Hks)), (proj1 (proj1 Hkt)).
    rewrite (content_at_in _ _ Hss), (content_at_in _ _ Hts). symmetry. exact Eb.
Qed.

Lemma fst_sender_entries : map fst (sender_entries pmatch mapfn c view) = sv.
Proof. unfold sender_entries. rewrite map_map. cbn [fst]. apply map_id. Qed.

(* for a regular entry of the stream the bytes delivered are the source's bytes *)
Lemma sent_regular s : In s sv -> is_reg s = true -> sent (st_path s) = content_at view (st_path s).
Proof.
  intros Hin Hreg. rewrite sv_eq in Hin. apply in_map_iff in Hin. destruct Hin as (s0 & <- & Hs0).
  rewrite is_reg_f in Hreg. rewrite (proj1 (f_shape s0)). apply sent_eq; auto. apply is_reg_not_dir; auto.
Qed.

Theorem filtered_transfer_converges_proof (H : bytes -> bytes) (hdr : stat -> bytes) (d : differ) (A : list AbsDest.entry) :
  wf_listing (map fst A) ->
  identity_faithful d A (filtered_entries pmatch mapfn c view) ->
  (* the receiver gives a hard link the metadata of the inode it joins (AbsDest.link_stat), not
     the stat as sent: the members of a link group must be announced with one metadata *)
  links_meta (sender_entries pmatch mapfn c view) ->
  let r := receive_abs H hdr Fresh d A (sender_entries pmatch mapfn c view) in
  ds_err r = false /\
  forall p, view_equiv (alookup p (ds_map r)) (efind p (filtered_entries pmatch mapfn c view)).
Proof.
  intros HwA Hfaith Hmeta. cbv zeta.
  assert (HwB : wf_listing (map fst (sender_entries pmatch mapfn c view))).
  { rewrite fst_sender_entries. exact (proj1 (sv_wf_listing pmatch mapfn c Hshape Hdirs view Hwf Hlinks)). }
  assert (Hfaith' : identity_faithful d A (sender_entries pmatch mapfn c view)).
  { intros sa ba sb bb Ha Hb Ep Hsame Hreg. unfold sender_entries in Hb.
    apply in_map_iff in Hb. destruct Hb as (s & E & Hs). inversion E; subst s bb. clear E.
    rewrite (sent_regular sb Hs Hreg).
    apply (Hfaith sa ba sb (content_at view (st_path sb)) Ha); auto.
    unfold filtered_entries. apply in_map_iff. exists sb. auto. }
  destruct (receive_fresh_proof H hdr d A _ HwA HwB sender_links_ok Hfaith' Hmeta) as (He & _ & Hv & _).
  split; [exact He|]. intros p. specialize (Hv p).
  unfold sender_entries in Hv. unfold filtered_entries.
  rewrite (efind_map (fun s => sent (st_path s))) in Hv. rewrite (efind_map (fun s => content_at view (st_path s))).
  destruct (find (fun s => bytes_eqb (st_path s) p) sv) as [s|] eqn:Ef; cbn [option_map] in *; [|exact Hv].
  apply find_some in Ef. destruct Ef as [Hs _].
  destruct (alookup p _) as [x|]; [|exact Hv]. cbn [view_equiv] in *.
  destruct Hv as [H1 H2]. split; auto. intros Hreg. rewrite <- (sent_regular s Hs Hreg). auto.
Qed.

End Transfer.
