(* [scal] is preserved by every step with a fault-free label (scal_step): a context is cancelled only after
   the goroutines that watch it have ended (the L_ lemmas), and the other guards that lead to an error are refuted. *)
From Coq Require Import List Arith Bool PeanoNat Lia ZifyBool.
From FS Require Import Model.Lts Model.LtsExplore Proofs.LtsInv Proofs.LtsSafe Proofs.LtsTerm Proofs.LtsC08 Proofs.LtsTok Proofs.LtsContent Proofs.LtsContent3.
From FS Require Import Proofs.ListAux Proofs.LtsClean1 Proofs.LtsClean2 Proofs.LtsClean3.
Import ListNotations.

Lemma L_sc : forall st, scal st -> inv1 st -> s_cancel st = true ->
  sw_pc st = SW_Done /\ rq_pc st = RQ_Done /\ forallb wk_done (wks st) = true.
Proof.
  intros st K (I1 & _) C. pose proof (k_sc st K) as Ksc. rewrite C in Ksc. apply I1.
  destruct (send_ret st); [discriminate | discriminate Ksc].
Qed.

Lemma L_rc : forall st, scal st -> inv1 st -> inv3 st -> r_cancel st = true ->
  do_pc st = DO_Done /\ rl_pc st = RL_Done /\ fl_pc st = FL_Done /\ dl_pc st = DL_Done /\
  forallb wr_done (wrs st) = true.
Proof.
  intros st K (_ & _ & _ & _ & _ & _ & _ & _ & _ & I10 & _) (B1 & _ & B3 & _) C.
  pose proof (k_rc st K) as Krc. rewrite C in Krc. destruct I10 as [D R]. { destruct (recv_ret st); [discriminate | discriminate Krc]. }
  rewrite D in B1, B3. destruct B1. destruct (B3 (k_re st K)). auto.
Qed.

Lemma L_dc : forall st, scal st -> inv1 st -> inv3 st -> d_canc st = true ->
  fl_pc st = FL_Done /\ dl_pc st = DL_Done.
Proof.
  intros st K J1 J3 C. unfold d_canc in C. apply orb_prop in C. destruct C as [C|C].
  - destruct (L_rc st K J1 J3 C) as (_ & _ & A & B & _). auto.
  - pose proof (k_dc st K C) as Kdc. destruct J3 as (B1 & _). destruct (do_pc st); try contradiction; auto.
Qed.

Lemma L_dw : forall st, scal st -> inv1 st -> inv3 st -> dw_canc st = true ->
  dl_pc st = DL_Done.
Proof.
  intros st K J1 J3 C. unfold dw_canc in C. rewrite (k_dw st K), orb_false_r in C.
  destruct (L_rc st K J1 J3 C) as (_ & _ & _ & B & _). auto.
Qed.

Lemma L_eg : forall st, scal st -> inv1 st -> inv3 st -> eg_canc st = true ->
  forallb wr_done (wrs st) = true.
Proof.
  intros st K J1 J3 C. unfold eg_canc in C. rewrite (k_dw st K), (k_eg st K), !orb_false_r in C.
  destruct (L_rc st K J1 J3 C) as (_ & _ & _ & _ & B). auto.
Qed.

Lemma L_eof : forall p st, scal st -> inv1 st -> inv2 p st -> inv_fin st ->
  rl_pc st = RL_Recv -> buf_sr st = [] -> sr_closed st = true -> False.
Proof.
  intros p st K (I1 & _ & I3 & _) (_ & _ & _ & _ & _ & _ & _ & _ & I9) (F1 & F2) R B C.
  destruct (I1 (F1 C)) as (_ & Rq & _). rewrite Rq in I3. rewrite R in I9.
  destruct I3 as [X|[_ Fs]]; [rewrite (k_se st K) in X; discriminate X|]. destruct (F2 Fs) as [X|X].
  - rewrite B in X. discriminate.
  - congruence.
Qed.

Lemma perr_snoc : forall b pk, existsb is_perr b = false -> is_perr pk = false -> existsb is_perr (b ++ [pk]) = false.
Proof. intros b pk B P. rewrite existsb_snoc, B, P. reflexivity. Qed.

Lemma perr_tail : forall b pk l, b = pk :: l -> existsb is_perr b = false -> existsb is_perr l = false.
Proof. intros b pk l E B. rewrite E in B. apply orb_false_elim in B. apply B. Qed.

Lemma wk_all_done : forall l j w, forallb wk_done l = true -> nth_error l j = Some w -> w = WK_Done.
Proof. intros l j w A E. pose proof (forallb_nth _ _ _ _ _ A E) as D. destruct w; auto; discriminate D. Qed.

Lemma wr_all_done : forall l j w, forallb wr_done l = true -> nth_error l j = Some w -> wr_pc w = WR_Done.
Proof.
  intros l j w A E. pose proof (forallb_nth _ _ _ _ _ A E) as D. unfold wr_done in D.
  destruct (wr_pc w); auto; discriminate D.
Qed.

Section ScalStep.
  Variables (p : params) (st : state).
  Hypothesis WF : wf_params p.
  Hypothesis K : scal st.
  Hypothesis J1 : inv1 st.
  Hypothesis J2 : inv2 p st.
  Hypothesis J3 : inv3 st.
  Hypothesis JF : inv_fin st.
  Hypothesis I9 : inv9a st.
  Hypothesis Irs : inv_rs st.
  Hypothesis I7 : inv7a p st.
  Hypothesis TK : tokinv st.
  Hypothesis WQ : forall id, wq p id st.
  Hypothesis CI : forall id, cinv p id st.
  Hypothesis NI : forall id, kind_of p id <> ENeed -> ninv id st.

  (* the goroutine whose move is considered is recorded as ended *)
  Ltac ended :=
    try match goal with E : nth_error (wks st) _ = Some _, A : forallb wk_done _ = true |- _ =>
          pose proof (wk_all_done _ _ _ A E) end;
    try match goal with E : nth_error (wrs st) _ = Some _, A : forallb wr_done _ = true |- _ =>
          pose proof (wr_all_done _ _ _ A E) end;
    congruence.

  (* The transitions that would raise an error flag or observe a cancellation are not enabled:
     each clause names the guard and the fact that refutes it. *)
  Ltac contra :=
    match goal with
    | C : s_cancel st = true |- _ => destruct (L_sc st K J1 C) as (? & ? & ?); ended
    | C : s_cancel st && _ = true |- _ =>
        apply andb_prop in C; destruct C as [C _]; destruct (L_sc st K J1 C) as (? & ? & ?); ended
    | C : d_canc st = true |- _ => destruct (L_dc st K J1 J3 C) as (? & ?); ended
    | C : dw_canc st = true |- _ => pose proof (L_dw st K J1 J3 C); ended
    | C : eg_canc st = true |- _ => pose proof (L_eg st K J1 J3 C); ended
    | E : sw_pc st = _ |- _ => generalize (k_sw st K); rewrite E; exact (fun x => x)
    | E : rq_pc st = _ |- _ => generalize (k_rq st K); rewrite E; exact (fun x => x)
    | E : fl_pc st = _ |- _ => generalize (k_fl st K); rewrite E; exact (fun x => x)
    | E : do_pc st = _ |- _ => generalize (k_do st K); rewrite E; exact (fun x => x)
    | E : buf_sr st = PErr :: _ |- _ => generalize (k_p1 st K); rewrite E; discriminate
    | E : buf_rs st = PErr :: _ |- _ => generalize (k_p2 st K); rewrite E; discriminate
    | E : buf_rs st = PReq ?id :: _, M : memb ?id (sfiles st) = false |- _ =>
        rewrite (proto_req p st WF K J3 I9 Irs I7 WQ _ _ E) in M; discriminate M
    | E : buf_sr st = PData ?id :: _, M : memb ?id (pipes st) = false |- _ =>
        rewrite (proto_data p st WF TK WQ CI NI _ _ E) in M; discriminate M
    | E : buf_sr st = PDataEnd ?id :: _, M : memb ?id (pipes st) = false |- _ =>
        rewrite (proto_dataend p st TK WQ _ _ E) in M; discriminate M
    | E : nth_error (wrs st) _ = Some ?w, S : wr_pc ?w = WR_Start, M : memb _ (rfiles st) = false |- _ =>
        rewrite (proto_start p st WF K J3 I9 Irs I7 WQ _ _ E S) in M; discriminate M
    | E : buf_sr st = [], R : rl_pc st = RL_Recv, C : sr_closed st = true |- _ =>
        exact (L_eof p st K J1 J2 JF R E C)
    end.

  Lemma scal_step : forall l st', fault_free_label l = true -> step p st l = Some st' -> scal st'.
  Proof.
    intros l st' FF H. pose proof K as K'.
    (* the flags that [scal] fixes are put into the step before it is split into its cases *)
    destruct l; try discriminate FF; clear FF; unfold_steps H;
      rewrite ?(k_sb st K), ?(k_rb st K), ?(k_cc st K), ?(k_de st K), ?(k_ee st K) in H;
      step_split H; inv_some; subst.
    all: try match goal with ok : bool |- _ => destruct ok | k : skind |- _ => destruct k end.
    all: try (exfalso; contra).
    (* every other transition writes at most a buffer, a program counter or the flags of a return *)
    all: destruct K' as [Kse Kre Kde Kee Ksb Krb Kdw Keg Kcc Ksc Krc Kdc Kp1 Kp2 Ksw Krq Kfl Kdo];
      constructor; try assumption; try exact I;
      first [ apply perr_snoc; [assumption | reflexivity] | eapply perr_tail; eassumption
            | reflexivity | intros _; discriminate ].
  Qed.
End ScalStep.
