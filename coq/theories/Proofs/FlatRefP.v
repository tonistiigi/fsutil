(* For a nil map function the reference is, literally: filter the full walk by "selected, or
   an ancestor (by path prefix) of a selected entry".  Also: a map function that only rewrites
   commutes with the reference. *)
From Coq Require Import List NArith Bool.
From FS Require Import Sx Model.Path Model.Stat Model.Tree Model.Pattern Model.FilterWalk
  Proofs.Lex Proofs.PathP Proofs.PatternP Proofs.FilterP Proofs.RefP.
Import ListNotations.
Open Scope bool_scope.

Lemma walk_node_eq dir name st ct kids :
  walk_node dir (Node name st ct kids) =
  (set_path st (child_path dir name), ct) :: walk_forest (child_path dir name) kids.
Proof.
  cbn [walk_node]. f_equal. induction kids as [|k r IH]; [reflexivity|].
  cbn [walk_forest]. rewrite <- IH. reflexivity.
Qed.

Lemma has_prefix_longer (a : bytes) x b : has_prefix (a ++ x :: b) a = false.
Proof. induction a as [|y a IH]; [reflexivity|]. simpl. rewrite N.eqb_refl. exact IH. Qed.

Lemma existsb_ext_in {A} (f g : A -> bool) l : (forall x, In x l -> f x = g x) -> existsb f l = existsb g l.
Proof.
  induction l as [|x l IH]; intros H; [reflexivity|]. cbn [existsb].
  rewrite (H x (or_introl eq_refl)). f_equal. apply IH. intros y Hy. apply H. right; auto.
Qed.

Lemma wf_tree_node_inv name st ct kids : wf_tree_node (Node name st ct kids) = true ->
  name <> [] /\ nosep name /\ (st_is_dir st = true \/ kids = []) /\
  distinct (map node_name kids) = true /\ forallb wf_tree_node kids = true.
Proof.
  cbn [wf_tree_node]. intros H. repeat (apply andb_true_iff in H; destruct H as [H ?]).
  repeat split; auto.
  - destruct name; discriminate.
  - apply no_sep_nosep; auto.
  - match goal with H : _ || _ = true |- _ => apply orb_true_iff in H; destruct H as [H|H]; auto end.
    right. destruct kids; [reflexivity|discriminate].
Qed.

Lemma wf_tree_ind (Q : node -> Prop) :
  (forall name st ct kids, name <> [] -> nosep name -> (st_is_dir st = true \/ kids = []) ->
     forallb wf_tree_node kids = true -> Forall Q kids -> Q (Node name st ct kids)) ->
  forall n, wf_tree_node n = true -> Q n.
Proof.
  intros H. induction n as [name st ct kids IH] using node_ind2. intros Hwf.
  apply wf_tree_node_inv in Hwf. destruct Hwf as (Hne & Hns & Hdk & _ & Hk). apply H; auto.
  rewrite forallb_forall in Hk. rewrite Forall_forall in *. auto.
Qed.

Lemma wf_tree_name k : wf_tree_node k = true -> nosep (node_name k).
Proof. destruct k. intros H. apply wf_tree_node_inv in H. cbn [node_name]. tauto. Qed.

Notation epath e := (st_path (fst e)) (only parsing).

Lemma node_name_eq name st ct kids : node_name (Node name st ct kids) = name.
Proof. reflexivity. Qed.

Lemma walk_forest_flat_map dir l : walk_forest dir l = flat_map (walk_node dir) l.
Proof. induction l as [|k r IH]; [reflexivity|]. cbn [walk_forest flat_map]. rewrite IH. reflexivity. Qed.

Lemma in_walk_forest dir l (e : Tree.entry) :
  In e (walk_forest dir l) <-> exists k, In k l /\ In e (walk_node dir k).
Proof. rewrite walk_forest_flat_map. apply in_flat_map. Qed.

(* if the entries of each node are at or below the node, those of a forest are below its directory *)
Lemma forest_below p l e : p <> [] ->
  (forall k, In k l -> forall e, In e (walk_node p k) ->
     epath e = child_path p (node_name k) \/ has_prefix (child_path p (node_name k) ++ [sep]) (epath e) = true) ->
  In e (walk_forest p l) -> has_prefix (p ++ [sep]) (epath e) = true.
Proof.
  intros Hp H Hin. apply in_walk_forest in Hin. destruct Hin as (k & Hk & Hin).
  destruct (H k Hk e Hin) as [E|E]; [rewrite E|eapply has_prefix_trans; [|exact E]];
    rewrite (child_path_cons p _ Hp); [|rewrite <- app_assoc]; apply has_prefix_snoc_r.
Qed.

Lemma walk_paths : forall n, wf_tree_node n = true -> forall dir e, In e (walk_node dir n) ->
  epath e = child_path dir (node_name n) \/
  has_prefix (child_path dir (node_name n) ++ [sep]) (epath e) = true.
Proof.
  refine (wf_tree_ind _ _). intros name st ct kids Hne Hns _ _ IHk dir e Hin.
  rewrite walk_node_eq in Hin. cbn [node_name]. destruct Hin as [<-|Hin]; [left; reflexivity|]. right.
  rewrite Forall_forall in IHk.
  apply (forest_below _ kids); [apply child_path_nonempty; auto|intros k Hk; apply IHk; exact Hk|exact Hin].
Qed.

Lemma walk_forest_below p l e : p <> [] -> forallb wf_tree_node l = true ->
  In e (walk_forest p l) -> has_prefix (p ++ [sep]) (epath e) = true.
Proof.
  intros Hp Hwf. apply forest_below; auto. intros k Hk. apply walk_paths.
  rewrite forallb_forall in Hwf. auto.
Qed.

Lemma sep_prefix_eq a b : nosep a -> nosep b -> has_prefix (a ++ [sep]) (b ++ [sep]) = true -> a = b.
Proof.
  intros Ha Hb H. apply has_prefix_iff in H. destruct H as [r Hr].
  rewrite <- app_assoc in Hr. cbn [app] in Hr.
  destruct (split_first_unique sep b a [] r) as [-> _]; auto.
Qed.

(* entries of one sibling are not below another sibling *)
Lemma sibling_not_below dir n1 k : nosep n1 -> wf_tree_node k = true -> node_name k <> n1 ->
  forall e, In e (walk_node dir k) -> has_prefix (child_path dir n1 ++ [sep]) (epath e) = false.
Proof.
  intros Hn1 Hwk Hneq e Hin. pose proof (wf_tree_name k Hwk) as Hn2.
  destruct (has_prefix (child_path dir n1 ++ [sep]) (epath e)) eqn:E; auto. exfalso.
  destruct (walk_paths k Hwk dir e Hin) as [Hp|Hp].
  - rewrite Hp in E. rewrite (junk_not_prefix dir n1 _ (node_name k) Hn2 (has_prefix_refl _)) in E. discriminate.
  - destruct (prefix_comparable _ _ _ E Hp) as [X|X]; rewrite child_path_prefix in X;
      apply sep_prefix_eq in X; auto.
Qed.

Section Flat.
Variable V : bytes -> bool.

Fixpoint has_sel (dir : bytes) (n : node) {struct n} : bool :=
  match n with
  | Node name _ _ kids => let p := child_path dir name in V p || existsb (has_sel p) kids
  end.

Lemma existsb_forest_of l dir :
  Forall (fun k => forall dir, existsb (fun e : stat * list N => V (epath e)) (walk_node dir k) = has_sel dir k) l ->
  existsb (fun e : stat * list N => V (epath e)) (walk_forest dir l) = existsb (has_sel dir) l.
Proof.
  induction 1 as [|k r Hk _ IH]; [reflexivity|]. cbn [walk_forest existsb]. rewrite existsb_app. f_equal; [apply Hk|exact IH].
Qed.

Lemma existsb_walk : forall n dir, existsb (fun e : stat * list N => V (epath e)) (walk_node dir n) = has_sel dir n.
Proof.
  induction n as [name st ct kids IHk] using node_ind2. intros dir.
  rewrite walk_node_eq. cbn [existsb has_sel]. f_equal. apply existsb_forest_of, IHk.
Qed.

Definition sel_node (dir : bytes) (n : node) : list stat := fst (fst (ref_node V id_map false dir n)).

Definition id_ok (n : node) : Prop := forall dir,
  ref_node V id_map false dir n =
  (if has_sel dir n
   then set_path (node_stat n) (child_path dir (node_name n)) :: flat_map (sel_node (child_path dir (node_name n))) (node_kids n)
   else [],
   has_sel dir n, false).

Lemma id_forest l : Forall id_ok l -> forall dir,
  ref_forest V id_map false dir l = (flat_map (sel_node dir) l, existsb (has_sel dir) l).
Proof.
  induction 1 as [|k r Hk _ IH]; intros dir; [reflexivity|].
  cbn [ref_forest flat_map existsb]. unfold sel_node in *. rewrite (Hk dir), (IH dir). reflexivity.
Qed.

Lemma sel_none l dir : Forall id_ok l -> existsb (has_sel dir) l = false -> flat_map (sel_node dir) l = [].
Proof.
  intros H E. pose proof (ref_nof_forest V id_map l false dir) as X.
  rewrite (id_forest l H dir) in X. exact (X E).
Qed.

Lemma ref_id : forall n, wf_tree_node n = true -> id_ok n.
Proof.
  refine (wf_tree_ind _ _). intros name st ct kids Hne Hns Hdk _ IHk dir.
  pose proof (id_forest kids IHk (child_path dir name)) as Hf.
  rewrite ref_node_eq. cbv zeta. cbn [node_stat node_name node_kids has_sel id_map fst snd].
  set (p := child_path dir name) in *.
  assert (Hb : ref_below V id_map false (st_is_dir st) p kids = (flat_map (sel_node p) kids, existsb (has_sel p) kids)).
  { unfold ref_below. destruct Hdk as [->| ->]; [exact Hf|]. destruct (st_is_dir st); reflexivity. }
  destruct (V p); cbn [orb negb andb]; rewrite Hb; cbn [fst snd orb app]; [reflexivity|]. rewrite !andb_true_r.
  destruct (existsb (has_sel p) kids) eqn:Ek; [reflexivity|]. rewrite (sel_none kids p IHk Ek). reflexivity.
Qed.

Lemma ref_id_forest l dir : forallb wf_tree_node l = true ->
  ref_forest V id_map false dir l = (flat_map (sel_node dir) l, existsb (has_sel dir) l).
Proof. intros Hwf. apply (id_forest l (Forall_wf _ _ ref_id Hwf)). Qed.

Definition soa (all : list entry) := selected_or_above V all.

Definition outside (p : bytes) (l : list (stat * list N)) : Prop :=
  forall e, In e l -> has_prefix (p ++ [sep]) (epath e) = false.

Lemma outside_app p l1 l2 : outside p (l1 ++ l2) <-> outside p l1 /\ outside p l2.
Proof.
  split.
  - intros H. split; intros e He; apply H, in_or_app; auto.
  - intros [H1 H2] e He. apply in_app_or in He. destruct He; auto.
Qed.

Lemma existsb_outside p l : outside p l ->
  existsb (fun e' : stat * list N => has_prefix (p ++ [sep]) (epath e') && V (epath e')) l = false.
Proof.
  intros H. induction l as [|e l IH]; [reflexivity|]. cbn [existsb].
  rewrite (H e (or_introl eq_refl)). cbn [andb orb]. apply IH. intros e' Hin. apply H. right; auto.
Qed.

Lemma existsb_inside p l : (forall e, In e l -> has_prefix (p ++ [sep]) (epath e) = true) ->
  existsb (fun e' : stat * list N => has_prefix (p ++ [sep]) (epath e') && V (epath e')) l = existsb (fun e : stat * list N => V (epath e)) l.
Proof. intros H. apply existsb_ext_in. intros e He. rewrite (H e He). reflexivity. Qed.

Lemma outside_deeper p nm l : p <> [] -> outside p l -> outside (child_path p nm) l.
Proof.
  intros Hp H e Hin. specialize (H e Hin).
  destruct (has_prefix (child_path p nm ++ [sep]) (epath e)) eqn:E; auto.
  rewrite <- H. symmetry. eapply has_prefix_trans; [|exact E].
  rewrite (child_path_cons p nm Hp), <- app_assoc. apply has_prefix_snoc_r.
Qed.

(* n stands somewhere in the full walk, nothing else of which is below n *)
Definition flat_ok (n : node) : Prop :=
  wf_tree_node n = true -> forall dir before after all,
  all = before ++ walk_node dir n ++ after ->
  outside (child_path dir (node_name n)) (before ++ after) ->
  map fst (filter (soa all) (walk_node dir n)) = sel_node dir n.

Lemma distinct_names_ne k r : distinct (map node_name (k :: r)) = true ->
  (forall k', In k' r -> node_name k <> node_name k') /\ distinct (map node_name r) = true.
Proof.
  cbn [map distinct]. intros H. apply andb_true_iff in H. destruct H as [Hn Hd]. split; auto.
  intros k' Hin E. apply negb_true_iff in Hn.
  assert (X : existsb (bytes_eqb (node_name k)) (map node_name r) = true).
  { apply existsb_exists. exists (node_name k'). split; [apply in_map; auto|]. rewrite E. apply bytes_eqb_refl. }
  congruence.
Qed.

Lemma flat_forest l : Forall flat_ok l -> forallb wf_tree_node l = true -> distinct (map node_name l) = true ->
  forall dir before after all,
  all = before ++ walk_forest dir l ++ after ->
  (forall k, In k l -> outside (child_path dir (node_name k)) (before ++ after)) ->
  map fst (filter (soa all) (walk_forest dir l)) = flat_map (sel_node dir) l.
Proof.
  induction 1 as [|k r Hk _ IH]; intros Hwf Hdist dir before after all Hall Hout; [reflexivity|].
  cbn [forallb] in Hwf. apply andb_true_iff in Hwf. destruct Hwf as [Hwk Hwr].
  destruct (distinct_names_ne k r Hdist) as [Hneq Hdr].
  pose proof Hwr as Hwr'. rewrite forallb_forall in Hwr'.
  cbn [walk_forest flat_map] in *. rewrite filter_app, map_app. f_equal.
  - (* k itself: the later siblings are outside *)
    apply (Hk Hwk dir before (walk_forest dir r ++ after) all); [rewrite Hall, <- !app_assoc; reflexivity|].
    pose proof (Hout k (or_introl eq_refl)) as Ho. rewrite !outside_app in *. destruct Ho as [Ho1 Ho2].
    repeat split; auto. intros e Hin. apply in_walk_forest in Hin. destruct Hin as (k' & Hk' & Hin).
    apply (sibling_not_below dir (node_name k) k'); auto using wf_tree_name, not_eq_sym.
  - (* the rest: k's entries are outside of each later sibling *)
    apply (IH Hwr Hdr dir (before ++ walk_node dir k) after); [rewrite Hall, <- !app_assoc; reflexivity|].
    intros k' Hin. pose proof (Hout k' (or_intror Hin)) as Ho. rewrite !outside_app in *. destruct Ho as [Ho1 Ho2].
    repeat split; auto.
    exact (sibling_not_below dir _ k (wf_tree_name _ (Hwr' _ Hin)) Hwk (Hneq k' Hin)).
Qed.

Lemma flat_node : forall n, flat_ok n.
Proof.
  induction n as [name st ct kids IHk] using node_ind2. intros Hwf dir before after all Hall Hout.
  pose proof Hwf as Hwf0. apply wf_tree_node_inv in Hwf. destruct Hwf as (Hne & Hns & Hdk & Hdist & Hkids).
  cbn [node_name] in Hout. set (p := child_path dir name) in *.
  assert (Hp : p <> []) by (apply child_path_nonempty; auto).
  unfold sel_node. rewrite (ref_id _ Hwf0 dir). cbn [fst node_stat node_name node_kids]. fold p.
  rewrite walk_node_eq in *. fold p in Hall |- *. cbn [filter].
  assert (Hself : has_prefix (p ++ [sep]) p = false) by apply (has_prefix_longer p sep []).
  rewrite outside_app in Hout. destruct Hout as [Hob Hoa].
  (* the verdict for the entry itself *)
  assert (Hsoa : soa all (set_path st p, ct) = has_sel dir (Node name st ct kids)).
  { unfold soa, selected_or_above. cbn [fst st_path set_path has_sel]. fold p. f_equal.
    unfold entry in *. rewrite Hall, !existsb_app. cbn [existsb].
    change (epath (set_path st p, ct)) with p.
    rewrite Hself, (existsb_outside p before Hob), (existsb_outside p after Hoa), existsb_inside
      by (intros e; apply walk_forest_below; auto).
    cbn [andb orb]. rewrite orb_false_r.
    apply existsb_forest_of, Forall_all, existsb_walk. }
  (* the contents *)
  assert (Hkids_flat : map fst (filter (soa all) (walk_forest p kids)) = flat_map (sel_node p) kids).
  { apply (flat_forest kids IHk Hkids Hdist p (before ++ [(set_path st p, ct)]) after all);
      [rewrite Hall, <- !app_assoc; reflexivity|].
    intros k Hin. apply outside_deeper; auto. rewrite !outside_app. repeat split; auto.
    intros e [<-|[]]. exact Hself. }
  rewrite Hsoa. destruct (has_sel dir (Node name st ct kids)) eqn:Ehs.
  - cbn [map fst]. f_equal. exact Hkids_flat.
  - (* nothing selected below: nothing listed *)
    rewrite Hkids_flat. cbn [has_sel] in Ehs. fold p in Ehs. apply orb_false_iff in Ehs.
    exact (sel_none kids p (Forall_wf _ _ ref_id Hkids) (proj2 Ehs)).
Qed.

Theorem reference_nomap_flat_proof view : wf_tree view = true ->
  reference V id_map view = flat_reference V view.
Proof.
  unfold wf_tree. intros H. apply andb_true_iff in H. destruct H as [Hd Hw].
  unfold reference, flat_reference, walk_root. rewrite (ref_id_forest view [] Hw). cbn [fst].
  symmetry. apply (flat_forest view) with (before := []) (after := []); auto.
  - apply Forall_all, flat_node.
  - rewrite app_nil_r. reflexivity.
  - intros k _ e [].
Qed.
End Flat.

(* a map function that only rewrites commutes with the reference *)
Section Rewrite.
Variable V : bytes -> bool.
Variable mapfn : bytes -> stat -> mres * stat.
Hypothesis Hkeep : forall p s, fst (mapfn p s) = MKeep.
Let rw (s : stat) : stat := snd (mapfn (st_path s) s).

Definition rw_ok (n : node) : Prop := forall dir,
  ref_node V mapfn false dir n =
  (map rw (fst (fst (ref_node V id_map false dir n))), snd (fst (ref_node V id_map false dir n)), snd (ref_node V id_map false dir n)).

Lemma ref_rewrite_forest l : Forall rw_ok l -> forall dir,
  ref_forest V mapfn false dir l =
  (map rw (fst (ref_forest V id_map false dir l)), snd (ref_forest V id_map false dir l)).
Proof.
  induction 1 as [|k r Hk _ IH]; intros dir; [reflexivity|]. cbn [ref_forest]. rewrite (Hk dir), (IH dir).
  destruct (ref_node V id_map false dir k) as [[e f] cut]. cbn [fst snd]. destruct cut; [reflexivity|].
  destruct (ref_forest V id_map false dir r) as [e' f']. cbn [fst snd]. rewrite map_app. reflexivity.
Qed.

Lemma ref_rewrite_node : forall n, rw_ok n.
Proof.
  induction n as [name st ct kids IHk] using node_ind2. intros dir.
  rewrite !ref_node_eq. cbv zeta. set (p := child_path dir name). rewrite Hkeep. cbn [id_map fst snd orb].
  assert (Hb : forall isd, ref_below V mapfn false isd p kids =
               (map rw (fst (ref_below V id_map false isd p kids)), snd (ref_below V id_map false isd p kids))).
  { intros isd. unfold ref_below. destruct isd; [exact (ref_rewrite_forest kids IHk p)|reflexivity]. }
  assert (Hrw : snd (mapfn p (set_path st p)) = rw (set_path st p)) by reflexivity.
  destruct (V p).
  - rewrite Hb. cbn [fst snd app map]. rewrite Hrw. reflexivity.
  - rewrite Hb. cbn [fst snd]. rewrite map_app, Hrw.
    destruct (snd (ref_below V id_map false (st_is_dir st) p kids) && negb false && true); reflexivity.
Qed.

Theorem reference_rewrite_only_proof view :
  reference V mapfn view = map rw (reference V id_map view).
Proof.
  unfold reference. rewrite ref_rewrite_forest; [reflexivity|].
  apply Forall_all, ref_rewrite_node.
Qed.
End Rewrite.
