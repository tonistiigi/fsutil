(* C13 for SEVERAL sources (wildcard matches): every match whose landing path does not collide
   with the landing path of another match arrives as a faithful copy of its source tree.
   The specification side: what [overlay_srcs] does at and below the landing path of the i-th
   source, when no other source lands above, at or below it.  With it the options on the
   entries of the i-th match (copy_options_applied_wild_proof) and the notifier for all matches
   (notifier_exact_wild_proof).  One literal source is the case srcs = [src], i = 0
   ([literal_nth]); for it [landing_clear] follows from a condition on the ensure path of dst
   alone.  Also: the escape-aware has_wild_e / split_wild_e / glob_e on backslash-free input. *)
From Coq Require Import List NArith Bool Lia.
From FS Require Import Sx Model.Path Model.SymMode Model.Copier Model.CopySpec Proofs.Lex
  Proofs.CopierP Proofs.CopyOpsP Proofs.CopyDentP Proofs.CopyLinkP Proofs.CopyNodeP Proofs.CopyMkdirP Proofs.CopyConflictP
  Proofs.CopyTopP Proofs.CopyThmP Proofs.CopyFaithP.
Import ListNotations.
Open Scope N_scope.
Open Scope bool_scope.

Lemma apart_b_spec L1 L2 : apart_b L1 L2 = true <-> apart L1 L2.
Proof.
  unfold apart_b, apart. rewrite andb_true_iff, !negb_true_iff. split; intros [A B]; split.
  - intros r E. rewrite E, is_prefix_app in A. discriminate.
  - intros r E. rewrite E, is_prefix_app in B. discriminate.
  - destruct (is_prefix L1 L2) eqn:E; auto. apply is_prefix_true in E. destruct E as (r & E). destruct (A r E).
  - destruct (is_prefix L2 L1) eqn:E; auto. apply is_prefix_true in E. destruct E as (r & E). destruct (B r E).
Qed.

Lemma apart_below L1 L2 rel : apart L1 L2 -> strip_prefix L2 (L1 ++ rel) = None /\ forall x, L2 <> (L1 ++ rel) ++ x.
Proof.
  intros [A B]. split.
  - apply strip_prefix_none. intros r E. apply app_eq_app in E. destruct E as (l & [(E1 & E2)|(E1 & E2)]).
    + apply (B l). auto.
    + apply (A l). auto.
  - intros x E. rewrite <- app_assoc in E. apply (A _ E).
Qed.

Section Wild.
  Variable o : copts.
  Variable sroot : snode.
  Hypothesis Hsrc : wf_src sroot.
  Notation multi := (multi_of sroot).

  (* one source: what it leaves alone *)
  Lemma overlay_one_frame ms sn src D0 V r1 :
    overlay_one o ms multi sn src D0 V = inl r1 ->
    exists L, xr_landings r1 = [L] /\
      forall p, strip_prefix L p = None -> (forall x, L <> p ++ x) -> xr_view r1 p = V p.
  Proof.
    unfold overlay_one. destruct (spec_resolve V (clean D0)) as [D|]; [|discriminate].
    set (L := landing o sn src D V).
    set (target := if o_dircontents o && is_dir (sdent sn) && negb (x_exists (V D)) then L else parent L).
    destruct (make_dirs o [] target V) as [V1|] eqn:EM; [|discriminate].
    destruct (if o_replace o then None else first_conflict V1 L sn); [discriminate|].
    intro H; inversion H; subst r1; clear H. cbn [xr_view xr_landings].
    exists L. split; auto. intros p Hs Hp.
    assert (HV1 : V1 p = V p).
    { apply (make_dirs_frame _ _ _ _ _ EM). intro Hin. apply prefixes_in in Hin.
      destruct Hin as (r1 & r2 & E1 & E2). simpl in E2. subst p.
      unfold target in E1. destruct (_ && _ && _).
      - apply (Hp r2); auto.
      - destruct (path_snoc_cases L) as [E0|(P & a & E0)].
        + rewrite E0 in E1. simpl in E1. destruct r1; [|discriminate]. rewrite E0 in Hs. discriminate.
        + rewrite E0, parent_snoc in E1. apply (Hp (r2 ++ [a])). rewrite E0, E1, <- app_assoc. auto. }
    assert (HV2 : overlay_at o ms multi sn L V1 p = V p).
    { unfold overlay_at. rewrite Hs. auto. }
    clearbody target. clearbody L.
    destruct (path_snoc_cases L) as [E0|(P & a & E0)].
    - rewrite E0 in Hs. discriminate.
    - assert (HT : touch o (parent L) (overlay_at o ms multi sn L V1) p = V p).
      { rewrite touch_other; auto. intros ->. rewrite E0, parent_snoc in Hp. apply (Hp [a]). auto. }
      destruct L as [|l0 L0]; [destruct P; discriminate|].
      destruct (_ && _); auto.
  Qed.

  (* later sources that land apart from p's subtree leave p alone *)
  Lemma overlay_srcs_frame ms D0 : forall srcs V r, overlay_srcs o sroot ms D0 srcs V = inl r ->
    forall p, (forall j Lj, nth_error (xr_landings r) j = Some Lj -> strip_prefix Lj p = None /\ forall x, Lj <> p ++ x) ->
    xr_view r p = V p.
  Proof.
    induction srcs as [|s rest IH]; intros V r; cbn [overlay_srcs].
    - intro H; inversion H; subst. auto.
    - destruct (s_resolve sroot (rooted s)) as [sn|[]]; try discriminate.
      destruct (overlay_one o ms multi sn s D0 V) as [r1|] eqn:E1; [|discriminate].
      destruct (overlay_srcs o sroot ms D0 rest (xr_view r1)) as [r2|] eqn:E2; [|discriminate].
      intro H; inversion H; subst r; clear H. cbn [xr_view xr_landings]. intros p Hp.
      destruct (overlay_one_frame _ _ _ _ _ _ E1) as (L1 & EL1 & F1). rewrite EL1 in Hp.
      rewrite (IH _ _ E2 p).
      + destruct (Hp 0%nat L1 eq_refl). apply F1; auto.
      + intros j Lj Hj. apply (Hp (S j) Lj). auto.
  Qed.

  (* the i-th source of a list of sources *)
  Lemma overlay_srcs_nth ms D0 : forall srcs V r, overlay_srcs o sroot ms D0 srcs V = inl r ->
    forall i s, nth_error srcs i = Some s ->
    exists sn Vi ri L m,
      s_resolve sroot (rooted s) = inl sn /\
      overlay_one o ms multi sn s D0 Vi = inl ri /\
      xr_landings ri = [L] /\ xr_merged ri = [m] /\
      nth_error (xr_landings r) i = Some L /\ nth_error (xr_merged r) i = Some m /\
      incl (xr_paths ri) (xr_paths r) /\
      ((forall j Lj, j <> i -> nth_error (xr_landings r) j = Some Lj -> apart L Lj) ->
       forall rel, Vi (L ++ rel) = V (L ++ rel) /\ xr_view r (L ++ rel) = xr_view ri (L ++ rel)).
  Proof.
    induction srcs as [|s0 rest IH]; intros V r; cbn [overlay_srcs].
    - intros _ [|i] s; discriminate.
    - destruct (s_resolve sroot (rooted s0)) as [sn0|e] eqn:Er0; [|destruct e; discriminate].
      destruct (overlay_one o ms multi sn0 s0 D0 V) as [r1|] eqn:E1; [|discriminate].
      destruct (overlay_srcs o sroot ms D0 rest (xr_view r1)) as [r2|] eqn:E2; [|discriminate].
      intro H; inversion H; subst r; clear H. cbn [xr_view xr_landings xr_merged xr_paths].
      destruct (overlay_one_lens o sroot _ _ _ _ _ _ E1) as (L1 & m1 & EL1 & Em1). rewrite EL1, Em1.
      intros [|i] s Hs.
      + simpl in Hs. inversion Hs; subst s0. clear Hs.
        exists sn0, V, r1, L1, m1. do 7 (split; [solve [auto using incl_appl, incl_refl]|]).
        intros Hap rel. split; auto.
        apply (overlay_srcs_frame _ _ _ _ _ E2). intros j Lj Hj.
        assert (A : apart L1 Lj) by (apply (Hap (S j)); [discriminate|exact Hj]).
        destruct (apart_below _ _ rel A). auto.
      + simpl in Hs. destruct (IH _ _ E2 i s Hs) as (sn & Vi & ri & L & m & A1 & A2 & A3 & A4 & A5 & A6 & A7 & A8).
        exists sn, Vi, ri, L, m. do 7 (split; [solve [auto using incl_appr]|]).
        intros Hap rel.
        assert (Hap' : forall j Lj, j <> i -> nth_error (xr_landings r2) j = Some Lj -> apart L Lj).
        { intros j Lj Hne Hj. apply (Hap (S j)); auto. }
        destruct (A8 Hap' rel) as [B1 B2]. split; auto. rewrite B1.
        destruct (overlay_one_frame _ _ _ _ _ _ E1) as (L1' & EL1' & F1). rewrite EL1 in EL1'. inversion EL1'; subst L1'.
        assert (A : apart L L1) by (apply (Hap 0%nat); [discriminate|reflexivity]).
        destruct (apart_below _ _ rel A). apply F1; auto.
  Qed.

  (* the specification at and below the landing path of the i-th source, when it lands apart from
     the others *)
  Lemma overlay_all_nth V0 src dst r ms srcs i s sn L m :
    x_isdir (xview_of V0 []) = true -> overlay_all o sroot V0 src dst = inl r -> parse_of o = Some ms ->
    (if o_wild o then resolve_wild sroot src else inl [src]) = inl srcs ->
    nth_error srcs i = Some s -> s_resolve sroot (rooted s) = inl sn ->
    nth_error (xr_landings r) i = Some L -> nth_error (xr_merged r) i = Some m ->
    (forall j Lj, j <> i -> nth_error (xr_landings r) j = Some Lj -> apart L Lj) ->
    let ep := rooted (ensure_arg dst) in
    exists X1 eps Vi V1 target,
      make_dirs o [] ep (xview_of V0) = inl X1 /\ incl (prefixes [] ep) ([] :: eps) /\
      (forall rel, Vi (L ++ rel) = X1 (L ++ rel)) /\
      make_dirs o [] target Vi = inl V1 /\
      m = is_dir (sdent sn) && x_isdir (V1 L) /\
      incl (eps ++ prefixes [] target ++ s_paths L sn) (xr_paths r) /\
      (L = [] -> is_dir (sdent sn) = true /\ x_isdir (V1 []) = true) /\
      (forall rel, xr_view r (L ++ rel) = res o ms multi sn L true V1 (L ++ rel)).
  Proof.
    intros Hroot Eo Hp Hsrcs Hi Hs HL Hm Hap ep.
    destruct (overlay_all_inv o sroot _ _ _ _ Hroot Eo) as (X1 & eps & ms' & srcs' & r0 & A1 & _ & A2 & _ & Hr1 & A4 & A5 & A6 & ->).
    rewrite Hp in A4. inversion A4; subst ms'. rewrite Hsrcs in A5. inversion A5; subst srcs'.
    cbn [xr_view xr_landings xr_merged xr_paths] in *.
    destruct (overlay_srcs_nth ms dst _ _ _ A6 i s Hi) as (sn' & Vi & ri & L' & m' & B1 & B2 & B3 & B4 & B5 & B6 & B7 & B8).
    rewrite Hs in B1. inversion B1; subst sn'. rewrite HL in B5. inversion B5; subst L'.
    rewrite Hm in B6. inversion B6; subst m'. specialize (B8 Hap).
    assert (HrV : L = [] -> x_isdir (Vi []) = true).
    { intros ->. destruct (B8 []) as [B _]. simpl in B. rewrite B. auto. }
    destruct (overlay_one_at o sroot Hsrc ms sn s dst Vi ri L Hs B2 B3 HrV) as (V1 & target & _ & C1 & C4 & C5 & _ & C2 & C3).
    exists X1, eps, Vi, V1, target. split; auto. split; auto. split; [intro rel; apply B8|]. split; auto.
    split; [rewrite B4 in C2; inversion C2; auto|].
    split; [apply incl_app; [apply incl_appl, incl_refl|apply incl_appr; rewrite <- C3; auto]|]. split; auto.
    intro rel. destruct (B8 rel) as [_ B]. rewrite B. apply C5.
  Qed.
End Wild.

(* destination paths of the non-directories of all sources, in copy order *)
Fixpoint nd_paths_all (Ls : list (list (list N))) (sns : list snode) : list (list (list N)) :=
  match Ls, sns with
  | L :: Ls', sn :: sns' => nd_paths L sn ++ nd_paths_all Ls' sns'
  | _, _ => []
  end.

Section C13Wild.
  Variable o : copts.
  Variable sroot : snode.
  Hypothesis Hsrc : wf_src sroot.
  Hypothesis Hlc : links_consistent sroot.
  Notation multi := (multi_of sroot).

  (* C13 for wildcard sources: the i-th match, landing apart from the other matches, arrives as a
     faithful copy of its source tree (and with the source's inode partition when the exact
     partition is available: no link groups, or a literal source) *)
  Theorem copy_into_empty_faithful_wild_proof fs src dst r ms srcs i s sn L m :
    empty_dst fs -> overlay_all o sroot (view_of_fs fs) src dst = inl r -> parse_of o = Some ms ->
    (if o_wild o then resolve_wild sroot src else inl [src]) = inl srcs ->
    nth_error srcs i = Some s -> s_resolve sroot (rooted s) = inl sn ->
    nth_error (xr_landings r) i = Some L -> nth_error (xr_merged r) i = Some m ->
    (forall j Lj, j <> i -> nth_error (xr_landings r) j = Some Lj -> apart L Lj) ->
    landing_clear r sn L ->
    exists st', copy_top o sel_all sroot fs src dst = (st', None) /\
      (forall rel, iso_at o ms m sn L (view_of_fs (c_fs st')) rel = true) /\
      (no_link_groups sroot \/ o_wild o = false -> tree_iso o ms m sn L (view_of_fs (c_fs st'))).
  Proof.
    intros (Hfs & Hemp) Eo Hp Hsrcs Hi Hs HL Hm Hap Hclear.
    destruct (inv_init o fs Hfs) as (_ & Hroot & _).
    destruct (overlay_all_nth o sroot Hsrc _ src dst r ms srcs i s sn L m Hroot Eo Hp Hsrcs Hi Hs HL Hm Hap)
      as (X1 & eps & Vi & V1 & target & B1 & B2 & B3 & B4 & -> & B6 & B7 & B8).
    (* over an empty destination all there is below L before the copy proper are directories just made *)
    assert (H0 : forall p, xview_of (view_of_fs fs) p <> None -> p = []).
    { intros p. unfold xview_of, view_of_fs. destruct (path_dec p []) as [->|Hn]; auto. rewrite (Hemp p Hn). congruence. }
    assert (HV : forall rel e, rel <> [] -> V1 (L ++ rel) = Some e -> s_lookup sn rel <> None /\ fresh_dir_like (x_d e)).
    { intros rel e Hrel Hpe. assert (Hne : L ++ rel <> []) by (intro E0; apply app_eq_nil in E0 as [_ E0]; auto). split.
      - apply (Hclear rel Hrel), B6. destruct (make_dirs_dom _ _ _ _ _ B4 (L ++ rel)) as [A|A]; [congruence| |auto using in_or_app].
        rewrite B3 in A. destruct (make_dirs_dom _ _ _ _ _ B1 _ A) as [A'|A']; [destruct (Hne (H0 _ A'))|].
        destruct (B2 _ A') as [E0|A'']; [destruct (Hne (eq_sym E0))|auto using in_or_app].
      - destruct (make_dirs_shape _ _ _ _ _ B4 _ e Hpe) as [(e0 & A & <-)|F]; auto. rewrite B3 in A.
        destruct (make_dirs_shape _ _ _ _ _ B1 _ e0 A) as [(e1 & A' & _)|F]; auto. destruct Hne. apply H0. congruence. }
    pose proof (s_resolve_wf_src sroot Hsrc _ _ Hs) as Hwfn.
    destruct (copy_overlay_links_proof o sroot Hsrc Hlc fs src dst r Hfs Eo) as (st' & E1 & VM & _).
    exists st'. split; auto.
    pose proof (iso_of_match o sroot ms sn Hwfn L V1 _ _ B7 B8 HV VM) as Hiso.
    split; auto. intro Hex. split; auto.
    destruct (copy_overlay_partial_proof o sroot Hsrc Hlc Hex fs src dst r Hfs Eo) as (st'' & E1' & VMK & _).
    rewrite E1 in E1'. inversion E1'; subst st''. eapply part_of_keys; eauto.
  Qed.

  (* the requested owner / mode / time on the entries of the i-th match, on any destination *)
  Theorem copy_options_applied_wild_proof fs src dst r ms srcs i s sn L m :
    wf_fs fs -> overlay_all o sroot (view_of_fs fs) src dst = inl r -> parse_of o = Some ms ->
    (if o_wild o then resolve_wild sroot src else inl [src]) = inl srcs ->
    nth_error srcs i = Some s -> s_resolve sroot (rooted s) = inl sn ->
    nth_error (xr_landings r) i = Some L -> nth_error (xr_merged r) i = Some m ->
    (forall j Lj, j <> i -> nth_error (xr_landings r) j = Some Lj -> apart L Lj) ->
    exists st', copy_top o sel_all sroot fs src dst = (st', None) /\
      (forall rel s1, s_lookup sn rel = Some s1 -> (rel = [] -> m = false) ->
         exists i1 d, view_of_fs (c_fs st') (L ++ rel) = Some (i1, d) /\
           d_uid d = fst (info_owner o (sdent s1)) /\ d_gid d = snd (info_owner o (sdent s1)) /\
           (is_lnk (sdent s1) = false -> perm12 d = info_mode o ms (sdent s1)) /\
           d_mtime d = info_time o (sdent s1) /\ ftype d = copy_type (sdent s1)) /\
      (forall p e, xr_view r p = Some e -> x_mk e = true ->
         exists i1 d, view_of_fs (c_fs st') p = Some (i1, d) /\
           (forall u g, o_chown o = Some (u, g) -> d_uid d = u /\ d_gid d = g) /\
           (forall t, o_utime o = Some t -> d_mtime d = t)).
  Proof.
    intros Hfs Eo Hp Hsrcs Hi Hs HL Hm Hap.
    destruct (topg o sroot Hsrc Hlc fs src dst Hfs) as (sdof & HT). rewrite Eo in HT.
    destruct HT as (st' & E1 & I & S & _ & MT & (cr & Hg) & _).
    exists st'. split; auto.
    destruct (inv_init o fs Hfs) as (_ & Hroot & _).
    destruct (overlay_all_nth o sroot Hsrc _ src dst r ms srcs i s sn L m Hroot Eo Hp Hsrcs Hi Hs HL Hm Hap)
      as (X1 & eps & Vi & V1 & target & _ & _ & _ & _ & B5 & _ & B7 & B8).
    split.
    - intros rel s1 Es Htop.
      pose proof (B8 rel) as Ex. rewrite (res_at_source _ _ _ _ _ _ _ _ B7 Es) in Ex.
      destruct (inv_x_some _ _ _ _ _ I Ex) as (i1 & Hi1 & Hdm & _).
      exists i1, (inodes (c_fs st') i1). split; [unfold view_of_fs; rewrite Hi1; auto|].
      eapply copied_options; [symmetry; exact (dm_eq _ _ _ Hdm (S _ _ _ Hi1 Ex (copied_known _ _ _ _ _ _ _)))|].
      destruct rel; [|discriminate]. intros _. simpl in Es. inversion Es; subst s1. rewrite app_nil_r, <- B5. auto.
    - intros p e Hpe Hmk. destruct (inv_x_some _ _ _ _ _ I Hpe) as (i1 & Hi1 & Hdm & _).
      exists i1, (inodes (c_fs st') i1). split; [unfold view_of_fs; rewrite Hi1; auto|].
      pose proof (Hg p) as Hgp. unfold Gp in Hgp. rewrite Hpe in Hgp. destruct Hgp as [G1 G2].
      destruct (G2 (G1 Hmk)) as (_ & _ & K2). destruct Hdm as (_ & A2 & A3 & _). split.
      + intros u g Hc. destruct (K2 u g Hc). split; congruence.
      + intros t Ht. eapply MT; eauto.
  Qed.

  (* notifications for wildcard sources: one per source non-directory, match by match, in order;
     a directory is only ever notified with the path of a source directory of some match *)
  Lemma overlay_srcs_notifs ms D0 : forall srcs V r sns, overlay_srcs o sroot ms D0 srcs V = inl r ->
    Forall2 (fun s sn => s_resolve sroot (rooted s) = inl sn) srcs sns ->
    length (xr_landings r) = length srcs /\
    map fst (filter (fun pb => negb (snd pb)) (xr_notifs r)) = nd_paths_all (xr_landings r) sns /\
    forall q, In (q, true) (xr_notifs r) ->
      exists j Lj snj rel s1, nth_error (xr_landings r) j = Some Lj /\ nth_error sns j = Some snj /\
        q = Lj ++ rel /\ s_lookup snj rel = Some s1 /\ is_dir (sdent s1) = true.
  Proof.
    induction srcs as [|s0 rest IH]; intros V r sns; cbn [overlay_srcs].
    - intro H; inversion H; subst. intro F; inversion F; subst. repeat split; auto. intros q [].
    - intros H F. inversion F as [|? sn0 ? sns' Hs0 F']; subst. rewrite Hs0 in H.
      destruct (overlay_one o ms multi sn0 s0 D0 V) as [r1|] eqn:E1; [|discriminate].
      destruct (overlay_srcs o sroot ms D0 rest (xr_view r1)) as [r2|] eqn:E2; [|discriminate].
      inversion H; subst r; clear H. cbn [xr_landings xr_notifs].
      destruct (IH _ _ _ E2 F') as (A1 & A2 & A3).
      unfold overlay_one in E1. destruct (spec_resolve V (clean D0)) as [D|]; [|discriminate].
      destruct (make_dirs o [] _ V) as [V1|]; [|discriminate].
      destruct (if o_replace o then None else first_conflict V1 _ sn0); [discriminate|].
      inversion E1; subst r1; clear E1. cbn [xr_landings xr_notifs app length nd_paths_all] in *.
      split; [congruence|]. split; [rewrite filter_app, map_app, notifs_nondirs, A2; auto|].
      intros q Hq. apply in_app_or in Hq. destruct Hq as [Hq|Hq].
      + destruct (notifs_dirs _ _ (s_resolve_wf_src sroot Hsrc _ _ Hs0) _ _ _ Hq) as (rel & s1 & A & B & C).
        exists 0%nat. eexists. exists sn0, rel, s1. repeat split; eauto.
      + destruct (A3 q Hq) as (j & Lj & snj & rel & s1 & A & B & C & D' & E').
        exists (S j), Lj, snj, rel, s1. repeat split; auto.
  Qed.

  Theorem notifier_exact_wild_proof fs src dst r srcs sns :
    wf_fs fs -> overlay_all o sroot (view_of_fs fs) src dst = inl r ->
    (if o_wild o then resolve_wild sroot src else inl [src]) = inl srcs ->
    Forall2 (fun s sn => s_resolve sroot (rooted s) = inl sn) srcs sns ->
    exists st', copy_top o sel_all sroot fs src dst = (st', None) /\
      length (xr_landings r) = length srcs /\
      map fst (filter (fun pb => negb (snd pb)) (rev (c_notifs st'))) = nd_paths_all (xr_landings r) sns /\
      (forall q, In (q, true) (rev (c_notifs st')) ->
         exists j Lj snj rel s1, nth_error (xr_landings r) j = Some Lj /\ nth_error sns j = Some snj /\
           q = Lj ++ rel /\ s_lookup snj rel = Some s1 /\ is_dir (sdent s1) = true).
  Proof.
    intros Hfs Eo Hsrcs F.
    destruct (copy_overlay_links_proof o sroot Hsrc Hlc fs src dst r Hfs Eo) as (st' & E1 & _ & _ & EN).
    exists st'. split; auto. rewrite EN.
    destruct (inv_init o fs Hfs) as (_ & Hroot & _).
    destruct (overlay_all_inv o sroot _ _ _ _ Hroot Eo) as (X1 & eps & ms & srcs' & r0 & _ & _ & _ & _ & _ & _ & A5 & A6 & ->).
    rewrite Hsrcs in A5. inversion A5; subst srcs'. exact (overlay_srcs_notifs _ _ _ _ _ _ A6 F).
  Qed.
End C13Wild.

(* On backslash-free components the escape-aware functions of resolve_wild are the plain ones
   (has_wild / split_wild / glob): what splitWildcards_backslash_free /
   copy_containsWildcards_backslash_free rest on. *)
Lemma has_wild_e_plain c : existsb (N.eqb ch_bsl) c = false -> has_wild_e c = has_wild c.
Proof.
  unfold has_wild. induction c as [|x r IH]; auto. cbn [existsb has_wild_e].
  intro H. apply orb_false_iff in H as [H1 H2]. rewrite N.eqb_sym, H1, (IH H2). reflexivity.
Qed.

Lemma split_wild_e_plain cs : forallb (fun c => negb (existsb (N.eqb ch_bsl) c)) cs = true ->
  split_wild_e cs = split_wild cs.
Proof.
  induction cs as [|c r IH]; auto. cbn [forallb split_wild_e split_wild].
  intro H. apply andb_true_iff in H as [H1 H2]. apply negb_true_iff in H1.
  rewrite (has_wild_e_plain c H1), (IH H2). reflexivity.
Qed.

Lemma glob_e_plain : forall pat, existsb (N.eqb ch_bsl) pat = false -> forall name, glob_e pat name = glob pat name.
Proof.
  induction pat as [|c pr IH]; auto. cbn [existsb]. intro H. apply orb_false_iff in H as [H1 H2].
  specialize (IH H2). intro name. cbn [glob_e glob]. rewrite (N.eqb_sym c ch_bsl), H1.
  destruct (N.eqb c ch_star).
  - induction name as [|x n IHn]; [rewrite IH; reflexivity|]. rewrite IH, IHn. reflexivity.
  - destruct name; auto. rewrite IH. reflexivity.
Qed.

(* escape rules on examples: an escaped metacharacter does not make a component a pattern, a real
   one after it does *)
Example has_wild_e_examples :
  has_wild_e [92; 91; 42] = true /\ has_wild_e [120; 92; 63; 63] = true /\
  has_wild_e [92; 91] = false /\ has_wild_e [97; 92; 42] = false /\ has_wild_e [92; 92; 42] = true /\
  glob_e [92; 91; 42] [91; 97; 98] = true /\ glob_e [120; 92; 63; 63] [120; 63; 122] = true /\
  glob_e [120; 92; 63; 63] [120; 121; 122] = false.
Proof. vm_compute. repeat split. Qed.

Lemma s_paths_spec : forall n, wf_s n -> forall p q, In q (s_paths p n) ->
  exists rel s, q = p ++ rel /\ s_lookup n rel = Some s.
Proof.
  induction n as [nm ino sd kids IH] using snode_ind2. intros Hwf p q. cbn [s_paths].
  intros [<-|H]; [exists [], (SNode nm ino sd kids); rewrite app_nil_r; auto|].
  change (In q (flat_map (fun k => s_paths (p ++ [sname k]) k) kids)) in H. apply in_flat_map in H as (k & Hin & H).
  destruct (kid_entry _ _ _ _ k p q (fun _ => True) Hwf Hin) as (rel & s & A & B & _); eauto.
  rewrite Forall_forall in IH. apply wf_s_unfold in Hwf. destruct Hwf as (_ & _ & _ & Hall). rewrite Forall_forall in Hall.
  destruct (IH k Hin (Hall k Hin) _ _ H) as (rel & s & A & B). eauto.
Qed.

Lemma below_not_prefix (L rel t : list (list N)) : rel <> [] -> L <> (L ++ rel) ++ t.
Proof.
  intros Hr E. rewrite <- app_assoc in E. rewrite <- (app_nil_r L) in E at 1. apply app_inv_head in E.
  symmetry in E. apply app_eq_nil in E. destruct E. auto.
Qed.

Section Clear.
  Variable o : copts.
  Variable sroot : snode.
  Hypothesis Hsrc : wf_src sroot.

  (* one literal source: the directories made for the copy proper (prefixes of the target) and the
     source's own paths never violate landing_clear; what remains is the ensure path of dst
     (ensureDstPath): it is enough that the resolved ensure path is a prefix of the landing path *)
  Lemma landing_clear_of_prefix V0 src dst r sn L :
    o_wild o = false -> x_isdir (xview_of V0 []) = true -> overlay_all o sroot V0 src dst = inl r ->
    s_resolve sroot (rooted src) = inl sn -> xr_landings r = [L] ->
    (ensure_arg dst <> [] -> forall ep, spec_resolve (xview_of V0) (ensure_arg dst) = inl ep -> exists t, L = ep ++ t) ->
    landing_clear r sn L.
  Proof.
    intros Hw Hroot Eo Hs HL Hens.
    destruct (overlay_all_inv o sroot _ _ _ _ Hroot Eo) as (_ & _ & ms & _ & _ & _ & _ & _ & _ & _ & Hp & _).
    destruct (overlay_all_single o sroot Hsrc _ src dst r ms sn L Hw Hroot Eo Hp Hs HL)
      as (X1 & eps & V1 & target & _ & A2 & _ & A4 & B1 & _ & _ & _ & _ & _ & B12).
    intros rel Hrel Hin. rewrite B12 in Hin.
    apply in_app_or in Hin. destruct Hin as [Hin|Hin]; [|apply in_app_or in Hin; destruct Hin as [Hin|Hin]].
    - exfalso. apply A2, prefixes_in in Hin. destruct Hin as (r1 & r2 & E2 & E3). simpl in E3.
      destruct (ensure_arg dst) as [|c0 e0].
      + change (rooted []) with (@nil (list N)) in E2. symmetry in E2. apply app_eq_nil in E2 as [-> _].
        apply app_eq_nil in E3 as [_ E3]. auto.
      + destruct A4 as [Esr _]; [discriminate|]. destruct (Hens ltac:(discriminate) _ Esr) as (t & Et).
        apply (below_not_prefix L rel (r2 ++ t) Hrel). rewrite E3, app_assoc, <- E2. exact Et.
    - exfalso. apply prefixes_in in Hin. destruct Hin as (r1 & r2 & E2 & E3). simpl in E3.
      destruct B1 as [->| ->]; [apply (below_not_prefix L rel r2 Hrel); rewrite E3; exact E2|].
      destruct (path_snoc_cases L) as [E0|(P & a & E0)].
      + rewrite E0 in E2. simpl in E2. destruct r1; [|discriminate]. rewrite E0 in E3. simpl in E3. subst rel. auto.
      + rewrite E0, parent_snoc in E2. apply (below_not_prefix L rel (r2 ++ [a]) Hrel).
        rewrite E3, app_assoc, <- E2. exact E0.
    - destruct (s_paths_spec _ (s_resolve_wf_src sroot Hsrc _ _ Hs) _ _ Hin) as (rel' & s & E & Es).
      apply app_inv_head in E. subst rel'. congruence.
  Qed.
End Clear.

(* one literal source is the case srcs = [src], i = 0 of the theorems on the i-th match *)
Lemma literal_nth (r : xres) L : xr_landings r = [L] ->
  nth_error (xr_landings r) 0 = Some L /\ forall j Lj, j <> 0%nat -> nth_error (xr_landings r) j = Some Lj -> apart L Lj.
Proof. intros ->. split; auto. intros [|[|j]] Lj Hj H; [congruence|discriminate|discriminate]. Qed.


