(* C03 — executable checks of the hypotheses of the containment theorems (well-formedness of the
   part of a file system inside D, unused temporary names, clean packets), with soundness proofs;
   the non-vacuity examples discharge the hypotheses by computation through them. *)
From Coq Require Import List Arith NArith Bool Lia ZifyN ZifyNat ZifyBool.
From FS Require Import Sx Model.Path Model.Stat Model.Validator Model.Fs Model.DiskWriterFs.
From FS Require Import Proofs.Lex Proofs.PathP Proofs.FsP Proofs.FsReachP Proofs.RecvP.
Import ListNotations.
Open Scope N_scope.
Open Scope bool_scope.

Fixpoint ins (fuel : nat) (f : fs) (i : N) : list N :=
  i :: match fuel with
       | O => []
       | S k => flat_map (fun e : bytes * N => ins k f (snd e)) (ents f i)
       end.

Fixpoint memN (x : N) (l : list N) : bool := match l with [] => false | y :: r => N.eqb x y || memN x r end.
Lemma memN_In x l : memN x l = true <-> In x l.
Proof.
  induction l as [|y r IH]; simpl; [split; [discriminate|tauto]|].
  rewrite orb_true_iff, IH, N.eqb_eq. split; intros [H|H]; auto.
Qed.

Definition closed_b (f : fs) (L : list N) : bool :=
  forallb (fun j => forallb (fun e : bytes * N => memN (snd e) L) (ents f j)) L.

Lemma closed_reach f D L : In D L -> closed_b f L = true -> forall j, reach D f j -> In j L.
Proof.
  intros HD Hc j R. induction R as [|j n i Rj IH Hin]; auto.
  unfold closed_b in Hc. rewrite forallb_forall in Hc. pose proof (Hc j IH) as H.
  rewrite forallb_forall in H. apply memN_In. apply (H (n, i) Hin).
Qed.

Definition okname_b (n : bytes) : bool :=
  negb (is_nil n) && negb (bytes_eqb n s_dot) && negb (bytes_eqb n s_dotdot) && negb (existsb (N.eqb sep) n).

Lemma okname_b_ok n : okname_b n = true -> okname n.
Proof.
  unfold okname_b. rewrite !andb_true_iff, !negb_true_iff. intros [[[Hnil Hd] Hdd] Hsep].
  apply bytes_eqb_neq in Hd, Hdd. split; [split; [intros ->; discriminate|auto]|].
  intro Hin. rewrite <- not_true_iff_false in Hsep. apply Hsep, existsb_exists.
  exists sep. split; [exact Hin|apply N.eqb_refl].
Qed.

Fixpoint nodup_b (l : list bytes) : bool :=
  match l with [] => true | a :: r => negb (mem_bytes a r) && nodup_b r end.

Lemma nodup_b_ok l : nodup_b l = true -> NoDup l.
Proof.
  induction l as [|a r IH]; simpl; [constructor|]. rewrite andb_true_iff, negb_true_iff. intros [H1 H2].
  constructor; auto. rewrite <- mem_bytes_iff. congruence.
Qed.

Definition triples (f : fs) (L : list N) : list (N * bytes * N) :=
  flat_map (fun j => map (fun e : bytes * N => (j, fst e, snd e)) (ents f j)) L.

Definition single_b (f : fs) (L : list N) : bool :=
  let ts := triples f L in
  forallb (fun t1 : N * bytes * N =>
    forallb (fun t2 : N * bytes * N =>
      match t1, t2 with
      | (j1, n1, i1), (j2, n2, i2) =>
        negb (N.eqb i1 i2) || negb (is_dir f i1) || (N.eqb j1 j2 && bytes_eqb n1 n2)
      end) ts) ts.

Definition wf_b (fuel : nat) (f : fs) (D : N) : bool :=
  let L := ins fuel f D in
  closed_b f L
  && forallb (fun kv : N * inode => N.ltb (fst kv) (f_next f)) (f_inodes f)
  && is_dir f D
  && forallb (fun j => nodup_b (map fst (ents f j)) && forallb okname_b (map fst (ents f j))
                       && forallb (fun e : bytes * N => N.ltb (snd e) (f_next f) && negb (N.eqb (snd e) D)) (ents f j)) L
  && single_b f L.

Lemma ins_head fuel f i : In i (ins fuel f i).
Proof. destruct fuel; left; reflexivity. Qed.

Lemma alookup_none_keys {A} (l : list (N * A)) n i :
  forallb (fun kv : N * A => N.ltb (fst kv) n) l = true -> n <= i -> alookup i l = None.
Proof.
  induction l as [|[k v] l IH]; simpl; intros H Hi; [reflexivity|].
  apply andb_true_iff in H. destruct H as [H1 H2]. apply N.ltb_lt in H1.
  assert (E : N.eqb i k = false) by (apply N.eqb_neq; lia). rewrite E. auto.
Qed.

Theorem wf_b_ok fuel f D : wf_b fuel f D = true -> wf D f.
Proof.
  unfold wf_b. set (L := ins fuel f D). rewrite !andb_true_iff. intros [[[[Hcl Hkeys] Hdir] Hloc] Hsg].
  assert (HL : forall j, reach D f j -> In j L) by (apply closed_reach; [apply ins_head|exact Hcl]).
  rewrite forallb_forall in Hloc.
  assert (Hj : forall j, reach D f j -> NoDup (map fst (ents f j)) /\ Forall okname (map fst (ents f j)) /\
            forall n i, In (n, i) (ents f j) -> i < f_next f /\ i <> D).
  { intros j R. pose proof (Hloc j (HL j R)) as X. rewrite !andb_true_iff in X. destruct X as [[X1 X2] X3].
    split; [exact (nodup_b_ok _ X1)|]. split.
    - apply Forall_forall. intros n Hn. rewrite forallb_forall in X2. exact (okname_b_ok n (X2 n Hn)).
    - intros n i Hin. rewrite forallb_forall in X3. pose proof (X3 _ Hin) as Y. cbn [snd] in Y.
      rewrite andb_true_iff, negb_true_iff in Y. split; [apply N.ltb_lt|apply N.eqb_neq]; apply Y. }
  constructor.
  - intros i Hi. exact (alookup_none_keys _ (f_next f) i Hkeys Hi).
  - exact Hdir.
  - intros j R. destruct (Hj j R) as (A & B & _). auto.
  - intros j n i R Hin. destruct (Hj j R) as (_ & _ & C). apply (C n i Hin).
  - intros j n R Hin. destruct (Hj j R) as (_ & _ & C). destruct (C n D Hin) as [_ H]. exact (H eq_refl).
  - intros j1 j2 n1 n2 i R1 R2 I1 I2 Hd.
    assert (HT : forall j n, reach D f j -> In (n, i) (ents f j) -> In (j, n, i) (triples f L)).
    { intros j n R Hin. apply in_flat_map. exists j. split; [exact (HL j R)|].
      exact (in_map (fun e : bytes * N => (j, fst e, snd e)) _ _ Hin). }
    unfold single_b in Hsg. rewrite forallb_forall in Hsg. pose proof (Hsg _ (HT j1 n1 R1 I1)) as X.
    rewrite forallb_forall in X. pose proof (X _ (HT j2 n2 R2 I2)) as Y. cbn beta iota in Y.
    rewrite N.eqb_refl, Hd in Y. simpl in Y. apply andb_true_iff in Y. rewrite N.eqb_eq, bytes_eqb_eq in Y. exact Y.
Qed.

Definition tmp_unused_b (fuel : nat) (f : fs) (D : N) (tmps : list bytes) : bool :=
  let L := ins fuel f D in
  closed_b f L
  && forallb (fun j => forallb (fun t => match blookup t (ents f j) with None => true | Some _ => false end)
                               (default_tmp :: tmps)) L.

Lemma tmpname_In tmps t : tmpname tmps t -> In t (default_tmp :: tmps).
Proof. intros [->|H]; [left; reflexivity|right; exact H]. Qed.

Lemma tmp_unused_b_ok fuel f D tmps : tmp_unused_b fuel f D tmps = true -> tmp_unused D f tmps.
Proof.
  unfold tmp_unused_b. rewrite andb_true_iff, forallb_forall. intros [Hc H] j t R Ht.
  pose proof (H j (closed_reach f D _ (ins_head fuel f D) Hc j R)) as X. rewrite forallb_forall in X.
  pose proof (X t (tmpname_In tmps t Ht)) as Y. destruct (blookup t (ents f j)); [discriminate|reflexivity].
Qed.

Definition tmps_ok_b (tmps : list bytes) : bool := forallb okname_b (default_tmp :: tmps).
Lemma tmps_ok_b_ok tmps : tmps_ok_b tmps = true -> forall t, tmpname tmps t -> okname t.
Proof.
  unfold tmps_ok_b. rewrite forallb_forall. intros H t Ht. exact (okname_b_ok t (H t (tmpname_In tmps t Ht))).
Qed.

Definition clean_packet_b (tmps : list bytes) (fl : rfilter) (pk : packet) : bool :=
  match pk with
  | PStat (Some s) =>
    forallb (fun t => negb (mem_bytes t (comps (st_path s)))) (default_tmp :: tmps)
    && (negb (DwP.hardlink_branch s) || f_rej fl (st_path s) || negb (f_rej fl (st_linkname s)))
  | _ => true
  end.

Lemma clean_packets_b_ok tmps fl pks : forallb (clean_packet_b tmps fl) pks = true -> Forall (clean_packet tmps fl) pks.
Proof.
  rewrite forallb_forall, Forall_forall. intros H pk Hin. pose proof (H pk Hin) as X.
  destruct pk as [[s|]| | | |]; simpl; auto.
  unfold clean_packet_b in X. rewrite andb_true_iff, forallb_forall in X. destruct X as [X Y]. split.
  - intros t Ht Hc. pose proof (X t (tmpname_In tmps t Ht)) as Z.
    rewrite negb_true_iff in Z. apply mem_bytes_iff in Hc. congruence.
  - intros Hhb Hrj. rewrite Hhb, Hrj in Y. simpl in Y. apply negb_true_iff in Y. exact Y.
Qed.
