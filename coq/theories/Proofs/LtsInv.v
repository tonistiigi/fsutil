(* Invariants of the goroutine LTS (Model/Lts.v), each with its step lemma: mutex_inv (one
   goroutine per side inside SendMsg), inv1 (FIN handshake, return values), inv2 (STAT
   numbering, end marker), inv3 (receiver pipeline counts); and the step-inversion tactics
   (step_cases, frame) every Lts*.v uses.  Assembled over reachable states in LtsSafe.v. *)
From Coq Require Import List Arith Bool PeanoNat Lia.
From FS Require Import Model.Lts.
Import ListNotations.

Lemma nth_error_set_nth_eq : forall A (l : list A) j x,
  j < length l -> nth_error (set_nth j x l) j = Some x.
Proof. induction l; destruct j; simpl; intros; try lia; auto. apply IHl; lia. Qed.

Lemma nth_error_set_nth_neq : forall A (l : list A) j j' x,
  j <> j' -> nth_error (set_nth j x l) j' = nth_error l j'.
Proof. induction l; destruct j, j'; simpl; intros; try congruence; auto. Qed.

Lemma length_set_nth : forall A (l : list A) j x, length (set_nth j x l) = length l.
Proof. induction l; destruct j; simpl; intros; auto. Qed.

Lemma nth_error_some_lt : forall A (l : list A) j x, nth_error l j = Some x -> j < length l.
Proof. intros. apply nth_error_Some. congruence. Qed.

Lemma nth_error_set_nth : forall A (l : list A) j j' x y,
  nth_error l j = Some y ->
  nth_error (set_nth j x l) j' = if Nat.eqb j j' then Some x else nth_error l j'.
Proof.
  intros. destruct (Nat.eqb_spec j j').
  - subst. apply nth_error_set_nth_eq. eapply nth_error_some_lt; eauto.
  - apply nth_error_set_nth_neq; auto.
Qed.

Lemma nth_error_repeat : forall A (x : A) n j y, nth_error (repeat x n) j = Some y -> y = x.
Proof. induction n; destruct j; cbn; intros; try discriminate; eauto. congruence. Qed.

(* Global: in every file that imports this one [simpl] and [cbn] leave these alone, among them
   the standard library's nth_error, forallb, Nat.ltb, Nat.leb. *)
Arguments memb : simpl never.
Arguments remb : simpl never.
Arguments room_sr : simpl never.
Arguments room_rs : simpl never.
Arguments room_pipe : simpl never.
Arguments room_walk : simpl never.
Arguments room_c2 : simpl never.
Arguments chunks_of : simpl never.
Arguments is_file : simpl never.
Arguments kind_of : simpl never.
Arguments nentries : simpl never.
Arguments Nat.ltb : simpl never.
Arguments Nat.leb : simpl never.
Arguments nth_error : simpl never.
Arguments set_nth : simpl never.
Arguments d_canc : simpl never.
Arguments dw_canc : simpl never.
Arguments eg_canc : simpl never.
Arguments sender_quiet : simpl never.
Arguments forallb : simpl never.

Ltac inv_some :=
  repeat match goal with
  | H : Some _ = Some _ |- _ => injection H as H
  | H : None = Some _ |- _ => discriminate H
  | H : (_, _) = (_, _) |- _ => injection H as ? ?
  end.

Ltac split1 H :=
  match type of H with
  | context [match ?x with _ => _ end] =>
      lazymatch x with
      | context [match _ with _ => _ end] => fail
      | _ => destruct x eqn:?
      end
  end.
Ltac step_split H :=
  repeat (split1 H; cbn in H; rewrite ?andb_false_r, ?andb_true_r in H; cbn in H; try discriminate H).

Ltac rw_eqs := repeat match goal with E : ?f ?s = ?v |- context [?f ?s] => rewrite E end.

Ltac unfold_steps H :=
  unfold step, step_walker, step_walker_err, step_worker, step_worker_openerr, step_worker_readerr,
    step_req, step_req_ctx, step_send_ret, step_recvloop, step_recvloop_closed, step_fill,
    step_fill_ctx, step_diff, step_diff_ctx, step_diff_cberr, step_diffouter, step_writer,
    step_writer_ctx, step_writer_cberr, step_recv_ret, send_s, send_r, lock_s, lock_r,
    sender_quiet, sw_is_done, rq_is_done, fl_is_done, dl_is_done, do_is_done, rl_is_done, is_none, torn_down in H.

(* Inversion of one step [H : step p st l = Some st']: one goal per transition of Model/Lts.v,
   with the guards of the transition as hypotheses and [st'] replaced by the field updates
   applied to [st]. *)
Ltac step_cases H l := destruct l; unfold_steps H; step_split H; inv_some; subst.

(* An invariant is a conjunction of clauses, each reading a few fields of the state.  A
   transition that writes none of them leaves the clause convertible to what it was, so after
   splitting the goal into its clauses [assumption] closes those; what remains are the clauses
   whose fields the transition writes or one of its guards reads: [step_split] has put the
   guard's value into the hypotheses, so rewriting the guards in the goal ([rw_eqs]) makes such
   a clause the hypothesis again. *)
Ltac frame := repeat apply conj; try assumption.

Definition wk_in_send (w : wkpc) : bool :=
  match w with WK_Send _ _ | WK_SendFin _ => true | _ => false end.
Definition in_send_s (st : state) (g : gid) : bool :=
  match g with
  | GWalker => match sw_pc st with SW_Send _ => true | _ => false end
  | GWorker j => match nth_error (wks st) j with Some w => wk_in_send w | None => false end
  | GReq => match rq_pc st with RQ_SendFin => true | _ => false end
  | _ => false
  end.
Definition in_send_r (st : state) (g : gid) : bool :=
  match g with
  | GDiffOuter => match do_pc st with DO_SendFin | DO_SendErr => true | _ => false end
  | GWriter j => match nth_error (wrs st) j with
                 | Some w => match wr_pc w with WR_Send => true | _ => false end
                 | None => false end
  | _ => false
  end.

Definition mutex_inv (st : state) : Prop :=
  (forall g, in_send_s st g = true <-> s_mu st = Some g) /\
  (forall g, in_send_r st g = true <-> r_mu st = Some g).

Lemma nth_error_snoc : forall A (l : list A) x j,
  nth_error (l ++ [x]) j =
  if j <? length l then nth_error l j else if j =? length l then Some x else None.
Proof.
  intros. destruct (Nat.ltb_spec j (length l)).
  - apply nth_error_app1; auto.
  - rewrite nth_error_app2 by lia. destruct (Nat.eqb_spec j (length l)).
    + subst. rewrite Nat.sub_diag. reflexivity.
    + destruct (j - length l) eqn:E; try lia. unfold nth_error; cbn. destruct n0; reflexivity.
Qed.

Ltac rw_nth :=
  repeat match goal with
  | H : nth_error ?l ?j = Some _ |- context [nth_error (set_nth ?j _ ?l) ?j'] =>
      rewrite (nth_error_set_nth _ l j j' _ _ H)
  end.

(* The goroutine that a label moves (for labels that move none of them, any will do). *)
Definition mover (l : label) : gid :=
  match l with
  | LWorker j | LWorkerOpenErr j | LWorkerReadErr j => GWorker j
  | LReq | LReqCtx => GReq
  | LDiffOuter => GDiffOuter
  | LWriter j | LWriterCtx j | LWriterCbErr j => GWriter j
  | _ => GWalker
  end.

(* One mutex, one goroutine m moving: the others stay where they are, and m either leaves the
   mutex alone, takes the free mutex and enters SendMsg, or completes SendMsg and releases it. *)
Lemma mutex_move : forall (ins ins' : gid -> bool) (mu mu' : option gid) (m : gid),
  (forall g, ins g = true <-> mu = Some g) ->
  (forall g, g <> m -> ins' g = ins g) ->
  (mu' = mu /\ ins' m = ins m) \/
  (mu = None /\ mu' = Some m /\ ins' m = true) \/
  (ins m = true /\ mu' = None /\ ins' m = false) ->
  forall g, ins' g = true <-> mu' = Some g.
Proof.
  intros ins ins' mu mu' m H Oth Mv g.
  assert (D: g = m \/ g <> m) by (destruct g, m; try (right; discriminate); auto;
    (destruct (Nat.eq_dec j j0); [left | right]; congruence)).
  destruct D as [->|N].
  - destruct Mv as [(E1 & E2)|[(E1 & E2 & E3)|(E1 & E2 & E3)]].
    + rewrite E2, E1. apply H.
    + rewrite E3, E2. tauto.
    + rewrite E3, E2. split; discriminate.
  - rewrite (Oth g N), H. destruct Mv as [(E1 & _)|[(E1 & E2 & _)|(E1 & E2 & _)]].
    + rewrite E1. tauto.
    + rewrite E1, E2. split; congruence.
    + apply H in E1. rewrite E1, E2. split; congruence.
Qed.

(* A transition that touches neither the mutex nor a pc that [in_send_*] reads leaves the
   statement as it is; the others are instances of mutex_move for the goroutine that moves. *)
Ltac mutex_step Hs m :=
  apply (mutex_move _ _ _ _ m Hs); subst m; cbn [mover];
  [ intros g N; destruct g; try reflexivity; try congruence; cbn;
    try (rewrite nth_error_set_nth_neq by congruence; reflexivity)
  | first [ left; split; [reflexivity|]
          | right; left; split; [assumption || reflexivity | split; [reflexivity|]]
          | right; right; split; [|split; [reflexivity|]] ];
    cbn; rw_nth; rw_eqs; rewrite ?Nat.eqb_refl; reflexivity ].

Lemma mutex_s_step : forall p st l st',
  (forall g, in_send_s st g = true <-> s_mu st = Some g) -> step p st l = Some st' ->
  (forall g, in_send_s st' g = true <-> s_mu st' = Some g).
Proof.
  intros p st l st' Hs H. set (m := mover l).
  step_cases H l; try exact Hs; mutex_step Hs m.
Qed.

Lemma mutex_r_step : forall p st l st',
  (forall g, in_send_r st g = true <-> r_mu st = Some g) -> step p st l = Some st' ->
  (forall g, in_send_r st' g = true <-> r_mu st' = Some g).
Proof.
  intros p st l st' Hs H. set (m := mover l).
  step_cases H l; try exact Hs; mutex_step Hs m.
  (* the diff loop starts a writer, outside SendMsg *)
  rewrite nth_error_snoc. destruct (Nat.ltb_spec j (length (wrs st))) as [L|L]; [reflexivity|].
  rewrite (proj2 (nth_error_None _ _) L). destruct (j =? length (wrs st)); reflexivity.
Qed.

Lemma mutex_inv_init : forall p, mutex_inv (init p).
Proof.
  intro p. split; intro g; destruct g; cbn; split; intro X; try discriminate.
  - destruct (nth_error (repeat WK_Idle (p_W p)) j) eqn:E; try discriminate.
    apply nth_error_repeat in E. subst. discriminate.
  - destruct j; discriminate.
Qed.

Lemma mutex_inv_reachable : forall p st, reachable p st -> mutex_inv st.
Proof.
  induction 1.
  - apply mutex_inv_init.
  - destruct IHreachable. split; [eapply mutex_s_step | eapply mutex_r_step]; eauto.
Qed.

(* at most one goroutine per side is inside Stream.SendMsg *)
Lemma send_mutex_inv_proof : forall p st, reachable p st ->
  (forall g g', in_send_s st g = true -> in_send_s st g' = true -> g = g') /\
  (forall g g', in_send_r st g = true -> in_send_r st g' = true -> g = g').
Proof.
  intros p st R. destruct (mutex_inv_reachable _ _ R) as [Hs Hr].
  split; intros g g' A B.
  - apply Hs in A, B. congruence.
  - apply Hr in A, B. congruence.
Qed.

Definition is_fin (pk : packet) : bool := match pk with PFin => true | _ => false end.
Definition has_fin (l : list packet) : bool := existsb is_fin l.

Lemma forallb_nth : forall A (f : A -> bool) l j x,
  forallb f l = true -> nth_error l j = Some x -> f x = true.
Proof.
  intros. rewrite forallb_forall in H. apply H. eapply nth_error_In; eauto.
Qed.

Lemma forallb_nth_false : forall A (f : A -> bool) l j x,
  nth_error l j = Some x -> f x = false -> forallb f l = false.
Proof.
  intros A f l j x E N. destruct (forallb f l) eqn:F; auto.
  rewrite (forallb_nth _ _ _ _ _ F E) in N. discriminate N.
Qed.

Definition inv1 (st : state) : Prop :=
  (send_ret st <> None -> sw_pc st = SW_Done /\ rq_pc st = RQ_Done /\ forallb wk_done (wks st) = true) /\
  (send_ret st = Some true -> s_err st = false) /\
  (match rq_pc st with
   | RQ_LockFin | RQ_SendFin => g_got_fin_s st = true
   | RQ_Close true | RQ_Ret true => g_got_fin_s st = true /\ g_fin_sr st = true
   | RQ_Done => s_err st = true \/ (g_got_fin_s st = true /\ g_fin_sr st = true)
   | _ => True end) /\
  (g_fin_sr st = true -> g_got_fin_s st = true) /\
  (g_got_fin_s st = true -> g_fin_rs st = true) /\
  (has_fin (buf_rs st) = true -> g_fin_rs st = true) /\
  (has_fin (buf_sr st) = true -> g_fin_sr st = true) /\
  (g_got_fin_r st = true -> g_fin_sr st = true) /\
  (match rl_pc st with
   | RL_Drain => g_got_fin_r st = true
   | RL_Done => r_err st = true \/ g_got_fin_r st = true
   | _ => True end) /\
  (recv_ret st <> None -> do_pc st = DO_Done /\ rl_pc st = RL_Done) /\
  (recv_ret st = Some true -> r_err st = false).

Lemma inv1_step : forall p st l st', inv1 st -> step p st l = Some st' -> inv1 st'.
Proof.
  intros p st l st' I H. assert (I0 := I). unfold inv1 in I.
  destruct I as (I1 & I2 & I3 & I4 & I5 & I6 & I7 & I8 & I9 & I10 & I11).
  (* a transition that writes no field the invariant reads leaves it as it is; clauses whose
     fields a guard of the transition reads are the old ones once the guards are rewritten back *)
  step_cases H l; try exact I0; clear I0; unfold inv1; frame; cbn; rw_eqs; auto; try discriminate.
  (* a packet that is not FIN is appended *)
  all: try (rewrite existsb_app; cbn; rewrite orb_false_r; assumption).
  (* a goroutine that moves has not ended, so its side has not returned *)
  all: try (match goal with |- send_ret _ <> None -> _ => idtac | |- send_ret _ = Some true -> _ => idtac end;
            intro X; destruct I1 as (X1 & X2 & X3); [congruence | exfalso];
            first [ discriminate X1 | discriminate X2
                  | match goal with E : nth_error (wks _) _ = Some _ |- _ =>
                      discriminate (forallb_nth _ _ _ _ _ X3 E) end ]).
  all: try (match goal with |- recv_ret _ <> None -> _ => idtac | |- recv_ret _ = Some true -> _ => idtac end;
            intro X; destruct I10 as (X1 & X2); [congruence | exfalso];
            first [ discriminate X1 | discriminate X2 ]).
  (* an error flag is raised: the clause of the request loop / receive loop holds by its left side *)
  all: try (destruct (rq_pc st) as [| | | | | [] | [] |]; auto; fail).
  all: try (destruct (rl_pc st); auto; fail).
  (* g.Wait() returns nil only without an error *)
  all: intro X; destruct (s_err st), (r_err st); (discriminate X || reflexivity).
Qed.

Lemma inv1_init : forall p, inv1 (init p).
Proof. intro p. unfold inv1; cbn. intuition (try discriminate; try congruence). Qed.

Definition is_stat (pk : packet) : bool := match pk with PStat => true | _ => false end.
Definition is_end (pk : packet) : bool := match pk with PEnd => true | _ => false end.
Definition count_stat (l : list packet) : nat := length (filter is_stat l).
Definition has_end (l : list packet) : bool := existsb is_end l.
Fixpoint end_last (l : list packet) : bool :=
  match l with
  | [] => true
  | pk :: r => (if is_end pk then count_stat r =? 0 else true) && end_last r
  end.

Lemma count_stat_app : forall l x, count_stat (l ++ [x]) = count_stat l + b2n (is_stat x).
Proof. unfold count_stat. intros. rewrite filter_app, app_length. cbn. destruct (is_stat x); reflexivity. Qed.
Lemma count_stat_cons : forall x l, count_stat (x :: l) = b2n (is_stat x) + count_stat l.
Proof. unfold count_stat. intros. cbn. destruct (is_stat x); reflexivity. Qed.
Lemma has_end_app : forall l x, has_end (l ++ [x]) = has_end l || is_end x.
Proof. unfold has_end. intros. rewrite existsb_app. cbn. rewrite orb_false_r. reflexivity. Qed.
Lemma end_last_app_nonstat : forall l x, is_stat x = false -> end_last (l ++ [x]) = end_last l.
Proof.
  induction l; intros; cbn.
  - destruct (is_end x); reflexivity.
  - rewrite IHl by auto. rewrite count_stat_app, H. cbn. rewrite Nat.add_0_r. reflexivity.
Qed.
Lemma end_last_app_noend : forall l x, has_end l = false -> end_last (l ++ [x]) = true.
Proof.
  induction l; intros; cbn in *.
  - destruct (is_end x); reflexivity.
  - apply orb_false_elim in H. destruct H as [H1 H2]. rewrite H1. cbn. auto.
Qed.
Lemma end_last_cons : forall x l,
  end_last (x :: l) = (if is_end x then count_stat l =? 0 else true) && end_last l.
Proof. reflexivity. Qed.
Lemma has_end_cons : forall x l, has_end (x :: l) = is_end x || has_end l.
Proof. reflexivity. Qed.
Arguments count_stat : simpl never.
Arguments has_end : simpl never.
Arguments end_last : simpl never.

Definition inv2 (p : params) (st : state) : Prop :=
  (g_got_end_r st = false -> g_got_fin_r st = false -> rl_i st + count_stat (buf_sr st) = sw_i st) /\
  (sw_i st <= nentries p /\
   match sw_pc st with
   | SW_Lock KStat | SW_Send KStat => sw_i st < nentries p
   | SW_Lock KEnd | SW_Send KEnd => sw_i st = nentries p
   | _ => True end) /\
  (g_end_sr st = true -> sw_i st = nentries p /\ sw_pc st = SW_Done) /\
  (has_end (buf_sr st) = true -> g_end_sr st = true) /\
  (g_got_end_r st = true -> g_end_sr st = true /\ count_stat (buf_sr st) = 0 /\ rl_i st = nentries p) /\
  (match rl_pc st with
   | RL_Upd | RL_Push => g_got_end_r st = false
   | RL_UpdEnd => g_got_end_r st = true
   | _ => True end) /\
  (walk_closed st = true -> g_got_end_r st = true) /\
  end_last (buf_sr st) = true /\
  (match rl_pc st with RL_Drain => g_got_fin_r st = true | RL_Done => True | _ => g_got_fin_r st = false end).

Lemma inv2_step : forall p st l st', inv2 p st -> step p st l = Some st' -> inv2 p st'.
Proof.
  intros p st l st' I H. assert (I0 := I). unfold inv2 in I.
  destruct I as (I1 & (I2a & I2) & I3 & I4 & I5 & I6 & I7 & I8 & I9).
  step_cases H l; try exact I0; clear I0; unfold inv2; frame; cbn; rw_eqs; auto; try discriminate.
  (* the walker moves on from a pc other than SW_Done, so the end marker is not out (I3) *)
  all: try (intro X; destruct (I3 X) as [_ X']; discriminate X').
  all: repeat match goal with
       | H : (_ <? _) = true |- _ => apply Nat.ltb_lt in H
       | H : (_ <? _) = false |- _ => apply Nat.ltb_ge in H
       end; try lia.
  (* a packet is appended to the stream, or its head is taken *)
  all: rewrite ?count_stat_app, ?has_end_app, ?end_last_app_nonstat by reflexivity; cbn [is_stat is_end b2n];
    rewrite ?Nat.add_0_r, ?orb_false_r; auto.
  all: rewrite ?count_stat_cons, ?end_last_cons, ?has_end_cons in *; cbn [is_stat is_end b2n orb] in *;
    try (apply andb_prop in I8 as [I8a I8b]; try apply Nat.eqb_eq in I8a); auto.
  (* while the walker is sending, the end marker is neither sent, nor in the buffer, nor received *)
  all: try (assert (NE: g_end_sr st = false)
              by (destruct (g_end_sr st); auto; destruct I3 as [_ X]; auto; discriminate X);
            assert (NR: g_got_end_r st = false)
              by (destruct (g_got_end_r st); auto; destruct I5 as [X _]; auto; congruence);
            assert (NB: has_end (buf_sr st) = false)
              by (destruct (has_end (buf_sr st)); auto; rewrite I4 in NE; auto);
            clear I3 I4 I5; try (rewrite end_last_app_noend; auto; fail); intros; (congruence || lia)).
  (* the numbering clause follows from the old one *)
  all: try (intros A B; specialize (I1 A B); lia).
  (* the receive loop takes STAT i (so the end marker was not received), the end marker (it is
     last in the buffer: I8), or anything after FIN *)
  all: try (intro X; apply I4; rewrite X; apply orb_true_r).
  all: clear I2 I6 I7; destruct (g_got_end_r st); intuition (congruence || lia).
Qed.

Lemma inv2_init : forall p, inv2 p (init p).
Proof. intro p. unfold inv2; cbn. intuition (try discriminate; try congruence; try lia). Qed.

Definition wok (st : state) : Prop := eg_err st = false /\ forallb wr_done (wrs st) = true.
Definition rl_holds (st : state) : nat := match rl_pc st with RL_Upd | RL_Push => 1 | _ => 0 end.
Definition fl_holds (st : state) : nat := match fl_pc st with FL_Push => 1 | _ => 0 end.

Definition inv3 (st : state) : Prop :=
  (match do_pc st with DO_WaitDiff => True | _ => fl_pc st = FL_Done /\ dl_pc st = DL_Done end) /\
  (match do_pc st with
   | DO_WaitW | DO_LockFin | DO_SendFin => d_err st = false
   | DO_Done => r_err st = false -> d_err st = false
   | _ => True end) /\
  (match do_pc st with
   | DO_LockFin | DO_SendFin => wok st
   | DO_Done => r_err st = false -> wok st
   | _ => True end) /\
  (g_fin_rs st = true -> do_pc st = DO_Done /\ d_err st = false /\ wok st) /\
  (match fl_pc st with
   | FL_Close true | FL_Ret true => walk_closed st = true /\ walk_n st = 0
   | FL_Done => d_err st = false -> walk_closed st = true /\ walk_n st = 0
   | _ => True end) /\
  (c2_closed st = true -> match fl_pc st with FL_Ret _ | FL_Done => True | _ => False end) /\
  (dl_pc st = DL_Done -> d_err st = false -> c2_closed st = true /\ c2_n st = 0) /\
  (r_err st = false -> d_err st = false ->
   match fl_pc st with FL_Close false | FL_Ret false => False | _ => True end ->
   rl_i st = rl_holds st + walk_n st + fl_holds st + c2_n st + dl_i st).

Lemma inv3_step : forall p st l st',
  inv1 st -> inv2 p st -> inv3 st -> step p st l = Some st' -> inv3 st'.
Proof.
  intros p st l st' J1 J2 I H. assert (I0 := I). unfold inv3, wok, rl_holds, fl_holds in I.
  destruct J2 as (_ & _ & _ & _ & _ & K6 & K7 & _ & _).
  destruct I as (I1 & I2 & I3 & I4 & I5 & I6 & I7 & I8).
  step_cases H l; try exact I0; clear I0; unfold inv3; frame; unfold wok, rl_holds, fl_holds; cbn; rw_eqs; auto; try discriminate.
  (* the count of entries between the receive loop and the diff loop *)
  all: try (intros A B C; cbn in I8; specialize (I8 A B C); clear - I8; lia).
  all: try (intros _ _ []).
  (* a writer that can move is not done: the parent is not past WaitW and FIN is not sent *)
  all: try (match goal with E : nth_error (wrs _) _ = Some ?w, P : wr_pc ?w = _ |- _ =>
              assert (F: forallb wr_done (wrs st) = false) by
                (apply (forallb_nth_false _ _ _ _ _ E); unfold wr_done; rewrite P; reflexivity) end;
            first [ intro X; destruct (I4 X) as (_ & _ & _ & Y); congruence
                  | destruct (do_pc st); auto; try (destruct I3; congruence);
                    intro X; destruct (I3 X); congruence ]).
  (* FIN is sent by the parent, from SendFin, after fill and the diff loop have ended *)
  all: try (intro X; destruct (I4 X) as (D & _);
            (discriminate D || (rewrite D in I1; destruct I1; congruence))).
  (* c2 is closed by fill only *)
  all: try (intros A B; destruct (I7 A B) as [C _]; destruct (I6 C)).
  all: try (destruct I1; assumption); try (destruct I3; assumption).
  (* fill or the diff loop moves, so the parent still waits for them; an error flag is raised *)
  all: try (match goal with |- context [match do_pc _ with _ => _ end] => idtac end;
            destruct (do_pc st); auto; try discriminate; destruct I1; discriminate).
  all: try (destruct (fl_pc st) as [| |[]|[]|]; auto; discriminate).
  (* walkChan: the receive loop pushes only before the end marker (K6, K7) and closes it after *)
  all: clear I1 I2 I3 I4 I6 I7 I8; destruct (fl_pc st) as [| |[]|[]|]; auto; intuition congruence.
Qed.

Lemma inv3_init : forall p, inv3 (init p).
Proof. intro p. unfold inv3, wok, rl_holds, fl_holds; cbn. intuition (try discriminate; try congruence; try lia). Qed.
