(* C13 / C15 — argument resolution (continuity fs.RootPath restricted to symlink-free paths)
   and MkdirAll against their specifications [spec_resolve] and [make_dirs]. *)
From Coq Require Import List NArith Bool Lia ZifyN ZifyNat ZifyBool.
From FS Require Import Sx Model.Path Model.SymMode Model.Copier Model.CopySpec Proofs.Lex Proofs.ListAux
  Proofs.CopierP Proofs.CopyOpsP Proofs.CopyDentP Proofs.CopyLinkP Proofs.CopyConflictP.
Import ListNotations.
Open Scope N_scope.
Open Scope bool_scope.

Definition xerr_of (e : err) : xerr := match e with EScope => XScope | _ => XOther 4 end.

Section Mk.
  Variable o : copts.
  Variable ms : option (list bitcmd).
  Variable multi : N -> bool.
  Variable sdof : N -> dent.
  Variable S : Prop.
  Notation Lk := (Lk o ms multi sdof S).
  Notation Inv := (Inv o).
  Notation touch := (touch o).

  Lemma dm_is_lnk d e : dm o d e -> is_lnk d = is_lnk (x_d e).
  Proof. intro H. apply is_lnk_ftype, (dm_ftype _ _ _ H). Qed.

  Definition map_res (a : list (list N) + err) : list (list N) + xerr :=
    match a with inl q => inl q | inr e => inr (xerr_of e) end.

  Definition rp_step (fs : fsys) (acc : list (list N) + err) (c : list N) : list (list N) + err :=
    match acc with
    | inr e => inr e
    | inl stk =>
      let stk' := lex_step stk c in
      match stk' with
      | [] => inl stk'
      | _ =>
        match lstat fs (parent stk') with
        | Some pd =>
          if is_dir pd then
            match lstat fs stk' with
            | Some d => if is_lnk d then inr EScope else inl stk'
            | None => inl stk'
            end
          else inr (if is_lnk pd then EScope else EOther)
        | None => inl stk'
        end
      end
    end.
  Lemma root_path_fold fs p : root_path fs p = fold_left (rp_step fs) (comps p) (inl []).
  Proof. reflexivity. Qed.

  Definition sr_step (V : xview) (acc : list (list N) + xerr) (c : list N) : list (list N) + xerr :=
    match acc with
    | inr e => inr e
    | inl stk =>
      let stk' := lex_step stk c in
      match stk' with
      | [] => inl stk'
      | _ => match V (parent stk') with
             | Some pe => if is_dir (x_d pe) then
                            (if (match V stk' with Some e => is_lnk (x_d e) | None => false end) then inr XScope else inl stk')
                          else inr (if is_lnk (x_d pe) then XScope else XOther 4)
             | None => inl stk'
             end
      end
    end.
  Lemma spec_resolve_fold V p : spec_resolve V p = fold_left (sr_step V) (comps p) (inl []).
  Proof. reflexivity. Qed.

  Lemma step_spec fs X acc c : Inv fs X -> sr_step X (map_res acc) c = map_res (rp_step fs acc c).
  Proof.
    intro I. destruct acc as [stk|e]; auto. cbn [map_res sr_step rp_step]. cbv zeta.
    destruct (lex_step stk c) as [|x stk'] eqn:E; auto.
    pose proof (inv_lstat _ _ _ (parent (x :: stk')) I) as H1.
    pose proof (inv_lstat _ _ _ (x :: stk') I) as H2.
    destruct (lstat fs (parent (x :: stk'))) as [pd|], (X (parent (x :: stk'))) as [pe|]; try contradiction; auto.
    rewrite <- (dm_is_dir _ _ _ H1), <- (dm_is_lnk _ _ H1).
    destruct (is_dir pd).
    - destruct (lstat fs (x :: stk')) as [d|], (X (x :: stk')) as [e|]; try contradiction; auto.
      rewrite <- (dm_is_lnk _ _ H2). destruct (is_lnk d); auto.
    - destruct (is_lnk pd); auto.
  Qed.

  Lemma root_path_spec fs X p : Inv fs X -> spec_resolve X p = map_res (root_path fs p).
  Proof.
    intro I. rewrite root_path_fold, spec_resolve_fold.
    change (@inl (list (list N)) xerr []) with (map_res (inl [])).
    generalize (@inl (list (list N)) err []) as acc. induction (comps p) as [|c l IH]; intro acc; auto.
    cbn [fold_left]. rewrite <- IH. f_equal. apply step_spec; auto.
  Qed.

  Definition notlnk (fs : fsys) (q : list (list N)) : Prop :=
    match lstat fs q with Some d => is_lnk d = false | None => True end.
  Definition pref_ok (fs : fsys) (stk : list (list N)) : Prop := forall r1 r2, stk = r1 ++ r2 -> notlnk fs r1.

  Lemma pref_ok_removelast fs stk : pref_ok fs stk -> pref_ok fs (removelast stk).
  Proof.
    intros H r1 r2 E. destruct stk as [|x s _] using rev_ind.
    - simpl in E. symmetry in E. apply app_eq_nil in E as [-> _]. apply (H [] []). auto.
    - rewrite removelast_last in E. apply (H r1 (r2 ++ [x])). rewrite E, app_assoc. auto.
  Qed.
  Lemma pref_ok_snoc fs stk c : pref_ok fs stk -> notlnk fs (stk ++ [c]) -> pref_ok fs (stk ++ [c]).
  Proof.
    intros H Hn r1 r2 E. destruct r2 as [|y r2 _] using rev_ind.
    - rewrite app_nil_r in E. subst r1. auto.
    - rewrite app_assoc in E. apply app_inj_tail in E as [E _]. eapply H; eauto.
  Qed.

  (* a step that goes on goes on from lex_step, whose parent is missing or which is seen not to be a link *)
  Lemma rp_step_inl fs stk c s : rp_step fs (inl stk) c = inl s ->
    s = lex_step stk c /\ (s = [] \/ lstat fs (parent s) = None \/ notlnk fs s).
  Proof.
    cbn [rp_step]. cbv zeta. destruct (lex_step stk c) as [|x l]; [intro H; inversion H; auto|].
    destruct (lstat fs (parent (x :: l))) as [pd|] eqn:Ep; [|intro H; inversion H; subst; auto].
    destruct (is_dir pd); [|discriminate]. unfold notlnk.
    destruct (lstat fs (x :: l)) as [d|] eqn:El; [destruct (is_lnk d) eqn:Ed; [discriminate|]|];
      intro H; inversion H; subst; rewrite El; auto.
  Qed.

  Lemma rp_step_ok fs X acc c : Inv fs X ->
    (forall stk, acc = inl stk -> pref_ok fs stk) ->
    forall stk', rp_step fs acc c = inl stk' -> pref_ok fs stk'.
  Proof.
    intros I Hacc stk' H. destruct acc as [stk|e]; [|discriminate]. specialize (Hacc stk eq_refl).
    destruct (rp_step_inl _ _ _ _ H) as (-> & Hs). revert Hs. unfold lex_step.
    destruct (_ || _); auto. destruct (bytes_eqb c s_dotdot); [intros _; apply pref_ok_removelast; auto|].
    rewrite parent_snoc. intro Hs. apply pref_ok_snoc; auto.
    destruct Hs as [Hs|[Hs|Hs]]; auto; [destruct (snoc_ne_nil _ _ Hs)|].
    unfold notlnk, lstat in *. destruct (names fs stk) eqn:En; [discriminate|].
    rewrite (none_below _ _ _ _ [c] I En). auto.
  Qed.

  Lemma root_path_not_lnk fs X p q : Inv fs X -> x_isdir (X []) = true ->
    root_path fs p = inl q -> notlnk fs q.
  Proof.
    intros I Hroot. rewrite root_path_fold. intro H.
    assert (J : forall stk, fold_left (rp_step fs) (comps p) (inl []) = inl stk -> pref_ok fs stk).
    { apply fold_left_inv; [intros a b Ha; apply (rp_step_ok fs X a b I Ha)|].
      intros stk E. inversion E; subst. intros r1 r2 Hr. symmetry in Hr. apply app_eq_nil in Hr as [-> _].
      destruct (inv_x_isdir _ _ _ _ I Hroot) as (j & Hj & Hd). unfold notlnk, lstat. rewrite Hj.
      unfold is_lnk. unfold is_dir in Hd. apply N.eqb_eq in Hd. rewrite Hd. reflexivity. }
    apply (J q H q []). symmetry. apply app_nil_r.
  Qed.

  Lemma root_path_err fs p e : root_path fs p = inr e -> e = EScope \/ e = EOther.
  Proof.
    rewrite root_path_fold. revert e.
    apply (fold_left_inv (rp_step fs) (fun acc => forall e, acc = inr e -> e = EScope \/ e = EOther)); [|discriminate].
    intros [stk|e2] c Hacc e1; [|apply Hacc]. cbn [rp_step]. cbv zeta.
    destruct (lex_step stk c); [discriminate|].
    destruct (lstat fs (parent (l :: l0))) as [pd|]; [|discriminate].
    destruct (is_dir pd).
    - destruct (lstat fs (l :: l0)) as [d|]; [|discriminate]. destruct (is_lnk d); [|discriminate].
      intro H; inversion H; auto.
    - destruct (is_lnk pd); intro H; inversion H; auto.
  Qed.

  (* the requested owner and time on the directory just made *)
  Definition own_stamp (T : list (list N)) (fs1 : fsys) : fsys :=
    let fs2 := match o_chown o with
               | Some (u, g) => match upd_path T (set_owner u g) fs1 with Some f => f | None => fs1 end
               | None => fs1 end in
    match o_utime o with
    | Some t => match upd_path T (set_mtime t) fs2 with Some f => f | None => fs2 end
    | None => fs2 end.
  Lemma mkdir_all_snoc p c st :
    mkdir_all o (p ++ [c]) st =
    match lstat (c_fs st) (p ++ [c]) with
    | Some d => if is_dir d then (st, None, []) else (st, Some (if is_lnk d then EScope else EOther), [])
    | None =>
      match mkdir_all o p st with
      | (st1, Some e, _) => (st1, Some e, [])
      | (st1, None, created) =>
        let perm := match o_mode o with Some m => m | None => 493 end in
        match k_mkdir (o_umask o) (p ++ [c]) (N.land perm 511) (c_fs st1) with
        | None => (st1, Some EOther, [])
        | Some fs1 => (with_fs st1 (own_stamp (p ++ [c]) fs1), None, created ++ [p ++ [c]])
        end
      end
    end.
  Proof.
    unfold mkdir_all. rewrite rev_app_distr. simpl rev at 1. simpl app. cbn [mkdir_all_rev].
    simpl rev. rewrite rev_involutive. reflexivity.
  Qed.

  Lemma mkdir_all_nil st : mkdir_all o [] st =
    match lstat (c_fs st) [] with
    | Some d => if is_dir d then (st, None, []) else (st, Some (if is_lnk d then EScope else EOther), [])
    | None => (st, Some EOther, [])
    end.
  Proof. reflexivity. Qed.

  Lemma made_dir_isdir p par : is_dir (x_d (made_dir o p par)) = true.
  Proof.
    unfold made_dir. destruct (match o_chown o with Some ug => ug | None => _ end) as [u g].
    cbn [x_d]. unfold is_dir, ftype. cbn [d_mode]. apply N.eqb_eq. apply ftype_mk; [reflexivity|].
    pose proof (new_perm_fmt (o_umask o) (match o_mode o with Some m => m | None => 493 end) 511 eq_refl) as E.
    destruct (has_sgid par); auto. rewrite N.land_lor_distr_l, E. reflexivity.
  Qed.

  Lemma make_dirs_nil pre V : make_dirs o pre [] V =
    match V pre with
    | None => inr (XOther 4)
    | Some e => if negb (is_dir (x_d e)) then inr (if is_lnk (x_d e) then XScope else XOther 4) else inl V
    end.
  Proof. reflexivity. Qed.
  Lemma make_dirs_cons pre c r V : make_dirs o pre (c :: r) V =
    match V pre with
    | None => inr (XOther 4)
    | Some e =>
      if negb (is_dir (x_d e)) then inr (if is_lnk (x_d e) then XScope else XOther 4) else
      match V (pre ++ [c]) with
      | Some _ => make_dirs o (pre ++ [c]) r V
      | None => make_dirs o (pre ++ [c]) r (xupd (pre ++ [c]) (Some (made_dir o (pre ++ [c]) (x_d e))) (touch pre V))
      end
    end.
  Proof. reflexivity. Qed.

  Lemma make_dirs_app r1 : forall pre r2 V,
    make_dirs o pre (r1 ++ r2) V =
    match make_dirs o pre r1 V with inr e => inr e | inl V1 => make_dirs o (pre ++ r1) r2 V1 end.
  Proof.
    induction r1 as [|c r1 IH]; intros pre r2 V.
    - rewrite app_nil_r, make_dirs_nil. simpl app. destruct (V pre) as [e|] eqn:E.
      + destruct (negb (is_dir (x_d e))) eqn:Ed; auto.
        destruct r2; [rewrite make_dirs_nil|rewrite make_dirs_cons]; rewrite E, Ed; auto.
      + destruct r2; [rewrite make_dirs_nil|rewrite make_dirs_cons]; rewrite E; auto.
    - simpl app. rewrite !make_dirs_cons. destruct (V pre) as [e|]; auto.
      destruct (negb (is_dir (x_d e))); auto.
      destruct (V (pre ++ [c])); rewrite IH, <- app_assoc; auto.
  Qed.

  Lemma prefixes_head pre r : In pre (prefixes pre r).
  Proof. destruct r; left; auto. Qed.
  Lemma prefixes_in r : forall pre q, In q (prefixes pre r) <-> exists r1 r2, r = r1 ++ r2 /\ q = pre ++ r1.
  Proof.
    induction r as [|c r IH]; intros pre q; cbn [prefixes].
    - split.
      + intros [<-|[]]. exists [], []. split; [reflexivity|rewrite app_nil_r; reflexivity].
      + intros (r1 & r2 & E & ->). symmetry in E. apply app_eq_nil in E as [-> _]. rewrite app_nil_r. left; auto.
    - split.
      + intros [<-|H].
        * exists [], (c :: r). split; [reflexivity|rewrite app_nil_r; reflexivity].
        * apply IH in H. destruct H as (r1 & r2 & -> & ->). exists (c :: r1), r2. rewrite <- app_assoc. auto.
      + intros (r1 & r2 & E & ->). destruct r1 as [|c' r1].
        * left. rewrite app_nil_r. auto.
        * simpl in E. inversion E; subst. right. apply IH. exists r1, r2. rewrite <- app_assoc. auto.
  Qed.

  (* induction over a successful [make_dirs]: it ends at a directory; a step goes on from an
     existing entry or makes the next directory under a touched parent *)
  Lemma make_dirs_ind (P : list (list N) -> list (list N) -> xview -> xview -> Prop) :
    (forall pre V e, V pre = Some e -> is_dir (x_d e) = true -> P pre [] V V) ->
    (forall pre c r V V1 e, V pre = Some e -> is_dir (x_d e) = true ->
       let V' := match V (pre ++ [c]) with
                 | Some _ => V
                 | None => xupd (pre ++ [c]) (Some (made_dir o (pre ++ [c]) (x_d e))) (touch pre V)
                 end in
       make_dirs o (pre ++ [c]) r V' = inl V1 -> P (pre ++ [c]) r V' V1 -> P pre (c :: r) V V1) ->
    forall r pre V V1, make_dirs o pre r V = inl V1 -> P pre r V V1.
  Proof.
    intros Hnil Hcons. induction r as [|c r IH]; intros pre V V1.
    - rewrite make_dirs_nil. destruct (V pre) as [e|] eqn:Ep; [|discriminate].
      destruct (is_dir (x_d e)) eqn:Ed; [|discriminate]. intro H; inversion H; subst. eauto.
    - rewrite make_dirs_cons. destruct (V pre) as [e|] eqn:Ep; [|discriminate].
      destruct (is_dir (x_d e)) eqn:Ed; [|discriminate]. cbn [negb]. intro H.
      apply (Hcons pre c r V V1 e Ep Ed); [|apply IH]; destruct (V (pre ++ [c])); exact H.
  Qed.

  Lemma make_dirs_mono r : forall pre V V1, make_dirs o pre r V = inl V1 ->
    forall q, x_isdir (V q) = true -> x_isdir (V1 q) = true.
  Proof.
    apply (make_dirs_ind (fun _ _ V V1 => forall q, x_isdir (V q) = true -> x_isdir (V1 q) = true)); auto.
    intros pre c r0 V V1 e Ep Ed V' _ IH q Hq. apply IH. unfold V'. destruct (V (pre ++ [c])); auto.
    destruct (path_dec q (pre ++ [c])) as [->|Hn].
    - rewrite xupd_same. unfold x_isdir. apply made_dir_isdir.
    - rewrite xupd_other, touch_isdir; auto.
  Qed.

  Lemma make_dirs_prefix_dirs r : forall pre V V1, make_dirs o pre r V = inl V1 ->
    forall q, In q (prefixes pre r) -> x_isdir (V1 q) = true.
  Proof.
    apply (make_dirs_ind (fun pre r V V1 => forall q, In q (prefixes pre r) -> x_isdir (V1 q) = true)).
    - intros pre V e Ep Ed q [<-|[]]. unfold x_isdir. rewrite Ep. auto.
    - intros pre c r0 V V1 e Ep Ed V' Hmk IH q [<-|Hq]; [|apply IH; auto].
      apply (make_dirs_mono _ _ _ _ Hmk). unfold V'.
      destruct (V (pre ++ [c])); [|rewrite xupd_other by apply self_ne_snoc; rewrite touch_isdir];
        unfold x_isdir; rewrite Ep; auto.
  Qed.

  Lemma make_dirs_final_dir r pre V V1 : make_dirs o pre r V = inl V1 -> x_isdir (V1 (pre ++ r)) = true.
  Proof. intro H. apply (make_dirs_prefix_dirs _ _ _ _ H), prefixes_in. exists r, []. rewrite app_nil_r. auto. Qed.

  (* nothing changes off the prefixes, nor anywhere when they all exist; nothing appears elsewhere *)
  Lemma make_dirs_frame r : forall pre V V1, make_dirs o pre r V = inl V1 ->
    forall p, ~ In p (prefixes pre r) -> V1 p = V p.
  Proof.
    apply (make_dirs_ind (fun pre r V V1 => forall p, ~ In p (prefixes pre r) -> V1 p = V p)); [auto|].
    intros pre c r0 V V1 e Ep Ed V' _ IH p Hp. cbn [prefixes] in Hp. rewrite IH by (intro; apply Hp; right; auto).
    unfold V'. destruct (V (pre ++ [c])); auto.
    assert (p <> pre ++ [c]) by (intros ->; apply Hp; right; apply prefixes_head).
    assert (p <> pre) by (intros ->; apply Hp; left; auto).
    rewrite xupd_other, touch_other; auto.
  Qed.

  Lemma make_dirs_noop r : forall pre V V1, make_dirs o pre r V = inl V1 ->
    (forall q, In q (prefixes pre r) -> V q <> None) -> forall p, V1 p = V p.
  Proof.
    apply (make_dirs_ind (fun pre r V V1 => (forall q, In q (prefixes pre r) -> V q <> None) -> forall p, V1 p = V p)); [auto|].
    intros pre c r0 V V1 e Ep Ed V' _ IH Hq. cbn [prefixes] in Hq.
    assert (E : V' = V).
    { unfold V'. destruct (V (pre ++ [c])) eqn:En; auto. destruct (Hq (pre ++ [c])); auto. right. apply prefixes_head. }
    rewrite E in IH. apply IH. intros q Hin. apply Hq. right; auto.
  Qed.

  Lemma make_dirs_dom r : forall pre V V1, make_dirs o pre r V = inl V1 ->
    forall p, V1 p <> None -> V p <> None \/ In p (prefixes pre r).
  Proof.
    apply (make_dirs_ind (fun pre r V V1 => forall p, V1 p <> None -> V p <> None \/ In p (prefixes pre r))); [auto|].
    intros pre c r0 V V1 e Ep Ed V' _ IH p Hp. cbn [prefixes]. destruct (IH p Hp) as [A|A]; [|right; right; auto].
    unfold V' in A. destruct (V (pre ++ [c])) eqn:En; auto.
    destruct (path_dec p (pre ++ [c])) as [->|Hn]; [right; right; apply prefixes_head|].
    rewrite xupd_other in A by auto. destruct (path_dec p pre) as [->|Hn2]; [left; congruence|].
    rewrite touch_other in A by auto. auto.
  Qed.

  Lemma make_dirs_existing r : forall pre X, (forall q, In q (prefixes pre r) -> x_isdir (X q) = true) ->
    make_dirs o pre r X = inl X.
  Proof.
    induction r as [|c r IH]; intros pre X H; pose proof (H pre (prefixes_head _ _)) as H0; unfold x_isdir in H0.
    - rewrite make_dirs_nil. destruct (X pre) as [e|]; [|discriminate]. rewrite H0. auto.
    - rewrite make_dirs_cons. destruct (X pre) as [e|]; [|discriminate]. rewrite H0. cbn [negb].
      pose proof (H _ (or_intror (prefixes_head (pre ++ [c]) r))) as H1. unfold x_isdir in H1.
      destruct (X (pre ++ [c])); [|discriminate]. apply IH. intros q Hq. apply H. right; auto.
  Qed.

  Lemma all_prefix_dirs fs X r2 : forall r1, Inv fs X -> r2 <> [] -> X (r1 ++ r2) <> None -> x_isdir (X r1) = true.
  Proof.
    induction r2 as [|c r2 IH] using rev_ind; intros r1 I Hne Hx; [congruence|].
    destruct (X (r1 ++ r2 ++ [c])) as [e|] eqn:E; [|congruence].
    destruct (inv_x_some _ _ _ _ _ I E) as (i & Hi & _). rewrite app_assoc in Hi.
    destruct (i_par _ _ _ I _ _ _ Hi) as (j & Hj & Hd).
    destruct (i_some _ _ _ I _ _ Hj) as (e' & E1 & E2 & _).
    destruct r2 as [|y r2'].
    - rewrite app_nil_r in E1. unfold x_isdir. rewrite E1, <- (dm_is_dir _ _ _ E2). auto.
    - apply IH; auto; [discriminate|]. rewrite E1. discriminate.
  Qed.

  Definition same_rest (a b : cstate) : Prop :=
    c_imap a = c_imap b /\ c_notifs a = c_notifs b /\ c_split a = c_split b.
  Lemma same_rest_refl a : same_rest a a. Proof. repeat split. Qed.
  Lemma same_rest_trans a b c : same_rest a b -> same_rest b c -> same_rest a c.
  Proof. unfold same_rest. intuition congruence. Qed.
  Lemma same_rest_with_fs a fs : same_rest (with_fs a fs) a. Proof. repeat split. Qed.

  Lemma made_dir_facts p par :
    x_mk (made_dir o p par) = true /\ x_key (made_dir o p par) = KNew p /\ mkfacts o (x_d (made_dir o p par)).
  Proof.
    unfold made_dir, mkfacts. destruct (o_chown o) as [[u g]|];
    cbn [x_mk x_key x_d d_mtime d_uid d_gid]; (split; [auto|split; [auto|split]]).
    - intros t ->. auto.
    - intros u' g' H. inversion H; auto.
    - intros t ->. auto.
    - discriminate.
  Qed.

  (* a directory made above the target enters the list of those to be re-stamped *)
  Lemma G_new X cr T e : G o X cr -> x_key e = KNew T -> mkfacts o (x_d e) ->
    G o (xupd T (Some e) X) (cr ++ [T]).
  Proof.
    intros Hg Hk Hf q. destruct (path_dec q T) as [->|Hn].
    - rewrite xupd_same. split; [intros _; apply in_or_app; right; left; reflexivity|intros _; split; auto].
    - rewrite xupd_other by auto. specialize (Hg q). unfold Gp in *. destruct (X q) as [e0|]; auto. destruct Hg as [A B].
      split; [intro H; apply in_or_app; auto|]. intro Hin. apply B. destruct (in_app_or _ _ _ Hin) as [Hc|[Hc|[]]]; [exact Hc|destruct (Hn (eq_sym Hc))].
  Qed.

  (* one mkdir of MkdirAll, with the chown and chtimes that follow it *)
  Lemma mkdir_one st1 X1 p c ep :
    Inv (c_fs st1) X1 -> Lk (c_fs st1) X1 (c_imap st1) ->
    X1 p = Some ep -> is_dir (x_d ep) = true -> X1 (p ++ [c]) = None ->
    let T := p ++ [c] in
    let perm := match o_mode o with Some m => m | None => 493 end in
    exists fs1, k_mkdir (o_umask o) T (N.land perm 511) (c_fs st1) = Some fs1 /\
      Inv (own_stamp T fs1) (xupd T (Some (made_dir o T (x_d ep))) (touch p X1)) /\
      Lk (own_stamp T fs1) (xupd T (Some (made_dir o T (x_d ep))) (touch p X1)) (c_imap st1).
  Proof.
    intros I1 L1 Ep Hfd HT1 T perm.
    assert (Hfd' : x_isdir (X1 p) = true) by (unfold x_isdir; rewrite Ep; auto).
    unfold k_mkdir.
    destruct (inv_k_new o _ _ p c (o_umask o) S_IFDIR (N.land (N.land perm 511) 1023) 0 [] [] I1 HT1 Hfd')
      as (fs1 & j & E2 & Hj & Hjd & Hn & Hi & Hu2 & Hf2 & I2).
    fold T in E2, Hn, Hi, Hu2, Hf2, I2. exists fs1. split; [exact E2|].
    set (fs3 := own_stamp T fs1).
    destruct (inv_at _ _ _ _ _ _ I1 Hj Ep) as ((Hm & _ & Hg & _) & _).
    set (i := next (c_fs st1)) in *. set (pd := inodes (c_fs st1) j) in *. set (pdent := x_d ep) in *.
    set (d0 := new_dent (o_umask o) pd S_IFDIR (N.land (N.land perm 511) 1023) 0 [] []) in *.
    set (md := made_dir o T pdent).
    (* chown and chtimes are one update of the new inode *)
    set (f1 := fun d => match o_chown o with Some (u, g) => set_owner u g d | None => d end).
    set (f2 := fun d => match o_utime o with Some t => set_mtime t d | None => d end).
    assert (Q1 : fs_eqv fs3 (upd_inode i (fun d => f2 (f1 d)) fs1)).
    { unfold fs3, own_stamp, f1, f2. destruct (o_chown o) as [[u g]|], (o_utime o) as [t|];
        try rewrite (upd_path_some fs1 T i (set_owner u g) Hn);
        repeat (rewrite (upd_path_some _ _ i) by (simpl; auto));
        (split; simpl; auto; try (intro k; destruct (N.eqb k i); auto)). }
    assert (Q2 : ftype (f2 (f1 d0)) = ftype d0).
    { unfold f1, f2. destruct (o_chown o) as [[u g]|], (o_utime o) as [t|]; reflexivity. }
    assert (Q3 : dm o (f2 (f1 d0)) md).
    { assert (Hs : has_sgid pd = has_sgid pdent) by (unfold has_sgid; rewrite Hm; auto).
      assert (Eb : N.land (N.land (N.land perm 511) 1023) allBits = N.land perm 511).
      { rewrite <- !N.land_assoc. reflexivity. }
      unfold dm, md, made_dir, f1, f2, d0, new_dent, eff_known, utset. rewrite Eb, Hs, Hg. fold perm.
      change (N.eqb S_IFDIR S_IFDIR) with true. cbn [andb].
      destruct (o_chown o) as [[u g]|], (o_utime o) as [t|];
        cbn [x_d x_known x_mk set_owner set_mtime d_mode d_uid d_gid d_mtime d_rdev d_target d_xattrs d_content andb negb];
        repeat split; auto; discriminate. }
    destruct (made_dir_facts T pdent) as (_ & F2 & _). fold md in F2.
    set (e0 := xex d0 (KNew T) false).
    specialize (I2 e0 (dm_xex _ _ _ _) (or_introl eq_refl)).
    assert (EVx : forall q, xupd T (Some md) (touch p X1) q = xupd T (Some md) (xupd T (Some e0) (touch p X1)) q).
    { intro q. symmetry. apply xupd_xupd. }
    split.
    - eapply Inv_fs_ext; [apply fs_eqv_sym; exact Q1|].
      eapply Inv_ext; [exact EVx|eapply (inv_upd1 o fs1 _ T _ _ e0 md I2 Hn Hu2)]; rewrite ?Hi; auto.
      apply xupd_same.
    - eapply Lk_fs_ext; [apply fs_eqv_sym; exact Q1|].
      eapply Lk_ext; [exact EVx|].
      eapply (Lk_upd o ms multi sdof S fs1 _ _ _ T e0 md); [|reflexivity|apply xupd_same|discriminate|rewrite F2; discriminate].
      eapply (Lk_new o ms multi sdof S (c_fs st1)); eauto.
  Qed.

  Lemma mkdir_all_spec p : forall st X, Inv (c_fs st) X -> Lk (c_fs st) X (c_imap st) -> x_isdir (X []) = true ->
    match make_dirs o [] p X with
    | inl X' => exists st' cr, mkdir_all o p st = (st', None, cr) /\ Inv (c_fs st') X' /\ same_rest st' st /\
                               (forall cr0, G o X cr0 -> G o X' (cr0 ++ cr)) /\ Lk (c_fs st') X' (c_imap st')
    | inr xe => exists st' e, mkdir_all o p st = (st', Some e, []) /\ xerr_of e = xe /\ (e = EScope \/ e = EOther) /\
                              same_rest st' st /\ exists X', Inv (c_fs st') X' /\ Lk (c_fs st') X' (c_imap st')
    end.
  Proof.
    induction p as [|c p IH] using rev_ind; intros st X I L Hroot.
    - rewrite make_dirs_nil, mkdir_all_nil. pose proof (inv_lstat _ _ _ [] I) as HL.
      unfold x_isdir in Hroot. destruct (X []) as [e|]; [|discriminate].
      destruct (lstat (c_fs st) []) as [d|]; [|contradiction].
      rewrite (dm_is_dir _ _ _ HL), Hroot. cbn [negb].
      exists st, []. split; [auto|split; [auto|split; [apply same_rest_refl|split; auto]]].
      intros cr0 Hg. rewrite app_nil_r. exact Hg.
    - rewrite mkdir_all_snoc, make_dirs_app. simpl app.
      pose proof (inv_lstat _ _ _ (p ++ [c]) I) as HL.
      destruct (lstat (c_fs st) (p ++ [c])) as [d|] eqn:ELs.
      + (* exists already *)
        destruct (X (p ++ [c])) as [e|] eqn:EX; [|contradiction].
        assert (Hpre : forall q, In q (prefixes [] p) -> x_isdir (X q) = true).
        { intros q Hq. apply prefixes_in in Hq as (r1 & r2 & -> & ->). apply (all_prefix_dirs _ _ (r2 ++ [c]) r1 I).
          - destruct r2; discriminate.
          - rewrite app_assoc, EX. discriminate. }
        pose proof (make_dirs_existing _ _ _ Hpre) as EM. rewrite EM, make_dirs_cons.
        pose proof (make_dirs_final_dir _ _ _ _ EM) as Hp. simpl in Hp. unfold x_isdir in Hp.
        destruct (X p) as [ep|]; [|discriminate]. rewrite Hp. cbn [negb]. simpl app. rewrite EX, make_dirs_nil, EX.
        rewrite (dm_is_dir _ _ _ HL), (dm_is_lnk _ _ HL).
        destruct (is_dir (x_d e)); cbn [negb].
        * exists st, []. split; [auto|split; [auto|split; [apply same_rest_refl|split; auto]]].
          intros cr0 Hg. rewrite app_nil_r. exact Hg.
        * exists st, (if is_lnk (x_d e) then EScope else EOther).
          split; auto. split; [destruct (is_lnk (x_d e)); auto|]. split; [destruct (is_lnk (x_d e)); auto|].
          split; [apply same_rest_refl|eauto].
      + (* create after the parent *)
        destruct (X (p ++ [c])) as [e|] eqn:EX; [contradiction|].
        specialize (IH st X I L Hroot).
        destruct (make_dirs o [] p X) as [X1|xe] eqn:EM.
        * destruct IH as (st1 & cr & E1 & I1 & R1 & N1 & L1). rewrite E1. simpl app.
          pose proof (make_dirs_final_dir p [] X X1 EM) as Hfd. simpl in Hfd.
          assert (HT1 : X1 (p ++ [c]) = None).
          { rewrite (make_dirs_frame _ _ _ _ EM); auto. intro Hin. apply prefixes_in in Hin as (r1 & r2 & E & E').
            simpl in E'. rewrite <- E', <- app_assoc in E. exact (self_ne_snoc _ _ _ E). }
          rewrite make_dirs_cons. unfold x_isdir in Hfd. destruct (X1 p) as [ep|] eqn:Ep; [|discriminate].
          rewrite Hfd. cbn [negb]. rewrite HT1, make_dirs_nil, xupd_same, made_dir_isdir. cbn [negb].
          set (T := p ++ [c]) in *.
          destruct (mkdir_one st1 X1 p c ep I1 L1 Ep Hfd HT1) as (fs1 & E2 & I3 & L3). fold T in E2, I3, L3.
          cbv zeta. rewrite E2.
          eexists. exists (cr ++ [T]). split; [reflexivity|]. cbn [with_fs c_fs c_imap].
          set (md := made_dir o T (x_d ep)) in *.
          destruct (made_dir_facts T (x_d ep)) as (_ & F2 & F3). fold md in F2, F3.
          split; [exact I3|]. split; [|split; [|exact L3]].
          -- eapply same_rest_trans; [apply same_rest_with_fs|auto].
          -- intros cr0 Hg. rewrite app_assoc. apply G_new; auto. apply G_touch, N1, Hg.
        * destruct IH as (st1 & e & E1 & Hx & He & R1 & HX). rewrite E1. exists st1, e. auto.
  Qed.
End Mk.
