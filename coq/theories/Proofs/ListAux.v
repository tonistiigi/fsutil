(* List facts the standard library does not state: strongly sorted lists under append, map
   and flat_map; lists without repetition; one-liners about snoc, filter and fold_left. *)
From Coq Require Import List Bool Sorting.Sorted.
Import ListNotations.

Lemma SS_app {A} (R : A -> A -> Prop) l1 l2 :
  StronglySorted R (l1 ++ l2) <->
  StronglySorted R l1 /\ StronglySorted R l2 /\ (forall a b, In a l1 -> In b l2 -> R a b).
Proof.
  induction l1 as [|x l1 IH]; simpl.
  - split; [intros H; repeat split; [constructor|exact H|contradiction]|intros (_ & H & _); exact H].
  - split.
    + intros H. inversion H as [|? ? H1 H2]; subst. apply IH in H1. destruct H1 as (H1 & H3 & H4).
      apply Forall_app in H2. destruct H2 as [H2 H5]. rewrite Forall_forall in H5.
      repeat split; [constructor; auto|auto|]. intros a b [<-|Ha] Hb; auto.
    + intros (H1 & H2 & H3). inversion H1; subst. constructor; [apply IH; auto|].
      apply Forall_app. split; auto. apply Forall_forall. auto.
Qed.

Lemma SS_cons_lt {A} (R : A -> A -> Prop) a l y : StronglySorted R (a :: l) -> In y l -> R a y.
Proof. intros H. apply StronglySorted_inv in H. destruct H as [_ H]. rewrite Forall_forall in H. apply H. Qed.

(* around a member: everything before is below it, everything after above *)
Lemma SS_app_inv {A} (R : A -> A -> Prop) a x b : StronglySorted R (a ++ x :: b) ->
  Forall (fun y => R y x) a /\ Forall (R x) b.
Proof.
  intros H. apply SS_app in H. destruct H as (_ & Hx & Hab). apply StronglySorted_inv in Hx. split; [|apply Hx].
  apply Forall_forall. intros y Hy. apply Hab; [exact Hy|left; reflexivity].
Qed.

Lemma SS_map {A B} (R : A -> A -> Prop) (R' : B -> B -> Prop) (f : A -> B) l :
  (forall a b, In a l -> In b l -> R a b -> R' (f a) (f b)) ->
  StronglySorted R l -> StronglySorted R' (map f l).
Proof.
  induction l as [|x l IH]; intros H HS; simpl; [constructor|].
  inversion HS; subst. constructor.
  - apply IH; auto. intros; apply H; simpl; auto.
  - apply Forall_forall. intros y Hy. apply in_map_iff in Hy. destruct Hy as (a & <- & Ha).
    apply H; simpl; auto. rewrite Forall_forall in H3. auto.
Qed.

Lemma SS_map_inv {A B} (R : B -> B -> Prop) (f : A -> B) l :
  StronglySorted R (map f l) -> StronglySorted (fun a b => R (f a) (f b)) l.
Proof.
  induction l as [|a l IH]; cbn [map]; intros H; [constructor|].
  apply StronglySorted_inv in H. destruct H as [H1 H2]. constructor; auto.
  rewrite Forall_map in H2. exact H2.
Qed.

Lemma SS_flat_map {A B} (R : A -> A -> Prop) (R' : B -> B -> Prop) (g : A -> list B) l :
  StronglySorted R l -> (forall a, In a l -> StronglySorted R' (g a)) ->
  (forall a b x y, In a l -> In b l -> R a b -> In x (g a) -> In y (g b) -> R' x y) ->
  StronglySorted R' (flat_map g l).
Proof.
  induction l as [|a l IH]; intros HS Hin Hx; [constructor|]. inversion HS as [|? ? HS' Ha]; subst.
  rewrite Forall_forall in Ha. cbn [flat_map]. apply SS_app. split; [|split].
  - apply Hin. left; reflexivity.
  - apply IH; auto.
    + intros; apply Hin; right; auto.
    + intros a0 b x y H1 H2. apply Hx; right; auto.
  - intros x y Hxa Hy. apply in_flat_map in Hy. destruct Hy as (b & Hb & Hy).
    apply (Hx a b); auto; [left|right]; auto.
Qed.

(* in a strictly sorted list the smaller of two members comes first *)
Lemma SS_split_lt {A} (R : A -> A -> Prop) l x y :
  (forall a b, R a b -> R b a -> False) -> (forall a, ~ R a a) ->
  StronglySorted R l -> In x l -> In y l -> R x y ->
  exists pre post, l = pre ++ y :: post /\ In x pre.
Proof.
  intros Hasym Hirr HS Hx Hy Hxy.
  apply in_split in Hy. destruct Hy as (pre & post & ->).
  exists pre, post. split; auto.
  apply SS_app_inv in HS. destruct HS as [_ Hpost]. rewrite Forall_forall in Hpost.
  apply in_app_or in Hx. destruct Hx as [Hx|[<-|Hx]]; [exact Hx|destruct (Hirr _ Hxy)|].
  destruct (Hasym _ _ Hxy (Hpost _ Hx)).
Qed.

Lemma NoDup_map_inj {A B} (f : A -> B) l a b : NoDup (map f l) -> In a l -> In b l -> f a = f b -> a = b.
Proof.
  induction l as [|x l IH]; intros H Ha Hb E; [destruct Ha|]. cbn [map] in H. inversion H as [|? ? Hx Hl]; subst.
  destruct Ha as [->|Ha], Hb as [->|Hb]; auto.
  - exfalso. apply Hx. rewrite E. apply in_map. exact Hb.
  - exfalso. apply Hx. rewrite <- E. apply in_map. exact Ha.
Qed.

Lemma NoDup_snoc {A} (l : list A) x : NoDup l -> ~ In x l -> NoDup (l ++ [x]).
Proof. intros Hnd Hni. apply (NoDup_Add (Add_app x l [])). rewrite app_nil_r. auto. Qed.

Lemma existsb_snoc {A} (f : A -> bool) l x : existsb f (l ++ [x]) = existsb f l || f x.
Proof. rewrite existsb_app. cbn. now rewrite orb_false_r. Qed.

Lemma filter_all {A} (f : A -> bool) l : (forall x, In x l -> f x = true) -> filter f l = l.
Proof.
  induction l as [|a l IH]; intros H; [reflexivity|]. cbn [filter]. rewrite (H a (or_introl eq_refl)).
  f_equal. apply IH. intros x Hx. apply H. right. exact Hx.
Qed.

Lemma fold_left_inv {A B} (f : A -> B -> A) (Q : A -> Prop) l :
  (forall a b, Q a -> Q (f a b)) -> forall a, Q a -> Q (fold_left f l a).
Proof. intro H. induction l; simpl; auto. Qed.

Lemma snoc_cases {A} (p : list A) : p = [] \/ exists d b, p = d ++ [b].
Proof. destruct p as [|b d _] using rev_ind; eauto. Qed.
