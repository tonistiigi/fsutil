(* C03 — the lstat walk [tree_below] lists real paths: every entry is reached from the start
   directory through directories only, under the path string it is listed with. *)
From Coq Require Import List Arith NArith Bool Lia ZifyN ZifyNat ZifyBool.
From FS Require Import Sx Model.Path Model.Fs Proofs.Lex Proofs.PathP Proofs.FsP Proofs.FsReachP Proofs.FsSysP.
Import ListNotations.
Open Scope N_scope.
Open Scope bool_scope.

Lemma insert_sorted_In {A} k (v : A) l x : In x (insert_sorted k v l) -> x = (k, v) \/ In x l.
Proof.
  induction l as [|[k' v'] l IH]; simpl; intros H.
  - destruct H as [H|[]]; auto.
  - destruct (cmp_bytes k k'); destruct H as [H|H]; auto. apply IH in H. tauto.
Qed.

Lemma sort_ents_In {A} (l : list (bytes * A)) x : In x (sort_ents l) -> In x l.
Proof.
  unfold sort_ents. induction l as [|[k v] l IH]; simpl; intros H; [exact H|].
  apply insert_sorted_In in H. destruct H as [H|H]; auto.
Qed.

Lemma rwalk_from_dir f cs j i : rwalk f j cs = Some i -> is_dir f i = true -> is_dir f j = true.
Proof.
  destruct cs as [|c r]; simpl; [intros [= ->]; auto|]. unfold is_dir.
  destruct (dir_of f j); [reflexivity|discriminate].
Qed.

(* a walk through directories only meets no symlink *)
Lemma rwalk_dir_safe f : forall cs j i, rwalk f j cs = Some i -> is_dir f i = true -> safe f j cs.
Proof.
  induction cs as [|c r IH]; intros j i Hw Hd; [exact I|].
  apply safe_unfold. rewrite rwalk_unfold in Hw.
  destruct (blookup c (ents f j)) as [k|] eqn:Eb; [|exact I].
  split; [apply dir_not_link, (rwalk_from_dir f r k i Hw Hd)|apply (IH k i Hw Hd)].
Qed.

Lemma rwalk_prefix_safe f : forall cs j i, rwalk f j cs = Some i -> safe f j (removelast cs).
Proof.
  intros cs. destruct cs as [|c0 r0] using rev_ind; intros j i Hw; [exact I|].
  rewrite removelast_last. apply rwalk_snoc in Hw. destruct Hw as (d & Hw & _ & Hd).
  apply (rwalk_dir_safe f r0 j d); auto.
Qed.

Section Tree.
Variable D : N.
Notation reach := (reach D).
Notation wf := (wf D).

Lemma child_path_joinc relcs name : relcs = [] \/ okc relcs -> child_path (joinc relcs) name = joinc (relcs ++ [name]).
Proof.
  intros [->|H]; [reflexivity|].
  unfold child_path. destruct (joinc relcs) eqn:E.
  - exfalso. destruct (okc_not_special relcs H) as (H1 & _). congruence.
  - rewrite <- E. rewrite joinc_snoc; auto. destruct H; auto.
Qed.

Lemma okc_app relcs cs : relcs = [] \/ okc relcs -> cs <> [] -> Forall okname cs -> okc (relcs ++ cs).
Proof.
  intros Hr Hne Hok. apply okname_forall in Hok. destruct Hok as [Hn Hs].
  destruct Hr as [->|(H1 & H2 & H3)]; [repeat split; auto|].
  repeat split.
  - destruct relcs; [congruence|discriminate].
  - apply Forall_app; auto.
  - apply Forall_app; auto.
Qed.

(* entries of the walk from directory [j] (reached under the components [relcs]) *)
Lemma tree_below_spec f : wf f -> forall fuel j relcs,
  reach f j -> relcs = [] \/ okc relcs ->
  forall p i n, In (p, i, n) (tree_below fuel f j (joinc relcs)) ->
  exists cs, cs <> [] /\ Forall okname cs /\ p = joinc (relcs ++ cs) /\ rwalk f j cs = Some i /\ get f i = Some n.
Proof.
  intros W. induction fuel as [|fuel IH]; intros j relcs Rj Hrel p i n Hin; [destruct Hin|].
  simpl in Hin. destruct (dir_of f j) as [[pp es]|] eqn:Ed; [|destruct Hin].
  apply in_flat_map in Hin. destruct Hin as ([name k] & Hk & Hin). cbn [fst snd] in Hin.
  apply sort_ents_In in Hk. rewrite <- (dir_of_ents _ _ _ _ Ed) in Hk.
  pose proof (proj1 (wf_blookup D f j name k W Rj) Hk) as Hbl.
  pose proof (wf_okname D f j name k W Rj Hk) as Hok.
  pose proof (reach_step D f j name k Rj Hk) as Rk.
  destruct (get f k) as [nk|] eqn:Eg; [|destruct Hin].
  rewrite (child_path_joinc relcs name Hrel) in Hin.
  destruct Hin as [Hin|Hin].
  - inversion Hin; subst. exists [name]. repeat split; auto; try discriminate.
    rewrite rwalk_unfold, Hbl. reflexivity.
  - assert (Hrel' : relcs ++ [name] = [] \/ okc (relcs ++ [name])).
    { right. apply okc_app; auto; try discriminate. }
    destruct (IH k (relcs ++ [name]) Rk Hrel' p i n Hin) as (cs & H1 & H2 & H3 & H4 & H5).
    exists (name :: cs). repeat split; auto; try discriminate.
    + rewrite H3, <- app_assoc. reflexivity.
    + rewrite rwalk_unfold, Hbl. exact H4.
Qed.

End Tree.
