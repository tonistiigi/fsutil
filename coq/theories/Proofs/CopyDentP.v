(* C13 / C15 — the dentry a copied entry ends up with, field by field: the metadata phase
   applied to a freshly created inode gives [new_entry]; applied to an existing directory it
   gives the merged entry of the overlay rules. *)
From Coq Require Import List NArith Bool Lia ZifyN ZifyNat ZifyBool.
From FS Require Import Sx Model.Path Model.SymMode Model.Copier Model.CopySpec Proofs.Lex Proofs.CopierP Proofs.CopyOpsP.
Import ListNotations.
Open Scope N_scope.
Open Scope bool_scope.

Lemma ftype_idem d : N.land (ftype d) S_IFMT = ftype d.
Proof. unfold ftype. apply land_idem2. Qed.
Lemma perm12_idem d : N.land (perm12 d) allBits = perm12 d.
Proof. unfold perm12. apply land_idem2. Qed.

Lemma copy_type_fmt sd : N.land (copy_type sd) S_IFMT = copy_type sd.
Proof. unfold copy_type. destruct (is_sock sd); [reflexivity|apply ftype_idem]. Qed.
Lemma copy_type_all sd : N.land (copy_type sd) allBits = 0.
Proof. unfold copy_type. destruct (is_sock sd); [reflexivity|]. unfold ftype. apply land_fmt_all. Qed.

Lemma new_perm_fmt umask m k : N.land k S_IFMT = 0 -> N.land (andnot (N.land m k) umask) S_IFMT = 0.
Proof. intro H. unfold andnot. rewrite land_ldiff_comm, <- N.land_assoc, H, N.land_0_r. apply N.ldiff_0_l. Qed.

Lemma ftype_new_dent umask pd typ m12 rdev tg ct : N.land typ S_IFMT = typ ->
  ftype (new_dent umask pd typ m12 rdev tg ct) = typ.
Proof.
  intro H. unfold ftype, new_dent. cbn [d_mode]. apply ftype_mk; auto.
  destruct (N.eqb typ S_IFDIR && has_sgid pd); [|apply new_perm_fmt, all_fmt].
  rewrite N.land_lor_distr_l, new_perm_fmt by apply all_fmt. reflexivity.
Qed.

Section Dent.
  Variable o : copts.
  Variable ms : option (list bitcmd).
  Variable multi : N -> bool.

  Lemma info_mode_idem sd : N.land (info_mode o ms sd) allBits = info_mode o ms sd.
  Proof.
    unfold info_mode. destruct ms; [unfold apply_mode; apply land_idem2|].
    destruct (o_mode o); [apply land_idem2|apply perm12_idem].
  Qed.

  Lemma is_lnk_type sd : is_lnk sd = true -> ftype sd = S_IFLNK.
  Proof. unfold is_lnk. apply N.eqb_eq. Qed.
  Lemma is_dir_type sd : is_dir sd = true -> ftype sd = S_IFDIR.
  Proof. unfold is_dir. apply N.eqb_eq. Qed.
  Lemma is_reg_type sd : is_reg sd = true -> ftype sd = S_IFREG.
  Proof. unfold is_reg. apply N.eqb_eq. Qed.
  Lemma is_sock_type sd : is_sock sd = true -> ftype sd = S_IFSOCK.
  Proof. unfold is_sock. apply N.eqb_eq. Qed.

  (* the metadata phase on an inode that is a fresh copy of [sd] as far as creation goes *)
  Lemma dm_finfo_fresh s T d :
    wf_dent (sdent s) ->
    ftype d = copy_type (sdent s) ->
    (is_lnk (sdent s) = true -> d_mode d = N.lor S_IFLNK 511) ->
    d_rdev d = (if is_dev (sdent s) then d_rdev (sdent s) else 0) ->
    d_target d = d_target (sdent s) -> d_xattrs d = [] ->
    d_content d = (if is_reg (sdent s) then d_content (sdent s) else []) ->
    dm o (finfo o ms (sdent s) d) (new_entry o ms multi s T).
  Proof.
    intros (Hz & Hl & Ht & Hx) Hty Hlm Hr Htg Hxa Hc. set (sd := sdent s) in *.
    unfold dm, new_entry, finfo. fold sd. cbn [x_d x_known x_mk eff_known d_mode d_uid d_gid d_mtime d_rdev d_target d_xattrs d_content].
    destruct (is_lnk sd) eqn:El.
    - cbn [set_xattrs set_mtime set_owner d_mode d_uid d_gid d_mtime d_rdev d_target d_xattrs d_content].
      rewrite Hxa, (merge_nil _ Hx), Hlm, (Hl eq_refl) by auto.
      unfold copy_type. assert (is_sock sd = false) as ->.
      { unfold is_sock. rewrite (is_lnk_type _ El). reflexivity. }
      rewrite (is_lnk_type _ El). repeat split; auto.
    - cbn [set_xattrs set_mtime set_perm set_owner d_mode d_uid d_gid d_mtime d_rdev d_target d_xattrs d_content].
      rewrite Hxa, (merge_nil _ Hx), info_mode_idem.
      rewrite ftype_set_owner, Hty.
      repeat split; auto.
  Qed.

  (* ... on an existing directory met below the landing path *)
  Definition merged_d (sd d0 : dent) : dent :=
    set_xattrs (merge_xattrs (d_xattrs sd) (d_xattrs d0))
      (set_mtime (info_time o sd) (set_perm (info_mode o ms sd) (set_owner (fst (info_owner o sd)) (snd (info_owner o sd)) d0))).

  (* [copied] by cases: a directory over a directory merges, everything else is a new entry *)
  Lemma copied_unmerged s old top p : is_dir (sdent s) && x_isdir old = false -> copied o ms multi s old top p = new_entry o ms multi s p.
  Proof. unfold CopySpec.copied, x_isdir. destruct old as [e|]; [|reflexivity]. cbv zeta. intros ->. reflexivity. Qed.

  Lemma copied_merged s e top p : is_dir (sdent s) = true -> is_dir (x_d e) = true ->
    copied o ms multi s (Some e) top p =
    {| x_d := if top then set_mtime (info_time o (sdent s)) (x_d e) else merged_d (sdent s) (x_d e);
       x_known := true; x_key := x_key e; x_mk := x_mk e |}.
  Proof. unfold CopySpec.copied. cbv zeta. intros -> ->. destruct top; reflexivity. Qed.

  Lemma dm_finfo_merge sd d d0 k m :
    is_lnk sd = false -> ftype d = ftype d0 -> d_rdev d = d_rdev d0 -> d_target d = d_target d0 ->
    d_xattrs d = d_xattrs d0 -> d_content d = d_content d0 ->
    dm o (finfo o ms sd d) {| x_d := merged_d sd d0; x_known := true; x_key := k; x_mk := m |}.
  Proof.
    intros El Ht Hr Htg Hx Hc. unfold dm, finfo, merged_d. rewrite El.
    cbn [x_d set_xattrs set_mtime set_perm set_owner d_mode d_uid d_gid d_mtime d_rdev d_target d_xattrs d_content].
    rewrite !ftype_set_owner, Ht, Hx. repeat split; auto.
  Qed.

  Lemma dm_set_mtime d e t k m :
    dm o d e -> dm o (set_mtime t d) {| x_d := set_mtime t (x_d e); x_known := true; x_key := k; x_mk := m |}.
  Proof. clear ms multi. unfold dm. cbn [x_d set_mtime d_mode d_uid d_gid d_mtime d_rdev d_target d_xattrs d_content]. intuition. Qed.

  Lemma dm_set_perm d e p :
    dm o d e -> dm o (set_perm p d) {| x_d := set_perm p (x_d e); x_known := x_known e; x_key := x_key e; x_mk := x_mk e |}.
  Proof.
    clear ms multi. intro H. pose proof (dm_ftype _ _ _ H) as Hf. revert H. unfold dm, eff_known.
    cbn [x_d x_known x_mk set_perm d_mode d_uid d_gid d_mtime d_rdev d_target d_xattrs d_content].
    rewrite Hf. intuition.
  Qed.
End Dent.
