(* Replay does not depend on the order in which notifications arrive, as long as a
   notification never arrives before a notification for one of its ancestors
   ("ancestors first").  Every real schedule has that shape: notifications emitted inside
   HandleChange come in path order (ancestors sort first), and the notification of a regular
   file comes from a goroutine started by its own HandleChange call, i.e. after the
   notifications of all its ancestor directories.

   Key idea: what replay leaves at a path p is a function of the sub-list of notifications at
   p or above p ([chain p]); two lists with the same chains replay alike. *)
From Coq Require Import List NArith Lia Bool Sorting.Sorted Sorting.Permutation.
From FS Require Import Sx Model.Path Model.Stat Model.Diff Model.AbsDest
  Proofs.Lex Proofs.PathP Proofs.DiffP Proofs.AbsDestP.
Import ListNotations.
Open Scope N_scope.
Open Scope bool_scope.

Definition npath (n : notif) : bytes := snd (fst n).

Lemma at_or_below_trans a b c : at_or_below a b = true -> at_or_below b c = true -> at_or_below a c = true.
Proof.
  rewrite !at_or_below_iff. intros [->|H1] [->|H2]; auto. right. eapply above_trans; eauto.
Qed.

Lemma above_irrefl p : above p p = false.
Proof.
  destruct (above p p) eqn:E; auto. apply above_lt in E. rewrite compare_path_refl in E. discriminate.
Qed.

Lemma above_asym p q : above p q = true -> above q p = true -> False.
Proof. intros H1 H2. apply above_lt in H1, H2. eapply compare_path_asym; eauto. Qed.

(* the earlier one is above the other, since the paths below a path are contiguous in path order *)
Lemma at_or_below_comparable q1 q2 p :
  at_or_below q1 p = true -> at_or_below q2 p = true ->
  at_or_below q1 q2 = true \/ at_or_below q2 q1 = true.
Proof.
  assert (Hlt : forall q q', compare_path q q' = Lt -> at_or_below q p = true -> at_or_below q' p = true ->
                  at_or_below q q' = true).
  { intros q q' Hl Hq Hq'. apply at_or_below_le in Hq'. rewrite !at_or_below_iff in *. right.
    destruct Hq as [->|Hq]; [congruence|]. destruct (compare_path_total q' p) as [H|[->|H]]; [|auto|].
    - eapply above_between; eauto.
    - contradiction. }
  intros H1 H2. destruct (compare_path_total q1 q2) as [Hl|[->|Hl]]; [left|left; apply at_or_below_refl|right]; auto.
Qed.

Definition flips (M : nmap) (q : bytes) (st : stat) : bool :=
  match alookup q M with
  | Some (old, _) => negb (Bool.eqb (st_is_dir old) (st_is_dir st))
  | None => false
  end.

Definition step_lookup (M : nmap) (n : notif) (p : bytes) : option (stat * bytes) :=
  match n with
  | (KDelete, q, _) => if at_or_below q p then None else alookup p M
  | (_, q, Some (st, dg)) =>
      if bytes_eqb q p then Some (st, dg)
      else if flips M q st && at_or_below q p then None else alookup p M
  | (_, _, None) => alookup p M
  end.

Lemma replay_step_lookup M n p : alookup p (replay_step M n) = step_lookup M n p.
Proof.
  destruct n as [[[] q] [[st dg]|]]; try apply alookup_aremove_if; try reflexivity.
  all: rewrite replay_step_put by discriminate; simpl; rewrite alookup_aset; destruct (bytes_eqb q p); auto.
  all: unfold cleared, flips; destruct (alookup q M) as [[old ?]|]; auto; simpl.
  all: destruct (Bool.eqb (st_is_dir old) (st_is_dir st)); auto; apply alookup_aremove_if.
Qed.

Definition in_chain (p : bytes) (n : notif) : bool := at_or_below (npath n) p.
Definition chain (p : bytes) (ns : list notif) : list notif := filter (in_chain p) ns.

(* two views agree at p and everywhere above p *)
Definition agree (p : bytes) (M1 M2 : nmap) : Prop :=
  forall q, at_or_below q p = true -> alookup q M1 = alookup q M2.

Lemma step_agree_in p M1 M2 n :
  agree p M1 M2 -> in_chain p n = true -> agree p (replay_step M1 n) (replay_step M2 n).
Proof.
  intros Ha Hn q Hq. rewrite !replay_step_lookup. unfold in_chain in Hn.
  destruct n as [[k x] [[st dg]|]]; unfold npath in Hn; simpl in Hn.
  - assert (Hf : flips M1 x st = flips M2 x st) by (unfold flips; rewrite (Ha x Hn); reflexivity).
    destruct k; simpl; rewrite ?Hf, (Ha q Hq); reflexivity.
  - destruct k; simpl; rewrite (Ha q Hq); reflexivity.
Qed.

Lemma step_agree_out p M1 M2 n :
  agree p M1 M2 -> in_chain p n = false -> agree p (replay_step M1 n) M2.
Proof.
  intros Ha Hn q Hq. rewrite replay_step_lookup, <- (Ha q Hq). unfold in_chain in Hn.
  assert (Hx : at_or_below (npath n) q = false).
  { destruct (at_or_below (npath n) q) eqn:E; auto.
    rewrite (at_or_below_trans _ _ _ E Hq) in Hn. discriminate. }
  destruct n as [[k x] [[st dg]|]]; unfold npath in Hx; simpl in Hx.
  - assert (Hb : bytes_eqb x q = false).
    { unfold at_or_below in Hx. apply orb_false_iff in Hx. tauto. }
    destruct k; simpl; rewrite ?Hb, ?Hx, ?andb_false_r; reflexivity.
  - destruct k; simpl; rewrite ?Hx; reflexivity.
Qed.

Lemma replay_chain p : forall ns M1 M2,
  agree p M1 M2 -> agree p (replay ns M1) (replay (chain p ns) M2).
Proof.
  induction ns as [|n ns IH]; intros M1 M2 Ha; [exact Ha|].
  unfold replay, chain in *. simpl. destruct (in_chain p n) eqn:E; simpl.
  - apply IH. apply step_agree_in; auto.
  - apply IH. apply step_agree_out; auto.
Qed.

Theorem replay_same_chains ns ns' :
  (forall p, chain p ns' = chain p ns) ->
  forall M p, alookup p (replay ns' M) = alookup p (replay ns M).
Proof.
  intros Hc M p.
  rewrite (replay_chain p ns' M M (fun _ _ => eq_refl) p (at_or_below_refl p)).
  rewrite (replay_chain p ns M M (fun _ _ => eq_refl) p (at_or_below_refl p)).
  rewrite Hc. reflexivity.
Qed.

(* no notification is followed by a notification for one of its ancestors *)
Fixpoint ancestors_first (ns : list notif) : Prop :=
  match ns with
  | [] => True
  | m :: r => (forall x, In x r -> above (npath x) (npath m) = false) /\ ancestors_first r
  end.

Definition nabove (x y : notif) : Prop := above (npath x) (npath y) = true.

Lemma filter_perm {X} (f : X -> bool) l l' : Permutation l l' -> Permutation (filter f l) (filter f l').
Proof.
  induction 1; simpl.
  - constructor.
  - destruct (f x); auto.
  - destruct (f x), (f y); auto. apply perm_swap.
  - eapply perm_trans; eauto.
Qed.

Lemma chain_sorted p ns :
  NoDup (map npath ns) -> ancestors_first ns -> StronglySorted nabove (chain p ns).
Proof.
  induction ns as [|m r IH]; intros Hnd Haf; simpl; [constructor|].
  inversion Hnd as [|? ? Hnotin Hnd']; subst. destruct Haf as [Hm Haf].
  unfold chain in *. simpl. destruct (in_chain p m) eqn:Em; [|apply IH; auto].
  constructor; [apply IH; auto|]. apply Forall_forall. intros x Hx. apply filter_In in Hx.
  destruct Hx as [Hxr Hxp]. unfold in_chain in *.
  destruct (at_or_below_comparable _ _ _ Em Hxp) as [Hc|Hc]; apply at_or_below_iff in Hc.
  - destruct Hc as [Hc|Hc]; [|exact Hc]. exfalso. apply Hnotin. rewrite Hc. apply (in_map npath); auto.
  - destruct Hc as [Hc|Hc].
    + exfalso. apply Hnotin. rewrite <- Hc. apply (in_map npath); auto.
    + rewrite (Hm x Hxr) in Hc. discriminate.
Qed.

Lemma sorted_perm_eq {X} (R : X -> X -> Prop) :
  (forall x, ~ R x x) -> (forall x y, R x y -> R y x -> False) ->
  forall l l', StronglySorted R l -> StronglySorted R l' -> Permutation l l' -> l = l'.
Proof.
  intros Hirr Hasym. induction l as [|a l IH]; intros l' S S' HP.
  - apply Permutation_nil in HP. auto.
  - destruct l' as [|b l']; [apply Permutation_sym, Permutation_nil in HP; discriminate|].
    inversion S as [|? ? Sl Fa]; subst. inversion S' as [|? ? Sl' Fb]; subst.
    rewrite Forall_forall in Fa, Fb.
    assert (a = b).
    { assert (Ha : In a (b :: l')) by (eapply Permutation_in; [exact HP|left; auto]).
      assert (Hb : In b (a :: l)) by (eapply Permutation_in; [apply Permutation_sym; exact HP|left; auto]).
      destruct Ha as [->|Ha]; auto. destruct Hb as [->|Hb]; auto.
      exfalso. apply (Hasym a b); auto. }
    subst b. f_equal. apply IH; auto. eapply Permutation_cons_inv; eauto.
Qed.

Theorem replay_order_independent ns ns' :
  NoDup (map npath ns) -> ancestors_first ns -> Permutation ns ns' -> ancestors_first ns' ->
  forall M p, alookup p (replay ns' M) = alookup p (replay ns M).
Proof.
  intros Hnd Haf HP Haf'. apply replay_same_chains. intros p.
  assert (Hnd' : NoDup (map npath ns')).
  { eapply Permutation_NoDup; [|exact Hnd]. apply Permutation_map. exact HP. }
  symmetry. apply (sorted_perm_eq nabove).
  - intros x Hx. unfold nabove in Hx. rewrite above_irrefl in Hx. discriminate.
  - intros x y. apply above_asym.
  - apply chain_sorted; auto.
  - apply chain_sorted; auto.
  - apply filter_perm. exact HP.
Qed.

Lemma sorted_ancestors_first ns :
  StronglySorted (fun a b => compare_path (npath a) (npath b) = Lt) ns ->
  ancestors_first ns /\ NoDup (map npath ns).
Proof.
  induction 1 as [|m r S [IH1 IH2] F]; simpl; [split; [exact I|constructor]|].
  rewrite Forall_forall in F. split; [split; auto|].
  - intros x Hx. destruct (above (npath x) (npath m)) eqn:E; auto.
    apply above_lt in E. exfalso. eapply compare_path_asym; [exact E|apply F; auto].
  - constructor; auto. intros Hin. apply in_map_iff in Hin. destruct Hin as (x & Ex & Hx).
    specialize (F x Hx). rewrite Ex, compare_path_refl in F. discriminate.
Qed.
