(* C14 — frame facts about the Model/Fs.v primitives and system calls the copier uses:
   which inode records an operation can change, and what it does to directory entries. *)
From Coq Require Import List NArith Lia Bool ZifyN ZifyNat ZifyBool.
From FS Require Import Sx Model.Path Model.Fs Model.RootPath Model.CopyFs Model.CopyFsSpec
  Proofs.Lex Proofs.PathP Proofs.FsP.
Import ListNotations.
Open Scope N_scope.
Open Scope bool_scope.

Lemma dents_ents f i : dents f i = ents f i. Proof. reflexivity. Qed.

Lemma dents_nil_not_dir f i : is_dir f i = false -> dents f i = [].
Proof. unfold is_dir, dents. destruct (dir_of f i) as [[p es]|]; [discriminate|reflexivity]. Qed.

Lemma dents_unalloc f i : alloc_ok f -> f_next f <= i -> dents f i = [].
Proof. intros Ha Hi. unfold dents, dir_of. rewrite (Ha i Hi). reflexivity. Qed.

Lemma dents_get f i p es m : get f i = Some {| i_kind := KDir p es; i_meta := m |} -> dents f i = es.
Proof. intros H. unfold dents, dir_of. rewrite H. reflexivity. Qed.

Lemma dents_get_nondir f i n : get f i = Some n -> (forall p es, i_kind n <> KDir p es) -> dents f i = [].
Proof.
  intros H Hk. unfold dents, dir_of. rewrite H. destruct n as [[p es|d|t|ty rd] m]; auto.
  exfalso. apply (Hk p es). reflexivity.
Qed.

Lemma set_ents_nondir f d es : is_dir f d = false -> set_ents f d es = f.
Proof.
  unfold is_dir, dir_of, set_ents. destruct (get f d) as [[[p es0|x|t|ty rd] m]|]; auto. discriminate.
Qed.

Lemma set_ents_dents f d es j : is_dir f d = true ->
  dents (set_ents f d es) j = if N.eqb j d then es else dents f j.
Proof.
  intros Hd. destruct (N.eqb_spec j d) as [->|H]; [apply ents_set_ents_same, Hd|apply ents_set_ents_other, H].
Qed.

Lemma add_ent_other f d name i j : j <> d -> get (add_ent f d name i) j = get f j.
Proof. rewrite add_ent_set_ents. apply get_set_ents_other. Qed.
Lemma del_ent_other f d name j : j <> d -> get (del_ent f d name) j = get f j.
Proof. rewrite del_ent_set_ents. apply get_set_ents_other. Qed.
Lemma add_ent_next f d name i : f_next (add_ent f d name i) = f_next f.
Proof. rewrite add_ent_set_ents. apply next_set_ents. Qed.
Lemma del_ent_next f d name : f_next (del_ent f d name) = f_next f.
Proof. rewrite del_ent_set_ents. apply next_set_ents. Qed.
Lemma add_ent_tag f d name i j : itag (get (add_ent f d name i) j) = itag (get f j).
Proof. rewrite add_ent_set_ents. apply itag_set_ents. Qed.
Lemma del_ent_tag f d name j : itag (get (del_ent f d name) j) = itag (get f j).
Proof. rewrite del_ent_set_ents. apply itag_set_ents. Qed.

Lemma add_ent_dents f d name i j : is_dir f d = true ->
  dents (add_ent f d name i) j = if N.eqb j d then dents f d ++ [(name, i)] else dents f j.
Proof. rewrite add_ent_set_ents. apply set_ents_dents. Qed.
Lemma del_ent_dents f d name j : is_dir f d = true ->
  dents (del_ent f d name) j = if N.eqb j d then bremove name (dents f d) else dents f j.
Proof. rewrite del_ent_set_ents. apply set_ents_dents. Qed.
Lemma add_ent_nondir f d name i : is_dir f d = false -> add_ent f d name i = f.
Proof. rewrite add_ent_set_ents. apply set_ents_nondir. Qed.
Lemma del_ent_nondir f d name : is_dir f d = false -> del_ent f d name = f.
Proof. rewrite del_ent_set_ents. apply set_ents_nondir. Qed.

Lemma is_dir_add_ent f d name i j : is_dir (add_ent f d name i) j = is_dir f j.
Proof. apply is_dir_same_tag, add_ent_tag. Qed.
Lemma is_dir_del_ent f d name j : is_dir (del_ent f d name) j = is_dir f j.
Proof. apply is_dir_same_tag, del_ent_tag. Qed.

Lemma blookup_snoc {A} n (l : list (bytes * A)) x i v : blookup n (l ++ [(x, i)]) = Some v ->
  blookup n l = Some v \/ blookup n l = None /\ n = x /\ v = i.
Proof.
  rewrite blookup_app. destruct (blookup n l); auto. simpl.
  destruct (bytes_eqb n x) eqn:E; [|discriminate]. apply bytes_eqb_eq in E. intros [= <-]. auto.
Qed.

(* a kind that has no entries: what create_at is called with *)
Definition leaf_kind (k : ikind) : Prop := match k with KDir _ es => es = [] | _ => True end.
Definition kind_dirb (k : ikind) : bool := match k with KDir _ _ => true | _ => false end.

Section CreateAt.
  Variables (f : fs) (r : lres) (isdir : bool) (k : ikind) (mode : N).
  Let nw := f_next f.
  Let f' := fst (create_at f r isdir k mode).
  Hypothesis Hfresh : alloc_ok f.
  Hypothesis Hd : is_dir f (l_dir r) = true.

  Lemma create_at_eq : create_at f r isdir k mode =
    (add_ent (fst (alloc f {| i_kind := k; i_meta := new_meta f (l_dir r) isdir mode |})) (l_dir r) (l_name r) nw, nw).
  Proof. reflexivity. Qed.

  Lemma dir_lt_next : l_dir r < f_next f.
  Proof.
    destruct (N.lt_ge_cases (l_dir r) (f_next f)) as [|H]; auto.
    apply Hfresh in H. unfold is_dir, dir_of in Hd. rewrite H in Hd. discriminate.
  Qed.

  Lemma create_at_snd : snd (create_at f r isdir k mode) = nw. Proof. reflexivity. Qed.

  Lemma create_at_next : f_next f' = f_next f + 1.
  Proof. unfold f'. rewrite create_at_eq. cbn [fst]. rewrite add_ent_next. reflexivity. Qed.

  Lemma create_at_other j : j <> l_dir r -> j <> nw -> get f' j = get f j.
  Proof.
    intros H1 H2. unfold f'. rewrite create_at_eq. cbn [fst]. rewrite add_ent_other by auto.
    apply get_alloc_other. exact H2.
  Qed.

  Lemma create_at_new : get f' nw = Some {| i_kind := k; i_meta := new_meta f (l_dir r) isdir mode |}.
  Proof.
    unfold f'. rewrite create_at_eq. cbn [fst]. pose proof dir_lt_next.
    rewrite add_ent_other by (unfold nw; lia). apply (get_alloc_new f).
  Qed.

  Lemma create_at_tag j : j <> nw -> itag (get f' j) = itag (get f j).
  Proof.
    intros H. unfold f'. rewrite create_at_eq. cbn [fst]. rewrite add_ent_tag.
    rewrite get_alloc_other; auto.
  Qed.

  Lemma create_at_is_dir j : is_dir f' j = if N.eqb j nw then kind_dirb k else is_dir f j.
  Proof.
    destruct (N.eqb_spec j nw) as [->|H]; [|apply is_dir_same_tag, create_at_tag, H].
    unfold is_dir, dir_of. rewrite create_at_new. destruct k; reflexivity.
  Qed.

  (* the new inode has no entries, as before it was allocated *)
  Lemma create_at_dents j : leaf_kind k ->
    dents f' j = if N.eqb j (l_dir r) then dents f (l_dir r) ++ [(l_name r, nw)] else dents f j.
  Proof.
    intros Hleaf. pose proof dir_lt_next as Hlt.
    unfold f'. rewrite create_at_eq. cbn [fst].
    set (f1 := fst (alloc f {| i_kind := k; i_meta := new_meta f (l_dir r) isdir mode |})).
    assert (Hsame : forall j, dents f1 j = dents f j).
    { intros j0. destruct (N.eq_dec j0 nw) as [->|H0]; [|unfold dents, dir_of, f1; rewrite get_alloc_other; auto].
      rewrite (dents_unalloc f nw Hfresh) by (unfold nw; lia).
      unfold dents, dir_of, f1. rewrite (get_alloc_new f). cbn [i_kind]. destruct k; simpl in *; subst; auto. }
    rewrite add_ent_dents, !Hsame; auto.
    unfold is_dir, dir_of, f1. rewrite get_alloc_other by (unfold nw in *; lia). exact Hd.
  Qed.
End CreateAt.

(* n' differs from n at most in metadata and file contents *)
Definition same_shape (n n' : inode) : Prop :=
  match i_kind n, i_kind n' with
  | KDir p es, KDir p' es' => p = p' /\ es = es'
  | KFile _, KFile _ => True
  | KLink t, KLink t' => t = t'
  | KSpecial a b, KSpecial a' b' => a = a' /\ b = b'
  | _, _ => False
  end.

Lemma same_shape_meta n m : same_shape n (set_meta n m).
Proof. unfold same_shape. destruct n as [[p es|x|t|ty rd] m0]; simpl; auto. Qed.

Lemma same_shape_tag n n' : same_shape n n' -> ktag (i_kind n') = ktag (i_kind n).
Proof. unfold same_shape. destruct (i_kind n), (i_kind n'); simpl; tauto. Qed.

Section PutShape.
  Variables (f : fs) (i : N) (n n' : inode).
  Hypothesis Hg : get f i = Some n.
  Hypothesis Hsh : same_shape n n'.

  Lemma put_shape_tag j : itag (get (put f i n') j) = itag (get f j).
  Proof.
    destruct (N.eq_dec j i) as [->|Hne]; [|rewrite get_put_other; auto].
    rewrite get_put_same, Hg. simpl. rewrite (same_shape_tag _ _ Hsh). reflexivity.
  Qed.

  Lemma put_shape_dents j : dents (put f i n') j = dents f j.
  Proof.
    unfold dents, dir_of. destruct (N.eq_dec j i) as [->|Hne]; [|rewrite get_put_other; auto].
    rewrite get_put_same, Hg. unfold same_shape in Hsh.
    destruct n as [[p es|x|t|ty rd] m], n' as [[p' es'|x'|t'|ty' rd'] m']; simpl in *; try tauto.
    destruct Hsh; subst; reflexivity.
  Qed.

  Lemma put_shape_is_dir j : is_dir (put f i n') j = is_dir f j.
  Proof. apply is_dir_same_tag, put_shape_tag. Qed.
End PutShape.

Lemma put_meta_tag f i n m j : get f i = Some n -> itag (get (put f i (set_meta n m)) j) = itag (get f j).
Proof. intros H. eapply put_shape_tag; eauto using same_shape_meta. Qed.
Lemma put_meta_dents f i n m j : get f i = Some n -> dents (put f i (set_meta n m)) j = dents f j.
Proof. intros H. eapply put_shape_dents; eauto using same_shape_meta. Qed.
Lemma put_meta_is_dir f i n m j : get f i = Some n -> is_dir (put f i (set_meta n m)) j = is_dir f j.
Proof. intros H. eapply put_shape_is_dir; eauto using same_shape_meta. Qed.

(* Inversion of the system calls: the call failed and left the file system alone, or its lookup
   succeeded and the new file system is one primitive applied where the lookup ended. *)

(* [create_at] of a kind [k r] at the free name [r] a no-follow lookup ends on *)
Definition creation c f p (f' : fs) (res : result) (isdir : bool) (k : lres -> ikind) (mode : N) : Prop :=
  (f' = f /\ exists e, res = RErr e) \/
  exists r, resolve c f p false = inl r /\ l_ino r = None /\ res = ROk /\
            f' = fst (create_at f r isdir (k r) mode).

(* [del_ent] of the name a no-follow lookup finds, under a side condition [Q] *)
Definition removal c f p (f' : fs) (res : result) (Q : lres -> N -> Prop) : Prop :=
  (f' = f /\ exists e, res = RErr e) \/
  exists r i, resolve c f p false = inl r /\ l_ino r = Some i /\ Q r i /\ res = ROk /\
              f' = del_ent f (l_dir r) (l_name r).

(* new metadata for the inode a lookup names *)
Definition meta_update c f p (follow : bool) (f' : fs) (res : result) : Prop :=
  (f' = f /\ exists e, res = RErr e) \/
  exists i n m, resolve_ino c f p follow = inl i /\ get f i = Some n /\ res = ROk /\ f' = put f i (set_meta n m).

(* [H]: the defining equation of a call, after all the case distinctions the call makes.
   Disposes of the branches that fail. *)
Ltac inv_pair H := injection H as <- <-.
Ltac inv_failed H := inv_pair H; try (left; split; [reflexivity|eexists; reflexivity]).

Lemma sys_mkdir_inv {c f p mode f' res} : sys_mkdir c f p mode = (f', res) ->
  creation c f p f' res true (fun r => KDir (l_dir r) []) (N.land mode mkdir_mask).
Proof.
  unfold sys_mkdir, creation. intros H.
  destruct (resolve c f p false) as [r|e]; [destruct (l_ino r) eqn:E|]; inv_failed H.
  right. exists r. auto.
Qed.

Lemma sys_mknod_inv {c f p typ mode rdev f' res} : sys_mknod c f p typ mode rdev = (f', res) ->
  exists a b, creation c f p f' res false (fun _ => KSpecial a b) (N.land mode perm_mask).
Proof.
  unfold sys_mknod, creation. intros H.
  exists typ, (if N.eqb typ 8192 || N.eqb typ 24576 then rdev else 0).
  destruct (resolve c f p false) as [r|e]; [destruct (l_ino r) eqn:E|]; inv_failed H.
  right. exists r. auto.
Qed.

Lemma sys_mknod_reg_inv {c f p mode f' res} : sys_mknod_reg c f p mode = (f', res) ->
  creation c f p f' res false (fun _ => KFile []) (N.land mode perm_mask).
Proof.
  unfold sys_mknod_reg, creation. intros H.
  destruct (resolve c f p false) as [r|e]; [destruct (l_ino r) eqn:E|]; inv_failed H.
  right. exists r. auto.
Qed.

Lemma sys_symlink_inv {c f t p f' res} : sys_symlink c f t p = (f', res) ->
  creation c f p f' res false (fun _ => KLink t) 511.
Proof.
  unfold sys_symlink, creation. intros H. destruct t as [|t0 t1]; [inv_failed H|].
  destruct (has_nul (t0 :: t1)); [inv_failed H|].
  destruct (resolve c f p false) as [r|e]; [destruct (l_ino r) eqn:E|]; inv_failed H.
  right. exists r. auto.
Qed.

Lemma sys_link_inv {c f o p f' res} : sys_link c f o p = (f', res) ->
  (f' = f /\ exists e, res = RErr e) \/
  exists i r, resolve_ino c f o false = inl i /\ resolve c f p false = inl r /\ l_ino r = None /\
              is_dir f i = false /\ res = ROk /\ f' = add_ent f (l_dir r) (l_name r) i.
Proof.
  unfold sys_link. intros H. destruct (resolve_ino c f o false) as [i|e]; [|inv_failed H].
  destruct (resolve c f p false) as [r|e]; [destruct (l_ino r) eqn:E; [|destruct (is_dir f i) eqn:Ed]|];
    inv_failed H.
  right. exists i, r. auto 6.
Qed.

Lemma sys_open_wronly_inv {c f p creat mode f' res} : sys_open_wronly c f p creat mode = (f', res) ->
  (f' = f /\ (forall i, res <> RFd i)) \/
  (exists r i d, resolve c f p true = inl r /\ l_ino r = Some i /\ get f i = Some d /\
                 (exists x, i_kind d = KFile x) /\ res = RFd i /\ f' = f) \/
  (exists r, resolve c f p true = inl r /\ l_ino r = None /\ creat = true /\ res = RFd (f_next f) /\
             f' = fst (create_at f r false (KFile []) (N.land mode perm_mask))).
Proof.
  unfold sys_open_wronly. destruct (resolve c f p true) as [r|e]; [|intros H; inv_pair H; left; split; [auto|discriminate]].
  destruct (l_ino r) as [i|] eqn:E.
  - destruct (get f i) as [[[p0 es|x|t|ty rd] m]|] eqn:Eg; intros H; inv_pair H;
      try (left; split; [auto|discriminate]).
    right. left. exists r, i, {| i_kind := KFile x; i_meta := m |}. repeat split; auto. exists x. reflexivity.
  - destruct creat.
    + intros H. right. right. exists r. unfold create_at in *. cbn in H. inv_pair H. auto.
    + intros H; inv_pair H. left; split; [auto|discriminate].
Qed.

Lemma sys_unlink_inv {c f p f' res} : sys_unlink c f p = (f', res) ->
  removal c f p f' res (fun _ i => is_dir f i = false).
Proof.
  unfold sys_unlink, removal. intros H.
  destruct (resolve c f p false) as [r|e]; [destruct (l_ino r) as [i|] eqn:E; [destruct (is_dir f i) eqn:Ed|]|];
    inv_failed H.
  right. exists r, i. auto.
Qed.

Lemma sys_rmdir_inv {c f p f' res} : sys_rmdir c f p = (f', res) ->
  removal c f p f' res (fun r _ => l_name r <> []).
Proof.
  unfold sys_rmdir, removal. intros H.
  destruct (resolve c f p false) as [r|e]; [destruct (l_ino r) as [i|] eqn:E|]; try solve [inv_failed H].
  destruct (dir_of f i) as [[pp es]|]; [|inv_failed H].
  destruct (l_name r) eqn:En; simpl in H; [inv_failed H|]. destruct (is_nil es); inv_failed H.
  right. exists r, i. rewrite En. repeat split; auto. discriminate.
Qed.

(* os.RemoveAll also succeeds when there is nothing to remove *)
Lemma sys_remove_all_inv {c f p f' res} : sys_remove_all c f p = (f', res) ->
  (f' = f /\ res = ROk /\ resolve_ino c f p false = inr ENOENT) \/
  removal c f p f' res (fun r _ => l_name r <> []).
Proof.
  unfold sys_remove_all, removal, resolve_ino. intros H. destruct p as [|a p]; [inv_pair H; auto|].
  destruct (ends_with_dot (a :: p)); [right; inv_failed H|].
  destruct (resolve c f (a :: p) false) as [r|e].
  - destruct (l_ino r) as [i|] eqn:E; [|inv_pair H; auto].
    destruct (l_name r) eqn:En; simpl in H; right; inv_failed H.
    right. exists r, i. rewrite En. repeat split; auto. discriminate.
  - destruct e; inv_pair H; auto; right; left; split; eauto.
Qed.

Lemma sys_chmod_inv {c f p mode f' res} : sys_chmod c f p mode = (f', res) -> meta_update c f p true f' res.
Proof.
  unfold sys_chmod, meta_update. intros H.
  destruct (resolve_ino c f p true) as [i|e]; [destruct (get f i) as [n|] eqn:E|]; inv_failed H.
  right. eexists i, n, _. eauto.
Qed.

Lemma sys_lchown_inv {c f p u g f' res} : sys_lchown c f p u g = (f', res) -> meta_update c f p false f' res.
Proof.
  unfold sys_lchown, meta_update. intros H.
  destruct (resolve_ino c f p false) as [i|e]; [destruct (get f i) as [n|] eqn:E|]; inv_failed H.
  right. eexists i, n, _. eauto.
Qed.

Lemma sys_utimens_inv c f p t f' res : sys_utimens c f p t = (f', res) ->
  (f' = f /\ exists e, res = RErr e) \/
  exists i n m, resolve_ino c f p false = inl i /\ get f i = Some n /\ res = ROk /\ f' = put f i (set_meta n m).
Proof.
  unfold sys_utimens. intros H.
  destruct (resolve_ino c f p false) as [i|e]; [destruct (get f i) as [n|] eqn:E|]; inv_failed H.
  right. eexists i, n, _. eauto.
Qed.

Lemma sys_lsetxattr_inv {c f p k v f' res} : sys_lsetxattr c f p k v = (f', res) -> meta_update c f p false f' res.
Proof.
  unfold sys_lsetxattr, meta_update. intros H.
  destruct (resolve_ino c f p false) as [i|e]; [destruct (get f i) as [n|] eqn:E|]; try solve [inv_failed H].
  destruct (negb (has_prefix pfx_user k) && negb (has_prefix pfx_trusted k)); [inv_failed H|].
  destruct (has_prefix pfx_user k && _); inv_failed H.
  right. eexists i, n, _. eauto.
Qed.

Lemma sys_lstat_fs c f p : fst (sys_lstat c f p) = f.
Proof. unfold sys_lstat. destruct (resolve_ino c f p false); [destruct (get f n)|]; reflexivity. Qed.
Lemma sys_stat_fs c f p : fst (sys_stat c f p) = f.
Proof. unfold sys_stat. destruct (resolve_ino c f p true); [destruct (get f n)|]; reflexivity. Qed.
Lemma sys_readlink_fs c f p : fst (sys_readlink c f p) = f.
Proof.
  unfold sys_readlink. destruct (resolve_ino c f p false); [|reflexivity].
  destruct (get f n) as [[[p0 es|x|t|ty rd] m]|]; reflexivity.
Qed.
Lemma sys_readdir_fs c f p : fst (sys_readdir c f p) = f.
Proof. unfold sys_readdir. destruct (resolve_ino c f p true); [destruct (dir_of f n) as [[? ?]|]|]; reflexivity. Qed.
