(* The walk as the code runs it = the reference over the NAIVE verdict, for views on which
   no late shadow occurs. *)
From Coq Require Import List NArith Bool.
From FS Require Import Sx Model.Path Model.Stat Model.Tree Model.Pattern Model.FilterWalk
  Proofs.Lex Proofs.PathP Proofs.PatternP Proofs.FilterP Proofs.IncrNaiveP
  Proofs.RefP Proofs.PruneP.
Import ListNotations.
Open Scope bool_scope.

Lemma name_ok_inv name : name_ok name = true -> name <> [] /\ nosep name /\ normal name.
Proof.
  unfold name_ok. intros H. repeat (apply andb_true_iff in H; destruct H as [H ?]).
  assert (Hne : name <> []) by (destruct name; [discriminate|discriminate]).
  repeat split; auto.
  - apply no_sep_nosep; auto.
  - apply bytes_eqb_neq. apply negb_true_iff. auto.
  - apply bytes_eqb_neq. apply negb_true_iff. auto.
Qed.

Lemma wf_strict_ind (Q : node -> Prop) :
  (forall name st ct kids, name <> [] -> nosep name -> normal name -> forallb wf_strict_node kids = true ->
     Forall Q kids -> Q (Node name st ct kids)) ->
  forall n, wf_strict_node n = true -> Q n.
Proof.
  intros H. induction n as [name st ct kids IH] using node_ind2. cbn [wf_strict_node]. intros Hwf.
  apply andb_true_iff in Hwf. destruct Hwf as [Hn Hk]. apply name_ok_inv in Hn. destruct Hn as (Hne & Hns & Hnm).
  apply H; auto. rewrite forallb_forall in Hk. rewrite Forall_forall in *. auto.
Qed.

Lemma wf_strict_node_wf : forall n, wf_strict_node n = true -> wf_node n = true.
Proof.
  induction n as [name st ct kids IHk] using node_ind2. cbn [wf_strict_node wf_node]. intros H.
  apply andb_true_iff in H. destruct H as [H1 H2].
  unfold name_ok in H1. repeat (apply andb_true_iff in H1; destruct H1 as [H1 ?]).
  rewrite H1. match goal with H : no_sep name = true |- _ => rewrite H end. cbn [andb].
  rewrite forallb_forall in *. rewrite Forall_forall in IHk. auto.
Qed.

Lemma wf_strict_wf view : wf_strict view = true -> wf_view view = true.
Proof.
  unfold wf_strict, wf_view. rewrite !forallb_forall. intros H n Hin. apply wf_strict_node_wf; auto.
Qed.

Section Ext.
Variable mapfn : bytes -> stat -> mres * stat.
Variables V1 V2 : bytes -> bool.
Let Q := fun p => eqb (V1 p) (V2 p).

Definition ext_ok (n : node) : Prop := forall dir blocked, all_paths_node Q dir n = true ->
  ref_node V1 mapfn blocked dir n = ref_node V2 mapfn blocked dir n.

Lemma ref_forest_ext l : Forall ext_ok l -> forall dir b, forallb (all_paths_node Q dir) l = true ->
  ref_forest V1 mapfn b dir l = ref_forest V2 mapfn b dir l.
Proof.
  induction 1 as [|k r Hk _ IH]; intros dir b H; [reflexivity|]. cbn [ref_forest forallb] in *.
  apply andb_true_iff in H. destruct H as [H1 H2]. rewrite (Hk _ b H1), (IH _ b H2). reflexivity.
Qed.

Lemma ref_node_ext : forall n, ext_ok n.
Proof.
  induction n as [name st ct kids IHk] using node_ind2. intros dir blocked H.
  cbn [all_paths_node] in H. apply andb_true_iff in H. destruct H as [HQ Hk].
  unfold Q in HQ. apply eqb_prop in HQ.
  rewrite !ref_node_eq. cbv zeta. rewrite HQ.
  assert (Hb : forall b isd, ref_below V1 mapfn b isd (child_path dir name) kids = ref_below V2 mapfn b isd (child_path dir name) kids).
  { intros b isd. unfold ref_below. destruct isd; auto using ref_forest_ext. }
  rewrite !Hb. reflexivity.
Qed.

Lemma reference_ext view : all_paths Q view = true -> reference V1 mapfn view = reference V2 mapfn view.
Proof.
  unfold all_paths, reference. intros H. f_equal. apply ref_forest_ext; [|exact H].
  apply Forall_all, ref_node_ext.
Qed.
End Ext.

Section NaiveRef.
Variable pmatch : bytes -> bytes -> bool.
Variable c : cfg.

Lemma keep_incr_naive p : okc (pcomps p) -> nls_path pmatch c p = true ->
  keep_incr pmatch c p = keep_naive pmatch c p.
Proof.
  intros Hok Hn. unfold nls_path in Hn. apply andb_true_iff in Hn. destruct Hn as [H1 H2].
  unfold keep_incr, keep_naive. f_equal; [|f_equal].
  - destruct (c_inc c) as [pats|]; auto. rewrite (incr_eq_naive_proof pmatch pats _ Hok H1). rewrite joinc_pcomps. reflexivity.
  - destruct (c_exc c) as [pats|]; auto. rewrite (incr_eq_naive_proof pmatch pats _ Hok H2). rewrite joinc_pcomps. reflexivity.
Qed.

Lemma okc_child cs name : cs = [] \/ okc cs -> nosep name -> normal name -> okc (cs ++ [name]).
Proof.
  intros Hcs Hn Hnm. split; [destruct cs; discriminate|].
  destruct Hcs as [->|(_ & H1 & H2)].
  - split; constructor; auto.
  - split; apply Forall_app; split; auto.
Qed.

Lemma all_paths_keep : forall n, wf_strict_node n = true -> forall dir, (pcomps dir = [] \/ okc (pcomps dir)) ->
  all_paths_node (nls_path pmatch c) dir n = true ->
  all_paths_node (fun p => eqb (keep_incr pmatch c p) (keep_naive pmatch c p)) dir n = true.
Proof.
  refine (wf_strict_ind _ _). intros name st ct kids Hne Hns Hnm _ IHk dir Hdir H.
  cbn [all_paths_node] in *. apply andb_true_iff in H. destruct H as [HQ Hk].
  assert (Hok : okc (pcomps (child_path dir name))).
  { rewrite pcomps_child by auto. apply okc_child; auto. }
  apply andb_true_iff. split.
  - rewrite (keep_incr_naive _ Hok HQ). apply eqb_reflx.
  - rewrite forallb_forall in *. rewrite Forall_forall in IHk. intros k Hin. apply IHk; auto.
Qed.

Lemma all_paths_keep_view view : wf_strict view = true -> all_paths (nls_path pmatch c) view = true ->
  all_paths (fun p => eqb (keep_incr pmatch c p) (keep_naive pmatch c p)) view = true.
Proof.
  unfold wf_strict, all_paths. rewrite !forallb_forall. intros Hwf H n Hin.
  apply all_paths_keep; auto.
Qed.

Theorem filter_walk_naive_reference_proof mapfn view :
  prefix_semantics pmatch -> cfg_star_safe c = true -> wf_strict view = true ->
  all_paths (nls_path pmatch c) view = true ->
  filter_walk pmatch mapfn c view = reference (keep_naive pmatch c) mapfn view.
Proof.
  intros Hsem Hsafe Hwf Hnls. pose proof (wf_strict_wf view Hwf) as Hwf'.
  rewrite (prune_unobservable_proof pmatch mapfn Hsem c Hsafe view Hwf').
  rewrite filter_walk_reference_proof by auto.
  apply reference_ext. apply all_paths_keep_view; auto.
Qed.
End NaiveRef.
