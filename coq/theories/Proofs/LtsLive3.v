(* Liveness of fault-free executions.  Progress: a reachable state without error flags that is
   not final has an enabled fault-free step (who can be blocked on whom, goroutine by goroutine).
   Finiteness: a measure of the work still to be done strictly decreases on every such step. *)
From Coq Require Import List Arith Bool PeanoNat Lia ZifyBool.
From FS Require Import Model.Lts Model.LtsExplore Proofs.LtsInv Proofs.LtsSafe Proofs.LtsTerm Proofs.LtsC08 Proofs.LtsTok
  Proofs.LtsContent Proofs.LtsContent3 Proofs.LtsClean1 Proofs.LtsClean2 Proofs.LtsClean3 Proofs.LtsClean4 Proofs.LtsClean5.
Import ListNotations.

Definition canf (p : params) (st : state) : Prop :=
  exists l, fault_free_label l = true /\ step p st l <> None.

(* [held id w] = 1 while worker w serves file id, from taking it off the pipeline to its last
   DATA packet: no file is held iff every worker is idle or has ended *)
Lemma held0_idle_done : forall l,
  (forall id, sumf (held id) l = 0) <-> forallb (fun w => wk_idle w || wk_done w) l = true.
Proof.
  induction l as [|w l IH]; [split; reflexivity|].
  change (forallb (fun w => wk_idle w || wk_done w) (w :: l))
    with ((wk_idle w || wk_done w) && forallb (fun w => wk_idle w || wk_done w) l).
  rewrite andb_true_iff, <- IH. unfold sumf; cbn [fold_right]. split.
  - intro H. split; [|intro id; specialize (H id); lia].
    destruct w; try reflexivity; specialize (H h); cbn [held] in H; rewrite Nat.eqb_refl in H; discriminate H.
  - intros [H1 H2] id. rewrite (H2 id). destruct w; try discriminate H1; reflexivity.
Qed.

Lemma can_canf : forall p st, can p st -> canf p st.
Proof.
  intros p st (l & E & S). exists l. split; [destruct l; try discriminate E; reflexivity | exact S].
Qed.

Lemma notmemb_cnt0 : forall id l, memb id l = false -> cnt id l = 0.
Proof.
  intros id l H. destruct (cnt id l) eqn:E; auto. rewrite cnt_pos_memb in H by lia. discriminate H.
Qed.

Section Progress.
  Variables (p : params) (st : state).
  Hypothesis HW : p_W p >= 1.
  Hypothesis R : reachable p st.
  Hypothesis K : scal st.
  Hypothesis WQ : forall id, wq p id st.

  Let J := inv_reachable p st R.
  Let J8 := inv8_reachable p st R.
  Let LI := linv_reachable p st R.

  Lemma room_rs_wait : rq_pc st = RQ_Recv -> buf_rs st = [] -> room_rs p st = true.
  Proof.
    intros E B; unfold room_rs, rq_in_recv; rewrite E, B; cbn; apply Nat.ltb_lt; lia.
  Qed.

  (* the receive loop inside RecvMsg: it takes what is there or sees the direction closed;
     otherwise the direction is empty and whoever sends on it has room *)
  Lemma recv_wait_can : rl_pc st = RL_Recv \/ rl_pc st = RL_Drain ->
    canf p st \/ (buf_sr st = [] /\ sr_closed st = false /\ room_sr p st = true).
  Proof.
    intro E. destruct (buf_sr st) eqn:BS; [|left; destruct E; can_by LRecvLoop].
    destruct (sr_closed st) eqn:SC; [left; destruct E; can_by LRecvLoop|].
    right. repeat split. unfold room_sr, rl_in_recv. destruct E as [E|E]; rewrite E, BS; apply Nat.ltb_lt; cbn; lia.
  Qed.

  Lemma mutex_s_canf : forall g, s_mu st = Some g -> room_sr p st = true -> canf p st.
  Proof. intros g M Rm. apply can_canf, (mutex_s_can p st g (i_mu _ _ J) M). auto. Qed.

  Lemma mutex_r_canf : forall g, r_mu st = Some g -> room_rs p st = true -> canf p st.
  Proof. intros g M Rm. apply can_canf, (mutex_r_can p st g (i_mu _ _ J) M). auto. Qed.

  Lemma walker_can : sw_pc st <> SW_Done -> room_sr p st = true -> canf p st.
  Proof.
    intros N Rm. pose proof (k_sb st K) as Sb.
    destruct (sw_pc st) eqn:SW; try congruence.
    - can_by LSWalk.
    - destruct (s_mu st) eqn:M; [eapply mutex_s_canf; eauto | can_by LSWalk].
    - can_by LSWalk.
  Qed.

  Lemma worker_can : forall j w, nth_error (wks st) j = Some w -> wk_idle w || wk_done w = false ->
    room_sr p st = true -> canf p st.
  Proof.
    intros j w E N Rm. pose proof (k_sb st K) as Sb.
    destruct w; try discriminate; try (can_by (LWorker j); fail);
    (destruct (s_mu st) eqn:M; [eapply mutex_s_canf; eauto | can_by (LWorker j)]).
  Qed.

  (* some worker is busy (then it can move when the stream has room), or all are idle / done *)
  Lemma workers_split : room_sr p st = true ->
    canf p st \/ forallb (fun w => wk_idle w || wk_done w) (wks st) = true.
  Proof.
    intro Rm. destruct (find_or_all _ (fun w => wk_idle w || wk_done w) (wks st)) as [(j & w & A & B)|A];
      [left; eapply worker_can; eauto | right; exact A].
  Qed.

  Lemma rq_can : match rq_pc st with RQ_Recv | RQ_Push _ | RQ_Done => False | _ => True end ->
    room_sr p st = true -> canf p st.
  Proof.
    intros N Rm. pose proof (k_sb st K) as Sb.
    destruct (rq_pc st) eqn:RQ; try contradiction; try (can_by LReq; fail).
    destruct (s_mu st) eqn:M; [eapply mutex_s_canf; eauto | can_by LReq].
  Qed.

  (* walker and request loop have ended, no worker is busy: the idle workers leave the closed
     pipeline, then Send returns *)
  Lemma sender_end_can : sw_pc st = SW_Done -> rq_pc st = RQ_Done ->
    forallb (fun w => wk_idle w || wk_done w) (wks st) = true -> send_ret st = None -> canf p st.
  Proof.
    intros SW RQ AllID SR. destruct J8 as (T1 & _). rewrite RQ in T1.
    destruct (find_or_all _ (fun w => negb (wk_idle w)) (wks st)) as [(j & w & E1 & E2)|NoIdle].
    { destruct w; try discriminate. can_by (LWorker j). }
    assert (AD: forallb wk_done (wks st) = true).
    { rewrite forallb_forall in *. intros x Hx. specialize (AllID x Hx). specialize (NoIdle x Hx).
      destruct (wk_idle x); [discriminate | exact AllID]. }
    exists LSendRet. split; [reflexivity|]. unfold step, step_send_ret, sender_quiet, sw_is_done, rq_is_done.
    rewrite SW, RQ, AD, SR. discriminate.
  Qed.

  (* a worker ends only when the pipeline is closed or Send's context is cancelled, that is
     after the request loop *)
  Lemma worker_done_rq : forall j, nth_error (wks st) j = Some WK_Done ->
    match rq_pc st with RQ_Ret _ | RQ_Done => True | _ => False end.
  Proof.
    intros j W. destruct J8 as (T1 & T2 & _). destruct (T2 _ W) as [Y|Y].
    - destruct (rq_pc st); try exact Logic.I; congruence.
    - rewrite (k_sc st K) in Y. destruct (send_ret st) eqn:SR; [|discriminate Y].
      destruct (i_1 _ _ J) as ((_ & Q & _) & _); [congruence|]. rewrite Q. exact Logic.I.
  Qed.

  (* ... so while the request loop runs, a worker that is not busy is idle; there is one, W >= 1 *)
  Lemma worker0_idle : forallb (fun w => wk_idle w || wk_done w) (wks st) = true ->
    match rq_pc st with RQ_Ret _ | RQ_Done => False | _ => True end -> nth_error (wks st) 0 = Some WK_Idle.
  Proof.
    intros AllID N. destruct J8 as (_ & _ & L & _).
    destruct (wks st) as [|w0 l] eqn:E; cbn in L; [lia|]. rewrite <- E in *.
    assert (W0: nth_error (wks st) 0 = Some w0) by (rewrite E; reflexivity).
    pose proof (forallb_nth _ _ _ _ _ AllID W0) as X. destruct w0; try discriminate X; auto.
    apply worker_done_rq in W0. destruct (rq_pc st); contradiction.
  Qed.

  (* fill holding an entry: either the diff channel has room, or the diff loop can take one / is busy *)
  Lemma fill_push_can : fl_pc st = FL_Push -> canf p st.
  Proof.
    intro F. destruct (i_3 _ _ J) as (_ & _ & _ & _ & _ & B6 & B7 & _).
    destruct (dl_pc st) eqn:DL.
    - destruct (room_c2 p st) eqn:Rm.
      + can_by LFill.
      + unfold room_c2, dl_in_next in Rm. rewrite DL in Rm. cbn in Rm. apply Nat.ltb_ge in Rm.
        destruct (c2_n st) eqn:CN; [lia|]. can_by LDiff.
    - can_by LDiff.
    - exfalso. destruct (B7 eq_refl (k_de st K)) as [C _]. apply B6 in C. rewrite F in C. exact C.
  Qed.

  Lemma recvloop_busy_can :
    match rl_pc st with RL_Recv | RL_Drain | RL_Done => False | _ => True end -> canf p st.
  Proof.
    intro N. destruct (rl_pc st) eqn:RL; try contradiction; try (can_by LRecvLoop; fail).
    (* RL_Push *)
    destruct (room_walk p st) eqn:Rm.
    { exists LRecvLoop. split; [reflexivity|]. unfold_goal_steps. rw_eqs. discriminate. }
    destruct (fl_pc st) eqn:FL.
    - unfold room_walk, fl_in_sel in Rm. rewrite FL in Rm. cbn in Rm. apply Nat.ltb_ge in Rm.
      destruct (walk_n st) eqn:WN; [lia|]. can_by LFill.
    - apply fill_push_can; auto.
    - can_by LFill.
    - can_by LFill.
    - exfalso. destruct (i_3 _ _ J) as (_ & _ & _ & _ & B5 & _). rewrite FL in B5.
      destruct (B5 (k_de st K)) as [Wc _].
      destruct (i_2 _ _ J) as (_ & _ & _ & _ & _ & K6 & K7 & _). rewrite RL in K6. apply K7 in Wc. congruence.
  Qed.

  Lemma fin_phase_can : g_got_fin_s st = true -> final st = false -> canf p st.
  Proof.
    intros Gs NF.
    destruct (i_1 _ _ J) as (A1 & _ & A3 & _ & A5 & _ & _ & A8 & A9 & _).
    destruct (i_3 _ _ J) as (B1 & _ & _ & B4 & B5 & _).
    destruct (i_2 _ _ J) as (_ & _ & C3 & _ & C5 & _ & C7 & _ & C9).
    destruct LI as (_ & _ & _ & _ & N7 & N8 & _). specialize (N8 Gs).
    pose proof (A5 Gs) as Frs. destruct (B4 Frs) as (Dd & De & Ee & Wd).
    rewrite Dd in B1. destruct B1 as [Fd Ld].
    (* the walker has finished *)
    assert (SW: sw_pc st = SW_Done).
    { rewrite Fd in B5. destruct (B5 De) as [Wc _]. destruct (C5 (C7 Wc)) as (Ge & _). apply (C3 Ge). }
    (* nothing of any id is on its way: no worker is busy *)
    assert (AllID: forallb (fun w => wk_idle w || wk_done w) (wks st) = true).
    { apply held0_idle_done. intro id. pose proof (w_F p id st (WQ id) Frs) as X. clear - X. lia. }
    (* the request loop, unless it has ended *)
    assert (RQ: room_sr p st = true -> canf p st \/ rq_pc st = RQ_Done).
    { intro Rm. destruct (rq_pc st) eqn:RQ; try contradiction; auto; left; apply rq_can; try rewrite RQ; auto. }
    destruct (rl_pc st) eqn:RL; try (apply recvloop_busy_can; rewrite RL; exact Logic.I).
    - (* RL_Recv: FIN has been echoed, so it is in the stream or was received *)
      destruct recv_wait_can as [Cn|(BS & _ & Rm)]; auto. destruct (RQ Rm) as [Cn|RD]; [exact Cn|].
      exfalso. rewrite RD in A3. destruct A3 as [X|[_ Fsr]]; [rewrite (k_se st K) in X; discriminate|].
      destruct (inv_fin_reachable _ _ R) as [_ F2]. destruct (F2 Fsr) as [X|X].
      + rewrite BS in X. discriminate.
      + cbn in C9. congruence.
    - (* RL_Drain: Send returns, the transport closes *)
      destruct recv_wait_can as [Cn|(_ & SC & Rm)]; auto. destruct (RQ Rm) as [Cn|RD]; [exact Cn|].
      destruct (send_ret st) eqn:SR; [|apply sender_end_can; auto].
      exists LEnvCloseSend. split; [reflexivity|]. cbn. rewrite SR, SC. discriminate.
    - (* RL_Done *)
      assert (Fsr: g_fin_sr st = true).
      { apply A8. destruct A9 as [X|X]; [rewrite (k_re st K) in X; discriminate | exact X]. }
      destruct (rq_pc st) eqn:RD; try contradiction; try (rewrite Fsr in N7; discriminate N7); try (can_by LReq; fail).
      destruct (send_ret st) eqn:SR; [|apply sender_end_can; auto].
      destruct (recv_ret st) eqn:RR.
      2:{ exists LRecvRet. split; [reflexivity|]. unfold step, step_recv_ret, do_is_done, rl_is_done.
          rewrite Dd, RL, RR. discriminate. }
      exfalso. destruct A1 as (_ & _ & AD); [congruence|].
      unfold final, all_done, sender_quiet, sw_is_done, rq_is_done, fl_is_done, dl_is_done, do_is_done, rl_is_done in NF.
      rewrite SW, RD, AD, Fd, Ld, Dd, RL, Wd, SR, RR in NF. discriminate.
  Qed.

  Lemma main_phase_can : g_got_fin_s st = false -> canf p st.
  Proof.
    intro Gs.
    destruct (i_1 _ _ J) as (_ & _ & A3 & A4 & _ & _ & _ & A8 & A9 & _).
    destruct LI as (N1 & N2 & N3 & N4 & _ & _ & N9).
    pose proof (i_6 _ _ J) as J6.
    assert (Gr: g_got_fin_r st = false).
    { destruct (g_got_fin_r st) eqn:X; auto. rewrite (A4 (A8 eq_refl)) in Gs. discriminate. }
    destruct (rl_pc st) eqn:RL; try (apply recvloop_busy_can; rewrite RL; exact Logic.I).
    2:{ exfalso. cbn in A9. congruence. }
    2:{ exfalso. cbn in A9. destruct A9 as [X|X]; [rewrite (k_re st K) in X; discriminate | congruence]. }
    (* RL_Recv *)
    destruct recv_wait_can as [Cn|(BS & _ & Rm)]; auto.
    destruct (sw_pc st) eqn:SW; try (apply walker_can; [rewrite SW; discriminate | exact Rm]).
    destruct (workers_split Rm) as [Cn|AllID]; [exact Cn|].
    pose proof (worker0_idle AllID) as W0.
    destruct (rq_pc st) eqn:RQ; try (apply rq_can; [rewrite RQ; exact Logic.I | exact Rm]).
    3:{ exfalso. cbn in A3. destruct A3 as [X|[X _]]; [rewrite (k_se st K) in X; discriminate | congruence]. }
    - (* RQ_Recv *)
      destruct (buf_rs st) eqn:BR.
      2:{ can_by LReq. }
      assert (Rr: room_rs p st = true) by (apply room_rs_wait; auto).
      specialize (W0 Logic.I).
      destruct (pipe st) eqn:PI.
      2:{ can_by (LWorker 0). }
      (* the receiver *)
      destruct (fl_pc st) eqn:FL; try (can_by LFill; fail); try (apply fill_push_can; exact FL).
      + (* FL_Sel *)
        destruct (walk_n st) eqn:WN; [|can_by LFill].
        assert (Wc: walk_closed st = true).
        { destruct (J6 SW) as [X|Ge]; [rewrite (k_se st K) in X; discriminate|].
          destruct (N1 Ge) as [X|[X|X]]; [rewrite BS in X; discriminate X | | congruence].
          destruct (N2 X) as [Y|[Y|Y]]; [discriminate | exact Y | rewrite (k_re st K) in Y; discriminate]. }
        can_by LFill.
      + (* FL_Done *)
        cbn in N9.
        destruct (dl_pc st) eqn:DL; try (can_by LDiff; fail).
        (* both done: the goroutine that waits for the diff and the writers *)
        destruct (find_or_all _ wr_done (wrs st)) as [(j & w & E1 & E2)|AD].
        { (* a writer that is not finished *)
          destruct w as [id pc]. unfold wr_done in E2. cbn in E2.
          destruct pc; try discriminate E2; try (can_by (LWriter j); fail).
          - destruct (r_mu st) eqn:M; [eapply mutex_r_canf; eauto | can_by (LWriter j)].
          - pose proof (k_rb st K) as Rb. can_by (LWriter j).
          - (* WR_Wait: its request is not under way any more, so the file is complete *)
            destruct (memb id (completed st)) eqn:Cm; [can_by (LWriter j)|].
            exfalso. pose proof (w_Q p id st (WQ id)) as Q.
            pose proof (sumf_ge_nth _ (wsel cW id) _ _ _ E1) as Y.
            assert (V: wsel cW id {| wr_id := id; wr_pc := WR_Wait |} = 1) by (unfold wsel; cbn; rewrite Nat.eqb_refl; reflexivity).
            rewrite V in Y. unfold wsum, down in Q. rewrite BR, BS, PI, RQ, RL in Q.
            rewrite (proj2 (held0_idle_done _) AllID id), (notmemb_cnt0 _ _ Cm) in Q. unfold cntQ, cntE, cnt in Q. cbn in Q.
            clear - Q Y. lia. }
        pose proof (k_rb st K) as Rb. pose proof (k_de st K) as De. pose proof (k_ee st K) as Ee.
        destruct (do_pc st) eqn:DO; try (can_by LDiffOuter; fail);
          try (destruct (r_mu st) eqn:M; [eapply mutex_r_canf; eauto | can_by LDiffOuter]).
        exfalso. destruct (N3 eq_refl) as [X|[X|X]]; [|rewrite (k_re st K) in X; discriminate | congruence].
        destruct (N4 X) as [Y|Y]; [cbv in Y; discriminate Y | congruence].
    - (* RQ_Push: if the pipeline is full it is not empty, and worker 0 takes from it *)
      destruct (room_pipe p st) eqn:Rp.
      { exists LReq. split; [reflexivity|]. unfold_goal_steps. rw_eqs. discriminate. }
      specialize (W0 Logic.I).
      destruct (pipe st) eqn:PI; [|can_by (LWorker 0)].
      exfalso. unfold room_pipe, idle_workers in Rp. rewrite PI in Rp. cbn in Rp. apply Nat.ltb_ge in Rp.
      pose proof (idle_pos _ _ W0) as IP. clear - Rp IP. lia.
  Qed.
End Progress.

(* Liveness half of fault_free_completes, state form: a reachable state of a fault-free run (no
   error flag, token equations) that is not final has an enabled fault-free step. *)
Lemma ff_progress_state : forall p st, p_W p >= 1 -> reachable p st -> scal st ->
  (forall id, wq p id st) -> final st = false -> canf p st.
Proof.
  intros p st HW R K WQ NF. destruct (g_got_fin_s st) eqn:G.
  - eapply fin_phase_can; eauto.
  - eapply main_phase_can; eauto.
Qed.

Definition cmax (p : params) : nat := fold_right (fun e a => Nat.max (e_chunks e) a) 0 (p_entries p).
Lemma chunks_le_cmax : forall p i, chunks_of p i <= cmax p.
Proof.
  intros p i. unfold chunks_of, entry_at, cmax. generalize (p_entries p). intro l. revert i.
  induction l as [|a l IH]; intro i.
  - destruct i; unfold nth_error; cbn; lia.
  - destruct i.
    + unfold nth_error; cbn. lia.
    + change (nth_error (a :: l) (S i)) with (nth_error l i). specialize (IH i). cbn [fold_right].
      destruct (nth_error l i); lia.
Qed.

(* potential of an item = 1 + potential of everything it still turns into, so each step loses
   at least 1 *)
Definition w_pipe (p : params) (h : nat) : nat := 5 * chunks_of p h + 8.
Definition w_preq (p : params) (h : nat) : nat := w_pipe p h + 3.
Definition w_wrmax (p : params) : nat := 5 * cmax p + 16.
Definition w_c2 (p : params) : nat := w_wrmax p + 2.
Definition w_walk (p : params) : nat := w_c2 p + 2.
Definition w_stat (p : params) : nat := w_walk p + 3.
Definition w_entry (p : params) : nat := w_stat p + 3.
Definition pw_sr (p : params) (pk : packet) : nat :=
  match pk with PStat => w_stat p | PEnd => 2 | PData _ => 2 | PDataEnd _ => 2 | PFin => 1 | _ => 1 end.
Definition pw_rs (p : params) (pk : packet) : nat :=
  match pk with PReq h => w_preq p h | PFin => 5 | _ => 2 end.

Definition rem_cost (p : params) (i : nat) : nat := (nentries p - i) * w_entry p.
Lemma rem_cost_S : forall p i, i < nentries p -> rem_cost p i = rem_cost p (S i) + w_entry p.
Proof. intros. unfold rem_cost. replace (nentries p - i) with (S (nentries p - S i)) by lia. cbn. lia. Qed.

Definition nsw (p : params) (st : state) : nat :=
  match sw_pc st with
  | SW_Next => rem_cost p (sw_i st) + 6
  | SW_Lock _ => rem_cost p (sw_i st) + 5
  | SW_Send _ => rem_cost p (sw_i st) + 4
  | SW_Done => 0
  end.
Definition nwk (p : params) (w : wkpc) : nat :=
  match w with
  | WK_Idle => 1 | WK_Ctx h => w_pipe p h | WK_Open h => 5 * chunks_of p h + 7
  | WK_Read h c => 5 * (chunks_of p h - c) + 6 | WK_Lock h c => 5 * (chunks_of p h - c) + 5
  | WK_Send h c => 5 * (chunks_of p h - c) + 4
  | WK_LockFin _ => 5 | WK_SendFin _ => 4 | WK_Done => 0
  end.
Definition nrq (p : params) (pc : rqpc) : nat :=
  match pc with
  | RQ_Top => 2 | RQ_Recv => 1 | RQ_Push h => w_pipe p h + 3 | RQ_LockFin => 5 | RQ_SendFin => 4
  | RQ_Close _ => 2 | RQ_Ret _ => 1 | RQ_Done => 0
  end.
Definition nrl (p : params) (pc : rlpc) : nat :=
  match pc with
  | RL_Recv => 2 | RL_Upd => w_walk p + 4 | RL_Push => w_walk p + 3 | RL_UpdEnd | RL_Write _ | RL_CloseP _ => 3
  | RL_Drain => 1 | RL_Done => 0
  end.
Definition nfl (p : params) (pc : flpc) : nat :=
  match pc with FL_Sel => 3 | FL_Push => w_c2 p + 4 | FL_Close _ => 2 | FL_Ret _ => 1 | FL_Done => 0 end.
Definition ndl (p : params) (pc : dlpc) : nat :=
  match pc with DL_Next => 1 | DL_Handle _ => w_wrmax p + 2 | DL_Done => 0 end.
Definition ndo (pc : dopc) : nat :=
  match pc with
  | DO_WaitDiff => 9 | DO_WaitW => 8 | DO_LockFin | DO_LockErr => 7 | DO_SendFin | DO_SendErr => 6 | DO_Done => 0
  end.
Definition nwr (p : params) (w : writer) : nat :=
  match wr_pc w with
  | WR_Start => w_preq p (wr_id w) + 5 | WR_Lock => w_preq p (wr_id w) + 4 | WR_Send => w_preq p (wr_id w) + 3
  | WR_Wait => 2 | WR_Notify => 1 | WR_Done => 0
  end.

Definition nu (p : params) (st : state) : nat :=
  nsw p st + sumf (nwk p) (wks st) + nrq p (rq_pc st) + sumf (w_pipe p) (pipe st)
  + sumf (pw_sr p) (buf_sr st) + sumf (pw_rs p) (buf_rs st)
  + nrl p (rl_pc st) + w_walk p * walk_n st + nfl p (fl_pc st) + w_c2 p * c2_n st + ndl p (dl_pc st)
  + ndo (do_pc st) + sumf (nwr p) (wrs st)
  + b2n (is_none (send_ret st)) + b2n (is_none (recv_ret st)) + b2n (negb (sr_closed st)).

Lemma pw_sr_pos : forall p pk, 1 <= pw_sr p pk.
Proof. intros p []; cbn [pw_sr]; unfold w_stat; lia. Qed.

(* Every summand of [nu] is the potential of one goroutine or of one queue; a step moves a few of
   them and leaves the rest syntactically as they were.  [nsw] reads two fields of the state: it
   is folded back to [nsw p st] where the step does not write them, and unfolded for the walker. *)
Lemma nu_decreases : forall p st l st',
  scal st -> scal st' -> invW p st -> inv2 p st -> fault_free_label l = true -> step p st l = Some st' ->
  nu p st' < nu p st.
Proof.
  intros p st l st' HS HS' IW (_ & (_ & I2) & _) FF H.
  destruct l; try discriminate FF; clear FF; unfold_steps H; step_split H; inv_some; subst;
  repeat match goal with w : writer |- _ => destruct w; cbn in * end; subst;
  kill_by_scal HS'; clear HS HS';
  unfold nu, setw, setwr; cbn;
  lazymatch goal with |- ?L < _ =>
    lazymatch L with context [nsw p ?s] => change (nsw p s) with (nsw p st) | _ => unfold nsw end end;
  rw_eqs; cbv iota;
  sumf_moved; try match goal with E : nth_error (wks st) _ = Some _ |- _ => pose proof (IW _ _ E) end;
  clear IW; rewrite ?sumf_snoc, ?sumf_cons;
  cbn [pw_sr pw_rs nwr nwk wk_ok Lts.wr_pc Lts.wr_id nrq nrl nfl ndl ndo b2n is_none negb] in *;
  repeat match goal with
         | H : (?a <? ?b) = true |- _ => apply Nat.ltb_lt in H
         | H : (?a <? ?b) = false |- _ => apply Nat.ltb_ge in H
         end;
  try match goal with H : sw_i st < nentries p |- _ => pose proof (rem_cost_S p _ H) end;
  try match goal with |- context [w_preq p ?i] => pose proof (chunks_le_cmax p i) end;
  try match goal with x : packet |- context [pw_sr p ?x] => pose proof (pw_sr_pos p x) end;
  unfold w_preq, w_pipe, w_entry, w_stat, w_walk, w_c2, w_wrmax in *;
  clear_non_nat; lia.
Qed.

(* a fault-free step keeps what the two halves need of a state and decreases the measure *)
Lemma ff_step_decreases : forall p, wf_params p -> forall st l st',
  reachable p st /\ scal st /\ (forall id, wq p id st) -> fault_free_label l = true -> step p st l = Some st' ->
  nu p st' < nu p st /\ reachable p st' /\ scal st' /\ (forall id, wq p id st').
Proof.
  intros p WF st l st' (R & K & W) F E.
  destruct (ff_run_from p [l] st st' WF R K W) as [K' W'];
    [unfold fault_free, forallb; rewrite F; reflexivity | cbn [run]; rewrite E; reflexivity |].
  split; [|split; [econstructor; eauto | auto]].
  exact (nu_decreases p st l st' K K' (invW_reachable _ _ R) (i_2 _ _ (inv_reachable _ _ R)) F E).
Qed.

(* fault_free_completes: every fault-free execution has at most nu p (init p) steps; while it is
   not complete it can be extended by a fault-free step; when it is complete both calls have
   returned nil.  For every W >= 1 and all capacities >= 0. *)
Lemma fault_free_completes_proof : forall p ls st, wf_params p -> p_W p >= 1 -> fault_free ls ->
  run p (init p) ls = Some st ->
  length ls <= nu p (init p) /\
  (final st = false -> exists l, fault_free_label l = true /\ step p st l <> None) /\
  (final st = true -> send_ret st = Some true /\ recv_ret st = Some true).
Proof.
  intros p ls st WF HW F H.
  destruct (run_bounded p _ _ (nu p) (ff_step_decreases p WF) ls _ _
              (conj (reach_init p) (conj (scal_init p) (wq_init p))) F H) as (B & R & K & W).
  split; [lia|]. split; [intro NF; apply ff_progress_state; auto | apply (clean_final_success p st R K)].
Qed.

(* the liveness half alone: for every W >= 1 and all capacities >= 0 (sendpipeline, walkChan, diff
   channel, both stream directions), every fault-free execution that has not ended with both
   calls returned and all goroutines gone can be extended by a fault-free step. *)
Lemma fault_free_progress_proof : forall p ls st, wf_params p -> p_W p >= 1 -> fault_free ls ->
  run p (init p) ls = Some st -> final st = false ->
  exists l, fault_free_label l = true /\ step p st l <> None.
Proof. intros p ls st WF HW F H. apply (fault_free_completes_proof p ls st WF HW F H). Qed.
