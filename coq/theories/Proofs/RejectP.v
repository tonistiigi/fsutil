(* C03 — a stream the stream-only specification (Model/RecvSpec.v) calls bad at packet b makes the
   receive loop fail at or before b, and nothing of packet b or later is applied.  No hypothesis
   on the file system: only the receiver's bookkeeping is followed. *)
From Coq Require Import List Arith NArith Bool Lia ZifyN ZifyNat ZifyBool.
From FS Require Import Sx Model.Path Model.Stat Model.Validator Model.Fs Model.DiskWriterFs Model.RecvSpec.
From FS Require Import Proofs.Lex Proofs.PathP Proofs.ValidatorP Proofs.FsP Proofs.DwP Proofs.RecvP.
Import ListNotations.
Open Scope N_scope.
Open Scope bool_scope.

(* the creation switch: what asks for content *)
Definition regular_branch (st : stat) : bool :=
  let m := st_mode st in
  negb (mode_is_dir m) && negb (has_bits m ModeDevice || has_bits m ModeNamedPipe)
  && negb (mode_is_symlink m) && is_nil (st_linkname st).

Lemma dw_create_regular c f np st : made_regular (snd (dw_create c f np st)) = true -> regular_branch st = true.
Proof.
  unfold dw_create, regular_branch.
  destruct (mode_is_dir (st_mode st)); [destruct (sys_mkdir c f np (unix_perm (st_mode st))); discriminate|].
  destruct (has_bits (st_mode st) ModeDevice || has_bits (st_mode st) ModeNamedPipe); cbn [andb negb].
  { destruct (is_nil (st_linkname st)); cbn [negb].
    - destruct (sys_mknod _ _ _ _ _ _). discriminate.
    - destruct (mode_is_symlink (st_mode st)); [destruct (sys_symlink c f (st_linkname st) np); discriminate|].
      destruct (sys_link c f (st_linkname st) np); discriminate. }
  destruct (mode_is_symlink (st_mode st)); [destruct (sys_symlink c f (st_linkname st) np); discriminate|].
  destruct (is_nil (st_linkname st)); cbn [negb].
  - intros _. reflexivity.
  - destruct (sys_link c f (st_linkname st) np); discriminate.
Qed.

Lemma dw_handle_async c f tmp kind p st nd :
  snd (dw_handle c f tmp kind p st) = DwOk true nd -> N.eqb kind 2 = false /\ regular_branch st = true.
Proof.
  unfold dw_handle. destruct (N.eqb kind 2).
  { destruct (sys_remove_all c f p) as [f1 r]. destruct (is_err r); discriminate. }
  intros H. split; auto. revert H.
  destruct (sys_lstat c f p) as [f0 rl]. destruct rl as [|e|oi ond| | |]; try discriminate.
  - destruct e; try discriminate. destruct (negb (N.eqb kind 0)); [discriminate|].
    pose proof (dw_create_regular c f p st) as Hr.
    destruct (dw_create c f p st) as [[f1 ok] mk]. cbn [snd] in Hr. destruct ok; [|discriminate].
    destruct (dw_meta c f1 p st mk) as [f2 ok2]. destruct (negb ok2); [discriminate|].
    intros H. simpl in H. injection H as E1 E2. exact (Hr E1).
  - destruct (mode_is_dir (st_mode st) && match i_kind ond with KDir _ _ => true | _ => false end).
    { destruct (rewrite_meta c f p st) as [f1 ok]. destruct ok; discriminate. }
    pose proof (dw_create_regular c f (tmp_path p tmp) st) as Hr.
    destruct (dw_create c f (tmp_path p tmp) st) as [[f1 ok] mk]. cbn [snd] in Hr. destruct ok; [|discriminate].
    destruct (dw_meta c f1 (tmp_path p tmp) st mk) as [f2 ok2]. destruct (negb ok2); [discriminate|].
    destruct (if (_ : bool) then sys_remove_all c f2 p else _) as [f3 r3].
    destruct (is_err r3); [discriminate|].
    destruct (if (_ : bool) then sys_unlink c f3 _ else _) as [f4 r4].
    destruct (is_err r4); [discriminate|]. intros H. simpl in H. injection H as E1 E2. exact (Hr E1).
Qed.

Section Reject.
Variables (fl : rfilter) (c : ctx) (dl : bool).
(* what the filter does to the stat copy keeps type bits and link name *)
Hypothesis Hmap_mode : forall s, st_mode (f_map fl s) = st_mode s.
Hypothesis Hmap_link : forall s, st_linkname (f_map fl s) = st_linkname s.

(* the fields the validators and the id check read are the same in both states; no effect budget *)
Record same_bk (st st' : rstate) : Prop := {
  sb_out : r_out st' = r_out st;
  sb_vstk : r_vstk st' = r_vstk st;
  sb_seen : r_seen st' = r_seen st;
  sb_next : r_next st' = r_next st;
  sb_budget : r_budget st' = None;
  sb_pipes : r_pipes st' = r_pipes st;
  sb_files : r_files st' = r_files st
}.

Lemma same_bk_trans a b c0 : same_bk a b -> same_bk b c0 -> same_bk a c0.
Proof. intros [] []. constructor; congruence. Qed.

Lemma spend_none st : r_budget st = None -> exists st1, spend st = Some st1 /\ same_bk st st1.
Proof. intros H. unfold spend. rewrite H. eexists. split; [reflexivity|]. constructor; simpl; auto. Qed.

Lemma set_diff_same st old rm : r_budget st = None -> same_bk st (set_diff st old rm).
Proof. intros H. constructor; simpl; auto. Qed.

(* what a step of the loop may do to the bookkeeping the validators and the id check read *)
Record bk (st st' : rstate) (newids : list N) : Prop := {
  bk_vstk : r_vstk st' = r_vstk st;
  bk_seen : r_seen st' = r_seen st;
  bk_next : r_next st' = r_next st;
  bk_budget : r_budget st' = None;
  bk_pipes : forall id pp, In (id, pp) (r_pipes st') -> In id (map fst (r_pipes st)) \/ In id newids;
  bk_files : forall q, In q (map fst (r_files st')) -> In q (map fst (r_files st))
}.

Lemma bk_trans a b c0 ids : bk a b ids -> bk b c0 ids -> bk a c0 ids.
Proof.
  intros [A1 A2 A3 A4 A5 A6] [B1 B2 B3 B4 B5 B6]. constructor; try congruence.
  - intros id pp Hin. destruct (B5 id pp Hin) as [H|H]; auto.
    apply in_map_iff in H. destruct H as ([id' pp'] & E & H). simpl in E. subst id'. apply (A5 id pp' H).
  - intros q Hq. auto.
Qed.

Lemma same_bk_bk st st' ids : same_bk st st' -> bk st st' ids.
Proof.
  intros []. constructor; try congruence.
  intros id pp Hin. left. rewrite sb_pipes0 in Hin. change id with (fst (id, pp)). apply in_map. exact Hin.
Qed.

Lemma bk_of_same st st1 st' ids : same_bk st st1 -> bk st1 st' ids -> bk st st' ids.
Proof. intros H. apply bk_trans, same_bk_bk, H. Qed.

Lemma aset_fst_In {A} k (v : A) l x : In x (map fst (aset k v l)) -> x = k \/ In x (map fst l).
Proof.
  induction l as [|[k' v'] l IH]; simpl; intros H.
  - destruct H as [H|[]]; auto.
  - destruct (N.eqb k k') eqn:E; simpl in H.
    + apply N.eqb_eq in E. subst. destruct H; auto.
    + destruct H as [H|H]; auto. apply IH in H. tauto.
Qed.

(* the id under which content for [p] may be asked *)
Definition newids (p : bytes) (s : stat) (st : rstate) : list N :=
  match blookup p (r_files st) with
  | Some id => if regular_branch s then [id] else []
  | None => []
  end.

(* only a change that creates a regular file registers a pipe, under the id the path was given; a
   delete registers none *)
Lemma apply_change_bk idx kind p s st : r_budget st = None ->
  let st' := apply_change fl c idx kind p s st in
  r_out st' = r_out st /\ bk st st' (newids p s st) /\ (kind = 2 -> same_bk st st').
Proof.
  intros Hb. unfold apply_change, newids. cbv zeta.
  set (s' := if N.eqb kind 2 then s else f_map fl s).
  assert (Hreg : regular_branch s' = regular_branch s).
  { unfold s'. destruct (N.eqb kind 2); [reflexivity|]. unfold regular_branch. rewrite Hmap_mode, Hmap_link. reflexivity. }
  rewrite <- Hreg. clearbody s'. clear Hreg s. rename s' into s.
  match goal with |- _ /\ bk _ _ ?l /\ _ => set (ids := l) end.
  assert (Hsame : forall st', same_bk st st' -> r_out st' = r_out st /\ bk st st' ids /\ (kind = 2 -> same_bk st st')).
  { intros st' H. split; [apply H|]. split; [apply same_bk_bk; exact H|auto]. }
  destruct (f_rej fl p); [apply Hsame; constructor; auto|].
  destruct (negb (live st)); [apply Hsame; constructor; auto|].
  destruct (spend_none st Hb) as (st1 & Es & [Eo Ev Ese En Hb1 Ep Efi]).
  rewrite Es. cbn [r_fs set_tmps].
  destruct (dw_handle c (r_fs st1) (hd default_tmp (r_tmps st1)) kind p s) as [f' [|async newdir]] eqn:Edw.
  { apply Hsame. constructor; simpl; congruence. }
  set (st4 := if newdir then _ else _).
  assert (S4 : same_bk st st4) by (unfold st4; destruct newdir; constructor; simpl; congruence).
  destruct async; [|apply Hsame; exact S4].
  destruct (dw_handle_async c _ _ kind p s newdir (f_equal snd Edw)) as [Hk Hr].
  destruct S4 as [F7 F1 F2 F3 F4 F5 F6]. unfold ids. rewrite F6, Hr.
  destruct (blookup p (r_files st)) as [id|] eqn:Eb; [|apply Hsame; constructor; simpl; congruence].
  split; [exact F7|]. split; [|intros ->; discriminate].
  constructor; simpl; try congruence.
  - intros id' pp' Hin. apply (in_map fst) in Hin. apply aset_fst_In in Hin. rewrite F5 in Hin. cbn [fst] in Hin.
    destruct Hin as [->|H]; [right; left; reflexivity|left; exact H].
  - intros q Hq. apply bremove_fst_In in Hq. exact Hq.
Qed.

(* the diff hands every change to HandleChange right after updating its own position *)
Lemma change_diff_bk idx kind p s st old rm : r_budget st = None ->
  let st' := apply_change fl c idx kind p s (set_diff st old rm) in
  r_out st' = r_out st /\ bk st st' (newids p s st) /\ (kind = 2 -> same_bk st st').
Proof.
  intros Hb. pose proof (set_diff_same st old rm Hb) as S0.
  destruct (apply_change_bk idx kind p s _ (sb_budget _ _ S0)) as (A & B & C).
  split; [exact A|]. split; [apply (bk_of_same st _ _ _ S0 B)|].
  intros E. apply (same_bk_trans _ _ _ S0 (C E)).
Qed.

Lemma diff_feed_bk idx f2 : forall old st, r_budget st = None ->
  let st' := diff_feed fl c idx f2 old st in r_out st' = r_out st /\ bk st st' (newids (st_path f2) f2 st).
Proof.
  induction old as [|f1 rest IH]; intros st Hb; cbn [diff_feed].
  - destruct (change_diff_bk idx 0 (st_path f2) f2 st [] [] Hb) as (A & B & _). auto.
  - destruct (compare_path (st_path f1) (st_path f2)).
    + (* same path *)
      destruct (same_file f1 (f_map fl f2)).
      * pose proof (set_diff_same st rest (if st_is_dir f1 && negb (st_is_dir f2) then st_path f1 ++ [sep] else []) Hb) as S0.
        split; [apply S0|apply same_bk_bk; exact S0].
      * destruct (change_diff_bk idx 1 (st_path f2) f2 st rest
                    (if st_is_dir f1 && negb (st_is_dir f2) then st_path f1 ++ [sep] else []) Hb) as (A & B & _). auto.
    + (* delete the old entry, go on *)
      assert (Hgo : forall st1, same_bk st st1 ->
                r_out (diff_feed fl c idx f2 rest st1) = r_out st /\
                bk st (diff_feed fl c idx f2 rest st1) (newids (st_path f2) f2 st)).
      { intros st1 S1. destruct (IH _ (sb_budget _ _ S1)) as [A B]. split; [rewrite A; apply S1|].
        unfold newids in *. rewrite (sb_files _ _ S1) in B. apply (bk_of_same st _ _ _ S1 B). }
      destruct (suppressed (r_rmdir st) (st_path f1)); [apply Hgo; apply (set_diff_same st _ _ Hb)|].
      pose proof (proj2 (proj2 (change_diff_bk idx 2 (st_path f1) f1 st rest (rm_prefix_of f1) Hb)) eq_refl) as S1.
      destruct (live (apply_change fl c idx 2 (st_path f1) f1 (set_diff st rest (rm_prefix_of f1)))).
      * apply Hgo. exact S1.
      * split; [apply S1|apply same_bk_bk; exact S1].
    + destruct (change_diff_bk idx 0 (st_path f2) f2 st (f1 :: rest) [] Hb) as (A & B & _). auto.
Qed.

Lemma diff_flush_bk idx : forall old st, r_budget st = None -> same_bk st (diff_flush fl c idx old st).
Proof.
  induction old as [|f1 rest IH]; intros st Hb; cbn [diff_flush].
  - apply set_diff_same. exact Hb.
  - assert (Hgo : forall st1, same_bk st st1 -> same_bk st (diff_flush fl c idx rest st1)).
    { intros st1 S1. apply (same_bk_trans _ _ _ S1). apply IH. apply S1. }
    destruct (suppressed (r_rmdir st) (st_path f1)); [apply Hgo; apply (set_diff_same st _ _ Hb)|].
    pose proof (proj2 (proj2 (change_diff_bk idx 2 (st_path f1) f1 st rest (rm_prefix_of f1) Hb)) eq_refl) as S1.
    destruct (live (apply_change fl c idx 2 (st_path f1) f1 (set_diff st rest (rm_prefix_of f1)))); auto.
Qed.


Lemma filter_fst_In {A} (g : N * A -> bool) l x : In x (map fst (filter g l)) -> In x (map fst l).
Proof.
  intros H. apply in_map_iff in H. destruct H as (y & E & Hy). apply filter_In in Hy. destruct Hy as [Hy _].
  subst x. apply in_map. exact Hy.
Qed.

Lemma alookup_None_notin {A} k (l : list (N * A)) : alookup k l = None -> ~ In k (map fst l).
Proof.
  induction l as [|[k' v] l IH]; simpl; [tauto|].
  destruct (N.eqb k k') eqn:E; [discriminate|]. apply N.eqb_neq in E. intros H [H1|H1]; [congruence|]. apply IH; auto.
Qed.

Lemma alookup_Some_in {A} k (l : list (N * A)) v : alookup k l = Some v -> In k (map fst l).
Proof. intros H. apply (in_map fst _ _ (alookup_In k l v H)). Qed.

(* the fields the validators and the id check read, after a packet that is no STAT *)
Record quiet_bk (idx : nat) (st st' : rstate) : Prop := {
  q_out : r_out st' = r_out st \/ r_out st' = Failed idx \/ r_out st' = Panicked idx;
  q_vstk : r_vstk st' = r_vstk st;
  q_seen : r_seen st' = r_seen st;
  q_next : r_next st' = r_next st;
  q_budget : r_budget st' = None;
  q_pipes : forall id, In id (map fst (r_pipes st')) -> In id (map fst (r_pipes st));
  q_files : r_files st' = r_files st
}.

Lemma same_quiet idx st st' : same_bk st st' -> quiet_bk idx st st'.
Proof. intros []. constructor; auto. congruence. Qed.

Lemma recv_data_bk idx id d st : r_budget st = None -> quiet_bk idx st (recv_data c idx id d st).
Proof.
  intros Hb. unfold recv_data.
  destruct (alookup id (r_pipes st)) as [pp|] eqn:Ea; [|constructor; simpl; auto].
  destruct (pp_closed pp); [constructor; simpl; auto|].
  destruct (spend_none st Hb) as (st1 & Es & S1). rewrite Es.
  assert (Hid : In id (map fst (r_pipes st))) by (apply (alookup_Some_in _ _ _ Ea)).
  (* the states reached from here: at most the outcome and the pipes differ, and no id is new *)
  assert (Qa : forall st', r_out st' = r_out st1 \/ r_out st' = Failed idx -> r_vstk st' = r_vstk st1 ->
                 r_seen st' = r_seen st1 -> r_next st' = r_next st1 -> r_budget st' = None ->
                 r_files st' = r_files st1 ->
                 (forall x, In x (map fst (r_pipes st')) -> x = id \/ In x (map fst (r_pipes st1))) ->
                 quiet_bk idx st st').
  { destruct S1. intros st' H1 H2 H3 H4 H5 H6 H7. constructor; try congruence.
    - destruct H1 as [H1|H1]; [left; congruence|right; left; exact H1].
    - intros x Hx. destruct (H7 x Hx) as [->|H]; [exact Hid|congruence]. }
  pose proof (sb_budget _ _ S1) as Hb1.
  destruct (is_nil d).
  - destruct (r_asyncerr st1).
    + destruct (pp_fd pp); [|apply same_quiet; exact S1].
      apply Qa; simpl; auto. apply aset_fst_In.
    + destruct (if _ || _ then sys_chmod _ _ _ _ else _) as [f1 r1].
      destruct (if is_err r1 then _ else _) as [f2 r2].
      apply Qa; simpl; auto. intros x Hx. right. apply (filter_fst_In _ _ _ Hx).
  - destruct (match pp_fd pp with Some i => _ | None => _ end) as [f1 r].
    destruct r as [| | | | |i].
    1-5: apply Qa; simpl; auto.
    destruct (fd_pwrite f1 i (pp_off pp) d) as [f2 r2]. apply Qa; simpl; auto. apply aset_fst_In.
Qed.

Lemma recv_data_unknown idx id d st : alookup id (r_pipes st) = None ->
  r_out (recv_data c idx id d st) = Failed idx /\ r_fs (recv_data c idx id d st) = r_fs st.
Proof. intros H. unfold recv_data. rewrite H. split; reflexivity. Qed.

Lemma maybe_wait_bk idx st : r_budget st = None -> same_bk st (maybe_wait c dl idx st).
Proof.
  intros Hb. destruct (maybe_wait_cases c dl idx st) as [->|[->|[[Es _]|(st1 & Es & _ & ->)]]];
    try (constructor; auto; fail); destruct (spend_none st Hb) as (st2 & Es2 & []); rewrite Es2 in Es; [discriminate|].
  injection Es as <-. constructor; auto.
Qed.

Lemma maybe_wait_stopped idx st : running st = false -> (forall k, r_out st <> Drained k) -> maybe_wait c dl idx st = st.
Proof.
  intros Hr Hd. unfold maybe_wait. rewrite Hr. destruct (r_out st); try reflexivity. exfalso. apply (Hd k). reflexivity.
Qed.


(* the receiver's bookkeeping against the specification's *)
Lemma memN_In x l : RecvSpec.memN x l = true <-> In x l.
Proof.
  induction l as [|y r IH]; simpl; [split; [discriminate|tauto]|].
  rewrite orb_true_iff, IH, N.eqb_eq. split; intros [H|H]; auto.
Qed.

Record SInv (st : rstate) (sp : sspec) : Prop := {
  s_budget : r_budget st = None;
  s_R : R (r_vstk st);
  s_vinv : Inv (map ce (r_vstk st)) (map citem_of (ss_acc sp));
  s_seen : forall q, In q (r_seen st) -> In q (ss_paths sp);
  s_next : r_next st = ss_next sp;
  s_pipes : forall id, In id (map fst (r_pipes st)) -> In id (ss_ids sp);
  s_files : forall q, In q (map fst (r_files st)) -> In q (ss_paths sp);
  s_paths : forall q, In q (ss_paths sp) -> In q (map vpath (ss_acc sp))
}.

Definition stopped_at (st : rstate) (idx : nat) : Prop :=
  r_out st = Failed idx \/ r_out st = Panicked idx.

Lemma running_out st : running st = true <-> r_out st = Running.
Proof. unfold running. destruct (r_out st); split; congruence. Qed.

Lemma SInv_quiet idx st st' sp : SInv st sp -> quiet_bk idx st st' -> SInv st' sp.
Proof.
  intros [] []. constructor; try congruence; auto.
  - intros q Hq. rewrite q_seen0 in Hq. auto.
  - rewrite q_files0. auto.
Qed.

(* a packet that is no STAT: the run goes on with the same specification state, or stops here *)
Lemma after_quiet idx st st' sp : running st = true -> SInv st sp -> quiet_bk idx st st' ->
  let st'' := maybe_wait c dl idx st' in
  (running st'' = true /\ SInv st'' sp) \/ stopped_at st'' idx.
Proof.
  intros Hr S Q. cbv zeta. pose proof (SInv_quiet idx st st' sp S Q) as S'.
  pose proof (maybe_wait_bk idx st' (s_budget _ _ S')) as Wt.
  destruct (q_out _ _ _ Q) as [Ho|Ho].
  - left. split; [|apply (SInv_quiet idx st' _ sp S' (same_quiet idx _ _ Wt))].
    apply running_out. rewrite (sb_out _ _ Wt), Ho. apply running_out. exact Hr.
  - right. unfold stopped_at. rewrite (sb_out _ _ Wt). exact Ho.
Qed.

Lemma vstep_ok_path' stk it stk' : vstep stk it = Some stk' -> ok_path (vpath it) = true.
Proof. apply vstep_ok_path. Qed.

Lemma spec_ok_of_vstep st sp it v' : SInv st sp -> vstep (r_vstk st) it = Some v' ->
  spec_ok_b (ss_acc sp) it = true /\ R v' /\ Inv (map ce v') (map citem_of (ss_acc sp ++ [it])).
Proof.
  intros S Ev. destruct (vstep_sound _ _ _ _ (s_R _ _ S) (s_vinv _ _ S) Ev) as (Hok & _ & HR' & Hspec & HI').
  split; [apply (spec_reflect (ss_acc sp) it Hok); exact Hspec|]. split; auto.
Qed.

Lemma stat_step idx s st sp : running st = true -> SInv st sp ->
  let st' := maybe_wait c dl idx (recv_stat fl c idx s st) in
  if stat_bad sp s then r_out st' = Failed idx /\ r_fs st' = r_fs st
  else (running st' = true /\ SInv st' (sspec_stat sp s)) \/ stopped_at st' idx.
Proof.
  intros Hr S. cbv zeta. unfold recv_stat.
  set (files := if mode_is_regular (st_mode s) then bset (st_path s) (r_next st) (r_files st) else r_files st).
  set (it := item_of s).
  assert (Hstop : forall st1 o, (o = Failed idx \/ o = Panicked idx) -> r_fs st1 = r_fs st ->
            r_out (maybe_wait c dl idx (set_out st1 o)) = o /\ r_fs (maybe_wait c dl idx (set_out st1 o)) = r_fs st).
  { intros st1 o Ho Ef. rewrite maybe_wait_stopped.
    - split; auto.
    - unfold running. simpl. destruct Ho as [->| ->]; reflexivity.
    - simpl. intros k. destruct Ho as [->| ->]; discriminate. }
  destruct (vstep (r_vstk st) it) as [v'|] eqn:Ev.
  2:{ destruct (Hstop (set_valid st (r_vstk st) (r_seen st) files (r_next st + 1)) (Failed idx) (or_introl eq_refl) eq_refl) as [A B].
      destruct (stat_bad sp s); [split; auto|right; left; exact A]. }
  destruct (spec_ok_of_vstep st sp it v' S Ev) as (Hspec & HR' & HI').
  destruct (hl_step (r_seen st) s) as [seen'|] eqn:Eh.
  2:{ destruct (Hstop (set_valid (set_valid st (r_vstk st) (r_seen st) files (r_next st + 1)) v' (r_seen st) files (r_next st + 1))
                  (Failed idx) (or_introl eq_refl) eq_refl) as [A B].
      destruct (stat_bad sp s); [split; auto|right; left; exact A]. }
  destruct (hl_step_inv _ _ _ Eh) as [Hsub Hlk].
  assert (Hnb : stat_bad sp s = false).
  { unfold stat_bad. fold it. rewrite Hspec. cbn [negb orb].
    destruct (is_hardlink_stat s) eqn:Ehl; [|reflexivity]. cbn [andb].
    apply negb_false_iff. apply mem_bytes_iff. apply (s_seen _ _ S). apply Hlk, Ehl. }
  rewrite Hnb.
  set (st1 := set_valid (set_valid st (r_vstk st) (r_seen st) files (r_next st + 1)) v' seen' files (r_next st + 1)).
  destruct (is_dead st1 && negb (r_closed st1)).
  { right. left. apply (Hstop st1 (Failed idx) (or_introl eq_refl) eq_refl). }
  destruct (r_closed st1).
  { right. right. apply (Hstop st1 (Panicked idx) (or_intror eq_refl) eq_refl). }
  assert (Hb1 : r_budget st1 = None) by (simpl; apply S).
  destruct (diff_feed_bk idx s (r_old st1) st1 Hb1) as [Ho B].
  set (st2 := diff_feed fl c idx s (r_old st1) st1) in *.
  pose proof (maybe_wait_bk idx st2 (bk_budget _ _ _ B)) as Wt.
  left. split.
  - apply running_out. rewrite (sb_out _ _ Wt), Ho. simpl. apply running_out. exact Hr.
  - refine (SInv_quiet idx st2 _ _ _ (same_quiet idx _ _ Wt)).
    assert (Hlt : forall q, In q (map vpath (ss_acc sp)) -> q <> st_path s).
    { intros q Hq E. subst q. unfold spec_ok_b in Hspec.
      apply andb_true_iff in Hspec. destruct Hspec as [Hspec _]. apply andb_true_iff in Hspec. destruct Hspec as [_ Hlt].
      rewrite forallb_forall in Hlt. apply in_map_iff in Hq. destruct Hq as (x & Ex & Hx).
      pose proof (Hlt x Hx) as H. rewrite Ex in H. unfold path_ltb in H. cbn [vpath it item_of] in H.
      rewrite compare_path_refl in H. discriminate. }
    constructor.
    + apply B.
    + rewrite (bk_vstk _ _ _ B). exact HR'.
    + rewrite (bk_vstk _ _ _ B). exact HI'.
    + intros q Hq. rewrite (bk_seen _ _ _ B) in Hq. simpl in Hq. simpl.
      destruct (Hsub q Hq) as [H|[H _]]; [right; apply (s_seen _ _ S q H)|left; auto].
    + rewrite (bk_next _ _ _ B). simpl. rewrite (s_next _ _ S). reflexivity.
    + intros id Hid. apply in_map_iff in Hid. destruct Hid as ([id' pp] & E & Hin). simpl in E. subst id'.
      assert (Hold : In id (ss_ids sp) -> In id (ss_ids (sspec_stat sp s))).
      { intros H. simpl. destruct (mode_is_regular (st_mode s) && is_nil (st_linkname s)); [right|]; exact H. }
      destruct (bk_pipes _ _ _ B id pp Hin) as [H|H].
      * apply Hold. apply (s_pipes _ _ S). exact H.
      * unfold newids in H. cbn [r_files st1 set_valid] in H. unfold files in H.
        destruct (mode_is_regular (st_mode s)) eqn:Er.
        -- rewrite blookup_bset_same in H. destruct (regular_branch s) eqn:Erb; [|destruct H].
           destruct H as [<-|[]]. simpl. rewrite Er.
           assert (En : is_nil (st_linkname s) = true).
           { unfold regular_branch in Erb. apply andb_true_iff in Erb. tauto. }
           rewrite En. left. symmetry. apply (s_next _ _ S).
        -- destruct (blookup (st_path s) (r_files st)) as [id0|] eqn:Eb; [|destruct H].
           exfalso. apply (Hlt (st_path s)); auto. apply (s_paths _ _ S). apply (s_files _ _ S).
           apply blookup_In in Eb. change (st_path s) with (fst (st_path s, id0)). apply in_map. exact Eb.
    + intros q Hq. apply (bk_files _ _ _ B) in Hq. cbn [r_files st1 set_valid] in Hq. unfold files in Hq.
      simpl. destruct (mode_is_regular (st_mode s)).
      * apply bset_fst in Hq. destruct Hq as [->|Hq]; [left; reflexivity|right; apply (s_files _ _ S q Hq)].
      * right. apply (s_files _ _ S q Hq).
    + intros q Hq. simpl in Hq. simpl. rewrite map_app. apply in_or_app. destruct Hq as [<-|Hq].
      * right. left. reflexivity.
      * left. apply (s_paths _ _ S q Hq).
Qed.


Lemma spec_bad_ge : forall pks sp i b, spec_bad pks sp i = Some b -> (i <= b)%nat.
Proof.
  induction pks as [|pk r IH]; intros sp i b H; simpl in H; [discriminate|].
  destruct pk as [[s|]|id d| | |]; try discriminate.
  - destruct (stat_bad sp s); [inversion H; lia|]. apply IH in H. lia.
  - apply IH in H. lia.
  - destruct (negb (RecvSpec.memN id (ss_ids sp))); [inversion H; lia|]. apply IH in H. lia.
  - apply IH in H. lia.
Qed.

Lemma recv_loop_stopped : forall pks idx st, running st = false -> recv_loop fl c dl idx pks st = st.
Proof.
  induction pks as [|pk r IH]; intros idx st H; simpl; [reflexivity|].
  unfold recv_packet. rewrite H. simpl. apply IH. exact H.
Qed.

Lemma stopped_not_running st k : stopped_at st k -> running st = false.
Proof. unfold stopped_at, running. intros [-> | ->]; reflexivity. Qed.

Lemma stopped_wait st k idx : stopped_at st k -> maybe_wait c dl idx st = st.
Proof.
  intros H. apply maybe_wait_stopped; [apply (stopped_not_running st k H)|].
  intros k'. destruct H as [-> | ->]; discriminate.
Qed.

Theorem reject_main : forall pks st sp idx b,
  running st = true -> SInv st sp -> spec_bad pks sp idx = Some b ->
  let st' := recv_loop fl c dl idx pks st in
  (exists k, (k <= b)%nat /\ stopped_at st' k)
  /\ r_fs st' = r_fs (recv_loop fl c dl idx (firstn (b - idx) pks) st).
Proof.
  induction pks as [|pk r IH]; intros st sp idx b Hr SI Hbad; [discriminate|].
  pose proof (spec_bad_ge _ _ _ _ Hbad) as Hge. cbv zeta. cbn [recv_loop].
  assert (Hpk : recv_packet fl c dl idx pk st =
                maybe_wait c dl idx (match pk with
                                     | PErr => set_out st (Failed idx)
                                     | PFin => set_out st (Drained idx)
                                     | POther => st
                                     | PStat None => if r_closed st then set_out st (Panicked idx)
                                                     else if is_dead st then set_out st (Failed idx)
                                                     else diff_flush fl c idx (r_old st) (set_flags st true (r_waited st))
                                     | PStat (Some s) => recv_stat fl c idx s st
                                     | PData id d => recv_data c idx id d st
                                     end)).
  { unfold recv_packet. rewrite Hr. reflexivity. }
  (* the packet is the offender: nothing applied, the run is over *)
  assert (Hhere : forall st1, r_out st1 = Failed idx -> r_fs st1 = r_fs st -> b = idx ->
            (exists k, (k <= b)%nat /\ stopped_at (recv_loop fl c dl (S idx) r st1) k)
            /\ r_fs (recv_loop fl c dl (S idx) r st1) = r_fs (recv_loop fl c dl idx (firstn (b - idx) (pk :: r)) st)).
  { intros st1 Ho Ef Eb. subst b. rewrite Nat.sub_diag. cbn [firstn recv_loop].
    rewrite recv_loop_stopped by (unfold running; rewrite Ho; reflexivity).
    split; auto. exists idx. split; [lia|left; exact Ho]. }
  (* the packet is fine: go on *)
  assert (Hnext : forall st1 sp1, (running st1 = true /\ SInv st1 sp1) \/ stopped_at st1 idx ->
            spec_bad r sp1 (S idx) = Some b -> st1 = recv_packet fl c dl idx pk st ->
            (exists k, (k <= b)%nat /\ stopped_at (recv_loop fl c dl (S idx) r st1) k)
            /\ r_fs (recv_loop fl c dl (S idx) r st1) = r_fs (recv_loop fl c dl idx (firstn (b - idx) (pk :: r)) st)).
  { intros st1 sp1 H1 Hb1 E1. pose proof (spec_bad_ge _ _ _ _ Hb1) as Hge1.
    replace (b - idx)%nat with (S (b - S idx)) by lia. cbn [firstn recv_loop]. rewrite <- E1.
    destruct H1 as [[Hr1 S1]|H1]; [exact (IH st1 sp1 (S idx) b Hr1 S1 Hb1)|].
    rewrite !recv_loop_stopped by (apply (stopped_not_running st1 idx H1)). split; auto. exists idx. split; [lia|exact H1]. }
  simpl in Hbad. destruct pk as [[s|]|id d| | |]; try discriminate.
  - (* STAT *)
    pose proof (stat_step idx s st sp Hr SI) as H. cbv zeta in H. rewrite <- Hpk in H.
    destruct (stat_bad sp s).
    + inversion Hbad; subst b. destruct H as [Ho Ef]. apply Hhere; auto.
    + apply (Hnext _ (sspec_stat sp s)); auto.
  - (* end of the listing *)
    apply (Hnext _ sp); auto. rewrite Hpk. apply (after_quiet idx st _ sp Hr SI).
    destruct (r_closed st); [constructor; simpl; auto; apply SI|].
    destruct (is_dead st); [constructor; simpl; auto; apply SI|].
    assert (Hb0 : r_budget (set_flags st true (r_waited st)) = None) by (simpl; apply SI).
    apply same_quiet. apply (same_bk_trans _ (set_flags st true (r_waited st))); [constructor; auto; apply SI|].
    apply (diff_flush_bk idx (r_old st) _ Hb0).
  - (* content *)
    destruct (negb (RecvSpec.memN id (ss_ids sp))) eqn:Em.
    + inversion Hbad; subst b.
      assert (Ea : alookup id (r_pipes st) = None).
      { destruct (alookup id (r_pipes st)) eqn:E; auto. exfalso.
        apply alookup_Some_in in E. apply (s_pipes _ _ SI) in E. apply memN_In in E. rewrite E in Em. discriminate. }
      destruct (recv_data_unknown idx id d st Ea) as [Ho Ef].
      apply Hhere; auto; rewrite Hpk.
      * rewrite (stopped_wait _ idx idx); [exact Ho|left; exact Ho].
      * rewrite (stopped_wait _ idx idx); [exact Ef|left; exact Ho].
    + apply (Hnext _ sp); auto. rewrite Hpk. apply (after_quiet idx st _ sp Hr SI).
      apply recv_data_bk. apply SI.
  - (* a packet the loop ignores *)
    apply (Hnext _ sp); auto. rewrite Hpk. apply (after_quiet idx st _ sp Hr SI). constructor; auto. apply SI.
Qed.

End Reject.

Lemma SInv_init f d0 merge tmps : SInv (rstate_init f d0 merge tmps None) sspec_init.
Proof.
  constructor; simpl; auto; try tauto.
  - constructor; [left; reflexivity|constructor].
  - apply inv_init.
Qed.

Theorem bad_stream_rejected_f :
  forall (fl : rfilter),
    (forall s, st_mode (f_map fl s) = st_mode s) -> (forall s, st_linkname (f_map fl s) = st_linkname s) ->
  forall (f : fs) (root D : N) (dl merge : bool) (tmps : list bytes) (pks : list packet) (b : nat),
    spec_bad pks sspec_init 0 = Some b ->
    let st := recv_run_f fl f root D dl merge tmps pks None in
    (exists k, (k <= b)%nat /\ (r_out st = Failed k \/ r_out st = Panicked k))
    /\ recv_succeeds st = false
    /\ r_fs st = r_fs (recv_run_f fl f root D dl merge tmps (firstn b pks) None).
Proof.
  intros fl Hm1 Hm2 f root D dl merge tmps pks b Hb. cbv zeta. unfold recv_run_f.
  destruct (reject_main fl {| c_root := root; c_cwd := D |} dl Hm1 Hm2 pks (rstate_init f D merge tmps None) sspec_init 0 b
              eq_refl (SInv_init f D merge tmps) Hb) as [(k & Hk & Hs) Hf].
  cbv zeta in Hf. rewrite Nat.sub_0_r in Hf.
  split; [exists k; split; auto|]. split; [|exact Hf].
  unfold recv_succeeds. destruct Hs as [-> | ->]; reflexivity.
Qed.

Theorem bad_stream_rejected_proof :
  forall (f : fs) (root D : N) (dl merge : bool) (tmps : list bytes) (pks : list packet) (b : nat),
    spec_bad pks sspec_init 0 = Some b ->
    let st := recv_fs f root D dl merge tmps pks in
    (exists k, (k <= b)%nat /\ (r_out st = Failed k \/ r_out st = Panicked k))
    /\ recv_succeeds st = false
    /\ r_fs st = r_fs (recv_fs f root D dl merge tmps (firstn b pks)).
Proof.
  intros. apply (bad_stream_rejected_f no_filter); auto.
Qed.
