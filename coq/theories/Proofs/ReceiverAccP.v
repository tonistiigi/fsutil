(* Proofs about the receiver acceptor (Model/ReceiverAcc.v): a state-only well-formedness
   invariant [rwf]; [flags_inv], which traces every latch and every request to the event that
   caused it (any sender); [J], which ties the tables to the STATs and DATA read so far (for
   traces whose incoming packets come from a legal sender); and the C07 statements. *)
From Coq Require Import List Arith NArith Bool Lia.
From FS Require Import Sx Model.Path Model.Stat Model.AccEvents Model.ReceiverAcc Proofs.AccEventsP.
Import ListNotations.
Open Scope N_scope.

Definition keys {A} (m : list (N * A)) : list N := map fst m.
Definition nonempty (d : bytes) : Prop := d <> [].

Lemma in_keys_nremove_iff : forall A (k x : N) (m : list (N * A)),
  NoDup (keys m) -> (List.In x (keys (nremove k m)) <-> List.In x (keys m) /\ x <> k).
Proof.
  unfold keys. induction m as [|[k' v'] m IH]; simpl; intros Hd; [tauto|].
  inversion Hd as [|? ? Hn Hd']; subst.
  destruct (N.eqb k k') eqn:E.
  - apply N.eqb_eq in E. subst k'. split.
    + intros Hx. split; [auto|]. intros ->. contradiction.
    + intros [[Hx|Hx] Hne]; [congruence|assumption].
  - apply N.eqb_neq in E. simpl. rewrite (IH Hd'). split.
    + intros [Hx|[Hx Hne]]; [subst; split; auto|split; auto].
    + intros [[Hx|Hx] Hne]; [auto|auto].
Qed.

Lemma nlookup_in_keys : forall A (k : N) (v : A) m, nlookup k m = Some v -> List.In k (keys m).
Proof. intros. apply nlookup_in in H. unfold keys. apply in_map_iff. exists (k, v). auto. Qed.

Lemma in_keys_nlookup : forall A (k : N) (m : list (N * A)), List.In k (keys m) -> nlookup k m <> None.
Proof.
  intros A k m H C. apply nlookup_none_notin in C. contradiction.
Qed.

Lemma nth_error_snoc : forall A (l : list A) x k y,
  nth_error (l ++ [x]) k = Some y <-> nth_error l k = Some y \/ (k = length l /\ x = y).
Proof.
  intros A l x k y. destruct (Nat.lt_ge_cases k (length l)) as [Hlt|Hge].
  - rewrite nth_error_app1 by assumption. split; [auto|]. intros [H|[-> _]]; [assumption|lia].
  - rewrite nth_error_app2 by assumption. split.
    + destruct (k - length l)%nat as [|[|j]] eqn:E; [|discriminate..]. intros [= ->]. right. split; [lia|reflexivity].
    + intros [H|[-> <-]]; [apply nth_error_lt in H; lia|]. rewrite Nat.sub_diag. reflexivity.
Qed.

Section ReceiverP.
  Variable needs : bytes -> bool.
  Notation step := (receiver_acc needs).
  Notation wanted := (wanted needs).
  Notation none_wanted := (none_wanted needs).

  Lemma none_wanted_lookup : forall f n st, none_wanted f = true -> nlookup n f = Some st -> wanted st = false.
  Proof.
    induction f as [|[k v] f IH]; simpl; intros n st H Hl; [discriminate|].
    apply andb_true_iff in H. destruct H as [H1 H2].
    destruct (N.eqb n k); [injection Hl as <-; apply negb_true_iff; assumption|eauto].
  Qed.

  Lemma none_wanted_nremove : forall f n, none_wanted f = true -> none_wanted (nremove n f) = true.
  Proof.
    induction f as [|[k v] f IH]; simpl; intros n H; [reflexivity|].
    apply andb_true_iff in H. destruct H as [H1 H2].
    destruct (N.eqb n k); [assumption|]. simpl. rewrite H1. simpl. auto.
  Qed.

  Lemma racc_frame : forall s e s', step s e = Some s' ->
    r_ret s = None /\
    match e with
    | Inp p => r_rdclosed s = false /\ s' = on_in s p
    | InEof => r_rdclosed s = false /\
               ((r_fin_in s = true /\ s' = rset_eof s) \/ (r_fin_in s = false /\ s' = rset_fail s))
    | Out (PReq n) => exists st, nlookup n (r_files s) = Some st /\ wanted st = true /\ s' = rset_request s n
    | Out PFin => r_endm s = true /\ r_open s = [] /\ r_fin_out s = false /\ none_wanted (r_files s) = true /\
                  s' = rset_fin_out s
    | Out (PErr _) => r_err s = true /\ s' = s
    | Out _ => False
    | Fault => s' = rset_err s
    | Progress _ _ => s' = s
    | Return true => r_fin_out s = true /\ r_fin_in s = true /\ r_eof s = true /\ r_err s = false /\ s' = rset_ret s true
    | Return false => r_err s = true /\ s' = rset_ret s false
    end.
  Proof.
    intros s e s' H. unfold receiver_acc in H.
    destruct (r_ret s); [discriminate|]. split; [reflexivity|].
    destruct e as [p|p| | |n l|b].
    - destruct p as [o|n|n d| |m]; try discriminate.
      + destruct (nlookup n (r_files s)) as [st|]; [|discriminate].
        destruct (ReceiverAcc.wanted needs st) eqn:E; [|discriminate]. injection H as <-. exists st. auto.
      + destruct (r_endm s && is_nil (r_open s) && negb (r_fin_out s) && ReceiverAcc.none_wanted needs (r_files s))%bool eqn:E; [|discriminate].
        injection H as <-. repeat (apply andb_true_iff in E; destruct E as [E ?]).
        repeat split; auto. apply is_nil_true; assumption. apply negb_true_iff; assumption.
      + destruct (r_err s) eqn:E; [|discriminate]. injection H as <-. auto.
    - destruct (r_rdclosed s); [discriminate|]. injection H as <-. auto.
    - destruct (r_rdclosed s); [discriminate|]. split; [reflexivity|].
      destruct (r_fin_in s); injection H as <-; auto.
    - injection H as <-. reflexivity.
    - injection H as <-. reflexivity.
    - destruct b.
      + destruct (r_fin_out s && r_fin_in s && r_eof s && negb (r_err s))%bool eqn:E; [|discriminate].
        injection H as <-. repeat (apply andb_true_iff in E; destruct E as [E ?]).
        repeat split; auto. apply negb_true_iff; assumption.
      + destruct (r_err s) eqn:E; [|discriminate]. injection H as <-. auto.
  Qed.

  (* the cases of on_in *)
  Inductive on_in_case (s : rstate) (p : pkt) (s' : rstate) : Prop :=
  | OiDrain : r_fin_in s = true -> s' = s -> on_in_case s p s'
  | OiStat : forall st, r_fin_in s = false -> p = PStat (Some st) -> r_endm s = false ->
      s' = rset_stat s (if mode_is_regular (st_mode st) then (N.of_nat (r_i s), st) :: r_files s else r_files s) ->
      on_in_case s p s'
  | OiEnd : r_fin_in s = false -> p = PStat None -> r_endm s = false -> s' = rset_endm s -> on_in_case s p s'
  | OiChunk : forall n d cs, r_fin_in s = false -> p = PData n d -> d <> [] -> nlookup n (r_open s) = Some cs ->
      s' = rset_open s (nupdate n (d :: cs) (r_open s)) -> on_in_case s p s'
  | OiTerm : forall n cs, r_fin_in s = false -> p = PData n [] -> nlookup n (r_open s) = Some cs ->
      s' = rset_close s n cs -> on_in_case s p s'
  | OiFin : r_fin_in s = false -> p = PFin -> s' = rset_fin_in s -> on_in_case s p s'
  | OiReq : forall n, r_fin_in s = false -> p = PReq n -> s' = s -> on_in_case s p s'
  | OiFail : r_fin_in s = false -> (forall st, p <> PStat (Some st) \/ r_endm s = true) ->
      p <> PFin -> (forall n, p <> PReq n) -> s' = rset_fail s -> on_in_case s p s'.

  Lemma on_in_cases : forall s p, on_in_case s p (on_in s p).
  Proof.
    intros s p. unfold on_in. destruct (r_fin_in s) eqn:Ef; [apply OiDrain; auto|].
    destruct p as [[st|]|n|n d| |m].
    - destruct (r_endm s) eqn:Ee.
      + apply OiFail; auto; try discriminate.
      + eapply OiStat; eauto.
    - destruct (r_endm s) eqn:Ee.
      + apply OiFail; auto; try discriminate; try (intros; left; discriminate).
      + apply OiEnd; auto.
    - eapply OiReq; eauto.
    - destruct (nlookup n (r_open s)) as [cs|] eqn:El.
      + destruct d as [|b d].
        * eapply OiTerm; eauto.
        * eapply OiChunk; eauto. discriminate.
      + apply OiFail; auto; try discriminate; try (intros; left; discriminate).
    - apply OiFin; auto.
    - apply OiFail; auto; try discriminate; try (intros; left; discriminate).
  Qed.

  Record rwf (s : rstate) : Prop := {
    wf_files_nodup : NoDup (keys (r_files s));
    wf_files_lt : forall m, List.In m (keys (r_files s)) -> m < N.of_nat (r_i s);
    wf_reqd_lt : forall m, List.In m (r_reqd s) -> m < N.of_nat (r_i s);
    wf_reqd_single : forall m, List.In m (r_reqd s) -> ~ List.In m (keys (r_files s));
    wf_reqd_split : forall m, List.In m (r_reqd s) <-> List.In m (keys (r_open s)) \/ List.In m (keys (r_stored s));
    wf_open_nodup : NoDup (keys (r_open s));
    wf_open_stored : forall m, List.In m (keys (r_open s)) -> ~ List.In m (keys (r_stored s));
    wf_fin : r_fin_out s = true -> r_open s = [] /\ none_wanted (r_files s) = true /\ r_endm s = true
  }.

  Lemma rwf_init : rwf rinit.
  Proof.
    constructor; simpl; try constructor; try tauto; try (intros; contradiction); try discriminate.
  Qed.

  Lemma rwf_on_in : forall s p, rwf s -> rwf (on_in s p).
  Proof.
    intros s p W. destruct W as [W1 W2 W3 W4 W5 W6 W7 W8].
    destruct (on_in_cases s p) as [Hf ->|st Hf -> He ->|Hf -> He ->|n d cs Hf -> Hd Hl ->|n cs Hf -> Hl ->|Hf -> ->|n Hf -> ->|Hf _ _ _ ->].
    - constructor; assumption.
    - (* STAT *)
      assert (Hfo : r_fin_out s = false).
      { destruct (r_fin_out s) eqn:E; [|reflexivity]. destruct (W8 eq_refl) as [_ [_ C]]. congruence. }
      constructor; simpl; auto.
      + destruct (mode_is_regular (st_mode st)); [|assumption]. simpl. constructor; [|assumption].
        intros C. apply W2 in C. lia.
      + intros m Hm. destruct (mode_is_regular (st_mode st)).
        * simpl in Hm. destruct Hm as [<-|Hm]; [lia|]. apply W2 in Hm. lia.
        * apply W2 in Hm. lia.
      + intros m Hm. apply W3 in Hm. lia.
      + intros m Hm. destruct (mode_is_regular (st_mode st)); [|auto].
        simpl. intros [C|C]; [apply W3 in Hm; lia|]. eapply W4; eauto.
      + intros C. congruence.
    - (* end marker *)
      constructor; simpl; auto. intros Hfo. destruct (W8 Hfo) as [A [B _]]. auto.
    - (* chunk *)
      constructor; simpl; auto; unfold keys in *; try rewrite map_fst_nupdate; auto.
      intros Hfo. destruct (W8 Hfo) as [A _]. rewrite A in Hl. discriminate.
    - (* terminator *)
      assert (Hin : List.In n (keys (r_open s))) by (eapply nlookup_in_keys; eauto).
      constructor; simpl; auto.
      + intros m. rewrite W5. rewrite (in_keys_nremove_iff _ n m _ W6). split.
        * intros [Hm|Hm]; [|auto]. destruct (N.eq_dec m n); [subst; auto|auto].
        * intros [[Hm _]|[<-|Hm]]; auto.
      + apply nodup_map_fst_nremove. assumption.
      + intros m Hm. apply (in_keys_nremove_iff _ n m _ W6) in Hm. destruct Hm as [Hm Hne].
        intros [C|C]; [congruence|]. eapply W7; eauto.
      + intros Hfo. destruct (W8 Hfo) as [A _]. rewrite A in Hl. discriminate.
    - constructor; simpl; auto.
    - constructor; assumption.
    - constructor; simpl; auto.
  Qed.

  Lemma rwf_step : forall s e s', step s e = Some s' -> rwf s -> rwf s'.
  Proof.
    intros s e s' H W. apply racc_frame in H. destruct H as [_ H].
    destruct e as [p|p| | |n l|b].
    - destruct p as [o|n|n d| |m]; try contradiction.
      + (* REQ *)
        destruct H as [st [Hl [Hw ->]]]. destruct W as [W1 W2 W3 W4 W5 W6 W7 W8].
        assert (Hin : List.In n (keys (r_files s))) by (eapply nlookup_in_keys; eauto).
        assert (Hnr : ~ List.In n (r_reqd s)) by (intros C; eapply W4; eauto).
        constructor; simpl; auto.
        * apply nodup_map_fst_nremove. assumption.
        * intros m Hm. apply in_map_fst_nremove in Hm. auto.
        * intros m [<-|Hm]; auto.
        * intros m [<-|Hm].
          -- intros C. apply (in_keys_nremove_iff _ n n _ W1) in C. destruct C as [_ C]. congruence.
          -- intros C. apply in_map_fst_nremove in C. eapply W4; eauto.
        * intros m. rewrite W5. tauto.
        * constructor; [|assumption]. intros C. apply Hnr. apply W5. auto.
        * intros m [<-|Hm]; [|auto]. intros C. apply Hnr. apply W5. auto.
        * intros Hfo. destruct (W8 Hfo) as [_ [B _]]. rewrite (none_wanted_lookup _ _ _ B Hl) in Hw. discriminate.
      + (* FIN *)
        destruct H as [He [Ho [Hfo [Hn ->]]]]. destruct W. constructor; simpl; auto.
      + destruct H as [_ ->]. assumption.
    - destruct H as [_ ->]. apply rwf_on_in. assumption.
    - destruct H as [_ [[_ ->]|[_ ->]]]; destruct W; constructor; simpl; auto.
    - subst s'. destruct W; constructor; simpl; auto.
    - subst s'. assumption.
    - destruct b; [destruct H as [_ [_ [_ [_ ->]]]]|destruct H as [_ ->]]; destruct W; constructor; simpl; auto.
  Qed.

  Lemma rwf_run : forall tr s, receiver_run needs tr = Some s -> rwf s.
  Proof.
    intros tr s H. unfold receiver_run in H.
    eapply (run_preserves step rwf); [|exact H|exact rwf_init].
    intros. eapply rwf_step; eauto.
  Qed.

  Lemma legal_prefix : forall tr e, legal_sender (tr ++ [e]) -> legal_sender tr.
  Proof.
    intros tr e [L1 L2]. split.
    - intros pre o post Ht. apply (L1 pre o (post ++ [e])). rewrite Ht, <- app_assoc. reflexivity.
    - intros pre p post Ht. apply (L2 pre p (post ++ [e])). rewrite Ht, <- app_assoc. reflexivity.
  Qed.

  Lemma legal_prefix_app : forall a b, legal_sender (a ++ b) -> legal_sender a.
  Proof.
    intros a b. induction b as [|e b IH] using rev_ind; [rewrite app_nil_r; auto|].
    rewrite app_assoc. intros H. apply legal_prefix in H. auto.
  Qed.

  Lemma legal_last_stat : forall tr o, legal_sender (tr ++ [Inp (PStat o)]) -> ~ List.In (Inp (PStat None)) tr.
  Proof. intros tr o [L1 _]. apply (L1 tr o []). reflexivity. Qed.

  Lemma legal_last_in : forall tr p, legal_sender (tr ++ [Inp p]) -> ~ List.In (Inp PFin) tr.
  Proof. intros tr p [_ L2]. apply (L2 tr p []). reflexivity. Qed.

  Lemma rstats_snoc_stat : forall tr st, rstats (tr ++ [Inp (PStat (Some st))]) = rstats tr ++ [st].
  Proof. intros. unfold rstats. rewrite stats_in_app, some_stats_app. reflexivity. Qed.

  Lemma rstats_snoc_other : forall tr e, (forall st, e <> Inp (PStat (Some st))) -> rstats (tr ++ [e]) = rstats tr.
  Proof.
    intros tr e H. unfold rstats. rewrite stats_in_app, some_stats_app.
    destruct e as [p|p| | | |]; simpl; try apply app_nil_r.
    destruct p as [[st|]|n|n d| |m]; simpl; try apply app_nil_r. exfalso. eapply H. reflexivity.
  Qed.

  Lemma data_in_snoc_other : forall n tr e, (forall d, e <> Inp (PData n d)) -> data_in n (tr ++ [e]) = data_in n tr.
  Proof.
    intros n tr e H. rewrite data_in_app. unfold data_in at 2. simpl.
    destruct e as [p|p| | | |]; simpl; try apply app_nil_r.
    destruct p as [o|m|m d| |m]; simpl; try apply app_nil_r.
    destruct (N.eqb m n) eqn:E; simpl; try apply app_nil_r.
    apply N.eqb_eq in E. subst. exfalso. eapply H. reflexivity.
  Qed.

  Lemma data_in_snoc_same : forall n tr d, data_in n (tr ++ [Inp (PData n d)]) = data_in n tr ++ [d].
  Proof. intros. rewrite data_in_app. unfold data_in at 2. simpl. rewrite N.eqb_refl. reflexivity. Qed.

  (* every latch and every request has its cause in the trace *)
  Record caused (s : rstate) (e : event) (s' : rstate) : Prop := {
    c_err : r_err s = true -> r_err s' = true;
    c_endm : r_endm s' = true -> r_endm s = true \/ e = Inp (PStat None);
    c_fin_in : r_fin_in s' = true -> r_fin_in s = true \/ e = Inp PFin;
    c_fin_out : r_fin_out s' = true <-> r_fin_out s = true \/ e = Out PFin;
    c_eof : r_eof s' = true -> r_eof s = true \/ e = InEof;
    c_reqd : forall n, List.In n (r_reqd s') <-> List.In n (r_reqd s) \/ e = Out (PReq n);
    c_stored : forall n, List.In n (keys (r_stored s')) -> List.In n (keys (r_stored s)) \/ e = Inp (PData n []);
    c_ok : r_ret s' = Some true -> r_fin_out s' = true /\ r_fin_in s' = true /\ r_eof s' = true /\ r_err s' = false;
    c_failed : r_ret s' = Some false -> r_err s' = true
  }.

  Lemma step_flags : forall s e s', step s e = Some s' -> caused s e s'.
  Proof.
    intros s e s' H. apply racc_frame in H. destruct H as [Hr H].
    destruct e as [p|p| | |n l|b].
    - destruct p as [o|n|n d| |m]; try contradiction.
      + destruct H as [st [_ [_ ->]]]. constructor; simpl; intuition congruence.
      + destruct H as [_ [_ [_ [_ ->]]]]. constructor; simpl; intuition congruence.
      + destruct H as [_ ->]. constructor; intuition congruence.
    - destruct H as [_ ->].
      destruct (on_in_cases s p) as [Hf ->|st _ -> He ->|_ -> He ->|n d cs _ -> Hd Hl ->|n cs _ -> Hl ->|_ -> ->|n _ -> ->|_ _ _ _ ->];
        constructor; simpl; intuition congruence.
    - destruct H as [_ [[_ ->]|[_ ->]]]; constructor; simpl; intuition congruence.
    - subst s'. constructor; simpl; intuition congruence.
    - subst s'. constructor; intuition congruence.
    - destruct b; [destruct H as [A [B [C [D ->]]]]|destruct H as [A ->]]; constructor; simpl; intuition congruence.
  Qed.

  Record flags_inv (tr : list event) (s : rstate) : Prop := {
    f_endm : r_endm s = true -> List.In (Inp (PStat None)) tr;
    f_fin_in : r_fin_in s = true -> List.In (Inp PFin) tr;
    f_fin_out : r_fin_out s = true <-> List.In (Out PFin) tr;
    f_eof : r_eof s = true -> List.In InEof tr;
    f_reqd : forall n, List.In n (r_reqd s) <-> List.In (Out (PReq n)) tr;
    f_stored : forall n, List.In n (keys (r_stored s)) -> List.In (Inp (PData n [])) tr;
    f_ok : r_ret s = Some true -> r_fin_out s = true /\ r_fin_in s = true /\ r_eof s = true /\ r_err s = false;
    f_failed : r_ret s = Some false -> r_err s = true
  }.

  Lemma flags_inv_init : flags_inv [] rinit.
  Proof. constructor; simpl; try discriminate; try tauto. split; [discriminate|tauto]. Qed.

  Lemma flags_inv_step : forall tr s e s', flags_inv tr s -> step s e = Some s' -> flags_inv (tr ++ [e]) s'.
  Proof.
    intros tr s e s' [F1 F2 F3 F4 F5 F6 _ _] Hs. destruct (step_flags _ _ _ Hs) as [_ G1 G2 G3 G4 G5 G6 G7 G8].
    constructor; try assumption; intros; rewrite in_snoc.
    - destruct G1; auto.
    - destruct G2; auto.
    - rewrite G3, F3. reflexivity.
    - destruct G4; auto.
    - rewrite G5, F5. reflexivity.
    - destruct (G6 n); auto.
  Qed.

  Record J (tr : list event) (s : rstate) : Prop := {
    j_i : r_i s = length (rstats tr);
    j_files : forall n st, nlookup n (r_files s) = Some st ->
              nth_error (rstats tr) (N.to_nat n) = Some st /\ mode_is_regular (st_mode st) = true;
    j_cover : forall k st, nth_error (rstats tr) k = Some st -> mode_is_regular (st_mode st) = true ->
              nlookup (N.of_nat k) (r_files s) = Some st \/ List.In (N.of_nat k) (r_reqd s);
    j_data : r_err s = false -> forall n,
      (forall cs, nlookup n (r_open s) = Some cs -> data_in n tr = rev cs /\ Forall nonempty cs) /\
      (forall cs, nlookup n (r_stored s) = Some cs -> data_in n tr = rev cs ++ [[]] /\ Forall nonempty cs) /\
      (~ List.In n (r_reqd s) -> data_in n tr = [])
  }.

  Lemma J_init : J [] rinit.
  Proof.
    constructor; simpl; try reflexivity; try discriminate.
    - intros k st H. destruct k; discriminate.
    - intros _ n. repeat split; try discriminate; auto.
  Qed.

  (* steps that leave the tables alone; the payloads are only followed while no error is latched *)
  Lemma J_frame : forall tr s e s',
    J tr s ->
    r_i s' = r_i s -> r_files s' = r_files s -> r_reqd s' = r_reqd s -> r_open s' = r_open s -> r_stored s' = r_stored s ->
    (forall st, e <> Inp (PStat (Some st))) ->
    (r_err s = true -> r_err s' = true) -> (forall n d, e = Inp (PData n d) -> r_err s' = true) ->
    J (tr ++ [e]) s'.
  Proof.
    intros tr s e s' [J1 J2 J3 J4] Hi Hf Hr Ho Hs Hst Herr Hdata.
    constructor; rewrite ?Hi, ?Hf, ?Hr, ?Ho, ?Hs, ?(rstats_snoc_other _ _ Hst); auto.
    intros H n. rewrite data_in_snoc_other by (intros d ->; rewrite (Hdata _ _ eq_refl) in H; discriminate).
    apply J4. destruct (r_err s); [rewrite Herr in H|]; auto.
  Qed.

  (* all events but Out REQ, Inp STAT and Inp DATA for an open id leave the tables alone *)
  Ltac quiet I := apply (J_frame _ _ _ _ I); simpl; auto; intros; discriminate.

  Lemma J_step : forall tr s e s',
    rwf s -> flags_inv tr s -> legal_sender (tr ++ [e]) -> J tr s -> step s e = Some s' -> J (tr ++ [e]) s'.
  Proof.
    intros tr s e s' W F L I H. apply racc_frame in H. destruct H as [_ H].
    destruct e as [p|p| | |n l|b].
    - destruct p as [o|n|n d| |m]; try contradiction.
      + (* Out REQ n *)
        destruct H as [st [Hl [Hw ->]]]. destruct I as [J1 J2 J3 J4].
        assert (Hnr : ~ List.In n (r_reqd s)) by (intros C; eapply (wf_reqd_single _ W), nlookup_in_keys; eauto).
        constructor; simpl; rewrite ?rstats_snoc_other by discriminate; auto.
        * intros m st' Hm. destruct (N.eq_dec m n) as [->|Hne].
          -- rewrite nlookup_nremove_same in Hm by apply W. discriminate.
          -- rewrite nlookup_nremove_other in Hm by assumption. auto.
        * intros k st' Hk Hreg. destruct (J3 k st' Hk Hreg) as [Hc|Hc]; [|auto].
          destruct (N.eq_dec (N.of_nat k) n) as [->|Hne]; [auto|].
          left. rewrite nlookup_nremove_other by assumption. assumption.
        * intros Herr m. rewrite data_in_snoc_other by discriminate.
          destruct (J4 Herr m) as [D1 [D2 D3]]. split; [|split; [apply D2|tauto]].
          intros cs. destruct (N.eqb m n) eqn:E; [|apply D1].
          apply N.eqb_eq in E. subst m. intros Hc. injection Hc as <-. rewrite (D3 Hnr). split; [reflexivity|constructor].
      + destruct H as [_ [_ [_ [_ ->]]]]. quiet I.
      + destruct H as [_ ->]. quiet I.
    - destruct H as [_ ->].
      assert (Hnf : r_fin_in s = false).
      { destruct (r_fin_in s) eqn:E; [|reflexivity]. destruct (legal_last_in _ _ L). apply (f_fin_in _ _ F). assumption. }
      destruct (on_in_cases s p) as [Hf _|st _ -> He ->|_ -> He ->|n d cs _ -> Hd Hl ->|n cs _ -> Hl ->|_ -> ->|n _ -> ->|_ Hfail _ _ ->];
        [congruence| |quiet I| | |quiet I|quiet I|].
      + (* STAT st *)
        destruct I as [J1 J2 J3 J4].
        constructor; simpl; rewrite ?rstats_snoc_stat; auto.
        * rewrite app_length. simpl. lia.
        * intros m st' Hm. rewrite nth_error_snoc.
          destruct (mode_is_regular (st_mode st)) eqn:Er; [simpl in Hm; destruct (N.eqb m (N.of_nat (r_i s))) eqn:E|].
          -- apply N.eqb_eq in E. subst m. injection Hm as <-. rewrite Nat2N.id. auto.
          -- destruct (J2 _ _ Hm); auto.
          -- destruct (J2 _ _ Hm); auto.
        * intros k st' Hk Hreg. apply nth_error_snoc in Hk. destruct Hk as [Hk|[-> <-]].
          -- destruct (J3 k st' Hk Hreg) as [Hc|Hc]; [left|auto].
             destruct (mode_is_regular (st_mode st)); [simpl|assumption].
             destruct (N.eqb (N.of_nat k) (N.of_nat (r_i s))) eqn:E; [|assumption].
             apply N.eqb_eq, Nat2N.inj in E. apply nth_error_lt in Hk. lia.
          -- left. rewrite Hreg, J1. simpl. rewrite N.eqb_refl. reflexivity.
        * intros Herr m. rewrite data_in_snoc_other by discriminate. apply J4. assumption.
      + (* chunk *)
        destruct I as [J1 J2 J3 J4].
        constructor; simpl; rewrite ?rstats_snoc_other by discriminate; auto.
        intros Herr m. destruct (J4 Herr m) as [D1 [D2 D3]].
        destruct (N.eq_dec m n) as [->|Hne].
        * pose proof (nlookup_in_keys _ _ _ _ Hl) as Hin.
          rewrite data_in_snoc_same. split; [|split].
          -- intros cs'. rewrite nlookup_nupdate_same by congruence. intros Hc. injection Hc as <-.
             destruct (D1 _ Hl) as [A B]. simpl. rewrite A. split; [reflexivity|]. constructor; assumption.
          -- intros cs' Hc. destruct (wf_open_stored _ W n Hin). eapply nlookup_in_keys; eauto.
          -- intros Hm. destruct Hm. apply (wf_reqd_split _ W). auto.
        * rewrite data_in_snoc_other by (intros d' C; injection C as C; congruence).
          rewrite nlookup_nupdate_other by assumption. auto.
      + (* terminator *)
        destruct I as [J1 J2 J3 J4].
        constructor; simpl; rewrite ?rstats_snoc_other by discriminate; auto.
        intros Herr m. destruct (J4 Herr m) as [D1 [D2 D3]].
        destruct (N.eq_dec m n) as [->|Hne].
        * rewrite data_in_snoc_same. rewrite N.eqb_refl. split; [|split].
          -- intros cs'. rewrite nlookup_nremove_same by apply W. discriminate.
          -- intros cs' Hc. injection Hc as <-. destruct (D1 _ Hl) as [A B]. rewrite A. auto.
          -- intros Hm. destruct Hm. apply (wf_reqd_split _ W). left. eapply nlookup_in_keys; eauto.
        * rewrite data_in_snoc_other by (intros d' C; injection C as C; congruence).
          rewrite nlookup_nremove_other by assumption.
          destruct (N.eqb m n) eqn:E; [apply N.eqb_eq in E; congruence|]. auto.
      + (* the reader fails; a STAT after the end marker does not come from a legal sender *)
        apply (J_frame _ _ _ _ I); simpl; auto; try discriminate.
        intros st C. injection C as ->. destruct (Hfail st) as [C|C]; [congruence|].
        apply (legal_last_stat _ _ L), (f_endm _ _ F), C.
    - destruct H as [_ [[_ ->]|[_ ->]]]; quiet I.
    - subst s'. quiet I.
    - subst s'. quiet I.
    - destruct b; [destruct H as [_ [_ [_ [_ ->]]]]|destruct H as [_ ->]]; quiet I.
  Qed.

  Lemma inv_run : forall tr s, receiver_run needs tr = Some s ->
    rwf s /\ flags_inv tr s /\ (legal_sender tr -> J tr s).
  Proof.
    intros tr s H. unfold receiver_run in H.
    apply (run_invariant step (fun tr s => rwf s /\ flags_inv tr s /\ (legal_sender tr -> J tr s)) rinit); [| |exact H].
    - split; [exact rwf_init|]. split; [exact flags_inv_init|]. intros _. exact J_init.
    - intros tr0 s0 e s1 [W [F I]] Hs. split; [eapply rwf_step; eauto|]. split; [eapply flags_inv_step; eauto|].
      intros L. eapply J_step; eauto using legal_prefix.
  Qed.

  Lemma req_exactly_needed_proof : forall tr s pre n post,
    receiver_run needs tr = Some s -> legal_sender tr -> tr = pre ++ Out (PReq n) :: post ->
    (exists st, nth_error (rstats pre) (N.to_nat n) = Some st /\ reqable st = true /\ needs (st_path st) = true) /\
    ~ List.In (Out (PReq n)) pre /\ ~ List.In (Out (PReq n)) post.
  Proof.
    intros tr s pre n post H L Htr. subst tr.
    unfold receiver_run in H. apply run_split in H. destruct H as [s1 [s2 [H1 [H2 H3]]]].
    destruct (inv_run _ _ H1) as [W [F I]]. specialize (I (legal_prefix_app _ _ L)).
    pose proof (rwf_step _ _ _ H2 W) as W2.
    apply racc_frame in H2. destruct H2 as [_ [st [Hl [Hw ->]]]].
    apply andb_true_iff in Hw. destruct Hw as [Hq Hn].
    split; [|split].
    - exists st. destruct (j_files _ _ I _ _ Hl) as [A _]. auto.
    - intros C. apply (f_reqd _ _ F) in C. apply (wf_reqd_single _ W _ C). eapply nlookup_in_keys; eauto.
    - destruct (run_forall step (fun st0 => rwf st0 /\ List.In n (r_reqd st0)) (fun e => e <> Out (PReq n)))
        with (tr := post) (s := rset_request s1 n) (s' := s) as [Hall _]; [|exact H3|split; [assumption|simpl; auto]|].
      + intros st0 e st1 Hst [P1 P2]. split; [|split; [eapply rwf_step; eauto|]].
        * intros ->. apply racc_frame in Hst. destruct Hst as [_ [st' [Hl' _]]].
          apply (wf_reqd_single _ P1 _ P2). eapply nlookup_in_keys; eauto.
        * apply (c_reqd _ _ _ (step_flags _ _ _ Hst)). auto.
      + intros C. rewrite Forall_forall in Hall. apply (Hall _ C). reflexivity.
  Qed.

  Lemma needed_all_requested_proof : forall tr s pre post,
    receiver_run needs tr = Some s -> legal_sender tr -> tr = pre ++ Out PFin :: post ->
    forall k st, nth_error (rstats pre) k = Some st -> reqable st = true -> needs (st_path st) = true ->
    List.In (Out (PReq (N.of_nat k))) pre.
  Proof.
    intros tr s pre post H L Htr k st Hk Hq Hn. subst tr.
    unfold receiver_run in H. apply run_split in H. destruct H as [s1 [s2 [H1 [H2 H3]]]].
    destruct (inv_run _ _ H1) as [W [F I]]. specialize (I (legal_prefix_app _ _ L)).
    apply racc_frame in H2. destruct H2 as [_ [_ [_ [_ [Hnw _]]]]].
    assert (Hreg : mode_is_regular (st_mode st) = true).
    { unfold reqable in Hq. apply andb_true_iff in Hq. tauto. }
    destruct (j_cover _ _ I k st Hk Hreg) as [Hc|Hc].
    - pose proof (none_wanted_lookup _ _ _ Hnw Hc) as C. unfold ReceiverAcc.wanted in C. rewrite Hq, Hn in C. discriminate.
    - apply (f_reqd _ _ F). assumption.
  Qed.

  Lemma stored_is_concat_proof : forall tr s,
    receiver_run needs tr = Some s -> legal_sender tr -> r_err s = false ->
    forall n,
      (forall cs, nlookup n (r_open s) = Some cs -> data_in n tr = rev cs /\ Forall nonempty cs) /\
      (forall cs, nlookup n (r_stored s) = Some cs -> data_in n tr = rev cs ++ [[]] /\ Forall nonempty cs) /\
      (~ List.In (Out (PReq n)) tr -> data_in n tr = []).
  Proof.
    intros tr s H L He n. destruct (inv_run _ _ H) as [_ [F I]].
    rewrite <- (f_reqd _ _ F). apply (j_data _ _ (I L) He).
  Qed.

  Lemma stored_on_success_proof : forall tr s,
    receiver_run needs tr = Some s -> legal_sender tr -> r_ret s = Some true ->
    forall n, List.In (Out (PReq n)) tr ->
    exists cs, nlookup n (r_stored s) = Some cs /\ data_in n tr = rev cs ++ [[]] /\ Forall nonempty cs /\
               concat (data_in n tr) = concat (rev cs).
  Proof.
    intros tr s H L Hr n Hin. destruct (inv_run _ _ H) as [W [F I]].
    destruct (f_ok _ _ F Hr) as [Hfo [_ [_ He]]].
    destruct (wf_fin _ W Hfo) as [Ho _].
    apply (f_reqd _ _ F) in Hin. apply (wf_reqd_split _ W) in Hin. rewrite Ho in Hin.
    destruct Hin as [[]|Hin]. apply in_keys_nlookup in Hin.
    destruct (nlookup n (r_stored s)) as [cs|] eqn:El; [|congruence].
    exists cs. destruct (j_data _ _ (I L) He n) as [_ [D2 _]]. destruct (D2 _ El) as [A B].
    repeat split; auto. rewrite A, concat_app. simpl. apply app_nil_r.
  Qed.

  (* holds whatever the sender does: only the latches and the bookkeeping of ids are involved *)
  Lemma fin_after_everything_any : forall tr s pre post,
    receiver_run needs tr = Some s -> tr = pre ++ Out PFin :: post ->
    List.In (Inp (PStat None)) pre /\
    (forall n, List.In (Out (PReq n)) pre -> List.In (Inp (PData n [])) pre) /\
    ~ List.In (Out PFin) pre /\ ~ List.In (Out PFin) post /\ (forall n, ~ List.In (Out (PReq n)) post).
  Proof.
    intros tr s pre post H Htr. subst tr.
    unfold receiver_run in H. apply run_split in H. destruct H as [s1 [s2 [H1 [H2 H3]]]].
    destruct (inv_run _ _ H1) as [W [F _]].
    pose proof (rwf_step _ _ _ H2 W) as W2.
    apply racc_frame in H2. destruct H2 as [_ [He [Ho [Hfo [Hnw ->]]]]].
    split; [apply (f_endm _ _ F); assumption|]. split; [|split].
    - intros n Hin. apply (f_reqd _ _ F) in Hin. apply (wf_reqd_split _ W) in Hin. rewrite Ho in Hin.
      destruct Hin as [[]|Hin]. apply (f_stored _ _ F). assumption.
    - intros C. apply (f_fin_out _ _ F) in C. congruence.
    - destruct (run_forall step (fun st0 => rwf st0 /\ r_fin_out st0 = true)
                  (fun e => e <> Out PFin /\ forall n, e <> Out (PReq n)))
        with (tr := post) (s := rset_fin_out s1) (s' := s) as [Hall _]; [|exact H3|split; [assumption|reflexivity]|].
      + intros st0 e st1 Hst [P1 P2]. split; [|split; [eapply rwf_step; eauto|apply (c_fin_out _ _ _ (step_flags _ _ _ Hst)); auto]].
        split.
        * intros ->. apply racc_frame in Hst. destruct Hst as [_ [_ [_ [C _]]]]. congruence.
        * intros n ->. apply racc_frame in Hst. destruct Hst as [_ [st' [Hl' [Hw' _]]]].
          destruct (wf_fin _ P1 P2) as [_ [Hn' _]]. rewrite (none_wanted_lookup _ _ _ Hn' Hl') in Hw'. discriminate.
      + rewrite Forall_forall in Hall. split.
        * intros C. destruct (Hall _ C) as [C1 _]. apply C1. reflexivity.
        * intros n C. destruct (Hall _ C) as [_ C2]. apply (C2 n). reflexivity.
  Qed.

  Lemma fin_after_everything_proof : forall tr s pre post,
    receiver_run needs tr = Some s -> legal_sender tr -> tr = pre ++ Out PFin :: post ->
    List.In (Inp (PStat None)) pre /\
    (forall n, List.In (Out (PReq n)) pre -> List.In (Inp (PData n [])) pre) /\
    ~ List.In (Out PFin) pre /\ ~ List.In (Out PFin) post /\ (forall n, ~ List.In (Out (PReq n)) post).
  Proof. intros tr s pre post H _. exact (fin_after_everything_any tr s pre post H). Qed.

  Lemma eof_before_fin_is_error_proof : forall tr s pre post,
    receiver_run needs tr = Some s -> tr = pre ++ InEof :: post -> ~ List.In (Inp PFin) pre ->
    r_err s = true /\ r_ret s <> Some true.
  Proof.
    intros tr s pre post H Htr Hnf. subst tr.
    destruct (inv_run _ _ H) as [_ [F _]].
    unfold receiver_run in H. apply run_split in H. destruct H as [s1 [s2 [H1 [H2 H3]]]].
    destruct (inv_run _ _ H1) as [_ [F1 _]].
    apply racc_frame in H2. destruct H2 as [_ [_ [[C _]|[_ ->]]]]; [destruct Hnf; apply (f_fin_in _ _ F1 C)|].
    assert (He : r_err s = true).
    { eapply (run_preserves step (fun st => r_err st = true)); [|exact H3|reflexivity].
      intros st e st' Hst. apply (c_err _ _ _ (step_flags _ _ _ Hst)). }
    split; [assumption|]. intros C. destruct (f_ok _ _ F C) as [_ [_ [_ C2]]]. congruence.
  Qed.

  Lemma success_shape_proof : forall tr s,
    receiver_run needs tr = Some s -> r_ret s = Some true ->
    List.In (Out PFin) tr /\ List.In (Inp PFin) tr /\ List.In InEof tr /\ r_err s = false.
  Proof.
    intros tr s H Hr. destruct (inv_run _ _ H) as [_ [F _]].
    destruct (f_ok _ _ F Hr) as [A [B [C D]]].
    split; [apply (f_fin_out _ _ F), A|]. split; [apply (f_fin_in _ _ F B)|]. split; [apply (f_eof _ _ F C)|exact D].
  Qed.

  Lemma failure_latched_proof : forall tr s,
    receiver_run needs tr = Some s -> r_ret s = Some false -> r_err s = true.
  Proof. intros tr s H. apply (f_failed _ _ (proj1 (proj2 (inv_run _ _ H)))). Qed.
End ReceiverP.
