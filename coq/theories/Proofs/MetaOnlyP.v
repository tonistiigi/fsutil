(* C19 — the metadata-only receive transcript (Model/MetaOnly.v): the listing and the id
   registrations (plain inductions over the run); the chunked buffer; the pending-ancestor stack
   (forwarded = needed entries, each once, in order); the forwarded stream is accepted by both
   validators; the exact contents of the pending stack after any accepted prefix. *)
From Coq Require Import List NArith Lia Bool Arith.
From FS Require Import Sx Model.Path Model.Stat Model.Validator Model.Hardlinks Model.MetaOnly
  Proofs.Lex Proofs.PathP Proofs.ListAux Proofs.ValidatorP.
Import ListNotations.
Open Scope nat_scope.
Open Scope bool_scope.

Section Part1.
Variable sel : stat -> bool.

Lemma listing_exact_gen l : forall i stk, r_listing (mrun sel i stk l) = recv_stream l.
Proof.
  induction l as [|s r IH]; intros i stk; [reflexivity|].
  cbn [mrun recv_stream filter]. fold (recv_stream r).
  destruct (is_listing s); cbn [negb]; [apply IH|].
  destruct (sel s); cbn [r_listing]; rewrite IH; reflexivity.
Qed.

Lemma listing_exact_proof stats :
  r_listing (meta_recv sel stats) = filter (fun s => negb (bytes_eqb (st_path s) listing_name)) stats.
Proof. apply listing_exact_gen. Qed.

(* every registration (p, id) made while running on l from counter i names the entry at
   position id - i of l: its path is p, it is selected, regular, and not the listing name *)
Lemma files_sound_gen l : forall i stk p id,
  In (p, id) (r_files (mrun sel i stk l)) ->
  i <= id /\ exists s, nth_error l (id - i) = Some s /\ st_path s = p /\ is_listing s = false
                       /\ sel s = true /\ mode_is_regular (st_mode s) = true.
Proof.
  induction l as [|s r IH]; intros i stk p id H; [destruct H|].
  cbn [mrun] in H.
  assert (Hrest : forall stk', In (p, id) (r_files (mrun sel (S i) stk' r)) ->
            i <= id /\ exists s0, nth_error (s :: r) (id - i) = Some s0 /\ st_path s0 = p /\ is_listing s0 = false
                       /\ sel s0 = true /\ mode_is_regular (st_mode s0) = true).
  { intros stk' H'. destruct (IH _ _ _ _ H') as (Hle & s0 & Hn & Hs0). split; [lia|].
    exists s0. split; [|exact Hs0]. replace (id - i) with (S (id - S i)) by lia. exact Hn. }
  destruct (is_listing s) eqn:El; [eapply Hrest; eauto|].
  destruct (sel s) eqn:Es; cbn [r_files] in H; [|eapply Hrest; eauto].
  apply in_app_or in H. destruct H as [H|H]; [|eapply Hrest; eauto].
  destruct (mode_is_regular (st_mode s)) eqn:Er; [|destruct H].
  destruct H as [H|[]]. inversion H; subst p id. split; [lia|].
  exists s. rewrite Nat.sub_diag. repeat split; auto.
Qed.

(* conversely every selected regular entry other than the listing name is registered under
   its position *)
Lemma files_complete_gen l : forall i stk k s,
  nth_error l k = Some s -> is_listing s = false -> sel s = true -> mode_is_regular (st_mode s) = true ->
  In (st_path s, i + k) (r_files (mrun sel i stk l)).
Proof.
  induction l as [|s0 r IH]; intros i stk k s Hn Hl Hs Hr; [destruct k; discriminate|].
  cbn [mrun]. destruct k as [|k].
  - inversion Hn; subst s0. rewrite Hl, Hs. cbn [r_files]. rewrite Hr, Nat.add_0_r. left. reflexivity.
  - cbn [nth_error] in Hn. replace (i + S k) with (S i + k) by lia.
    destruct (is_listing s0); [apply IH; auto|].
    destruct (sel s0); cbn [r_files]; [apply in_or_app; right|]; apply IH; auto.
Qed.

Lemma ids_aligned_proof stats p id :
  In (p, id) (r_files (meta_recv sel stats)) -> exists s, nth_error stats id = Some s /\ st_path s = p.
Proof.
  intros H. destruct (files_sound_gen _ _ _ _ _ H) as (_ & s & Hn & Hp & _).
  rewrite Nat.sub_0_r in Hn. eauto.
Qed.

Lemma ids_only_selected_proof stats p id :
  In (p, id) (r_files (meta_recv sel stats)) ->
  exists s, nth_error stats id = Some s /\ st_path s = p /\ sel s = true
            /\ mode_is_regular (st_mode s) = true /\ st_path s <> listing_name.
Proof.
  intros H. destruct (files_sound_gen _ _ _ _ _ H) as (_ & s & Hn & Hp & Hl & Hs & Hr).
  rewrite Nat.sub_0_r in Hn. exists s. repeat split; auto.
  intro E. unfold is_listing in Hl. rewrite E, bytes_eqb_refl in Hl. discriminate.
Qed.

Lemma ids_complete_proof stats id s :
  nth_error stats id = Some s -> st_path s <> listing_name -> sel s = true ->
  mode_is_regular (st_mode s) = true -> In (st_path s, id) (r_files (meta_recv sel stats)).
Proof.
  intros Hn Hl Hs Hr. apply (files_complete_gen stats 0 [] id s); auto.
  unfold is_listing. apply bytes_eqb_neq. exact Hl.
Qed.

(* the forwarded list and the stack do not depend on the id counter nor on skipped entries *)
Lemma forwarded_recv_stream l : forall i j stk,
  r_forwarded (mrun sel i stk l) = r_forwarded (mrun sel j stk (recv_stream l)).
Proof.
  induction l as [|s r IH]; intros i j stk; [reflexivity|].
  cbn [mrun recv_stream filter]. fold (recv_stream r).
  destruct (is_listing s) eqn:El; cbn [negb]; [apply IH|].
  cbn [mrun]. rewrite El.
  destruct (sel s); cbn [r_forwarded]; rewrite (IH (S i) (S j)); reflexivity.
Qed.
End Part1.

Lemma buf_bytes_cons d c b : buf_bytes ((d, c) :: b) = buf_bytes b ++ d.
Proof.
  unfold buf_bytes. cbn [rev map]. rewrite map_app, concat_app. cbn [map concat fst].
  rewrite app_nil_r. reflexivity.
Qed.

Lemma buf_bytes_alloc_write b rec : buf_bytes (alloc_write b rec) = buf_bytes b ++ rec.
Proof.
  unfold alloc_write. destruct (N.ltb chunk_size (N.of_nat (length rec))); [apply buf_bytes_cons|].
  destruct b as [|[d c] rest]; [apply buf_bytes_cons|].
  destruct (N.leb (N.of_nat (length d) + N.of_nat (length rec)) c); [|apply buf_bytes_cons].
  rewrite !buf_bytes_cons, app_assoc. reflexivity.
Qed.

Lemma buffer_is_concat_gen recs : forall b, buf_bytes (fold_left alloc_write recs b) = buf_bytes b ++ concat recs.
Proof.
  induction recs as [|r recs IH]; intros b; cbn [fold_left concat]; [rewrite app_nil_r; reflexivity|].
  rewrite IH, buf_bytes_alloc_write, app_assoc. reflexivity.
Qed.

Lemma buffer_is_concat_proof recs : buf_bytes (fold_left alloc_write recs []) = concat recs.
Proof. apply (buffer_is_concat_gen recs []). Qed.


Definition cp (s : stat) : cpath := comps (st_path s).

Lemma lex_nil_l (s : cpath) : lex [] s <> Gt.
Proof. destruct s; discriminate. Qed.

(* the entries below a directory form an interval of the path order *)
Lemma prefix_interval (a : cpath) : forall s t,
  is_prefix a t -> lex a s <> Gt -> lex s t <> Gt -> is_prefix a s.
Proof. intros s t [y ->]. apply lex_interval. Qed.

Lemma prefix_refl (a : cpath) : is_prefix a a.
Proof. exists []. rewrite app_nil_r. reflexivity. Qed.

Lemma removelast_prefix (l : cpath) : is_prefix (removelast l) l.
Proof.
  destruct l as [|x l]; [apply prefix_refl|].
  exists [last (x :: l) []]. apply app_removelast_last. discriminate.
Qed.

Lemma prefix_len (a b : cpath) : is_prefix a b -> length a <= length b.
Proof. intros [y ->]. rewrite app_length. lia. Qed.

Lemma removelast_len (l : cpath) : l <> [] -> S (length (removelast l)) = length l.
Proof.
  intros H. rewrite (app_removelast_last [] H) at 2. rewrite app_length. cbn. lia.
Qed.

(* a proper prefix of p is a prefix of its parent *)
Lemma proper_prefix_parent (a y : cpath) : y <> [] -> removelast (a ++ y) = a ++ removelast y.
Proof. apply removelast_app. Qed.

(* [under a t]: t's components strictly extend a's *)
Lemma under_prefix a t : under a t = true <-> exists y, y <> [] /\ comps t = comps a ++ y.
Proof.
  unfold under. split.
  - intros H. apply has_prefix_app in H. destruct H as [r Hr]. rewrite <- app_assoc in Hr. cbn [app] in Hr.
    exists (comps r). split; [apply comps_nonempty|].
    rewrite Hr. rewrite <- (joinc_comps a) at 1.
    apply comps_joinc_app_sep; [apply comps_nonempty|apply comps_all_nosep].
  - intros (y & Hy & E).
    assert (Ht : t = a ++ sep :: joinc y).
    { rewrite <- (joinc_comps t), E, joinc_app, joinc_comps; auto. apply comps_nonempty. }
    rewrite Ht. replace (a ++ sep :: joinc y) with ((a ++ [sep]) ++ joinc y) by (rewrite <- app_assoc; reflexivity).
    apply has_prefix_app_r.
Qed.

(* "parent == last.path" in terms of components, for admissible paths *)
Lemma dir_eq_parent p h : okc (comps p) -> okc (comps h) ->
  (bytes_eqb (dir p) h = true <-> comps h = removelast (comps p)).
Proof.
  intros Hp Hh. destruct (okc_snoc_split _ Hp) as (d & b & Ed).
  assert (Ep : p = joinc (d ++ [b])) by (rewrite <- Ed, joinc_comps; reflexivity).
  rewrite Ed in Hp. rewrite Ed, removelast_last.
  assert (Hdir : dir p = match d with [] => s_dot | _ => joinc d end) by (rewrite Ep; apply dir_joinc; auto).
  rewrite Hdir. rewrite bytes_eqb_eq. destruct d as [|c d'].
  - split; intros H.
    + exfalso. destruct (okc_not_special _ Hh) as (_ & H1 & _). apply H1. rewrite joinc_comps. auto.
    + exfalso. eapply comps_nonempty; eauto.
  - assert (Hd : okc (c :: d')) by (eapply okc_prefix; eauto; discriminate).
    split; intros H.
    + rewrite <- H. apply comps_joinc; [discriminate|apply Hd].
    + rewrite <- H. apply joinc_comps.
Qed.

Definition step_ok (acc : list stat) (s : stat) : Prop :=
  okc (cp s) /\ (forall q, In q acc -> lex (cp q) (cp s) = Lt) /\
  (removelast (cp s) = [] \/ exists q, In q acc /\ cp q = removelast (cp s) /\ st_is_dir q = true).

Fixpoint cvalid (acc l : list stat) : Prop :=
  match l with
  | [] => True
  | s :: r => step_ok acc s /\ cvalid (acc ++ [s]) r
  end.

(* the validator's specification of one step (ValidatorP.spec_reflect), for stats *)
Lemma step_ok_iff acc s : spec_ok_b (map vitem_of acc) (vitem_of s) = true <-> step_ok acc s.
Proof.
  assert (Hin : forall q, In q (map citem_of (map vitem_of acc)) <-> exists q0, In q0 acc /\ q = citem_of (vitem_of q0)).
  { intros q. rewrite map_map, in_map_iff. split; intros (q0 & H1 & H2); eauto. }
  split.
  - intros E. assert (Hok : okitem (vitem_of s)).
    { unfold spec_ok_b in E. apply andb_true_iff in E. destruct E as [E _]. apply andb_true_iff in E. apply E. }
    apply (spec_reflect _ _ Hok) in E. destruct E as (_ & Hlt & Hpar).
    split; [apply ok_path_okc; exact Hok|]. split.
    + intros q Hq. apply (Hlt (citem_of (vitem_of q))). apply Hin. eauto.
    + destruct Hpar as [Hpar|(q & Hq & Hq1 & _ & Hq3)]; [left; exact Hpar|right].
      apply Hin in Hq. destruct Hq as (q0 & Hq & ->). eauto.
  - intros (Hok & Hlt & Hpar).
    assert (Hi : okitem (vitem_of s)).
    { unfold okitem. cbn [vpath vitem_of]. rewrite <- (joinc_comps (st_path s)). apply okc_ok_path. exact Hok. }
    apply (spec_reflect _ _ Hi). split; [apply Hok|]. split.
    + intros q Hq. apply Hin in Hq. destruct Hq as (q0 & Hq & ->). apply (Hlt q0 Hq).
    + destruct Hpar as [Hpar|(q & Hq & Eq & Hd)]; [left; exact Hpar|right].
      exists (citem_of (vitem_of q)). split; [apply Hin; eauto|]. repeat split; assumption.
Qed.

Lemma cvalid_iff l : forall acc i, spec_run (map vitem_of acc) (map vitem_of l) i = None <-> cvalid acc l.
Proof.
  induction l as [|s r IH]; intros acc i; [cbn; tauto|].
  cbn [map spec_run cvalid]. rewrite <- step_ok_iff, <- (IH (acc ++ [s]) (S i)), map_app. cbn [map].
  destruct (spec_ok_b (map vitem_of acc) (vitem_of s)); [tauto|]. split; [discriminate|intros [H _]; discriminate].
Qed.

Lemma valid_stream_cvalid l : valid_stream l <-> cvalid [] l.
Proof.
  unfold valid_stream. rewrite validator_accepts_iff_spec_proof. apply (cvalid_iff l [] 0).
Qed.

Lemma cvalid_later l : forall acc, cvalid acc l ->
  forall x, In x l -> okc (cp x) /\ forall q, In q acc -> lex (cp q) (cp x) = Lt.
Proof.
  induction l as [|s r IH]; intros acc H x Hx; [destruct Hx|].
  destruct H as [(Hok & Hlt & _) Hr]. destruct Hx as [<-|Hx]; [split; auto|].
  destruct (IH _ Hr x Hx) as [H1 H2]. split; auto.
  intros q Hq. apply H2. apply in_or_app. left. exact Hq.
Qed.

Lemma cvalid_head_lt acc s r : cvalid acc (s :: r) -> forall x, In x r -> lex (cp s) (cp x) = Lt.
Proof.
  intros [_ Hr] x Hx. destruct (cvalid_later _ _ Hr x Hx) as [_ H]. apply H. apply in_or_app. right. left. reflexivity.
Qed.

Lemma mpop_split p stk : exists popped,
  stk = popped ++ mpop p stk /\
  (forall d, In d popped -> bytes_eqb p (st_path d) = false) /\
  (mpop p stk = [] \/ exists h r, mpop p stk = h :: r /\ bytes_eqb p (st_path h) = true).
Proof.
  induction stk as [|t r IH].
  { exists []. cbn. split; [reflexivity|]. split; [intros d []|left; reflexivity]. }
  cbn [mpop]. destruct (bytes_eqb p (st_path t)) eqn:E.
  - exists []. cbn. split; auto. split; [intros d []|]. right. eauto.
  - destruct IH as (popped & H1 & H2 & H3). exists (t :: popped). split; [cbn; congruence|].
    split; [|exact H3]. intros d [<-|Hd]; auto.
Qed.

Lemma mpop_sub p stk : forall y, In y (mpop p stk) -> In y stk.
Proof.
  induction stk as [|t stk' IHs]; intros y Hy; [destruct Hy|]. cbn [mpop] in Hy.
  destruct (bytes_eqb p (st_path t)); [exact Hy|right; apply IHs; exact Hy].
Qed.

(* chains: each stack element is the parent of the one above it *)
Fixpoint chain_ok (stk : list stat) : Prop :=
  match stk with
  | x :: r => match r with y :: _ => cp y = removelast (cp x) | [] => True end /\ chain_ok r
  | [] => True
  end.

Lemma chain_app_r xs ys : chain_ok (xs ++ ys) -> chain_ok ys.
Proof. induction xs as [|x xs IH]; [auto|]. cbn [app chain_ok]. intros [_ H]. auto. Qed.

Lemma prefix_trans' (a b c : cpath) : is_prefix a b -> is_prefix b c -> is_prefix a c.
Proof. apply prefix_trans. Qed.

Lemma chain_below_prefix r : forall h, chain_ok (h :: r) ->
  forall d, In d r -> is_prefix (cp d) (removelast (cp h)).
Proof.
  induction r as [|y r IH]; intros h H d Hd; [destruct Hd|].
  destruct H as [Hy Hr]. destruct Hd as [<-|Hd]; [rewrite Hy; apply prefix_refl|].
  eapply prefix_trans; [apply (IH y Hr d Hd)|]. rewrite <- Hy. apply removelast_prefix.
Qed.

Lemma chain_app_prefix xs ys : chain_ok (xs ++ ys) ->
  forall x y, In x xs -> In y ys -> is_prefix (cp y) (removelast (cp x)).
Proof.
  induction xs as [|x0 xs IH]; intros H x y Hx Hy; [destruct Hx|].
  destruct Hx as [<-|Hx].
  - apply (chain_below_prefix (xs ++ ys) x0 H). apply in_or_app. right. exact Hy.
  - apply IH; auto. destruct H as [_ H]. exact H.
Qed.

Section Part3.
Variable sel : stat -> bool.

(* Invariant between the entries handled so far [acc], the current position [c] (components
   of the last handled path, [] before the first) and the pending stack (top first):
   the stack holds unselected directories of [acc], each the parent of the one above it, and
   it is closed upwards: every directory of [acc] that lies between a stack element and the
   current position is on the stack too.  Hence (with validity of the next entry) the stack
   is exactly the not-yet-forwarded ancestor directories of the current position. *)
Record Inv (acc : list stat) (c : cpath) (stk : list stat) : Prop := {
  inv_mem : forall d, In d stk -> In d acc /\ sel d = false /\ st_is_dir d = true;
  inv_chain : chain_ok stk;
  inv_le : forall q, In q acc -> lex (cp q) c <> Gt;
  inv_okc : forall q, In q acc -> okc (cp q);
  inv_c : c = [] \/ exists q, In q acc /\ cp q = c;
  inv_compl : forall d q, In d stk -> In q acc -> st_is_dir q = true ->
              is_prefix (cp d) (cp q) -> is_prefix (cp q) c -> In q stk
}.

Lemma inv_init : Inv [] [] [].
Proof.
  constructor.
  - intros d []. - exact I. - intros q []. - intros q []. - left; reflexivity. - intros d q [].
Qed.

Lemma okc_nonempty (p : cpath) : okc p -> p <> [].
Proof. intros (H & _). exact H. Qed.

(* the next entry lies after the current position, so what is above it lies above the position *)
Lemma inv_cur_le acc c stk s : Inv acc c stk -> step_ok acc s -> lex c (cp s) <> Gt.
Proof.
  intros I (_ & Hlt & _). destruct (inv_c _ _ _ I) as [->|(q & Hq & <-)]; [apply lex_nil_l|].
  rewrite (Hlt q Hq). discriminate.
Qed.

Lemma inv_prefix_cur acc c stk s q : Inv acc c stk -> step_ok acc s -> In q acc ->
  is_prefix (cp q) (cp s) -> is_prefix (cp q) c.
Proof.
  intros I Hs Hq Hp. apply (prefix_interval (cp q) c (cp s) Hp); [apply (inv_le _ _ _ I q Hq)|eapply inv_cur_le; eauto].
Qed.

(* what one step does to the stack *)
Lemma step_facts acc c stk s :
  Inv acc c stk -> step_ok acc s ->
  exists popped,
    stk = popped ++ mpop (dir (st_path s)) stk /\
    (* S1: what stays on the stack are proper ancestors of s, its parent on top *)
    (forall d, In d (mpop (dir (st_path s)) stk) -> exists y, y <> [] /\ cp s = cp d ++ y) /\
    (match mpop (dir (st_path s)) stk with h :: _ => cp h = removelast (cp s) | [] => True end) /\
    (* S2: what is popped is not an ancestor of s *)
    (forall d, In d popped -> ~ is_prefix (cp d) (cp s)).
Proof.
  intros I Hstep. pose proof Hstep as (Hok & Hlt & Hpar).
  destruct (mpop_split (dir (st_path s)) stk) as (popped & Hsplit & Hpop & Htop).
  exists popped. split; [exact Hsplit|].
  set (stk1 := mpop (dir (st_path s)) stk) in *.
  assert (Hne : cp s <> []) by (apply okc_nonempty; exact Hok).
  pose proof (mpop_sub (dir (st_path s)) stk) as Hin1. fold stk1 in Hin1.
  assert (Hinp : forall d, In d popped -> In d stk) by (intros d Hd; rewrite Hsplit; apply in_or_app; left; exact Hd).
  assert (Hokd : forall d, In d stk -> okc (cp d)).
  { intros d Hd. apply (inv_okc _ _ _ I). apply (inv_mem _ _ _ I). exact Hd. }
  assert (Htop' : match stk1 with h :: _ => cp h = removelast (cp s) | [] => True end).
  { destruct Htop as [E|(h & r & E & Hb)]; rewrite E; [exact Logic.I|].
    apply (dir_eq_parent (st_path s) (st_path h)); auto. apply Hokd, Hin1. rewrite E. left. reflexivity. }
  split; [|split; [exact Htop'|]].
  - (* S1 *)
    intros d Hd. destruct stk1 as [|h r] eqn:E1; [destruct Hd|].
    assert (Hch : chain_ok (h :: r)) by (apply (chain_app_r popped); rewrite <- Hsplit; apply (inv_chain _ _ _ I)).
    assert (Es : cp s = removelast (cp s) ++ [last (cp s) []]) by (apply app_removelast_last; exact Hne).
    destruct Hd as [<-|Hd].
    + exists [last (cp s) []]. split; [discriminate|]. rewrite Htop'. exact Es.
    + pose proof (chain_below_prefix r h Hch d Hd) as Hp.
      assert (Hp2 : is_prefix (cp d) (cp h)) by (eapply prefix_trans; [exact Hp|apply removelast_prefix]).
      destruct Hp2 as [w Hw]. exists (w ++ [last (cp s) []]). split; [destruct w; discriminate|].
      rewrite Es at 1. rewrite <- Htop', Hw, <- app_assoc. reflexivity.
  - (* S2 *)
    intros d Hd [y Hy].
    assert (Hdacc : In d acc) by (apply (inv_mem _ _ _ I), Hinp, Hd).
    assert (Hy0 : y <> []).
    { intro E. subst y. rewrite app_nil_r in Hy. specialize (Hlt d Hdacc). rewrite Hy, lex_refl in Hlt. discriminate. }
    assert (HP : removelast (cp s) = cp d ++ removelast y) by (rewrite Hy; apply removelast_app; exact Hy0).
    assert (Hnb : bytes_eqb (dir (st_path s)) (st_path d) = false) by (apply Hpop, Hd).
    assert (Hdne : cp d <> removelast (cp s)).
    { intro E. assert (bytes_eqb (dir (st_path s)) (st_path d) = true).
      { apply dir_eq_parent; auto. apply Hokd, Hinp, Hd. }
      congruence. }
    assert (Hry : removelast y <> []) by (intro E; apply Hdne; rewrite HP, E, app_nil_r; reflexivity).
    destruct Hpar as [Hpar|(q & Hq & Hq1 & Hq2)].
    { rewrite HP in Hpar. apply app_eq_nil in Hpar. destruct Hpar. contradiction. }
    (* the parent q of s is a directory of acc strictly below d and above-or-at c: on the stack *)
    assert (Hqstk : In q stk).
    { apply (inv_compl _ _ _ I d q); auto; [exists (removelast y); rewrite Hq1; exact HP|].
      apply (inv_prefix_cur acc c stk s q I Hstep Hq). rewrite Hq1. apply removelast_prefix. }
    assert (Hq1' : In q stk1).
    { rewrite Hsplit in Hqstk. apply in_app_or in Hqstk. destruct Hqstk as [Hqp|Hqs]; [|exact Hqs].
      exfalso. assert (bytes_eqb (dir (st_path s)) (st_path q) = true).
      { apply dir_eq_parent; [exact Hok|apply (inv_okc _ _ _ I); exact Hq|exact Hq1]. }
      rewrite (Hpop q Hqp) in H. discriminate. }
    (* q is below d in the chain, hence shorter than d; but cp q extends cp d *)
    assert (Hch : chain_ok (popped ++ stk1)) by (rewrite <- Hsplit; apply (inv_chain _ _ _ I)).
    pose proof (chain_app_prefix popped stk1 Hch d q Hd Hq1') as Hpq.
    apply prefix_len in Hpq.
    assert (Hdn : cp d <> []) by (apply okc_nonempty, Hokd, Hinp, Hd).
    pose proof (removelast_len (cp d) Hdn) as Hl.
    rewrite Hq1, HP, app_length in Hpq. lia.
Qed.

(* a stack element above the next entry survives the pops *)
Lemma mpop_keeps acc c stk s q : Inv acc c stk -> step_ok acc s -> In q stk -> is_prefix (cp q) (cp s) ->
  In q (mpop (dir (st_path s)) stk).
Proof.
  intros I Hs Hq Hp. destruct (step_facts acc c stk s I Hs) as (popped & Hsplit & _ & _ & S2).
  rewrite Hsplit in Hq. apply in_app_or in Hq. destruct Hq as [Hq|Hq]; [destruct (S2 q Hq Hp)|exact Hq].
Qed.

(* the invariant after the step, for the three possible new stacks *)
Lemma inv_step acc c stk s stk' :
  Inv acc c stk -> step_ok acc s ->
  let stk1 := mpop (dir (st_path s)) stk in
  (stk' = [] \/ (stk' = stk1 /\ st_is_dir s = false) \/ (stk' = s :: stk1 /\ sel s = false /\ st_is_dir s = true)) ->
  Inv (acc ++ [s]) (cp s) stk'.
Proof.
  intros I Hstep stk1 Hcase.
  destruct (step_facts acc c stk s I Hstep) as (popped & Hsplit & _ & Htop & _).
  fold stk1 in Hsplit, Htop.
  pose proof Hstep as (Hok & Hlt & Hpar).
  pose proof (mpop_sub (dir (st_path s)) stk) as Hin1. fold stk1 in Hin1.
  (* completeness restricted to stk1, shared by the last two cases *)
  assert (Hcompl1 : forall d q, In d stk1 -> In q acc -> st_is_dir q = true ->
            is_prefix (cp d) (cp q) -> is_prefix (cp q) (cp s) -> In q stk1).
  { intros d q Hd Hq Hqd Hdq Hqs. apply (mpop_keeps acc c stk s q I Hstep); [|exact Hqs].
    apply (inv_compl _ _ _ I d q (Hin1 d Hd) Hq Hqd Hdq). eapply inv_prefix_cur; eauto. }
  assert (Hmem1 : forall d, In d stk1 -> In d (acc ++ [s]) /\ sel d = false /\ st_is_dir d = true).
  { intros d Hd. destruct (inv_mem _ _ _ I d (Hin1 d Hd)) as (H1 & H2 & H3). split; [apply in_or_app; left; exact H1|auto]. }
  assert (Hch1 : chain_ok stk1) by (apply (chain_app_r popped); rewrite <- Hsplit; apply (inv_chain _ _ _ I)).
  assert (Hle' : forall q, In q (acc ++ [s]) -> lex (cp q) (cp s) <> Gt).
  { intros q Hq. apply in_app_or in Hq. destruct Hq as [Hq|[<-|[]]]; [rewrite (Hlt q Hq)|rewrite lex_refl]; discriminate. }
  assert (Hokc' : forall q, In q (acc ++ [s]) -> okc (cp q)).
  { intros q Hq. apply in_app_or in Hq. destruct Hq as [Hq|[<-|[]]]; [apply (inv_okc _ _ _ I); exact Hq|exact Hok]. }
  assert (Hc' : cp s = [] \/ exists q, In q (acc ++ [s]) /\ cp q = cp s).
  { right. exists s. split; [apply in_or_app; right; left; reflexivity|reflexivity]. }
  destruct Hcase as [->|[[-> Hnd]|(-> & Hns & Hd)]].
  - constructor; auto; try exact Logic.I; try (intros ? []); try (intros ? ? []).
  - constructor; auto.
    intros d q Hd Hq Hqd Hdq Hqs. apply in_app_or in Hq. destruct Hq as [Hq|[<-|[]]].
    + eapply Hcompl1; eauto.
    + congruence.
  - constructor; auto.
    + intros d [<-|Hd0]; [split; [apply in_or_app; right; left; reflexivity|auto]|apply Hmem1; exact Hd0].
    + cbn [chain_ok]. split; [|exact Hch1]. destruct stk1; [exact Logic.I|exact Htop].
    + intros d q Hd0 Hq Hqd Hdq Hqs. apply in_app_or in Hq. destruct Hq as [Hq|[<-|[]]]; [|left; reflexivity].
      right. destruct Hd0 as [<-|Hd0].
      * exfalso. apply prefix_le in Hdq. apply Hdq. rewrite lex_opp, (Hlt q Hq). reflexivity.
      * eapply Hcompl1; eauto.
Qed.

Lemma filter_none {A} (f : A -> bool) l : (forall x, In x l -> f x = false) -> filter f l = [].
Proof.
  induction l as [|a l IH]; intros H; [reflexivity|]. cbn [filter]. rewrite (H a (or_introl eq_refl)).
  apply IH. intros x Hx. apply H. right. exact Hx.
Qed.

Lemma nd_cons_unsel s l x : sel s = false -> needed sel (s :: l) x = needed sel l x.
Proof. intros H. unfold needed. cbn [existsb]. rewrite H. reflexivity. Qed.

Lemma nd_no_desc l d : sel d = false ->
  (forall t, In t l -> under (st_path d) (st_path t) = false) -> needed sel l d = false.
Proof.
  intros Hs H. unfold needed. rewrite Hs. cbn [orb].
  destruct (existsb (fun t => sel t && under (st_path d) (st_path t)) l) eqn:E; [|apply andb_false_r].
  apply existsb_exists in E. destruct E as (t & Ht & E). rewrite (H t Ht), andb_false_r in E. discriminate.
Qed.

Lemma nd_anc l d s : st_is_dir d = true -> In s l -> sel s = true ->
  under (st_path d) (st_path s) = true -> needed sel l d = true.
Proof.
  intros Hd Hin Hs Hu. unfold needed. rewrite Hd. cbn [andb].
  apply orb_true_iff. right. apply existsb_exists. exists s. rewrite Hs, Hu. auto.
Qed.

Lemma fwd_gen l : forall acc c stk i,
  cvalid acc l -> Inv acc c stk -> (forall x, In x l -> is_listing x = false) ->
  r_forwarded (mrun sel i stk l) = filter (needed sel l) (rev stk) ++ filter (needed sel l) l.
Proof.
  induction l as [|s l' IH]; intros acc c stk i Hv HI Hnl.
  - cbn [mrun r_forwarded res_nil filter]. rewrite app_nil_r. symmetry. apply filter_none.
    intros d Hd. apply in_rev in Hd. apply nd_no_desc; [apply (inv_mem _ _ _ HI d Hd)|intros t []].
  - pose proof Hv as [Hstep Hv'].
    destruct (step_facts acc c stk s HI Hstep) as (popped & Hsplit & S1 & Htop & S2).
    set (stk1 := mpop (dir (st_path s)) stk) in *.
    pose proof Hstep as (Hok & Hlt & Hpar).
    assert (Hnl' : forall x, In x l' -> is_listing x = false) by (intros; apply Hnl; right; auto).
    assert (Hinp : forall d, In d popped -> In d stk) by (intros d Hd; rewrite Hsplit; apply in_or_app; left; exact Hd).
    pose proof (mpop_sub (dir (st_path s)) stk) as Hin1. fold stk1 in Hin1.
    assert (F1 : forall d, In d popped -> forall t, In t (s :: l') -> under (st_path d) (st_path t) = false).
    { intros d Hd t Ht. destruct (under (st_path d) (st_path t)) eqn:E; [|reflexivity]. exfalso.
      apply under_prefix in E. destruct E as (y & _ & Ey).
      apply (S2 d Hd). apply (prefix_interval (cp d) (cp s) (cp t)).
      - exists y. exact Ey.
      - rewrite (Hlt d); [discriminate|]. apply (inv_mem _ _ _ HI). apply Hinp. exact Hd.
      - destruct Ht as [<-|Ht]; [rewrite lex_refl; discriminate|]. rewrite (cvalid_head_lt _ _ _ Hv t Ht). discriminate. }
    assert (F2 : forall x, In x l' -> under (st_path x) (st_path s) = false).
    { intros x Hx. destruct (under (st_path x) (st_path s)) eqn:E; [|reflexivity]. exfalso.
      apply under_prefix in E. destruct E as (y & _ & Ey).
      assert (Hp : is_prefix (cp x) (cp s)) by (exists y; exact Ey). apply prefix_le in Hp. apply Hp.
      rewrite lex_opp, (cvalid_head_lt _ _ _ Hv x Hx). reflexivity. }
    assert (Hrev : rev stk = rev stk1 ++ rev popped) by (rewrite Hsplit at 1; apply rev_app_distr).
    assert (Hpopped_none : forall l0, (forall t, In t l0 -> In t (s :: l')) ->
              filter (needed sel l0) (rev popped) = []).
    { intros l0 Hsub. apply filter_none. intros d Hd. apply in_rev in Hd. apply nd_no_desc.
      - apply (inv_mem _ _ _ HI). apply Hinp. exact Hd.
      - intros t Ht. apply (F1 d Hd t (Hsub t Ht)). }
    cbn [mrun]. rewrite (Hnl s (or_introl eq_refl)). fold stk1.
    destruct (sel s) eqn:Es.
    + (* selected: the whole remaining stack is replayed, then s *)
      assert (HI' : Inv (acc ++ [s]) (cp s) []) by (apply (inv_step acc c stk s [] HI Hstep); left; reflexivity).
      cbn [r_forwarded]. rewrite (IH (acc ++ [s]) (cp s) [] (S i) Hv' HI' Hnl').
      rewrite Hrev, filter_app, (Hpopped_none (s :: l')) by auto. rewrite app_nil_r.
      rewrite (filter_all (needed sel (s :: l')) (rev stk1)).
      2:{ intros d Hd. apply in_rev in Hd. apply (nd_anc (s :: l') d s).
          - apply (inv_mem _ _ _ HI). apply Hin1. exact Hd.
          - left; reflexivity.
          - exact Es.
          - apply under_prefix. destruct (S1 d Hd) as (y & Hy & E). exists y. split; auto. }
      assert (Hns : needed sel (s :: l') s = true) by (unfold needed; rewrite Es; reflexivity).
      cbn [rev filter app]. rewrite Hns. f_equal. f_equal.
      apply filter_ext_in. intros x Hx. unfold needed. cbn [existsb]. rewrite (F2 x Hx), andb_false_r. reflexivity.
    + (* unselected: nothing is forwarded now *)
      assert (Hext : forall x, needed sel (s :: l') x = needed sel l' x) by (intro; apply nd_cons_unsel; exact Es).
      rewrite (filter_ext _ _ Hext (rev stk)), (filter_ext _ _ Hext (s :: l')).
      rewrite Hrev, filter_app, (Hpopped_none l') by (intros; right; auto). rewrite app_nil_r.
      destruct (st_is_dir s) eqn:Ed.
      * assert (HI' : Inv (acc ++ [s]) (cp s) (s :: stk1)).
        { apply (inv_step acc c stk s (s :: stk1) HI Hstep). right. right. auto. }
        cbn [r_forwarded]. rewrite (IH (acc ++ [s]) (cp s) (s :: stk1) (S i) Hv' HI' Hnl').
        cbn [rev]. rewrite filter_app. cbn [filter].
        destruct (needed sel l' s); rewrite <- app_assoc; reflexivity.
      * assert (HI' : Inv (acc ++ [s]) (cp s) stk1).
        { apply (inv_step acc c stk s stk1 HI Hstep). right. left. auto. }
        cbn [r_forwarded]. rewrite (IH (acc ++ [s]) (cp s) stk1 (S i) Hv' HI' Hnl').
        cbn [filter]. assert (Hns : needed sel l' s = false) by (unfold needed; rewrite Es, Ed; reflexivity).
        rewrite Hns. reflexivity.
Qed.

Lemma recv_stream_no_listing stats x : In x (recv_stream stats) -> is_listing x = false.
Proof. unfold recv_stream. intros H. apply filter_In in H. destruct H as [_ H]. apply negb_true_iff. exact H. Qed.

Theorem forwarded_exact_proof stats :
  valid_stream (recv_stream stats) ->
  r_forwarded (meta_recv sel stats) = filter (needed sel (recv_stream stats)) (recv_stream stats).
Proof.
  intros Hv. unfold meta_recv. rewrite (forwarded_recv_stream sel stats 0 0 []).
  rewrite (fwd_gen (recv_stream stats) [] [] [] 0 (proj1 (valid_stream_cvalid _) Hv) inv_init (recv_stream_no_listing stats)).
  reflexivity.
Qed.

End Part3.


(* dropping entries from an accepted stream keeps it accepted as long as no kept entry loses
   its parent directory *)
Lemma cvalid_filter (f : stat -> bool) l : forall acc, cvalid acc l ->
  (forall x q, In x l -> f x = true -> In q (acc ++ l) -> st_is_dir q = true -> cp q = removelast (cp x) -> f q = true) ->
  cvalid (filter f acc) (filter f l).
Proof.
  induction l as [|s r IH]; intros acc H Hcl; [exact I|]. destruct H as [(Hok & Hlt & Hpar) Hr].
  assert (IH' : cvalid (filter f (acc ++ [s])) (filter f r)).
  { apply (IH _ Hr). intros x q Hx Hfx Hq. apply Hcl; [right; exact Hx|exact Hfx|]. rewrite <- app_assoc in Hq. exact Hq. }
  rewrite filter_app in IH'. cbn [filter] in *. destruct (f s) eqn:Ef; [|rewrite app_nil_r in IH'; exact IH'].
  split; [|exact IH']. split; [exact Hok|]. split.
  - intros q Hq. apply filter_In in Hq. apply Hlt, Hq.
  - destruct Hpar as [Hpar|(q & Hq & Eq & Hd)]; [left; exact Hpar|right]. exists q. split; [|auto].
    apply filter_In. split; [exact Hq|]. apply (Hcl s q); auto; [left; reflexivity|apply in_or_app; left; exact Hq].
Qed.

Lemma valid_filter (f : stat -> bool) l :
  valid_stream l ->
  (forall x q, In x l -> f x = true -> In q l -> st_is_dir q = true -> cp q = removelast (cp x) -> f q = true) ->
  valid_stream (filter f l).
Proof. rewrite !valid_stream_cvalid. intros H Hcl. apply (cvalid_filter f l [] H Hcl). Qed.

Lemma valid_okc l : valid_stream l -> forall x, In x l -> okc (cp x).
Proof. intros H x Hx. apply (cvalid_later l [] (proj1 (valid_stream_cvalid l) H) x Hx). Qed.

(* an accepted entry leaves the seen paths alone unless it is a plain entry without link name,
   which is added; an accepted link finds its source among them *)
Lemma hl_step_some seen s seen' : hl_step seen s = Some seen' ->
  (seen' = seen /\ (hl_plain s = true -> has_link s = true /\ mem_bytes (st_linkname s) seen = true)) \/
  (seen' = st_path s :: seen /\ hl_plain s = true /\ has_link s = false).
Proof.
  unfold hl_step. destruct (hl_plain s), (has_link s); cbn [negb];
    [destruct (mem_bytes (st_linkname s) seen); [|discriminate]| | |]; intros [= <-]; auto.
  all: left; split; [reflexivity|discriminate].
Qed.

Lemma link_closed_iff sel l : link_closed sel l = true <->
  forall x t, In x l -> In t l -> sel x = true -> hl_plain x = true -> has_link x = true ->
    st_path t = st_linkname x -> sel t = true.
Proof.
  unfold link_closed. rewrite forallb_forall. split.
  - intros H x t Hx Ht Hs Hp Hl E. specialize (H x Hx). rewrite Hs, Hp, Hl in H. cbn [andb negb orb] in H. rewrite forallb_forall in H.
    specialize (H t Ht). rewrite E, bytes_eqb_refl in H. exact H.
  - intros H x Hx. destruct (sel x && hl_plain x && has_link x) eqn:E; [|reflexivity].
    apply andb_true_iff in E. destruct E as [E Hl]. apply andb_true_iff in E. destruct E as [Hs Hp].
    apply forallb_forall. intros t Ht. destruct (bytes_eqb (st_path t) (st_linkname x)) eqn:Eb; [|reflexivity].
    apply bytes_eqb_eq in Eb. apply (H x t); auto.
Qed.

Section Part4.
Variable sel : stat -> bool.

Lemma needed_parent_closed l : valid_stream l ->
  forall x q, In x l -> needed sel l x = true -> In q l ->
    st_is_dir q = true -> cp q = removelast (cp x) -> needed sel l q = true.
Proof.
  intros Hv x q Hx Hn Hq Hd E. destruct (valid_okc l Hv x Hx) as [Hne _].
  assert (Hb : cp x = cp q ++ [last (cp x) []]) by (rewrite E; apply app_removelast_last, Hne).
  unfold needed in Hn. apply orb_true_iff in Hn. destruct Hn as [Hs|Hn].
  - apply (nd_anc sel l q x); auto. apply under_prefix. exists [last (cp x) []]. split; [discriminate|exact Hb].
  - apply andb_true_iff in Hn. destruct Hn as [_ Hn]. apply existsb_exists in Hn.
    destruct Hn as (t & Ht & Hn). apply andb_true_iff in Hn. destruct Hn as [Hst Hu].
    apply (nd_anc sel l q t); auto. apply under_prefix. apply under_prefix in Hu.
    destruct Hu as (y & Hy & Ey). exists ([last (cp x) []] ++ y). split; [discriminate|].
    rewrite Ey. unfold cp in Hb. rewrite Hb, <- app_assoc. reflexivity.
Qed.

Lemma needed_valid l : valid_stream l -> valid_stream (filter (needed sel l) l).
Proof.
  intros Hv. apply valid_filter; [exact Hv|]. intros x q Hx Hn Hq. apply (needed_parent_closed _ Hv x q); auto.
Qed.

Lemma hl_filter (f : stat -> bool) (L : list stat) :
  (forall s, In s L -> f s = true -> hl_plain s = true -> has_link s = true ->
     forall t, In t L -> st_path t = st_linkname s -> f t = true) ->
  forall l seen seen' i j,
  (forall x, In x l -> In x L) ->
  (forall p, mem_bytes p seen = true -> (forall t, In t L -> st_path t = p -> f t = true) -> mem_bytes p seen' = true) ->
  hl_run seen l i = None -> hl_run seen' (filter f l) j = None.
Proof.
  intros Hlc. induction l as [|s r IH]; intros seen seen' i j Hsub HR H; [reflexivity|].
  cbn [hl_run] in H. destruct (hl_step seen s) as [seen1|] eqn:E; [|discriminate].
  assert (Hs : In s L) by (apply Hsub; left; reflexivity).
  assert (Hsub' : forall x, In x r -> In x L) by (intros; apply Hsub; right; auto).
  apply hl_step_some in E. cbn [filter]. destruct (f s) eqn:Ef.
  - cbn [hl_run]. unfold hl_step.
    destruct E as [[-> E]|(-> & -> & ->)]; cbn [negb].
    + destruct (hl_plain s) eqn:Ep; cbn [negb]; [|eapply IH; eauto].
      destruct (E eq_refl) as [El Em]. rewrite El, (HR _ Em) by (apply Hlc; auto). eapply IH; eauto.
    + apply (IH (st_path s :: seen) _ (S i)); auto.
      intros p Hp Hall. cbn [mem_bytes] in *. apply orb_true_iff in Hp. apply orb_true_iff.
      destruct Hp as [Hp|Hp]; [left; exact Hp|right; apply HR; auto].
  - apply (IH seen1 seen' (S i) j); auto. intros p Hp Hall.
    destruct E as [[-> _]|(-> & _)]; [apply HR; auto|].
    cbn [mem_bytes] in Hp. apply orb_true_iff in Hp. destruct Hp as [Hp|Hp]; [|apply HR; auto].
    apply bytes_eqb_eq in Hp. subst p. rewrite (Hall s Hs eq_refl) in Ef. discriminate.
Qed.

Lemma needed_plain l s : hl_plain s = true -> needed sel l s = sel s.
Proof.
  unfold hl_plain, needed, st_is_dir. intros H. apply andb_true_iff in H. destruct H as [H _].
  apply negb_true_iff in H. rewrite H. cbn [andb]. apply orb_false_r.
Qed.

Lemma hl_needed l : hardlink_check l = None -> link_closed sel l = true ->
  hardlink_check (filter (needed sel l) l) = None.
Proof.
  intros H Hlc. apply (hl_filter (needed sel l) l) with (seen := []) (i := 0); auto; try (intros p; discriminate).
  intros s Hs Hf Hp Hl t Ht Et. rewrite (needed_plain l s Hp) in Hf.
  unfold needed. rewrite (proj1 (link_closed_iff sel l) Hlc s t); auto.
Qed.

Theorem forwarded_valid_proof stats :
  valid_stream (recv_stream stats) -> hardlink_check (recv_stream stats) = None ->
  link_closed sel (recv_stream stats) = true ->
  valid_stream (r_forwarded (meta_recv sel stats)) /\ hardlink_check (r_forwarded (meta_recv sel stats)) = None.
Proof.
  intros Hv Hh Hlc. rewrite (forwarded_exact_proof sel stats Hv). split; [apply needed_valid|apply hl_needed]; auto.
Qed.
End Part4.

(* the skipped listing-name entry: when nothing depends on it, what the receiver's validator sees is
   accepted whenever the announced sequence is *)
Lemma recv_valid_of_valid_proof stats :
  valid_stream stats ->
  (forall t, In t stats -> under listing_name (st_path t) = false) ->
  valid_stream (recv_stream stats).
Proof.
  intros Hv Hdep. unfold recv_stream. apply valid_filter; [exact Hv|].
  intros x q Hx Hfx Hq Hd E. apply negb_true_iff. destruct (is_listing q) eqn:El; [|reflexivity]. exfalso.
  unfold is_listing in El. apply bytes_eqb_eq in El. destruct (valid_okc _ Hv x Hx) as [Hne _].
  assert (Hu : under listing_name (st_path x) = true).
  { apply under_prefix. exists [last (cp x) []]. split; [discriminate|].
    rewrite <- El. fold (cp q) (cp x). rewrite E. apply app_removelast_last, Hne. }
  rewrite (Hdep x Hx) in Hu. discriminate.
Qed.

Lemma recv_stream_id stats : (forall s, In s stats -> st_path s <> listing_name) -> recv_stream stats = stats.
Proof.
  intros H. unfold recv_stream. apply filter_all. intros x Hx. apply negb_true_iff.
  unfold is_listing. apply bytes_eqb_neq. apply H. exact Hx.
Qed.

Theorem forwarded_exact_plain_proof sel stats :
  valid_stream stats -> (forall s, In s stats -> st_path s <> listing_name) ->
  r_forwarded (meta_recv sel stats) = filter (needed sel stats) stats.
Proof.
  intros Hv Hn. pose proof (forwarded_exact_proof sel stats) as H.
  rewrite (recv_stream_id stats Hn) in H. apply H. exact Hv.
Qed.

Section Part5.
Variable sel : stat -> bool.

(* What Inv leaves open for the exact description of the stack: every stack element is an
   ancestor-or-self of the position with no selected entry at or below it so far, and every
   unselected directory of [acc] of which that holds is on the stack. *)
Record Inv2 (acc : list stat) (c : cpath) (stk : list stat) : Prop := {
  i2_pre : forall d, In d stk -> is_prefix (cp d) c;
  i2_nosel : forall d t, In d stk -> In t acc -> sel t = true -> ~ is_prefix (cp d) (cp t);
  i2_all : forall q, In q acc -> sel q = false -> st_is_dir q = true -> is_prefix (cp q) c ->
           (forall t, In t acc -> sel t = true -> ~ is_prefix (cp q) (cp t)) -> In q stk
}.

Definition next_stack (stk : list stat) (s : stat) : list stat :=
  let stk1 := mpop (dir (st_path s)) stk in
  if sel s then [] else if st_is_dir s then s :: stk1 else stk1.

Lemma inv_next acc c stk s : Inv sel acc c stk -> step_ok acc s -> Inv sel (acc ++ [s]) (cp s) (next_stack stk s).
Proof.
  intros HI Hs. apply (inv_step sel acc c stk s _ HI Hs). unfold next_stack. cbv zeta.
  destruct (sel s) eqn:Es; [auto|]. destruct (st_is_dir s) eqn:Ed; auto.
Qed.

Lemma inv2_next acc c stk s :
  Inv sel acc c stk -> Inv2 acc c stk -> step_ok acc s -> Inv2 (acc ++ [s]) (cp s) (next_stack stk s).
Proof.
  intros HI H2 Hstep.
  destruct (step_facts sel acc c stk s HI Hstep) as (popped & _ & S1 & _ & _).
  set (stk1 := mpop (dir (st_path s)) stk) in *.
  pose proof Hstep as (Hok & Hlt & Hpar).
  pose proof (mpop_sub (dir (st_path s)) stk) as Hin1. fold stk1 in Hin1.
  unfold next_stack. fold stk1. destruct (sel s) eqn:Es.
  - (* selected: empty stack; nothing qualifies any more *)
    constructor; [intros d []|intros d t []|].
    intros q Hq Hsq Hdq Hpq Hno. exfalso. apply (Hno s); [apply in_or_app; right; left; reflexivity|exact Es|exact Hpq].
  - (* unselected *)
    assert (Hno1 : forall d t, In d stk1 -> In t (acc ++ [s]) -> sel t = true -> ~ is_prefix (cp d) (cp t)).
    { intros d t Hd Ht Hst. apply in_app_or in Ht. destruct Ht as [Ht|[<-|[]]]; [|congruence].
      apply (i2_nosel _ _ _ H2 d t (Hin1 d Hd) Ht Hst). }
    assert (Hall1 : forall q, In q acc -> sel q = false -> st_is_dir q = true -> is_prefix (cp q) (cp s) ->
              (forall t, In t (acc ++ [s]) -> sel t = true -> ~ is_prefix (cp q) (cp t)) -> In q stk1).
    { intros q Hq Hsq Hdq Hpq Hno. apply (mpop_keeps sel acc c stk s q HI Hstep); [|exact Hpq].
      apply (i2_all _ _ _ H2 q Hq Hsq Hdq); [eapply inv_prefix_cur; eauto|].
      intros t Ht. apply Hno. apply in_or_app. left. exact Ht. }
    assert (Hpre1 : forall d, In d stk1 -> is_prefix (cp d) (cp s)).
    { intros d Hd. destruct (S1 d Hd) as (y & _ & E). exists y. exact E. }
    destruct (st_is_dir s) eqn:Ed.
    + constructor.
      * intros d [<-|Hd]; [apply prefix_refl|apply Hpre1; exact Hd].
      * intros d t [<-|Hd] Ht Hst; [|apply Hno1; auto].
        apply in_app_or in Ht. destruct Ht as [Ht|[<-|[]]]; [|congruence].
        intro Hp. apply prefix_le in Hp. apply Hp. rewrite lex_opp, (Hlt t Ht). reflexivity.
      * intros q Hq Hsq Hdq Hpq Hno. apply in_app_or in Hq. destruct Hq as [Hq|[<-|[]]]; [right|left; reflexivity].
        apply Hall1; auto.
    + constructor; [exact Hpre1|exact Hno1|].
      intros q Hq Hsq Hdq Hpq Hno. apply in_app_or in Hq. destruct Hq as [Hq|[<-|[]]]; [|congruence].
      apply Hall1; auto.
Qed.

Lemma inv2_init : Inv2 [] [] [].
Proof. constructor; [intros d []|intros d t []|intros q []]. Qed.

Lemma mstack_cons stk s l : is_listing s = false -> mstack sel stk (s :: l) = mstack sel (next_stack stk s) l.
Proof.
  intros H. cbn [mstack]. rewrite H. unfold next_stack. cbv zeta.
  destruct (sel s); [reflexivity|]. destruct (st_is_dir s); reflexivity.
Qed.

Lemma last_cons_default {A} (l : list A) : forall x d, last (x :: l) d = last l x.
Proof.
  induction l as [|y l IH]; intros x d; [reflexivity|].
  change (last (x :: y :: l) d) with (last (y :: l) d). rewrite (IH y d), (IH y x). reflexivity.
Qed.

Lemma mstack_inv l : forall acc c stk,
  cvalid acc l -> Inv sel acc c stk -> Inv2 acc c stk -> (forall x, In x l -> is_listing x = false) ->
  Inv sel (acc ++ l) (last (map cp l) c) (mstack sel stk l) /\ Inv2 (acc ++ l) (last (map cp l) c) (mstack sel stk l).
Proof.
  induction l as [|s r IH]; intros acc c stk Hv HI H2 Hnl.
  - cbn [map last mstack]. rewrite app_nil_r. auto.
  - destruct Hv as [Hstep Hv'].
    rewrite (mstack_cons stk s r (Hnl s (or_introl eq_refl))).
    cbn [map]. rewrite last_cons_default.
    replace (acc ++ s :: r) with ((acc ++ [s]) ++ r) by (rewrite <- app_assoc; reflexivity).
    apply IH; auto.
    + apply (inv_next acc c stk s); auto.
    + apply (inv2_next acc c stk s); auto.
    + intros x Hx. apply Hnl. right. exact Hx.
Qed.

(* after an accepted prefix pre ++ [cur] of the stream the pending stack is a parent chain and
   holds exactly the unselected directories of the prefix that are ancestors-or-self of the
   current entry and have no selected entry at or below them so far (= not yet forwarded) *)
Theorem stack_exact_proof pre cur :
  valid_stream (pre ++ [cur]) -> (forall x, In x (pre ++ [cur]) -> is_listing x = false) ->
  chain_ok (mstack sel [] (pre ++ [cur])) /\
  forall d, In d (mstack sel [] (pre ++ [cur])) <->
    (In d (pre ++ [cur]) /\ sel d = false /\ st_is_dir d = true /\ is_prefix (cp d) (cp cur)
     /\ forall t, In t (pre ++ [cur]) -> sel t = true -> ~ is_prefix (cp d) (cp t)).
Proof.
  intros Hv Hnl.
  destruct (mstack_inv (pre ++ [cur]) [] [] [] (proj1 (valid_stream_cvalid _) Hv) (inv_init sel) inv2_init Hnl) as [HI H2].
  cbn [app] in HI, H2. rewrite map_app in HI, H2. cbn [map] in HI, H2. rewrite last_last in HI, H2.
  split; [apply (inv_chain _ _ _ _ HI)|].
  intros d. split.
  - intros Hd. destruct (inv_mem _ _ _ _ HI d Hd) as (H1 & H3 & H4).
    repeat split; auto; [apply (i2_pre _ _ _ H2 d Hd)|].
    intros t Ht Hst. apply (i2_nosel _ _ _ H2 d t Hd Ht Hst).
  - intros (H1 & H3 & H4 & H5 & H6). apply (i2_all _ _ _ H2 d); auto.
Qed.
End Part5.
