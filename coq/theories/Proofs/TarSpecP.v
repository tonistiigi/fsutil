(* The archive of the tar export model (Model/TarHdr.v) satisfies the member-by-member
   specification that the correspondence run evaluates (its oracle). *)
From Coq Require Import List NArith ZArith Bool Lia ZifyN ZifyNat ZifyBool.
From FS Require Import Sx Model.Path Model.Stat Model.Tree Model.Hardlinks Model.TarHdr Proofs.Lex Proofs.TarP.
Import ListNotations.
Open Scope N_scope.

Definition ek_hi (h : N) : ekind :=
  let t := N.land h TypeHi in
  if N.eqb t 0 then KReg
  else if N.eqb t (ModeDir / 512) then KDir
  else if N.eqb t (ModeSymlink / 512) then KSym
  else if N.eqb t ((ModeDevice + ModeCharDevice) / 512) then KChar
  else if N.eqb t (ModeDevice / 512) then KBlock
  else if N.eqb t (ModeNamedPipe / 512) then KFifo
  else KOther.

Lemma eqb_512_const : forall x C, C mod 512 = 0 -> N.eqb (512 * x) C = N.eqb x (C / 512).
Proof.
  intros x C H. pose proof (N.div_mod C 512 ltac:(discriminate)) as D. rewrite H, N.add_0_r in D.
  rewrite D at 1. apply eqb_512_both.
Qed.

Lemma ekind_hi : forall m, ekind_of m = ek_hi (m / 512).
Proof.
  intro m. unfold ekind_of, ek_hi. cbv zeta.
  change ModeType with (512 * TypeHi). rewrite land_high.
  rewrite eqb_512.
  rewrite (eqb_512_const _ ModeDir eq_refl), (eqb_512_const _ ModeSymlink eq_refl),
          (eqb_512_const _ (ModeDevice + ModeCharDevice) eq_refl), (eqb_512_const _ ModeDevice eq_refl),
          (eqb_512_const _ ModeNamedPipe eq_refl).
  reflexivity.
Qed.

Definition is_kdir (k : ekind) : bool := match k with KDir => true | _ => false end.
Definition is_kreg (k : ekind) : bool := match k with KReg => true | _ => false end.

Definition spec_facts (h : N) (ln : bytes) : bool :=
  optN_eqb (spec_typeflag (ek_hi h) (negb (is_nil ln))) (tf_hi h ln)
  && Bool.eqb (is_kdir (ek_hi h)) (has_bits h (ModeDir / 512))
  && Bool.eqb (is_kreg (ek_hi h)) (reg_hi h)
  && (tm_hi h <? 8)
  && Bool.eqb (N.testbit (tm_hi h) 2) (N.testbit h 14)
  && Bool.eqb (N.testbit (tm_hi h) 1) (N.testbit h 13)
  && Bool.eqb (N.testbit (tm_hi h) 0) (N.testbit h 11).

Lemma wf_high_parts_spec_facts :
  forallb (fun h => spec_facts h [] && (negb (link_ok_w_hi h [0]) || spec_facts h [0])) wf_high_parts = true.
Proof. vm_compute. reflexivity. Qed.

(* on the wide write domain: a link name on anything but a directory *)
Lemma spec_facts_of_wf : forall m ln,
  mode_okb m = true -> link_ok_w m ln = true -> spec_facts (m / 512) ln = true.
Proof.
  intros m ln Hm Hl. unfold mode_okb in Hm.
  apply existsb_exists in Hm. destruct Hm as [x [Hin Hx]].
  apply N.eqb_eq in Hx. rewrite Hx. rewrite link_ok_w_hi_eq, Hx in Hl.
  pose proof wf_high_parts_spec_facts as F. rewrite forallb_forall in F. specialize (F x Hin).
  apply andb_true_iff in F. destruct F as [F1 F2].
  destruct ln as [| c r]; [exact F1 |].
  change (spec_facts x (c :: r)) with (spec_facts x [0]).
  change (link_ok_w_hi x (c :: r)) with (link_ok_w_hi x [0]) in Hl. rewrite Hl in F2. exact F2.
Qed.

Lemma testbit_hi : forall m k, N.testbit m (9 + k) = N.testbit (m / 512) k.
Proof.
  intros m k. change 512 with (2 ^ 9). rewrite <- N.shiftr_div_pow2, N.shiftr_spec'.
  f_equal. lia.
Qed.

Lemma sint_of_sint : forall z, (- Z.of_N two63 <= z < Z.of_N two63)%Z -> sint (of_sint z) = z.
Proof.
  intros z Hz. unfold sint, of_sint.
  change (Z.of_N two64) with 18446744073709551616%Z in *.
  change (Z.of_N two63) with 9223372036854775808%Z in *.
  destruct (Z.ltb_spec z 0) as [Hneg | Hpos].
  - assert (E : (z mod 18446744073709551616 = z + 18446744073709551616)%Z).
    { symmetry. apply (Z.mod_unique _ _ (-1)); lia. }
    rewrite E. destruct (N.ltb_spec (Z.to_N (z + 18446744073709551616)) two63) as [A | A]; unfold two63 in A; lia.
  - rewrite Z.mod_small by lia.
    destruct (N.ltb_spec (Z.to_N z) two63) as [A | A]; unfold two63 in A; lia.
Qed.

Lemma mtime_clause : forall t,
  (-9223372036500000000 <= sint t < 9223372036500000000)%Z ->
  (Z.eqb (sint (round_ns t) mod ns_per_s) 0 && Z.ltb (Z.abs (sint (round_ns t) - sint t)) ns_per_s)%Z = true.
Proof.
  intros t Hr. unfold round_ns, round_sec, ns_per_s.
  set (z := sint t) in *.
  assert (Hq : (- 9223372036 <= (z + 500000000) / 1000000000 < 9223372037)%Z).
  { split.
    - apply Z.div_le_lower_bound; lia.
    - apply Z.div_lt_upper_bound; lia. }
  rewrite sint_of_sint by (change (Z.of_N two63) with 9223372036854775808%Z; lia).
  rewrite Z.mod_mul by lia.
  pose proof (Z.div_mod (z + 500000000) 1000000000 ltac:(lia)) as D.
  pose proof (Z.mod_pos_bound (z + 500000000) 1000000000 ltac:(lia)) as B.
  apply andb_true_iff. split; [reflexivity |]. apply Z.ltb_lt. lia.
Qed.

(* the mode clauses, in a clean context (lia must not see the hypotheses of the main proof) *)
Lemma lt_4096 : forall p h, p < 512 -> h < 8 -> p + 512 * h < 4096.
Proof. intros. lia. Qed.

Lemma tar_mode_lt : forall m, tm_hi (m / 512) < 8 -> (tar_mode m <? 4096) = true.
Proof.
  intros m H. rewrite tar_mode_split. apply N.ltb_lt. apply lt_4096; [apply mod512_lt | exact H].
Qed.

Lemma tar_mode_mod : forall m, N.eqb (tar_mode m mod 512) (m mod 512) = true.
Proof. intro m. rewrite tar_mode_split, split_mod by apply mod512_lt. apply N.eqb_refl. Qed.

Lemma tar_mode_bit : forall m k j,
  N.testbit (tm_hi (m / 512)) k = N.testbit (m / 512) j ->
  Bool.eqb (N.testbit (tar_mode m) (9 + k)) (N.testbit m (9 + j)) = true.
Proof.
  intros m k j H. rewrite !testbit_hi, tar_mode_split, split_div by apply mod512_lt.
  rewrite H. apply eqb_reflx.
Qed.

Lemma model_meets_spec_entry_w : forall e,
  wf_entry_wb e = true -> mtime_in_range e = true ->
  member_matches e (archived_member (member_of_entry e)) = true.
Proof.
  intros e Hwf Hmt.
  destruct (wf_entry_w_parts e Hwf) as [[Hm [Hlk Hp]] [Hsz _]].
  pose proof (spec_facts_of_wf _ _ Hm Hlk) as F. unfold spec_facts in F.
  repeat (apply andb_true_iff in F; let X := fresh "F" in destruct F as [F X]).
  rename F into Ftf, F0 into Fb9, F1 into Fb10, F2 into Fb11, F3 into Flt, F4 into Freg, F5 into Fdir.
  apply eqb_prop in Fb9, Fb10, Fb11, Freg, Fdir. apply N.ltb_lt in Flt.
  pose proof (payload_size_entry_w e Hwf) as Hps.
  unfold member_matches, archived_member, member_of_entry in *. cbn [fst snd] in *.
  cbn [archived hdr_of_stat h_name h_typeflag h_mode h_uid h_gid h_size h_mtime h_linkname h_devmajor h_devminor h_xattrs].
  unfold hdr_of_stat at 1 in Hps. cbn [h_size] in Hps.
  set (s := fst e) in *. set (m := st_mode s) in *.
  rewrite <- (ekind_hi m) in *. rewrite <- (hdr_typeflag_hi m) in Ftf.
  rewrite <- mode_is_dir_hi in Fdir. rewrite <- mode_is_regular_hi in Freg.
  (* name *)
  assert (E1 : bytes_eqb (tar_name m (st_path s)) (match ekind_of m with KDir => st_path s ++ [sep] | _ => st_path s end) = true).
  { unfold tar_name. rewrite Hp, <- Fdir. cbn [negb]. rewrite andb_true_r.
    destruct (ekind_of m); cbn [is_kdir]; apply bytes_eqb_refl. }
  rewrite E1, Ftf.
  (* mode *)
  rewrite (tar_mode_lt m Flt), (tar_mode_mod m).
  change 11 with (9 + 2). change 23 with (9 + 14). rewrite (tar_mode_bit m 2 14 Fb11).
  change 10 with (9 + 1). change 22 with (9 + 13). rewrite (tar_mode_bit m 1 13 Fb10).
  change (N.testbit (tar_mode m) 9) with (N.testbit (tar_mode m) (9 + 0)). change 20 with (9 + 11).
  rewrite (tar_mode_bit m 0 11 Fb9).
  rewrite !N.eqb_refl.
  (* mtime *)
  unfold mtime_in_range in Hmt. fold s in Hmt. apply andb_true_iff in Hmt. destruct Hmt as [Ha Hb].
  apply Z.leb_le in Ha. apply Z.ltb_lt in Hb.
  rewrite (mtime_clause (st_mtime s) (conj Ha Hb)).
  rewrite bytes_eqb_refl, xattrs_eqb_refl.
  (* payload *)
  rewrite Hps, N.eqb_refl.
  rewrite has_payload_spec. fold s. unfold carries_size. fold m.
  assert (E7 : (match ekind_of m with KReg => negb (negb (is_nil (st_linkname s))) | _ => false end)
               = is_nil (st_linkname s) && mode_is_regular m).
  { rewrite <- Freg. destruct (ekind_of m); cbn [is_kreg]; rewrite ?negb_involutive, ?andb_true_r, ?andb_false_r; reflexivity. }
  rewrite E7.
  destruct (is_nil (st_linkname s) && mode_is_regular m) eqn:C; cbn [andb].
  - destruct (Z.ltb_spec 0 (sint (st_size s))) as [Hpos | Hnpos]; [rewrite bytes_eqb_refl; reflexivity |].
    destruct (Hsz C) as [Hlt63 Heq].
    rewrite (blen_0 (snd e)) by (rewrite <- Heq; exact (sint_nonpos _ Hlt63 Hnpos)). reflexivity.
  - reflexivity.
Qed.

Lemma model_meets_spec_entry : forall e,
  wf_entry_b e = true -> mtime_in_range e = true ->
  member_matches e (archived_member (member_of_entry e)) = true.
Proof. intros e H. apply model_meets_spec_entry_w. apply wf_entry_narrow_wide. exact H. Qed.

Lemma members_match_model_w : forall l,
  wf_listing_wb l = true -> forallb mtime_in_range l = true ->
  members_match l (map archived_member (tar_of_listing l)) = true.
Proof.
  induction l as [| e r IH]; intros Hwf Hmt; [reflexivity |].
  cbn [wf_listing_wb forallb] in Hwf, Hmt.
  apply andb_true_iff in Hwf. destruct Hwf as [He Hr].
  apply andb_true_iff in Hmt. destruct Hmt as [Hme Hmr].
  cbn [tar_of_listing map members_match].
  rewrite (model_meets_spec_entry_w e He Hme). apply IH; assumption.
Qed.

(* the member-by-member specification on the wide write domain, for any listing *)
Lemma model_meets_member_spec_wide_proof : forall l,
  wf_listing_wb (reset_entries l) = true -> forallb mtime_in_range (reset_entries l) = true ->
  members_match (reset_entries l) (map archived_member (tar_members_listing l)) = true.
Proof. intros l H T. unfold tar_members_listing. apply members_match_model_w; assumption. Qed.

Lemma carries_size_member : forall t, carries_size (fst t) = true ->
  h_typeflag (fst (archived_member (member_of_entry t))) = TypeReg
  /\ h_name (fst (archived_member (member_of_entry t))) = st_path (fst t).
Proof.
  intros t C. unfold carries_size in C. apply andb_true_iff in C. destruct C as [Hnil Hreg].
  unfold archived_member, member_of_entry. cbn [fst archived hdr_of_stat h_typeflag h_name].
  split.
  - unfold hdr_typeflag, fih_typeflag. rewrite Hnil, Hreg. reflexivity.
  - unfold tar_name, mode_is_dir, has_bits.
    unfold mode_is_regular in Hreg. apply N.eqb_eq in Hreg.
    rewrite (land_submask _ ModeType ModeDir eq_refl Hreg). reflexivity.
Qed.

(* the check links_resolve_from makes on the member of [e]: only a link name on a non-symlink
   makes it a TypeLink member *)
Lemma link_member_resolves : forall e seen,
  (is_nil (st_linkname (fst e)) = false -> mode_is_symlink (st_mode (fst e)) = false ->
   existsb (bytes_eqb (st_linkname (fst e))) seen = true) ->
  (if N.eqb (h_typeflag (fst (archived_member (member_of_entry e)))) TypeLink
   then existsb (bytes_eqb (h_linkname (fst (archived_member (member_of_entry e))))) seen else true) = true.
Proof.
  intros e seen H.
  replace (h_typeflag (fst (archived_member (member_of_entry e))))
    with (hdr_typeflag (st_mode (fst e)) (st_linkname (fst e))) by reflexivity.
  replace (h_linkname (fst (archived_member (member_of_entry e)))) with (st_linkname (fst e)) by reflexivity.
  rewrite typeflag_link_iff.
  destruct (is_nil (st_linkname (fst e))) eqn:Hnil; [reflexivity |].
  destruct (mode_is_symlink (st_mode (fst e))) eqn:Hsym; [reflexivity |]. exact (H eq_refl eq_refl).
Qed.

(* every hard-link member names an earlier regular member *)
Lemma links_resolve_closed_gen : forall l done seen,
  links_wf l ->
  (forall t, In t done -> carries_size (fst t) = true -> existsb (bytes_eqb (st_path (fst t))) seen = true) ->
  links_closed_from done l = true ->
  links_resolve_from seen (map archived_member (tar_of_listing l)) = true.
Proof.
  induction l as [| e r IH]; intros done seen Hwf Hseen Hcl; [reflexivity |].
  cbn [links_closed_from] in Hcl. apply andb_true_iff in Hcl. destruct Hcl as [Ht Hcl].
  assert (Hwf' : links_wf r) by (intros x Hx; apply Hwf; right; exact Hx).
  pose proof (Hwf e (or_introl eq_refl)) as Hlk.
  cbn [tar_of_listing map links_resolve_from].
  apply andb_true_iff. split.
  - apply link_member_resolves. intros Hnil Hsym.
    unfold link_ok in Hlk. rewrite Hnil, Hsym in Hlk. cbn [orb] in Hlk.
    unfold link_target_ok, carries_size in Ht. rewrite Hnil, Hlk in Ht. cbn [andb] in Ht.
    destruct (find_entry (st_linkname (fst e)) done) as [t |] eqn:Hf; [| discriminate].
    apply andb_true_iff in Ht. destruct Ht as [Ht _]. apply andb_true_iff in Ht. destruct Ht as [Ct _].
    destruct (find_entry_some _ _ _ Hf) as [Hin Hp].
    rewrite <- Hp. apply Hseen; assumption.
  - apply (IH (done ++ [e])); try assumption.
    intros t Hin C. apply in_app_or in Hin. destruct Hin as [Hin | [Heq | []]].
    + pose proof (Hseen t Hin C) as X.
      destruct (N.eqb (h_typeflag (fst (archived_member (member_of_entry e)))) TypeReg); [| exact X].
      cbn [existsb]. rewrite X. apply orb_true_r.
    + subst t. destruct (carries_size_member e C) as [Htf Hnm]. rewrite Htf, Hnm.
      cbn [N.eqb existsb]. rewrite N.eqb_refl. cbn [existsb]. rewrite bytes_eqb_refl. reflexivity.
Qed.

(* for ANY listing handed to WriteTar (a filtered walk): the expectation is the listing after
   the hard-link reset, exactly what the run's oracle (Glue/C17G.spec_archive) evaluates *)
Lemma model_meets_member_spec_proof : forall l,
  wf_listing_b (reset_entries l) = true -> forallb mtime_in_range (reset_entries l) = true ->
  members_match (reset_entries l) (map archived_member (tar_members_listing l)) = true
  /\ (links_closed (reset_entries l) = true ->
      links_resolve (map archived_member (tar_members_listing l)) = true).
Proof.
  intros l H T. unfold tar_members_listing. split.
  - apply members_match_model_w; [apply wf_listing_narrow_wide|]; assumption.
  - intro C. unfold links_resolve. apply (links_resolve_closed_gen (reset_entries l) [] []).
    + apply wf_links_wf. exact H.
    + intros t [].
    + exact C.
Qed.

(* a whole view whose links are closed: the expectation is the view's own walk *)
Lemma model_meets_member_spec_view_proof : forall v,
  wf_listing_b (walk_root v) = true -> links_closed (walk_root v) = true ->
  forallb mtime_in_range (walk_root v) = true ->
  members_match (walk_root v) (archive v) = true /\ links_resolve (archive v) = true.
Proof.
  intros v H C T.
  pose proof (reset_entries_closed _ (wf_links_wf _ H) C) as R.
  assert (H' : wf_listing_b (reset_entries (walk_root v)) = true) by (rewrite R; exact H).
  assert (T' : forallb mtime_in_range (reset_entries (walk_root v)) = true) by (rewrite R; exact T).
  destruct (model_meets_member_spec_proof (walk_root v) H' T') as [A B].
  unfold archive, tar_members. rewrite R in A, B. split; [exact A | apply B; exact C].
Qed.
