(* Witnesses for C11: refutations (evaluated by vm_compute) and closed examples. *)
From Coq Require Import List NArith Bool String Ascii.
From FS Require Import Sx Model.Path Model.Stat Model.Tree Model.Pattern Model.FilterWalk
  Model.Hardlinks Model.Validator Model.Diff Model.AbsDest Model.SenderView
  Proofs.Lex Proofs.PathP Proofs.PatternP Proofs.WitnessP Proofs.DiffP Proofs.SenderViewP.
Import ListNotations.
Open Scope bool_scope.

Lemma groups_coherent_b_sound view : groups_coherent_b view = true -> groups_coherent view.
Proof.
  unfold groups_coherent_b, groups_coherent. intros H s b t b' Hs Ht Hp Hp' Eo.
  rewrite forallb_forall in H. specialize (H _ Hs). rewrite forallb_forall in H. specialize (H _ Ht).
  cbn [fst snd] in H. rewrite Hp, Hp', Eo, bytes_eqb_refl in H. cbn [andb negb orb] in H.
  apply andb_true_iff in H. destruct H as [H1 H2]. apply bytes_eqb_eq in H1. apply N.eqb_eq in H2. auto.
Qed.

Lemma id_map_keeps_shape : map_keeps_shape id_map.
Proof. intros p s. cbn. auto. Qed.
Lemma id_map_keeps_special : map_keeps_special id_map.
Proof. intros p s. reflexivity. Qed.
Lemma id_map_never_drops : map_never_drops_dirs id_map.
Proof. intros p s _. discriminate. Qed.
Lemma id_map_keeps_all : forall p (s : stat), fst (id_map p s) = MKeep.
Proof. reflexivity. Qed.

(* K1 seen by the walk/Open pair: include [d, !d/c, d], tree d/{c,e}: the walk hides d/c,
   Open serves it *)
Definition k1_q : list N := bs "d/c".

Lemma k1_walk_open_disagree :
  wf_source k1_view = true /\ source_file k1_view k1_q = true /\
  reported pm_lit id_map k1_cfg k1_view k1_q = false /\ filter_open pm_lit k1_cfg k1_q = true.
Proof. vm_compute. repeat split; reflexivity. Qed.

(* the harmful direction: the same list as EXCLUDE patterns: the walk announces d/c,
   Open refuses it, the sender delivers an empty file *)
Definition k1x_cfg : cfg := {| c_inc := None; c_exc := Some k1_pats; c_prune := true |}.

Lemma k1x_announced_unopenable :
  wf_source k1_view = true /\ source_links_ok k1_view = true /\ groups_coherent_b k1_view = true /\
  cfg_star_safe k1x_cfg = true /\
  paths (sender_view pm_lit id_map k1x_cfg k1_view) = [bs "d"; bs "d/c"] /\
  filter_open pm_lit k1x_cfg k1_q = false /\
  content_at k1_view k1_q = [120%N] /\ sent_content pm_lit k1x_cfg k1_view k1_q = [].
Proof. vm_compute. repeat split; reflexivity. Qed.

Definition Hid (b : list N) : list N := b.
Definition hid (s : stat) : list N := st_path s.

Lemma k1x_transfer_loses_content :
  let r := receive_abs Hid hid Fresh DMetadata [] (sender_entries pm_lit id_map k1x_cfg k1_view) in
  ds_err r = false /\
  ~ view_equiv (alookup k1_q (ds_map r)) (efind k1_q (filtered_entries pm_lit id_map k1x_cfg k1_view)).
Proof.
  cbv zeta. split; [vm_compute; reflexivity|].
  intros Hv. vm_compute in Hv. destruct Hv as [_ Hv]. specialize (Hv eq_refl). discriminate.
Qed.

(* a map function that drops a directory but keeps its contents: the stream is rejected *)
Definition drop_d (p : list N) (s : stat) : mres * stat :=
  if bytes_eqb p (bs "d") then (MExclude, s) else (MKeep, s).
Definition nopat_cfg : cfg := {| c_inc := None; c_exc := None; c_prune := true |}.

Lemma drop_d_keeps_shape : map_keeps_shape drop_d.
Proof. intros p s. unfold drop_d. destruct (bytes_eqb p (bs "d")); cbn; auto. Qed.

Lemma drop_d_stream_rejected :
  wf_source k1_view = true /\ source_links_ok k1_view = true /\
  paths (sender_view pm_lit drop_d nopat_cfg k1_view) = [bs "d/c"; bs "d/e"] /\
  run_validator (items (sender_view pm_lit drop_d nopat_cfg k1_view)) = Some 0%nat.
Proof. vm_compute. repeat split; reflexivity. Qed.

(* a source with a link group spread over excluded and included paths:
     a (inode X), b -> a, d/ { c -> a, e }, f (own inode), g -> f ;   exclude [a] *)
Definition Lk (name target : string) : node := Node (bs name) (set_linkname st_file (bs target)) [120%N] [].
Definition G (name : string) : node := Node (bs name) st_file [121%N] [].
Definition hl_view : list node :=
  [ F "a"; Lk "b" "a"; D "d" [Lk "c" "a"; F "e"]; G "f"; Node (bs "g") (set_linkname st_file (bs "f")) [121%N] [] ].
Definition hl_cfg : cfg := {| c_inc := None; c_exc := Some [ip "a"]; c_prune := true |}.

Lemma map_drop_refuted_proof :
  exists pmatch mapfn c view,
    map_keeps_shape mapfn /\
    wf_source view = true /\ source_links_ok view = true /\
    run_validator (items (sender_view pmatch mapfn c view)) = Some 0%nat.
Proof.
  exists pm_lit, drop_d, nopat_cfg, k1_view.
  destruct drop_d_stream_rejected as (H1 & H2 & _ & H4).
  split; [apply drop_d_keeps_shape|].
  split; [exact H1|]. split; [exact H2|exact H4].
Qed.

Lemma walk_open_agree_refuted_proof :
  exists pmatch mapfn c view q,
    prefix_semantics pmatch /\ cfg_star_safe c = true /\ map_keeps_shape mapfn /\
    (forall p s, fst (mapfn p s) = MKeep) /\ wf_source view = true /\ source_file view q = true /\
    reported pmatch mapfn c view q <> filter_open pmatch c q.
Proof.
  exists pm_lit, id_map, k1_cfg, k1_view, k1_q.
  destruct k1_walk_open_disagree as (H1 & H2 & H3 & H4).
  split; [apply lit_pmatch_prefix_semantics|]. split; [reflexivity|].
  split; [apply id_map_keeps_shape|]. split; [apply id_map_keeps_all|].
  split; [exact H1|]. split; [exact H2|]. rewrite H3, H4. discriminate.
Qed.

Lemma transfer_late_shadow_refuted_proof :
  exists pmatch mapfn c view (H : bytes -> bytes) (hdr : stat -> bytes) q,
    map_keeps_shape mapfn /\ map_never_drops_dirs mapfn /\ map_keeps_special mapfn /\
    wf_source view = true /\ source_links_ok view = true /\ groups_coherent view /\
    let r := receive_abs H hdr Fresh DMetadata [] (sender_entries pmatch mapfn c view) in
    ds_err r = false /\
    ~ view_equiv (alookup q (ds_map r)) (efind q (filtered_entries pmatch mapfn c view)).
Proof.
  exists pm_lit, id_map, k1x_cfg, k1_view, Hid, hid, k1_q.
  destruct k1x_announced_unopenable as (H1 & H2 & H3 & _).
  split; [apply id_map_keeps_shape|]. split; [apply id_map_never_drops|]. split; [apply id_map_keeps_special|].
  split; [exact H1|]. split; [exact H2|]. split; [apply groups_coherent_b_sound; exact H3|].
  exact k1x_transfer_loses_content.
Qed.

(* order-sensitive include lists with FollowPaths (the follow targets are appended without
   dedupePaths, which would drop a/x/y as "below a"):
   tree a/{k, x/{y,z}}, l -> t, t;  IncludePatterns [a, !a/x, a/x/y], FollowPaths [l]:
   the matcher gets [a, !a/x, a/x/y, l, t]; a/x/y is reported and can be opened *)
From FS Require Model.FollowLinks Model.FilterOpt.
Definition st_sym (target : string) : stat :=
  {| st_path := []; st_mode := (ModeSymlink + 511)%N; st_uid := 0%N; st_gid := 0%N; st_size := 1%N; st_mtime := 0%N;
     st_linkname := bs target; st_devmajor := 0%N; st_devminor := 0%N; st_xattrs := [] |}.
Definition dd_view : list node :=
  [ D "a" [F "k"; D "x" [F "y"; F "z"]]; Node (bs "l") (st_sym "t") [] []; F "t" ].
Definition dd_inc : list (list N) := [bs "a"; bs "!a/x"; bs "a/x/y"].
Definition dd_follow : list (list N) := [bs "l"].
Definition dd_cfg (l : list (list N)) : cfg :=
  match mk_cfg l [] with Some c => c | None => nopat_cfg end.

Lemma dd_assembled :
  wf_source dd_view = true /\
  FilterOpt.assemble_includes dd_view dd_inc [] = FollowLinks.Ok dd_inc /\
  FilterOpt.assemble_includes dd_view dd_inc dd_follow = FollowLinks.Ok [bs "a"; bs "!a/x"; bs "a/x/y"; bs "l"; bs "t"] /\
  paths (sender_view pm_lit id_map (dd_cfg [bs "a"; bs "!a/x"; bs "a/x/y"; bs "l"; bs "t"]) dd_view)
    = [bs "a"; bs "a/k"; bs "a/x"; bs "a/x/y"; bs "l"; bs "t"] /\
  filter_open pm_lit (dd_cfg [bs "a"; bs "!a/x"; bs "a/x/y"; bs "l"; bs "t"]) (bs "a/x/y") = true /\
  filter_open pm_lit (dd_cfg [bs "a"; bs "!a/x"; bs "a/x/y"; bs "l"; bs "t"]) (bs "a/x/z") = false.
Proof. vm_compute. repeat split; reflexivity. Qed.
