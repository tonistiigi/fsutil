(* transfer_resolves_same (C18, consequence clause) as a composition with C10:
   the walk of NewFilterFS(view, FollowPaths = reqs), i.e. C10's [filter_walk] with the
   FollowLinks result as include patterns, reports every symlink that the independent
   resolver traverses for every request, and the entry it reaches.

   Proved for pattern-free inputs ("plain": no pattern character, no leading '!', no
   leading / trailing white space in any component of a request or link target): for those
   patternmatcher.New reads every element of the result as the literal path it is.
   Route: result_closed (closure) -> every needed entry is at or below a result element
   -> the incremental matcher (include-only, literal patterns) selects it
   -> C10: prune_unobservable + filter_walk_is_incr_reference + reference_nomap_is_flat. *)
From Coq Require Import List NArith Bool Lia Arith.
From FS Require Import Sx Model.Path Model.Stat Model.Tree Model.FollowLinks Model.Pattern Model.FilterWalk Model.FollowTransfer
     Proofs.Lex Proofs.PathP Proofs.ValidatorP Proofs.PatternP Proofs.IncrNaiveP
     Proofs.FilterP Proofs.PruneP Proofs.RefP Proofs.FlatRefP
     Proofs.FollowLinksP Proofs.FollowLinksClosedP Proofs.FollowLinksWildP.
Import ListNotations.
Open Scope N_scope.
Open Scope bool_scope.

Lemma st_path_set_path s p : st_path (set_path s p) = p.
Proof. destruct s; reflexivity. Qed.

Lemma child_path_joinc dir c r :
  c <> [] -> r <> [] -> child_path (child_path dir c) (joinc r) = child_path dir (joinc (c :: r)).
Proof.
  intros Hc Hr. rewrite (joinc_cons c r Hr). destruct dir as [|d dir].
  - cbn [child_path]. destruct c; [congruence|reflexivity].
  - cbn [child_path app]. rewrite <- app_assoc. reflexivity.
Qed.

Lemma walk_forest_In dir k kids e : In k kids -> In e (walk_node dir k) -> In e (walk_forest dir kids).
Proof.
  induction kids as [|a kids IH]; intros Hk He; [destruct Hk|]. cbn [walk_forest]. apply in_or_app.
  destruct Hk as [->|Hk]; [left; exact He|right; apply IH; auto].
Qed.

Section Valid.
Variable gmatch : bytes -> bytes -> bool.
Variable view : list node.

Definition valid (x : list bytes) : Prop := exists n, lookup view x = Some n.

Lemma lookup_prefix : forall a kids c n, lookup kids (a ++ [c]) = Some n -> a = [] \/ exists m, lookup kids a = Some m.
Proof.
  induction a as [|x a IH]; intros kids c n H; [left; reflexivity|right].
  cbn [app lookup] in H. destruct (find_kid x kids) as [k|] eqn:Ek; [|discriminate].
  destruct (a ++ [c]) eqn:E; [destruct a; discriminate|]. rewrite <- E in H.
  destruct (IH _ _ _ H) as [->|(m & Hm)].
  - exists k. cbn [lookup]. rewrite Ek. reflexivity.
  - exists m. cbn [lookup]. rewrite Ek. destruct a; [discriminate|exact Hm].
Qed.

Lemma valid_removelast here : here = [] \/ valid here -> removelast here = [] \/ valid (removelast here).
Proof.
  intros [->|(n & Hn)]; [left; reflexivity|].
  destruct here as [|c a _] using rev_ind; [left; reflexivity|]. rewrite removelast_last.
  destruct (lookup_prefix a view c n Hn) as [->|Hm]; [left; reflexivity|right; exact Hm].
Qed.

Lemma find_kid_some kids n : In n kids -> exists n', find_kid (node_name n) kids = Some n'.
Proof.
  induction kids as [|k r IH]; intros H; [destruct H|]. cbn [find_kid].
  destruct (bytes_eqb (node_name k) (node_name n)) eqn:E; [eauto|].
  destruct H as [->|H]; [rewrite bytes_eqb_refl in E; discriminate|apply IH; exact H].
Qed.

Lemma valid_child here kids n : dir_at view here = Some kids -> In n kids -> valid (here ++ [node_name n]).
Proof.
  intros Hd Hn. destruct (find_kid_some kids n Hn) as [n' Hn']. exists n'.
  rewrite (lookup_dir_at view here _ kids Hd). exact Hn'.
Qed.

Definition good_out (o : cres) : Prop :=
  Forall valid (traversed o) /\ forall q, final o = Reached q -> q = [] \/ valid q.

Lemma cresolve_valid : forall f todo here trav o,
  here = [] \/ valid here -> Forall valid trav ->
  In o (cresolve gmatch view f here todo trav) -> good_out o.
Proof.
  induction f as [f IHf] using lt_wf_ind. induction todo as [|[c g] rest IH]; intros here trav o Hh Ht Ho.
  - rewrite cresolve_eq in Ho. destruct Ho as [<-|[]]. unfold good_out. split; [exact Ht|]. cbn [final mkc]. intros q [= <-]. exact Hh.
  - assert (Hfail : good_out (mkc trav Failed)) by (split; [exact Ht|intros q; discriminate]).
    destruct (cresolve_step gmatch view f here c g rest trav o Ho) as [->|(kids & Ed & Hs)]; [exact Hfail|].
    destruct (is_triv c); [apply (IH _ _ _ Hh Ht Hs)|].
    destruct (is_dotdot c); [apply (IH _ _ _ (valid_removelast here Hh) Ht Hs)|].
    destruct Hs as (n & Hn & Hon & _). pose proof (valid_child here kids n Ed Hn) as Hv. apply enter_inv in Hon.
    destruct (node_is_symlink n); [|apply (IH _ _ _ (or_intror Hv) Ht Hon)].
    assert (Ht' : Forall valid ((here ++ [node_name n]) :: trav)) by (constructor; auto).
    destruct Hon as [->|(f' & -> & Hon)]; [split; [exact Ht'|intros q; discriminate]|].
    refine (IHf f' (Nat.lt_succ_diag_r f') _ _ _ _ _ Ht' Hon).
    destruct (is_abs (node_link n)); [left; reflexivity|exact Hh].
Qed.

End Valid.

Section IncOnly.
Variable pmatch : bytes -> bytes -> bool.

Definition inc_only (pats : list pat) : Prop := Forall (fun P => p_excl P = false) pats.
Notation anyb l := (existsb (fun b : bool => b) l).

Lemma incr_go_inc_only pats : inc_only pats -> forall parent hi file m,
  fst (incr_go pmatch pats parent hi file m) = m || anyb (snd (incr_go pmatch pats parent hi file m)).
Proof.
  induction 1 as [|P ps HP Hps IH]; intros parent hi file m.
  - cbn [incr_go fst snd existsb]. rewrite orb_false_r. reflexivity.
  - rewrite incr_go_cons. cbv zeta. cbn [fst snd existsb]. rewrite IH, HP. cbn [negb].
    destruct (incr_m pmatch P (hi && hd false parent) hi file m); destruct m; cbn [orb]; reflexivity.
Qed.

Lemma incr_go_true pats : inc_only pats -> forall parent hi file,
  fst (incr_go pmatch pats parent hi file true) = true.
Proof. intros H parent hi file. rewrite incr_go_inc_only by exact H. reflexivity. Qed.

Lemma incr_go_match pats : inc_only pats -> forall parent hi file m,
  (exists P, In P pats /\ pmatch (p_str P) file = true) ->
  fst (incr_go pmatch pats parent hi file m) = true.
Proof.
  induction 1 as [|P0 ps HP Hps IH]; intros parent hi file m (P & HPin & Hm); [destruct HPin|].
  rewrite incr_go_cons. cbv zeta. cbn [fst]. destruct HPin as [->|HPin]; [|apply IH; eauto].
  rewrite HP. cbn [negb]. unfold incr_m. rewrite HP, Hm.
  destruct (hi && hd false parent); [apply incr_go_true; exact Hps|].
  destruct m; cbn [eqb negb orb]; apply incr_go_true; exact Hps.
Qed.

Lemma incr_go_pm pats : forall parent file m, length parent = length pats -> anyb parent = true ->
  anyb (snd (incr_go pmatch pats parent true file m)) = true.
Proof.
  induction pats as [|P ps IH]; intros parent file m Hl Ha.
  - destruct parent; [discriminate|discriminate].
  - destruct parent as [|b bs]; [discriminate|]. rewrite incr_go_cons. cbv zeta. cbn [snd existsb hd tl andb].
    cbn [existsb] in Ha. destruct b.
    + unfold incr_m. reflexivity.
    + cbn [orb] in Ha. rewrite (IH bs); [apply orb_true_r| |exact Ha]. cbn [length] in Hl. lia.
Qed.

Lemma incr_chain_length pats d b : length (snd (incr_chain pmatch pats (d ++ [b]))) = length pats.
Proof. rewrite incr_chain_snoc. unfold incr_eval. apply incr_go_length. Qed.

(* a pattern of an include-only list matches a prefix of the chain: selected from there on *)
Lemma incr_chain_hit pats pre : inc_only pats -> pre <> [] ->
  (exists P, In P pats /\ pmatch (p_str P) (joinc pre) = true) ->
  forall z, fst (incr_chain pmatch pats (pre ++ z)) = true /\ anyb (snd (incr_chain pmatch pats (pre ++ z))) = true.
Proof.
  intros Hinc Hne Hhit z. induction z as [|b z IH] using rev_ind.
  - rewrite app_nil_r. destruct pre as [|b d _] using rev_ind; [congruence|].
    rewrite incr_chain_snoc. unfold incr_eval.
    assert (Hf : fst (incr_go pmatch pats (snd (incr_chain pmatch pats d)) (negb (is_nil (snd (incr_chain pmatch pats d))))
                        (joinc (d ++ [b])) false) = true) by (apply incr_go_match; auto).
    split; [exact Hf|]. rewrite incr_go_inc_only in Hf by exact Hinc. exact Hf.
  - destruct IH as [_ IH2]. rewrite app_assoc. rewrite incr_chain_snoc. unfold incr_eval.
    set (parent := snd (incr_chain pmatch pats (pre ++ z))) in *.
    assert (Hlen : length parent = length pats).
    { unfold parent. destruct (pre ++ z) as [|x l] eqn:E using rev_ind; [destruct pre; discriminate|].
      apply incr_chain_length. }
    assert (Hhi : negb (is_nil parent) = true) by (destruct parent; [discriminate|reflexivity]).
    rewrite Hhi.
    assert (Ha : anyb (snd (incr_go pmatch pats parent true (joinc ((pre ++ z) ++ [b])) false)) = true)
      by (apply incr_go_pm; auto).
    split; [|exact Ha]. rewrite incr_go_inc_only by exact Hinc. rewrite Ha. reflexivity.
Qed.

End IncOnly.

Lemma last_app_ne {A} (x b : list A) d : b <> [] -> last (x ++ b) d = last b d.
Proof.
  intros Hb. induction x as [|a x IH]; [reflexivity|]. cbn [app].
  assert (Hne : x ++ b <> []) by (destruct x; cbn [app]; [exact Hb|discriminate]).
  destruct (x ++ b) eqn:E; [congruence|]. rewrite <- IH. reflexivity.
Qed.

Lemma rev_last_cons (s : bytes) : s <> [] -> rev s = last s 0 :: rev (removelast s).
Proof.
  intros H. destruct s as [|x s _] using rev_ind; [congruence|].
  rewrite rev_app_distr, removelast_last, last_last. reflexivity.
Qed.

Lemma trim_space_id a r : is_space a = false -> is_space (last (a :: r) 0) = false -> trim_space (a :: r) = a :: r.
Proof.
  intros Ha Hl. unfold trim_space. cbn [trim_left]. rewrite Ha.
  rewrite (rev_last_cons (a :: r)) by discriminate. cbn [trim_left]. rewrite Hl.
  rewrite <- (rev_last_cons (a :: r)) by discriminate. apply rev_involutive.
Qed.

Definition plainc (c : bytes) : Prop := plain_comp c = true /\ normal c /\ nosep c.

(* the bytes patternmatcher.New looks at: no white space at either end, no leading '!' *)
Definition edges (c : bytes) : Prop :=
  is_space (last c 0) = false /\ exists a r, c = a :: r /\ N.eqb a bang = false /\ is_space a = false.

Lemma plain_comp_inv c : plain_comp c = true -> c <> [] -> contains_pattern_chars c = false /\ edges c.
Proof.
  unfold plain_comp. intros H Hne. rewrite !andb_true_iff in H. destruct H as [[H1 H2] H3].
  apply negb_true_iff in H1, H3. split; [exact H1|]. split; [exact H3|].
  destruct c as [|a r]; [congruence|]. exists a, r. apply andb_true_iff in H2. destruct H2 as [H2 H4].
  apply negb_true_iff in H2, H4. auto.
Qed.

Lemma sep_not_pattern_char : is_pattern_char sep = false.
Proof. reflexivity. Qed.

Lemma cpc_joinc cs : Forall (fun c => contains_pattern_chars c = false) cs -> contains_pattern_chars (joinc cs) = false.
Proof.
  induction 1 as [|c cs Hc Hcs IH]; [reflexivity|]. destruct cs as [|c2 cs]; [cbn [joinc]; exact Hc|].
  rewrite joinc_cons by discriminate. unfold contains_pattern_chars in *. rewrite existsb_app. rewrite Hc.
  cbn [existsb orb]. rewrite sep_not_pattern_char. exact IH.
Qed.

Lemma last_joinc cs b : last (joinc (cs ++ [b])) 0 = last b 0 \/ b = [].
Proof.
  destruct b as [|x b]; [right; reflexivity|left]. destruct cs as [|c cs].
  - reflexivity.
  - rewrite joinc_snoc by discriminate.
    change (joinc (c :: cs) ++ sep :: x :: b) with (joinc (c :: cs) ++ [sep] ++ (x :: b)).
    rewrite app_assoc. apply last_app_ne. discriminate.
Qed.

Definition lit_pat (e : bytes) : pat := {| p_excl := false; p_str := e |}.

(* a clean path whose first and last component have such edges is read as the pattern it is *)
Lemma normalize1_edges cs : okc cs -> Forall edges cs -> normalize1 (joinc cs) = NPat (lit_pat (joinc cs)).
Proof.
  intros Hok H. pose proof Hok as (Hne & _).
  assert (Hfirst : exists a r, joinc cs = a :: r /\ N.eqb a bang = false /\ is_space a = false).
  { destruct cs as [|c cs]; [congruence|]. inversion H as [|? ? (_ & a & r & -> & Hb & Hs) _]; subst.
    destruct cs as [|c2 cs]; [exists a, r; auto|]. rewrite joinc_cons by discriminate.
    exists a, (r ++ sep :: joinc (c2 :: cs)). auto. }
  destruct Hfirst as (a & r & Ej & Hb & Hs).
  assert (Ht : trim_space (joinc cs) = joinc cs).
  { rewrite Ej. apply trim_space_id; [exact Hs|]. rewrite <- Ej.
    destruct cs as [|b d _] using rev_ind; [congruence|].
    apply Forall_app in H. destruct H as [_ Hb']. inversion Hb' as [|? ? (Hl & a' & r' & -> & _) _]; subst.
    destruct (last_joinc d (a' :: r')) as [-> | ?]; [exact Hl|discriminate]. }
  unfold normalize1. rewrite Ht. destruct (okc_clean cs Hok) as [Hc _]. rewrite Ej in *. rewrite Hc, Hb. reflexivity.
Qed.

Lemma plain_key_facts cs : cs <> [] -> Forall plainc cs ->
  okc cs /\ contains_pattern_chars (joinc cs) = false /\ Forall edges cs.
Proof.
  intros Hne H. split.
  { split; [exact Hne|]. split; eapply Forall_impl; try exact H; intros c (_ & Hn & Hs); auto. }
  split; [apply cpc_joinc|]; (eapply Forall_impl; [|exact H]); intros c (Hp & (Hc & _) & _);
    apply (plain_comp_inv c Hp Hc).
Qed.

Lemma no_pattern_chars_lit e : contains_pattern_chars e = false -> pat_kind e = Lit e.
Proof.
  intros H.
  assert (Hstar : forall pre suf, In star suf -> e <> pre ++ suf).
  { intros pre suf Hs E. unfold contains_pattern_chars in H.
    assert (Hx : existsb is_pattern_char e = true).
    { apply existsb_exists. exists star. split; [rewrite E; apply in_or_app; right; exact Hs|reflexivity]. }
    congruence. }
  assert (H2 : strip_suffix s_sep_starstar e = None).
  { apply strip_suffix_none. intros pre. apply Hstar. right; left; reflexivity. }
  assert (H1 : strip_suffix s_sep_star e = None).
  { apply strip_suffix_none. intros pre. apply Hstar. right; left; reflexivity. }
  assert (Hw : without_trailing_glob e = e).
  { unfold without_trailing_glob. rewrite (trim_suffix_none e _ H2), bytes_eqb_refl. cbn [negb].
    apply trim_suffix_none. exact H1. }
  unfold pat_kind. rewrite Hw, H, H2, H1. reflexivity.
Qed.

Lemma normalize1_plain cs : cs <> [] -> Forall plainc cs -> normalize1 (joinc cs) = NPat (lit_pat (joinc cs)).
Proof. intros Hne H. destruct (plain_key_facts cs Hne H) as (Hok & _ & He). apply normalize1_edges; assumption. Qed.

Lemma normalize_all keys : Forall (fun e => normalize1 e = NPat (lit_pat e)) keys ->
  normalize keys = Some (map lit_pat keys).
Proof.
  induction 1 as [|e keys He _ IH]; [reflexivity|]. cbn [normalize map]. rewrite He, IH. reflexivity.
Qed.

Lemma has_sep_no_sep s : no_sep s = negb (has_sep s).
Proof.
  unfold no_sep. f_equal. induction s as [|a s IH]; [reflexivity|]. cbn [existsb has_sep].
  rewrite IH, (N.eqb_sym sep a). reflexivity.
Qed.

Lemma mem_existsb x l : mem x l = existsb (bytes_eqb x) l.
Proof. induction l as [|y l IH]; [reflexivity|]. cbn [mem existsb]. rewrite IH. reflexivity. Qed.

Lemma names_distinct_distinct l : names_distinct l = distinct l.
Proof. induction l as [|a l IH]; [reflexivity|]. cbn [names_distinct distinct]. rewrite IH, mem_existsb. reflexivity. Qed.

Lemma is_nil_same {A} (l : list A) : FollowLinks.is_nil l = Pattern.is_nil l.
Proof. destruct l; reflexivity. Qed.

Lemma fl_wf_node_tree : forall n, FollowLinks.wf_node n = true ->
  FilterWalk.wf_node n = true /\ wf_tree_node n = true.
Proof.
  induction n as [name st ct kids IHk] using node_ind2. intros H.
  rewrite wf_node_eq in H. cbn [node_name node_kids] in H. unfold node_is_dir, node_is_symlink in H.
  cbn [node_stat] in H. rewrite !andb_true_iff in H. destruct H as [[[[Hn Hd] _] Hdist] Hk].
  unfold FollowLinks.name_ok in Hn. rewrite !andb_true_iff in Hn. destruct Hn as [[[Hn1 _] _] Hn4].
  assert (Hkk : forallb FilterWalk.wf_node kids = true /\ forallb wf_tree_node kids = true).
  { rewrite !forallb_forall. rewrite forallb_forall in Hk. rewrite Forall_forall in IHk.
    split; intros k Hin; apply (IHk k Hin (Hk k Hin)). }
  destruct Hkk as [Hk1 Hk2].
  cbn [FilterWalk.wf_node wf_tree_node]. rewrite <- !(is_nil_same name), has_sep_no_sep, Hn1, Hn4, Hk1, Hk2.
  unfold st_is_dir. rewrite <- (is_nil_same kids), Hd, <- names_distinct_distinct, Hdist. split; reflexivity.
Qed.

Lemma fl_wf_view_tree view : FollowLinks.wf_view view = true ->
  FilterWalk.wf_view view = true /\ wf_tree view = true.
Proof.
  unfold FollowLinks.wf_view, FilterWalk.wf_view, wf_tree. intros H. apply andb_true_iff in H.
  destruct H as [Hd Hw]. rewrite <- names_distinct_distinct, Hd. rewrite forallb_forall in Hw.
  split; [|cbn [andb]]; apply forallb_forall; intros n Hn; apply (fl_wf_node_tree n (Hw n Hn)).
Qed.

(* entries of a well-formed tree have clean paths *)
Lemma name_ok_inv c : FollowLinks.name_ok c = true -> normal c /\ nosep c.
Proof.
  unfold FollowLinks.name_ok. rewrite !andb_true_iff, !negb_true_iff, !bytes_eqb_neq. intros [[[H1 H2] H3] H4].
  split; [repeat split; auto; destruct c; discriminate|]. apply no_sep_nosep. rewrite has_sep_no_sep, H4. reflexivity.
Qed.

Lemma lookup_okc : forall x kids n, forallb FollowLinks.wf_node kids = true -> lookup kids x = Some n -> okc x.
Proof.
  induction x as [|c r IH]; intros kids n Hw H; [discriminate|].
  cbn [lookup] in H. destruct (find_kid c kids) as [k|] eqn:Ek; [|discriminate].
  destruct (wf_find_kid_inv c kids k Hw Ek) as (Hnok & _ & Hkk). destruct (name_ok_inv c Hnok) as [Hcn Hcs].
  destruct r as [|c2 r].
  - split; [discriminate|]. split; constructor; auto.
  - destruct (IH (node_kids k) n Hkk H) as (_ & Hn & Hs). split; [discriminate|]. split; constructor; auto.
Qed.

(* ... and are walked *)
Lemma lookup_walked : forall x kids dir n,
  forallb FollowLinks.wf_node kids = true -> lookup kids x = Some n ->
  exists e, In e (walk_forest dir kids) /\ st_path (fst e) = child_path dir (joinc x).
Proof.
  induction x as [|c r IH]; intros kids dir n Hw H; [discriminate|].
  destruct (lookup_okc _ _ _ Hw H) as (_ & Hc & _). inversion Hc as [|? ? [Hc0 _] _]; subst.
  cbn [lookup] in H. destruct (find_kid c kids) as [k|] eqn:Ek; [|discriminate].
  destruct (wf_find_kid_inv c kids k Hw Ek) as (_ & _ & Hkk). destruct (find_kid_In _ _ _ Ek) as [Hin Hname].
  destruct k as [name st ct kk]. cbn [node_name] in Hname. subst name.
  destruct r as [|c2 r].
  - exists (set_path st (child_path dir c), ct). split; [|cbn [fst]; rewrite st_path_set_path; reflexivity].
    apply (walk_forest_In dir _ kids _ Hin). rewrite walk_node_eq. left; reflexivity.
  - cbn [node_kids] in H. destruct (IH kk (child_path dir c) n Hkk H) as (e & He & Hp).
    exists e. split.
    + apply (walk_forest_In dir _ kids _ Hin). rewrite walk_node_eq. right. exact He.
    + rewrite Hp. apply child_path_joinc; [exact Hc0|discriminate].
Qed.

(* a literal pattern list covers by prefix *)
Lemma contains_wildcards_plain s : contains_pattern_chars s = false -> contains_wildcards s = false.
Proof.
  unfold contains_pattern_chars. induction s as [|ch r IH]; intros H; [reflexivity|].
  cbn [existsb] in H. apply orb_false_iff in H. destruct H as [Hc Hr]. cbn [contains_wildcards].
  unfold is_pattern_char in Hc. rewrite !orb_false_iff in Hc. destruct Hc as [[[[[H42 H91] H93] H63] H94] H92].
  rewrite H92, H42, H63, H91. cbn [orb]. apply IH. exact Hr.
Qed.

Lemma plain_comp_nowild c : plain_comp c = true -> contains_wildcards c = false.
Proof.
  unfold plain_comp. rewrite !andb_true_iff, negb_true_iff. intros [[H _] _]. apply contains_wildcards_plain. exact H.
Qed.

Lemma pat_prefix_app_lit gmatch a b : (forall c, In c a -> contains_wildcards c = false) ->
  forall y, pat_prefix gmatch (a ++ b) y = true -> exists y', y = a ++ y' /\ pat_prefix gmatch b y' = true.
Proof.
  induction a as [|c a IH]; intros Hl y H; [exists y; split; [reflexivity|exact H]|].
  destruct y as [|d y]; [discriminate|]. cbn [app pat_prefix] in H. rewrite (Hl c (or_introl eq_refl)) in H.
  apply andb_true_iff in H. destruct H as [H1 H2]. apply bytes_eqb_eq in H1. subst d.
  destruct (IH (fun c0 Hc0 => Hl c0 (or_intror Hc0)) y H2) as (y' & -> & Hb). exists y'. split; [reflexivity|exact Hb].
Qed.

Lemma plainc_nowild cs : Forall plainc cs -> forall c, In c cs -> contains_wildcards c = false.
Proof. intros H c Hc. rewrite Forall_forall in H. apply plain_comp_nowild, (H c Hc). Qed.

(* dedupePaths is idempotent *)
Lemma dedupe_from_idem : forall l kept out, dedupe_from kept l = Some out -> dedupe_from kept out = Some out.
Proof.
  apply dedupe_from_ind; [reflexivity|auto|]. intros kept s r out Ed Ei _ IH. simpl. rewrite Ed, Ei, IH. reflexivity.
Qed.

(* ... so a further dedupePaths over what FollowLinks returns (as NewFilterFS applied before
   d7ef819) is the identity *)
Lemma follow_targets_dedupe_fixpoint_proof gmatch view fuel reqs l :
  follow_links_opt gmatch view fuel reqs = Ok (Some l) -> dedupe_paths l = Some l.
Proof.
  unfold follow_links_opt. destruct (follow_state gmatch view fuel reqs) as [F|]; [|discriminate].
  intros H. assert (Hf : finish F = Some l) by congruence. clear H. unfold finish, dedupe_paths in Hf. unfold dedupe_paths.
  apply (dedupe_from_idem _ _ _ Hf).
Qed.

Lemma side_normalized keys pats : normalize keys = Some pats ->
  side keys = Some (match keys with [] => None | _ => Some pats end).
Proof. intros H. destruct keys; [reflexivity|]. unfold side. rewrite H. reflexivity. Qed.

Section Transfer.
Variable pmatch : bytes -> bytes -> bool.
Variable gmatch : bytes -> bytes -> bool.
Variable view : list node.
Variable reqs : list bytes.
Hypothesis Hsem : prefix_semantics pmatch.
Hypothesis Hwf : FollowLinks.wf_view view = true.

(* the walk with an include-only list of patterns the library reads as themselves *)
Lemma walk_contains (keys : list bytes) (c : cfg) :
  (forall e, In e keys -> kind_safe (pat_kind e) = true) ->
  c = {| c_inc := match keys with [] => None | _ => Some (map lit_pat keys) end; c_exc := None; c_prune := true |} ->
  forall x, valid view x ->
    (keys = [] \/ exists e pre z, In e keys /\ pre <> [] /\ x = pre ++ z /\ pmatch e (joinc pre) = true) ->
    In (joinc x) (map st_path (filter_walk pmatch id_map c view)).
Proof.
  intros Hks -> x (n & Hn) Hcov.
  destruct (fl_wf_view_tree view Hwf) as [Hwfw Hwft].
  pose proof (wf_view_forallb view Hwf) as Hwf'.
  set (c := {| c_inc := match keys with [] => None | _ => Some (map lit_pat keys) end; c_exc := None; c_prune := true |}).
  assert (Hsafe : cfg_star_safe c = true).
  { unfold cfg_star_safe, c. cbn [c_inc c_exc]. rewrite andb_true_r. destruct keys as [|k0 ks]; [reflexivity|].
    unfold star_safe. apply forallb_forall. intros P HP. apply in_map_iff in HP. destruct HP as (e & <- & He).
    cbn [lit_pat p_excl p_str]. rewrite (Hks e He). reflexivity. }
  rewrite (prune_unobservable_proof pmatch id_map Hsem c Hsafe view Hwfw).
  rewrite (filter_walk_reference_proof pmatch id_map c view Hwfw).
  rewrite (reference_nomap_flat_proof (keep_incr pmatch c) view Hwft).
  destruct (lookup_walked x view [] n Hwf' Hn) as (e & He & Hp). cbn [child_path] in Hp.
  unfold flat_reference. rewrite map_map. apply in_map_iff. exists e. split; [exact Hp|].
  apply filter_In. split; [exact He|]. unfold selected_or_above. rewrite Hp. apply orb_true_iff. left.
  (* the incremental verdict *)
  pose proof (lookup_okc x view n Hwf' Hn) as Hokx.
  unfold keep_incr, c. cbn [c_inc c_exc]. rewrite andb_true_r.
  destruct Hcov as [->|(e0 & pre & z & Hin & Hne & -> & Hm)]; [reflexivity|].
  destruct keys as [|k0 ks] eqn:Ek; [destruct Hin|]. rewrite <- Ek in *.
  rewrite (pcomps_joinc (pre ++ z) (or_intror Hokx)). unfold incr_path.
  apply (incr_chain_hit pmatch (map lit_pat keys) pre).
  - unfold inc_only. apply Forall_forall. intros P HP. apply in_map_iff in HP. destruct HP as (e1 & <- & _). reflexivity.
  - exact Hne.
  - exists (lit_pat e0). split; [apply in_map; exact Hin|exact Hm].
Qed.

(* a result element that patternmatcher.New reads as itself, and that as an include pattern
   selects a prefix of every entry it covers as a FollowLinks pattern *)
Definition transfers (e : bytes) : Prop :=
  normalize1 e = NPat (lit_pat e) /\ kind_safe (pat_kind e) = true /\
  forall x, valid view x -> pat_prefix gmatch (comps e) x = true ->
    exists pre z, pre <> [] /\ x = pre ++ z /\ pmatch e (joinc pre) = true.

(* a path of plain components is such an element: it is the literal pattern it looks like *)
Lemma transfers_plain cs : cs <> [] -> Forall plainc cs -> transfers (joinc cs).
Proof.
  intros Hne Hpl. destruct (plain_key_facts cs Hne Hpl) as ((_ & _ & Hns) & Hcpc & _).
  pose proof (no_pattern_chars_lit _ Hcpc) as Hlit.
  split; [apply normalize1_plain; assumption|]. split; [rewrite Hlit; reflexivity|].
  intros x _ Hpp. rewrite (comps_joinc cs Hne Hns), <- (app_nil_r cs) in Hpp.
  destruct (pat_prefix_app_lit gmatch cs [] (plainc_nowild cs Hpl) x Hpp) as (z & -> & _).
  exists cs, z. split; [exact Hne|]. split; [reflexivity|].
  destruct Hsem as (Hl & _). rewrite (Hl _ _ Hlit). apply bytes_eqb_refl.
Qed.

(* closure of the result, and a walk that selects what the result covers *)
Lemma transfer_of_keys (fuel : nat) (follow : option (list bytes)) :
  (forall r, In r reqs -> abl gmatch view (norm_clamp (comps r))) ->
  (forall l, In l (forest_links view) -> Forall (elit gmatch view) (comps l)) ->
  (forall F res, follow_state gmatch view fuel reqs = Ok F -> finish F = Some res -> Forall transfers res) ->
  follow_links_opt gmatch view fuel reqs = Ok follow ->
  no_revisit gmatch view fuel reqs = true ->
  lexical_safe view reqs = true ->
  exists c, follow_cfg follow = Some c /\
    forall r o x, In r reqs -> In o (chroot_resolve_all gmatch view r) -> needed o x ->
      In (joinc x) (map st_path (filter_walk pmatch id_map c view)).
Proof.
  intros Hreqs Hlinks Hkeys Hres Hnr Hls.
  assert (Hclosed : closed_b gmatch view (match follow with None => true | _ => false end)
                             (match follow with Some l => l | None => [] end) reqs = true).
  { apply (result_closed_general gmatch view reqs fuel); auto. destruct follow; exact Hres. }
  (* what is needed exists in the tree *)
  assert (Hvalid : forall r o x, In o (chroot_resolve_all gmatch view r) -> needed o x -> valid view x).
  { intros r o x Ho Hx. rewrite chroot_resolve_all_eq in Ho.
    destruct (cresolve_valid gmatch view 40 _ [] [] o (or_introl eq_refl) (Forall_nil _) Ho) as [V1 V2].
    destruct Hx as [Hx|[Hx Hne]]; [rewrite Forall_forall in V1; auto|].
    destruct (V2 x Hx) as [->|Hv]; [congruence|exact Hv]. }
  unfold follow_links_opt in Hres. destruct (follow_state gmatch view fuel reqs) as [F|]; [|discriminate].
  injection Hres as <-. specialize (Hkeys F).
  destruct (finish F) as [res|]; cbv beta iota in Hclosed.
  - specialize (Hkeys res eq_refl eq_refl). rewrite Forall_forall in Hkeys.
    assert (Hnorm : normalize res = Some (map lit_pat res)).
    { apply normalize_all. apply Forall_forall. intros e He. apply (Hkeys e He). }
    eexists. split.
    { unfold follow_cfg, follow_includes, mk_cfg. rewrite (side_normalized res _ Hnorm). cbn [side]. reflexivity. }
    intros r o x Hr Ho Hx. pose proof (Hvalid r o x Ho Hx) as Hv.
    apply (walk_contains res); [intros e He; apply (Hkeys e He)|destruct res; reflexivity|exact Hv|]. right.
    unfold closed_b in Hclosed. rewrite forallb_forall in Hclosed. specialize (Hclosed r Hr).
    rewrite forallb_forall in Hclosed. specialize (Hclosed o Ho). unfold closed_for in Hclosed.
    apply andb_true_iff in Hclosed. destruct Hclosed as [C1 C2].
    assert (Hcov : covered gmatch res x = true).
    { destruct Hx as [Hx|[Hx Hne]]; [rewrite forallb_forall in C1; auto|].
      rewrite Hx in C2. destruct x; [congruence|exact C2]. }
    unfold covered in Hcov. apply existsb_exists in Hcov. destruct Hcov as (e & He & Hpp).
    destruct (Hkeys e He) as (_ & _ & Hsel). destruct (Hsel x Hv Hpp) as (pre & z & Hsel').
    exists e, pre, z. split; [exact He|exact Hsel'].
  - (* nil: no filter *)
    eexists. split; [reflexivity|]. intros r o x Hr Ho Hx.
    apply (walk_contains []); [intros e []|reflexivity|apply (Hvalid r o x Ho Hx)|left; reflexivity].
Qed.

Hypothesis Hplain : plain_inputs view reqs = true.

Lemma pool_plain c : In c (comp_pool view reqs) -> plain_comp c = true.
Proof. unfold plain_inputs in Hplain. rewrite forallb_forall in Hplain. auto. Qed.

Lemma pool_elit c : In c (comp_pool view reqs) -> elit gmatch view c.
Proof. intros H. unfold elit, quasi_literal. rewrite (plain_comp_nowild c (pool_plain c H)). reflexivity. Qed.

Lemma PCN_plainc cs : PCN view reqs cs -> Forall plainc cs.
Proof.
  intros H. eapply Forall_impl; [|exact H]. intros c [Hc Hn]. split; [apply pool_plain; exact Hc|].
  split; [exact Hn|eapply pool_nosep; eauto].
Qed.

Theorem transfer_resolves_same_partial_proof : forall (fuel : nat) (follow : option (list bytes)),
  follow_links_opt gmatch view fuel reqs = Ok follow ->
  no_revisit gmatch view fuel reqs = true ->
  lexical_safe view reqs = true ->
  exists c, follow_cfg follow = Some c /\
    forall r o x, In r reqs -> In o (chroot_resolve_all gmatch view r) -> needed o x ->
      In (joinc x) (map st_path (filter_walk pmatch id_map c view)).
Proof.
  intros fuel follow. apply transfer_of_keys.
  - intros r Hr. apply abl_all. apply norm_clamp_forall. apply Forall_forall. intros c Hc.
    apply pool_elit. apply (pool_req view reqs r c Hr Hc).
  - intros l Hl. apply Forall_forall. intros c Hc. apply pool_elit. apply (pool_link view reqs l c Hl Hc).
  - (* every result element is a plain literal path *)
    intros F res EF Efin. destruct (final_state_shape gmatch view reqs fuel F EF) as (_ & HK).
    apply Forall_forall. intros e He. pose proof (finish_subset F res Efin e He) as HeR.
    destruct (HK e HeR) as [->|(cs & Hne & Hp & ->)]; [destruct (finish_some_nodot F res Efin HeR)|].
    apply transfers_plain; [exact Hne|apply PCN_plainc, Hp].
Qed.

End Transfer.
