(* Witnesses for the refutations of C10 (evaluated by vm_compute) and the matcher used by the
   closed examples. *)
From Coq Require Import List NArith Bool String Ascii.
From FS Require Import Sx Model.Path Model.Stat Model.Tree Model.Pattern Model.FilterWalk
  Proofs.Lex Proofs.PathP Proofs.PatternP.
Import ListNotations.
Open Scope bool_scope.

Definition bs (s : string) : list N := map N_of_ascii (list_ascii_of_string s).

Definition st_dir : stat :=
  {| st_path := []; st_mode := (ModeDir + 493)%N; st_uid := 0%N; st_gid := 0%N; st_size := 0%N; st_mtime := 0%N;
     st_linkname := []; st_devmajor := 0%N; st_devminor := 0%N; st_xattrs := [] |}.
Definition st_file : stat :=
  {| st_path := []; st_mode := 420%N; st_uid := 1000%N; st_gid := 1000%N; st_size := 1%N; st_mtime := 0%N;
     st_linkname := []; st_devmajor := 0%N; st_devminor := 0%N; st_xattrs := [] |}.
Definition D (name : string) (kids : list node) : node := Node (bs name) st_dir [] kids.
Definition F (name : string) : node := Node (bs name) st_file [120%N] [].
Definition ip (s : string) : pat := {| p_excl := false; p_str := bs s |}.
Definition xp (s : string) : pat := {| p_excl := true; p_str := bs s |}.
Definition paths (l : list stat) : list (list N) := map st_path l.

(* a matcher that reads prefix-only patterns literally and knows no other pattern *)
Definition pm_lit : bytes -> bytes -> bool := lit_pmatch (fun _ _ => false).

(* K1: [d, !d/c, d] *)
Definition k1_pats : list pat := [ip "d"; xp "d/c"; ip "d"].
Definition k1_cs : list (list N) := [bs "d"; bs "c"].
Definition k1_view : list node := [D "d" [F "c"; F "e"]].
Definition k1_cfg : cfg := {| c_inc := Some k1_pats; c_exc := None; c_prune := true |}.

Lemma k1_okc : okc k1_cs.
Proof.
  split; [discriminate|]. split.
  - repeat constructor; discriminate.
  - repeat constructor; intros [H|[]]; discriminate.
Qed.

Lemma k1_incr_ne_naive : incr_path pm_lit k1_pats k1_cs <> naive pm_lit k1_pats (joinc k1_cs).
Proof. vm_compute. discriminate. Qed.

Lemma k1_shadow : no_late_shadow pm_lit k1_pats k1_cs = false.
Proof. vm_compute. reflexivity. Qed.

Lemma k1_walk_ne_reference :
  filter_walk pm_lit id_map k1_cfg k1_view <> reference (keep_naive pm_lit k1_cfg) id_map k1_view.
Proof. vm_compute. discriminate. Qed.

Lemma k1_walk_paths :
  paths (filter_walk pm_lit id_map k1_cfg k1_view) = [bs "d"; bs "d/e"] /\
  paths (reference (keep_naive pm_lit k1_cfg) id_map k1_view) = [bs "d"; bs "d/c"; bs "d/e"].
Proof. vm_compute. split; reflexivity. Qed.

(* K5: a{2}/* is classified prefix-only, the library matches it as the regular
   expression ^a{2}/[^/]*$ (the values below are what the real library answers) *)
Definition k5_pat : bytes := bs "a{2}/*".
Definition pm_k5 (P q : bytes) : bool :=
  if bytes_eqb P k5_pat then bytes_eqb q (bs "aa/x") else pm_lit P q.
Definition k5_cfg : cfg := {| c_inc := Some [ip "a{2}/*"]; c_exc := None; c_prune := true |}.
Definition k5_view : list node := [D "aa" [F "x"]].

Lemma pm_k5_semantics : prefix_semantics pm_k5.
Proof.
  destruct (lit_pmatch_prefix_semantics (fun _ _ => false)) as (H1 & H2 & H3).
  assert (X : forall P q, P <> k5_pat -> pm_k5 P q = pm_lit P q).
  { intros P q H. unfold pm_k5. apply bytes_eqb_neq in H. rewrite H. reflexivity. }
  (* the one pattern read differently is an L/* pattern with an unsafe literal: no clause speaks of it *)
  assert (K : pat_kind k5_pat = LitStar (bs "a{2}")) by (vm_compute; reflexivity).
  repeat split.
  - intros P q E. rewrite X; [apply H1; auto|]. intros ->. rewrite K in E. discriminate.
  - intros P L q E. rewrite X; [apply H2; auto|]. intros ->. rewrite K in E. discriminate.
  - intros P L q E Hs. rewrite X; [apply H3; auto|]. intros ->. rewrite K in E.
    injection E as <-. vm_compute in Hs. discriminate.
Qed.

Lemma k5_prune_observable :
  filter_walk pm_k5 id_map k5_cfg k5_view <> filter_walk pm_k5 id_map (no_prune k5_cfg) k5_view.
Proof. vm_compute. discriminate. Qed.

Lemma k5_not_safe : cfg_star_safe k5_cfg = false.
Proof. vm_compute. reflexivity. Qed.

(* the tree of filter_test.go (TestWalkerDoublestarInclude) *)
Definition ft_view : list node :=
  [ D "a" [ D "b" [ D "bar" [F "foo"; F "fop"]; D "baz" [] ] ];
    D "bar" [F "foo"];
    D "baz" [];
    D "foo" [ D "bar" [F "bee"] ];
    F "foo2" ].

(* glob patterns used by the examples, as the real library answers on the paths of ft_view
   (kind 1001 corpus cases examples.case run the same inputs against the real code) *)
Definition pm_ex : bytes -> bytes -> bool :=
  lit_pmatch (fun P q =>
    if bytes_eqb P (bs "**/bar") then
      bytes_eqb q (bs "bar") || match strip_suffix (bs "/bar") q with Some _ => true | None => false end
    else if bytes_eqb P (bs "**/fo?") then
      existsb (bytes_eqb q) [bs "foo"; bs "a/b/bar/foo"; bs "a/b/bar/fop"; bs "bar/foo"]
    else false).
