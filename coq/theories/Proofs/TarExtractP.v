(* C17 — extracting the whole archive WriteTar produces (Model/TarHdr.v) gives back the listing
   it walked, member by member, with hard-link members resolved against the members before them. *)
From Coq Require Import List NArith ZArith Bool Lia ZifyN ZifyNat ZifyBool.
From FS Require Import Sx Model.Path Model.Stat Model.Tree Model.Hardlinks Model.TarHdr Proofs.Lex Proofs.TarP.
Import ListNotations.
Open Scope N_scope.

Lemma extracted_path : forall s, st_path (extracted_stat s) = st_path s.
Proof. intro s. unfold extracted_stat. destruct (mode_is_regular (st_mode s)); reflexivity. Qed.

Lemma find_entry_map : forall p l,
  find_entry p (map extracted l) = option_map extracted (find_entry p l).
Proof.
  intros p l. unfold find_entry. induction l as [| e r IH]; [reflexivity |].
  cbn [map find]. unfold extracted at 1. cbn [fst]. rewrite extracted_path.
  destruct (bytes_eqb (st_path (fst e)) p); [reflexivity | exact IH].
Qed.

Lemma set_size_header_only : forall s, set_size (round_mtime_to_second (header_size_only s)) (st_size s) = round_mtime_to_second s.
Proof. intro s. unfold round_mtime_to_second, header_size_only, set_mtime, set_size. reflexivity. Qed.

Lemma extract_member_ok : forall done e,
  wf_entry_b e = true -> link_target_ok done e = true ->
  extract_member (map extracted done) (archived_member (member_of_entry e)) = extracted e.
Proof.
  intros done e Hwf Hlt.
  destruct (wf_entry_parts e Hwf) as [Hst [Hsz _]].
  destruct (wf_stat_parts _ Hst) as [Hm [Hlk _]].
  unfold extract_member, archived_member, member_of_entry. cbn [fst snd].
  replace (h_typeflag (archived (hdr_of_stat (fst e)))) with (hdr_typeflag (st_mode (fst e)) (st_linkname (fst e))) by reflexivity.
  replace (h_linkname (archived (hdr_of_stat (fst e)))) with (st_linkname (fst e)) by reflexivity.
  rewrite typeflag_link_iff, (hdr_roundtrip_proof _ Hst), has_payload_spec.
  unfold link_target_ok in Hlt. unfold extracted, extracted_stat.
  destruct (carries_size (fst e)) eqn:C.
  - (* regular, not a link member *)
    pose proof C as C'. unfold carries_size in C'. apply andb_true_iff in C'. destruct C' as [Hnil Hreg].
    rewrite Hnil, Hreg. cbn [negb andb]. rewrite (header_size_only_id _ C).
    destruct (Hsz eq_refl) as [Hlt63 Heq].
    destruct (Z.ltb_spec 0 (sint (st_size (fst e)))) as [Hpos | Hnpos]; [reflexivity |].
    rewrite (blen_0 (snd e)) by (rewrite <- Heq; exact (sint_nonpos _ Hlt63 Hnpos)). reflexivity.
  - cbn [andb]. destruct (mode_is_regular (st_mode (fst e))) eqn:Hreg.
    + (* hard-link member *)
      unfold carries_size in C. rewrite Hreg, andb_true_r in C.
      rewrite C, (plain_not_symlink _ (regular_plain _ Hreg)). cbn [negb andb].
      rewrite find_entry_map.
      destruct (find_entry (st_linkname (fst e)) done) as [t |]; [| discriminate].
      apply andb_true_iff in Hlt. destruct Hlt as [Hlt Hc]. apply andb_true_iff in Hlt. destruct Hlt as [Ct Hs].
      apply N.eqb_eq in Hs. apply bytes_eqb_eq in Hc.
      cbn [option_map]. unfold extracted, extracted_stat. cbn [fst snd].
      unfold carries_size in Ct. apply andb_true_iff in Ct. destruct Ct as [_ Ct]. rewrite Ct.
      replace (st_size (round_mtime_to_second (fst t))) with (st_size (fst t)) by reflexivity.
      rewrite Hs, Hc, set_size_header_only. reflexivity.
    + (* directory, symlink, device, fifo *)
      assert (Hnl : negb (is_nil (st_linkname (fst e))) && negb (mode_is_symlink (st_mode (fst e))) = false).
      { unfold link_ok in Hlk. rewrite Hreg, orb_false_r in Hlk.
        destruct (is_nil (st_linkname (fst e))); [reflexivity |].
        cbn [orb] in Hlk. rewrite Hlk. reflexivity. }
      rewrite Hnl. unfold header_size_only, carries_size. rewrite Hreg, andb_false_r.
      destruct (snd e); [reflexivity | discriminate].
Qed.

Lemma extract_loop_ok : forall l done,
  wf_listing_b l = true -> links_closed_from done l = true ->
  extract_loop (map archived_member (tar_of_listing l)) (map extracted done) = map extracted l.
Proof.
  induction l as [| e r IH]; intros done Hwf Hcl; [reflexivity |].
  cbn [wf_listing_b forallb] in Hwf. apply andb_true_iff in Hwf. destruct Hwf as [He Hr].
  cbn [links_closed_from] in Hcl. apply andb_true_iff in Hcl. destruct Hcl as [Ht Hcl].
  cbn [tar_of_listing map extract_loop].
  rewrite (extract_member_ok done e He Ht). f_equal.
  replace (map extracted done ++ [extracted e]) with (map extracted (done ++ [e])) by (rewrite map_app; reflexivity).
  apply IH; assumption.
Qed.

Lemma extract_roundtrip_proof : forall v,
  wf_listing_b (walk_root v) = true -> links_closed (walk_root v) = true ->
  extract (archive v) = map extracted (walk_root v).
Proof.
  intros v H C.
  pose proof (reset_entries_closed _ (wf_links_wf _ H) C) as R.
  unfold extract, archive, tar_members, tar_members_listing. rewrite R.
  apply (extract_loop_ok (walk_root v) [] H C).
Qed.

(* filtered listings: the same for ANY listing handed to WriteTar; what comes back is the
   listing WriteTar ends up walking, i.e. the listing after its hard-link reset *)
Lemma extract_listing_roundtrip_proof : forall l,
  wf_listing_b (reset_entries l) = true -> links_closed (reset_entries l) = true ->
  extract (map archived_member (tar_members_listing l)) = map extracted (reset_entries l).
Proof. intros l H C. unfold tar_members_listing. apply (extract_loop_ok (reset_entries l) [] H C). Qed.

(* ... which is the listing itself when its own links are closed *)
Lemma extract_closed_listing_roundtrip_proof : forall l,
  wf_listing_b l = true -> links_closed l = true ->
  extract (map archived_member (tar_members_listing l)) = map extracted l.
Proof.
  intros l H C. pose proof (reset_entries_closed _ (wf_links_wf _ H) C) as R.
  rewrite <- R at 2. apply extract_listing_roundtrip_proof; rewrite R; assumption.
Qed.
