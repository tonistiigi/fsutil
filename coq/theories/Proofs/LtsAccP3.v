(* Refinement LTS (sender side) -> sender acceptor: what a step of the running sender
   has to show, and the walker goroutine. *)
From Coq Require Import List NArith Bool Arith PeanoNat Lia ZifyN ZifyNat ZifyBool Permutation.
From FS Require Import Model.Lts Proofs.LtsInv.
From FS Require Import Sx Model.Path Model.Stat Model.Tree Model.AccEvents Model.SenderAcc Model.LtsAcc
     Proofs.Lex Proofs.AccEventsP Proofs.LtsAccP1.
Import ListNotations.
Local Open Scope nat_scope.

(* the clauses of the invariant that are case distinctions over a program counter *)
Ltac unf_all :=
  unfold walker_rel, req_rel, files_rel, acc_k, reg, rq_live, lts_bad, rq_failed, tasks in *.

Lemma reg_files : forall (F U : nat -> bool) fs i (b : bool),
  (forall id, memb id fs = (id <? i) && F id && U id) -> U i = true -> F i = b ->
  forall id, memb id (if b then i :: fs else fs) = (id <? S i) && F id && U id.
Proof.
  intros F U fs i b H HU HF id. destruct b.
  - rewrite memb_cons, H. destruct (Nat.eqb_spec id i) as [E|E]; cbn [orb].
    + rewrite E, HU, HF. destruct (Nat.ltb_spec i (S i)); [reflexivity|lia].
    + destruct (Nat.ltb_spec id i), (Nat.ltb_spec id (S i)); try lia; reflexivity.
  - rewrite H. destruct (Nat.eqb_spec id i) as [E|E].
    + rewrite E, HF, !andb_false_r. reflexivity.
    + destruct (Nat.ltb_spec id i), (Nat.ltb_spec id (S i)); try lia; reflexivity.
Qed.

Ltac clear_big :=
  repeat match goal with
  | H : context [tasks_ok] |- _ => clear H
  | H : context [nlookup] |- _ => clear H
  | H : context [memb] |- _ => clear H
  | H : context [NoDup] |- _ => clear H
  | H : context [nth_error] |- _ => clear H
  | H : context [acc_bad] |- _ => clear H
  end.
(* closes a clause that holds by its hypothesis, by congruence, or by linear arithmetic over
   the walker's index; the hypotheses about lists are cleared first to keep lia's input small *)
Ltac fin := repeat match goal with H : _ /\ _ |- _ => destruct H end;
  repeat match goal with |- _ /\ _ => split end; auto; try congruence;
  try match goal with
      | |- (_ <= _)%nat => clear_big; lia
      | |- (_ < _)%nat => clear_big; lia
      | |- @eq nat _ _ => clear_big; lia
      end.
(* the invariant after a step of the goroutine whose program counter was E: the clauses the step
   does not touch are hypotheses, the others follow by the case of the counter *)
Ltac li_step E := li_split; try assumption; unf_all; cbn; rewrite ?E in *; fin.

Section Sim.
  Variable p : Lts.params.
  Variable exp : list Tree.entry.
  Variable ch : nat -> list bytes.
  Variable emsg rmsg : bytes.
  Variable fprog : N.
  Hypothesis Habs : abs_ok p exp ch.

  Notation arun := (AccEvents.run (sender_acc exp)).
  Notation evs := (sender_events exp ch emsg rmsg fprog).
  Notation INV := (inv p exp ch).
  Notation LIVE := (live_inv p exp ch).

  Lemma nentries_exp : nentries p = length exp.
  Proof. exact (abs_len _ _ _ Habs). Qed.

  (* once Send has returned, none of its goroutines can move *)
  Lemma returned_stuck : forall st a b, INV st a -> send_ret st = Some b ->
    step_walker p st = None /\ (forall j, step_worker p j st = None) /\ step_req p st = None /\
    step_req_ctx p st = None /\ step_send_ret st = None.
  Proof.
    intros st a b [_ H] E. rewrite E in H. destruct H as [_ Hq].
    unfold step_walker, step_worker, step_req, step_req_ctx, step_send_ret. rewrite E, Hq.
    unfold sender_quiet, sw_is_done, rq_is_done in Hq.
    apply andb_true_iff in Hq. destruct Hq as [Hq H3]. apply andb_true_iff in Hq. destruct Hq as [H1 H2].
    destruct (sw_pc st); try discriminate. destruct (rq_pc st); try discriminate. repeat split.
    intros j. destruct (nth_error (wks st) j) as [w|] eqn:Ew; [|reflexivity].
    rewrite forallb_forall in H3. apply nth_error_In, H3 in Ew. destruct w; try discriminate. reflexivity.
  Qed.

  (* a step of a running sender that shows nothing / one event at the boundary *)
  Lemma sim_silent : forall st' a, s_broken st' = false -> send_ret st' = None -> LIVE st' a ->
    exists a', arun a [] = Some a' /\ INV st' a'.
  Proof. intros st' a Hb Eret HL. exists a. split; [reflexivity|]. split; [exact Hb|]. rewrite Eret. exact HL. Qed.

  Lemma sim_event : forall st' a e a', sender_acc exp a e = Some a' ->
    s_broken st' = false -> send_ret st' = None -> LIVE st' a' ->
    exists a'', arun a [e] = Some a'' /\ INV st' a''.
  Proof.
    intros st' a e a' He Hb Eret HL. exists a'. split; [cbn; rewrite He; reflexivity|].
    split; [exact Hb|]. rewrite Eret. exact HL.
  Qed.

  Lemma walker_sim : forall st st' a, s_broken st = false -> send_ret st = None -> LIVE st a ->
    step_walker p st = Some st' -> exists a', arun a (evs st LSWalk) = Some a' /\ INV st' a'.
  Proof.
    intros st st' a Hb Eret HI H. li_destruct HI. destruct Hwalk as [Hle Hw].
    unfold step_walker in H. cbn [sender_events]. unf_all.
    destruct (sw_pc st) eqn:Epc.
    - (* SW_Next: the walk checks its context once per entry, not after the last one *)
      destruct (Nat.ltb_spec (sw_i st) (nentries p)) as [Hlt|Hge]; rewrite nentries_exp in *;
        [destruct (s_cancel st) eqn:Ec|]; inv_some; subst st';
        (apply sim_silent; [try destruct (is_file p (sw_i st)); assumption..|]).
      + li_split; try assumption; unf_all; cbn; rewrite ?Epc; auto.
      + (* entry sw_i is registered in files[] before its STAT is sent *)
        assert (HF' : rq_live st = true ->
           (forall id, memb id (if is_file p (sw_i st) then sw_i st :: sfiles st else sfiles st)
                       = (id <? S (sw_i st)) && is_file p id && unrequested a id) /\
           (forall id, S (sw_i st) <= id -> nlookup (N.of_nat id) (s_req a) = None)).
        { intros Hl. destruct (Hfiles Hl) as [HF HG]. split.
          - apply reg_files; [exact HF| |reflexivity]. unfold unrequested. rewrite HG; [reflexivity|exact (Nat.le_refl _)].
          - intros id Hid. apply HG, Nat.lt_le_incl, Hid. }
        li_split; try assumption; unf_all; destruct (is_file p (sw_i st)) eqn:Ef; cbn; rewrite ?Epc; fin.
      + assert (Heq : sw_i st = length exp) by (apply Nat.le_antisymm; assumption).
        li_step Epc.
    - (* SW_Lock k: the mutex is taken, Stream.SendMsg is called *)
      unfold lock_s in H. cbn in H. destruct (s_mu st); [discriminate|]. inv_some. subst st'.
      assert (He : sender_acc exp a (Out (abs_walk exp emsg k (sw_i st))) =
                   Some (match k with KStat => set_k a (S (s_k a)) | KEnd => set_endm a | KErr => a end)).
      { unfold sender_acc. rewrite Hret, Hfin. destruct k; cbn [abs_walk].
        - destruct Hw as [Hendm Hlt]. destruct (nth_error exp (sw_i st)) as [en|] eqn:En;
            [|apply nth_error_None in En; exfalso; exact (Nat.lt_irrefl _ (Nat.lt_le_trans _ _ _ Hlt En))].
          rewrite Hendm, Hk, En, stat_eqb_refl. reflexivity.
        - destruct Hw as [Hendm Heq]. rewrite Hendm, Hk, Heq, Nat.eqb_refl. reflexivity.
        - destruct Hw as [E|E]; rewrite E, ?orb_true_r; reflexivity. }
      eapply sim_event; [exact He|exact Hb|exact Eret|].
      destruct k; li_step Epc.
    - (* SW_Send k: SendMsg completes *)
      unfold send_s in H. rewrite Hb in H. destruct (room_sr p st); [|discriminate].
      destruct k; inv_some; subst st'; (apply sim_silent; [exact Hb|exact Eret|]);
        li_step Epc.
      destruct (rq_pc st) as [| | | | |[]|[]|]; intuition auto.
    - discriminate.
  Qed.
End Sim.
