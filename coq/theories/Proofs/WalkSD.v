(* SubDirFS walks.  subDirFS.Walk cuts the target at its first separator into first / rest; every
   sub-root whose name EQUALS first — or every sub-root, when first is empty — contributes its own
   Stat and then its inner walk at rest (walk_at), prefixed with its name; every other sub-root —
   also one whose name is a string prefix of first or has it as a prefix — contributes nothing. *)
From Coq Require Import List NArith Bool Lia Sorting.Permutation Sorting.Sorted.
From FS Require Import Sx Model.Path Model.Stat Model.Tree Model.Walk Proofs.Lex Proofs.PathP Proofs.ListAux Proofs.WalkP.
Import ListNotations.
Open Scope N_scope.
Open Scope bool_scope.

(* a path made of well-formed names *)
Definition wf_path (p : bytes) : Prop := exists cs, cs <> [] /\ Forall wf_name cs /\ p = joinc cs.

(* what the rewriting of subDirFS.Walk relies on: the path is such a path, and so is the Linkname of
   an entry that is not reported as a symlink, unless it is empty *)
Definition st_shape (st : stat) : Prop :=
  wf_path (st_path st) /\
  (mode_is_symlink (st_mode st) = false -> st_linkname st = [] \/ wf_path (st_linkname st)).

Lemma scan_shape l : (forall p r, In (p, r) l -> wf_path p) ->
  forall st, In st (scan [] l) -> st_shape st.
Proof.
  intros Hl st Hin. apply scan_in in Hin. destruct Hin as (pre & p & r & post & E & ->).
  unfold st_shape. rewrite mkstat_path, mkstat_mode, mkstat_linkname, mode_symlink_nosock. fold (is_symlink r).
  split; [apply (Hl p r); rewrite E; apply in_elt|].
  intros ->. destruct (is_dir r); auto. unfold hl_name.
  destruct (N.ltb 1 (l_nlink r)); auto.
  destruct (ilookup (l_ino r) (seen_after [] pre)) as [q|] eqn:El; auto.
  (* a hard-link name is the path of an earlier entry *)
  right. apply seen_after_paths, in_map_fst in El. destruct El as [r1 Hi].
  apply (Hl q r1). rewrite E. apply in_or_app; auto.
Qed.

Lemma walk_at_shape t target st : wf_tree t -> In st (walk_at t target) -> st_shape st.
Proof.
  intros Hwf Hin. rewrite walk_at_scan in Hin. eapply scan_shape; [|exact Hin].
  intros p r Hi. apply seq_at_in in Hi; auto. destruct Hi as (c & Hne & -> & Hat).
  exists (target_comps target ++ c). repeat split; auto. eapply tree_at_names; eauto.
Qed.

(* on such entries path.Join does no cleaning: the inner callback of subDirFS.Walk is prefix_stat *)
Lemma sub_rewrite_prefix d st : wf_name d -> st_shape st ->
  join2 d (st_path st) = d ++ sep :: st_path st /\ sub_rewrite d st = prefix_stat d st.
Proof.
  intros Hd [(cs & Hne & Hcs & Hp) Hln].
  assert (Hj : join2 d (st_path st) = d ++ sep :: st_path st) by (rewrite Hp; apply join2_wf; auto).
  split; auto. unfold sub_rewrite, prefix_stat. rewrite Hj.
  destruct (st_linkname st) as [|a ln] eqn:El; auto.
  destruct (mode_is_symlink (st_mode st)) eqn:Em.
  - cbn [has_prefix is_abs]. rewrite andb_true_r, N.eqb_sym. destruct (N.eqb a sep); reflexivity.
  - destruct (Hln eq_refl) as [E0|(cs0 & Hne0 & Hcs0 & E0)]; [congruence|].
    rewrite E0. rewrite join2_wf; auto.
Qed.

Lemma prefix_stat_path d st : st_path (prefix_stat d st) = d ++ sep :: st_path st.
Proof.
  unfold prefix_stat. destruct (st_linkname st); [reflexivity|].
  destruct (mode_is_symlink (st_mode st)); [destruct (is_abs (n :: l))|]; reflexivity.
Qed.

Lemma prefix_stat_mode d st : st_mode (prefix_stat d st) = st_mode st.
Proof.
  unfold prefix_stat. destruct (st_linkname st); [reflexivity|].
  destruct (mode_is_symlink (st_mode st)); [destruct (is_abs (n :: l))|]; reflexivity.
Qed.

Lemma prefix_stat_linkname d st : mode_is_symlink (st_mode st) = false ->
  st_linkname (prefix_stat d st) = match st_linkname st with [] => [] | ln => d ++ sep :: ln end.
Proof.
  intros Hm. unfold prefix_stat. destruct (st_linkname st) eqn:E; [cbn [st_linkname set_path]; exact E|].
  rewrite Hm. reflexivity.
Qed.

Lemma wf_path_cons d p : wf_name d -> wf_path p -> wf_path (d ++ sep :: p).
Proof.
  intros Hd (cs & Hne & Hcs & ->). exists (d :: cs). rewrite joinc_cons by auto.
  repeat split; [discriminate|constructor; auto].
Qed.

Lemma prefix_stat_shape d st : wf_name d -> st_shape st -> st_shape (prefix_stat d st).
Proof.
  intros Hd [Hp Hl]. split; [rewrite prefix_stat_path; apply wf_path_cons; auto|].
  rewrite prefix_stat_mode. intros Hm. rewrite prefix_stat_linkname by auto.
  destruct (Hl Hm) as [->|Hw]; [left; reflexivity|].
  destruct (st_linkname st); [left; reflexivity|right; apply wf_path_cons; auto].
Qed.

Lemma walk_sds_any l first rest : Forall sd_ok l ->
  walk_sds l first rest = (flat_map (sd_select first rest) l, false).
Proof.
  induction l as [|d l IH]; intros H; [reflexivity|].
  inversion H as [|? ? (Hw & Hd & Hwf) H']; subst. cbn [walk_sds flat_map]. unfold sd_select at 1.
  rewrite (IH H'), <- negb_orb. destruct (bytes_eqb first [] || bytes_eqb first (sd_name d)); cbn [negb app]; [|reflexivity].
  rewrite Hd. cbn [negb]. f_equal. unfold sd_block_at. cbn [app]. f_equal. f_equal.
  apply map_ext_in. intros st Hin.
  destruct (sub_rewrite_prefix _ _ Hw (walk_at_shape _ _ _ Hwf Hin)) as [-> ->]. reflexivity.
Qed.

Theorem subdir_walk_any_proof ds target : sd_wf ds ->
  walk_subdirs ds target =
  Some (flat_map (sd_select (fst (cut_sep target)) (snd (cut_sep target))) (isort_sd ds), false).
Proof.
  intros Hsd. destruct (sd_wf_sorted ds Hsd) as (Hok & _ & _ & Hsok).
  unfold walk_subdirs. rewrite Hsok. destruct (cut_sep target) as [first rest]. cbn [fst snd].
  rewrite walk_sds_any; auto.
Qed.

Lemma sd_select_same rest d : sd_select (sd_name d) rest d = sd_block_at d rest.
Proof. unfold sd_select. rewrite bytes_eqb_refl, orb_true_r. reflexivity. Qed.

Lemma sd_select_other first rest d : first <> [] -> sd_name d <> first -> sd_select first rest d = [].
Proof.
  intros H1 H2. unfold sd_select.
  rewrite (proj2 (bytes_eqb_neq first [])), (proj2 (bytes_eqb_neq first (sd_name d))); auto.
Qed.

Lemma flat_map_nil {A B} (f : A -> list B) l : (forall a, In a l -> f a = []) -> flat_map f l = [].
Proof.
  induction l as [|a l IH]; intros H; [reflexivity|]. cbn [flat_map].
  rewrite H, IH; auto using in_eq, in_cons.
Qed.

Lemma flat_map_single {A B} (f : A -> list B) l d :
  NoDup l -> In d l -> (forall a, In a l -> a <> d -> f a = []) -> flat_map f l = f d.
Proof.
  induction l as [|a l IH]; intros Hnd Hin H; [contradiction|]. inversion Hnd; subst. cbn [flat_map].
  destruct Hin as [->|Hin].
  - rewrite flat_map_nil; [apply app_nil_r|]. intros a Ha. apply H; [right; exact Ha|congruence].
  - rewrite H, IH; auto using in_eq, in_cons. congruence.
Qed.

Lemma cut_sep_app name rest : ~ In sep name -> cut_sep (name ++ sep :: rest) = (name, rest).
Proof.
  induction name as [|a n IH]; intros H; cbn [app cut_sep].
  - rewrite N.eqb_refl. reflexivity.
  - destruct (N.eqb a sep) eqn:E; [apply N.eqb_eq in E; exfalso; apply H; simpl; auto|].
    rewrite IH; [reflexivity|]. intro; apply H; simpl; auto.
Qed.

Lemma cut_sep_nosep name : ~ In sep name -> cut_sep name = (name, []).
Proof.
  induction name as [|a n IH]; intros H; cbn [cut_sep]; [reflexivity|].
  destruct (N.eqb a sep) eqn:E; [apply N.eqb_eq in E; exfalso; apply H; simpl; auto|].
  rewrite IH; [reflexivity|]. intro; apply H; simpl; auto.
Qed.

(* a target whose first component is a name selects the one sub-root of that name *)
Lemma select_named ds name rest : sd_wf ds -> name <> [] ->
  (forall d, In d ds -> sd_name d = name -> flat_map (sd_select name rest) (isort_sd ds) = sd_block_at d rest) /\
  ((forall d, In d ds -> sd_name d <> name) -> flat_map (sd_select name rest) (isort_sd ds) = []).
Proof.
  intros Hsd Hne. destruct (sd_wf_sorted ds Hsd) as (_ & Hnd & _).
  pose proof (isort_sd_perm ds) as Hp. split.
  - intros d Hd <-. apply (Permutation_in _ (Permutation_sym Hp)) in Hd.
    rewrite <- (sd_select_same rest d). apply flat_map_single; auto.
    + eapply NoDup_map_inv; eauto.
    + intros a Ha Hne'. apply sd_select_other; auto. intro E. apply Hne'.
      exact (NoDup_map_inj sd_name _ _ _ Hnd Ha Hd E).
  - intros Hno. apply flat_map_nil. intros d Hd. apply sd_select_other; auto.
    apply Hno. eapply Permutation_in; eauto.
Qed.
