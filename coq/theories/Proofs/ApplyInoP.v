(* C01 — facts about AbsDest.apply_all that hold for any change list: what one add/modify does to
   the map ([apply_map_at]), framing (a change at p only touches paths at or below p), and two
   invariants of the inode classes ([ino_lt], [nonlink_inj]).  For changes in strictly ascending
   path order this yields what the final map holds at the path of every change ([changed_final]). *)
From Coq Require Import List NArith Lia Bool Sorting.Sorted.
From FS Require Import Sx Model.Path Model.Stat Model.Diff Model.AbsDest
  Proofs.Lex Proofs.PathP Proofs.ListAux Proofs.DiffP Proofs.AbsDestP.
Import ListNotations.
Open Scope N_scope.
Open Scope bool_scope.

Definition ino_lt (D : dmap) (n : N) : Prop := forall p e, alookup p D = Some e -> de_ino e < n.

Definition nonlink_inj (D : dmap) : Prop :=
  forall p q e1 e2, p <> q -> alookup p D = Some e1 -> alookup q D = Some e2 ->
  is_hardlink (de_stat e1) = false -> is_hardlink (de_stat e2) = false -> de_ino e1 <> de_ino e2.

Section Gen.
Variable src : bytes -> bytes.

Lemma apply_all_noerr : forall cs D n D' n' dn,
  apply_all src cs D n = (D', n', dn, false) -> dn = cs.
Proof.
  intros cs D n D' n' dn E. destruct (apply_all_spec src (fun b => b) (fun _ => []) _ _ _ _ _ _ _ E) as [(rest & -> & Hr) _].
  rewrite (Hr eq_refl), app_nil_r. reflexivity.
Qed.

Lemma apply_all_split : forall pre c post D n D' n' dn,
  apply_all src (pre ++ c :: post) D n = (D', n', dn, false) ->
  exists D1 n1 D2 n2,
    apply_all src pre D n = (D1, n1, pre, false) /\ apply_map src D1 n1 c = Some (D2, n2) /\
    apply_all src post D2 n2 = (D', n', post, false).
Proof.
  induction pre as [|x pre IH]; intros c post D n D' n' dn E.
  - simpl in E. destruct (apply_map src D n c) as [[D2 n2]|] eqn:Ea.
    + destruct (apply_all src post D2 n2) as [[[D3 n3] dn3] e3] eqn:Er. inversion E; subst.
      exists D, n, D2, n2. split; [reflexivity|]. split; auto.
      rewrite (apply_all_noerr _ _ _ _ _ _ Er) in Er. exact Er.
    + inversion E.
  - simpl in E. destruct (apply_map src D n x) as [[Dx nx]|] eqn:Ea; [|inversion E].
    destruct (apply_all src (pre ++ c :: post) Dx nx) as [[[D3 n3] dn3] e3] eqn:Er. inversion E; subst.
    destruct (IH _ _ _ _ _ _ _ Er) as (D1 & n1 & D2 & n2 & H1 & H2 & H3).
    exists D1, n1, D2, n2. split; [|auto]. simpl. rewrite Ea, H1. reflexivity.
Qed.

Lemma apply_all_invariant (P : dmap -> N -> Prop) cs :
  (forall D n c D' n', In c cs -> apply_map src D n c = Some (D', n') -> P D n -> P D' n') ->
  forall D n D' n' dn e, apply_all src cs D n = (D', n', dn, e) -> P D n -> P D' n'.
Proof.
  induction cs as [|c cs IH]; intros Hstep D n D' n' dn e E HP; simpl in E.
  - inversion E; subst. exact HP.
  - destruct (apply_map src D n c) as [[D1 n1]|] eqn:Ea; [|inversion E; subst; exact HP].
    destruct (apply_all src cs D1 n1) as [[[D2 n2] dn2] e2] eqn:Er. inversion E; subst.
    apply (IH (fun D n c D' n' Hc => Hstep D n c D' n' (or_intror Hc)) _ _ _ _ _ _ Er).
    apply (Hstep _ _ c _ _ (or_introl eq_refl) Ea HP).
Qed.

Lemma apply_map_delete D n p o D' n' :
  apply_map src D n (KDelete, p, o) = Some (D', n') -> D' = aremove_if (at_or_below p) D /\ n' = n.
Proof. destruct o; simpl; intros E; inversion E; auto. Qed.

Lemma apply_map_none_stat D n k p D' n' :
  apply_map src D n (k, p, None) = Some (D', n') -> k = KDelete.
Proof. destruct k; simpl; intros E; try discriminate. reflexivity. Qed.

Lemma apply_map_kind D n k p o r :
  apply_map src D n (k, p, o) = Some r -> k = KDelete \/ (k <> KDelete /\ exists st, o = Some st).
Proof. destruct k, o; simpl; intros E; try discriminate; eauto; right; split; eauto; discriminate. Qed.

Lemma apply_map_gone D n p o D' n' :
  apply_map src D n (KDelete, p, o) = Some (D', n') -> alookup p D' = None.
Proof.
  intros E. apply apply_map_delete in E. destruct E as [-> _].
  rewrite alookup_aremove_if, at_or_below_refl. reflexivity.
Qed.

(* the subtree at p goes when an add/modify changes directory-ness there *)
Definition removes (D : dmap) (p : bytes) (st : stat) : bool :=
  match alookup p D with
  | Some o => negb (Bool.eqb (st_is_dir (de_stat o)) (st_is_dir st))
  | None => false
  end.

(* A hard link gets the metadata of the inode it joins (AbsDest.link_stat), not the stat as sent. *)
Lemma apply_map_at D n k p st D' n' :
  k <> KDelete -> apply_map src D n (k, p, Some st) = Some (D', n') ->
  exists e, D' = aset p e (if removes D p st then aremove_if (at_or_below p) D else D) /\
    (is_hardlink st = false -> de_stat e = st) /\
    ((st_is_dir st = true /\ n' = n /\
      exists o, alookup p D = Some o /\ st_is_dir (de_stat o) = true /\ de_ino e = de_ino o /\ de_bytes e = de_bytes o)
     \/ (is_hardlink st = true /\ n' = n /\
         exists t, alookup (st_linkname st) D = Some t /\ st_is_dir (de_stat t) = false /\
                   de_ino e = de_ino t /\ de_bytes e = de_bytes t /\
                   de_stat e = link_stat (de_stat t) st)
     \/ (is_hardlink st = false /\ n' = n + 1 /\ de_ino e = n /\
         de_bytes e = (if wants_content st then src p else []) /\
         (st_is_dir st = true -> forall o, alookup p D = Some o -> st_is_dir (de_stat o) = false))).
Proof.
  intros Hk E. rewrite apply_map_put in E by exact Hk.
  destruct (written_entry src D n p st) as [[e n1]|] eqn:Ew; [|destruct k, (alookup p D); discriminate].
  assert (E' : D' = aset p e (dcleared D p st) /\ n' = n1) by (destruct k, (alookup p D); inversion E; auto).
  destruct E' as [-> ->]. exists e. split.
  { unfold dcleared, cleared, removes. destruct (alookup p D) as [o|]; [rewrite if_negb|]; reflexivity. }
  clear E Hk. unfold written_entry, new_inode in Ew.
  destruct (alookup p D) as [o|]; [destruct (st_is_dir st && st_is_dir (de_stat o)) eqn:Edd|].
  1:{ (* directory over directory *)
    apply andb_true_iff in Edd. destruct Edd as [E1 E2]. inversion Ew; subst.
    split; [reflexivity|]. left. simpl. eauto 10. }
  (* something else at p, or nothing: the same new entry *)
  all: destruct (is_hardlink st) eqn:Eh;
    [destruct (alookup (st_linkname st) D) as [t|]; [|discriminate];
     destruct (st_is_dir (de_stat t)) eqn:Etd; [discriminate|]|];
    inversion Ew; subst.
  1,3: split; [discriminate|]; right; left; simpl; eauto 10.
  all: split; [reflexivity|]; right; right; simpl; repeat split; auto; intros Hsd o' Ho'.
  - inversion Ho'; subst o'. rewrite Hsd in Edd. exact Edd.
  - discriminate.
Qed.

Lemma apply_map_others D n k p st D' n' x :
  k <> KDelete -> apply_map src D n (k, p, Some st) = Some (D', n') -> x <> p ->
  alookup x D' = if removes D p st && at_or_below p x then None else alookup x D.
Proof.
  intros Hk E Hx. destruct (apply_map_at _ _ _ _ _ _ _ Hk E) as (e & -> & _).
  rewrite alookup_aset_other by congruence.
  destruct (removes D p st); [apply alookup_aremove_if|reflexivity].
Qed.

Lemma apply_map_frame D n c D' n' x :
  apply_map src D n c = Some (D', n') -> at_or_below (ch_path c) x = false -> alookup x D' = alookup x D.
Proof.
  destruct c as [[k p] o]. intros E Hx. change (at_or_below p x = false) in Hx.
  destruct (apply_map_kind _ _ _ _ _ _ E) as [->|(Hk & st & ->)].
  - apply apply_map_delete in E. destruct E as [-> _]. rewrite alookup_aremove_if, Hx. reflexivity.
  - rewrite (apply_map_others _ _ _ _ _ _ _ x Hk E), Hx, andb_false_r; [reflexivity|].
    intros ->. rewrite at_or_below_refl in Hx. discriminate.
Qed.

Lemma apply_map_old D n c D' n' x e :
  apply_map src D n c = Some (D', n') -> alookup x D' = Some e ->
  x = ch_path c \/ alookup x D = Some e.
Proof.
  destruct c as [[k p] o]. intros E He. change (ch_path (k, p, o)) with p.
  destruct (list_eq_dec N.eq_dec x p) as [Hx|Hx]; [auto|right].
  destruct (apply_map_kind _ _ _ _ _ _ E) as [->|(Hk & st & ->)].
  - apply apply_map_delete in E. destruct E as [-> _]. rewrite alookup_aremove_if in He.
    destruct (at_or_below p x); [discriminate|exact He].
  - rewrite (apply_map_others _ _ _ _ _ _ _ x Hk E Hx) in He.
    destruct (removes D p st && at_or_below p x); [discriminate|exact He].
Qed.

Lemma apply_all_frame cs D n D' n' dn x :
  apply_all src cs D n = (D', n', dn, false) ->
  (forall c, In c cs -> compare_path x (ch_path c) = Lt) -> alookup x D' = alookup x D.
Proof.
  intros E Hlt. apply (apply_all_invariant (fun D1 _ => alookup x D1 = alookup x D) cs) with (2 := E); [|reflexivity].
  intros D1 n1 c D2 n2 Hc Ea <-. apply (apply_map_frame _ _ _ _ _ _ Ea).
  destruct (at_or_below (ch_path c) x) eqn:Ab; auto.
  apply at_or_below_le in Ab. exfalso. apply Ab, Hlt, Hc.
Qed.

Lemma apply_map_mono D n c D' n' : apply_map src D n c = Some (D', n') -> n <= n'.
Proof.
  destruct c as [[k p] o]. intros E.
  destruct (apply_map_kind _ _ _ _ _ _ E) as [->|(Hk & st & ->)].
  - apply apply_map_delete in E. destruct E as [_ ->]. lia.
  - destruct (apply_map_at _ _ _ _ _ _ _ Hk E) as (e & _ & _ & [(_ & -> & _)|[(_ & -> & _)|(_ & -> & _)]]); lia.
Qed.

Lemma apply_map_ino_lt D n c D' n' :
  apply_map src D n c = Some (D', n') -> ino_lt D n -> ino_lt D' n'.
Proof.
  intros E Hl x e He. pose proof (apply_map_mono _ _ _ _ _ E) as Hm.
  destruct (apply_map_old _ _ _ _ _ _ _ E He) as [->|Ho]; [|specialize (Hl _ _ Ho); lia].
  destruct c as [[k p] o]. unfold ch_path in He. simpl in He.
  destruct (apply_map_kind _ _ _ _ _ _ E) as [->|(Hk & st & ->)];
    [rewrite (apply_map_gone _ _ _ _ _ _ E) in He; discriminate|].
  destruct (apply_map_at _ _ _ _ _ _ _ Hk E) as (e' & -> & _ & Hc).
  rewrite alookup_aset_same in He. inversion He; subst e'.
  destruct Hc as [(_ & -> & o & Ho & _ & -> & _)|[(_ & -> & t & Ht & _ & -> & _)|(_ & -> & -> & _)]].
  - apply (Hl _ _ Ho).
  - apply (Hl _ _ Ht).
  - lia.
Qed.

Lemma apply_map_nonlink_inj D n c D' n' :
  apply_map src D n c = Some (D', n') -> ino_lt D n -> nonlink_inj D -> nonlink_inj D'.
Proof.
  intros E Hl Hi x y e1 e2 Hxy H1 H2 L1 L2.
  (* the entry of the change itself, when not a link, shares its class with no other old non-link:
     it keeps the class of the directory it rewrites, or gets the next one *)
  assert (Hnew : forall z e, alookup z D' = Some e -> z = ch_path c -> is_hardlink (de_stat e) = false ->
            forall w e', w <> z -> alookup w D = Some e' -> is_hardlink (de_stat e') = false -> de_ino e <> de_ino e').
  { intros z e Hz -> Lz w e' Hw Hw' Lw.
    destruct c as [[k p] o]. unfold ch_path in *. simpl fst in *. simpl snd in *.
    destruct (apply_map_kind _ _ _ _ _ _ E) as [->|(Hk & st & ->)];
      [rewrite (apply_map_gone _ _ _ _ _ _ E) in Hz; discriminate|].
    destruct (apply_map_at _ _ _ _ _ _ _ Hk E) as (e0 & -> & _ & Hc).
    rewrite alookup_aset_same in Hz. inversion Hz; subst e0.
    destruct Hc as [(_ & _ & o & Ho & Hod & -> & _)|[(Hh & _ & t & _ & _ & _ & _ & Est)|(_ & _ & -> & _)]].
    - apply (Hi p w o e'); auto. unfold is_hardlink, is_node. rewrite Hod. reflexivity.
    - rewrite Est, (link_stat_is_hardlink _ _ Hh) in Lz. discriminate.
    - specialize (Hl _ _ Hw'). lia. }
  destruct (apply_map_old _ _ _ _ _ _ _ E H1) as [Ex|O1], (apply_map_old _ _ _ _ _ _ _ E H2) as [Ey|O2].
  - congruence.
  - apply (Hnew x e1 H1 Ex L1 y e2); auto.
  - intros Heq. apply (Hnew y e2 H2 Ey L2 x e1); auto.
  - apply (Hi x y); auto.
Qed.

Lemma apply_all_inv cs D n D' n' dn e :
  apply_all src cs D n = (D', n', dn, e) -> ino_lt D n -> nonlink_inj D ->
  n <= n' /\ ino_lt D' n' /\ nonlink_inj D'.
Proof.
  intros E Hl Hi.
  apply (apply_all_invariant (fun D1 n1 => n <= n1 /\ ino_lt D1 n1 /\ nonlink_inj D1) cs) with (2 := E).
  - intros D1 n1 c D2 n2 _ Ea (Hm & Hl1 & Hi1). pose proof (apply_map_mono _ _ _ _ _ Ea). split; [lia|].
    split; [eapply apply_map_ino_lt|eapply apply_map_nonlink_inj]; eauto.
  - split; [lia|auto].
Qed.

Lemma changed_final cs D n R nR dn k p st :
  StronglySorted clt cs -> apply_all src cs D n = (R, nR, dn, false) -> In (k, p, Some st) cs ->
  k <> KDelete ->
  exists e, alookup p R = Some e /\ (is_hardlink st = false -> de_stat e = st) /\
    (is_hardlink st = true -> compare_path (st_linkname st) p = Lt ->
       exists t, alookup (st_linkname st) R = Some t /\ st_is_dir (de_stat t) = false /\
                 de_ino e = de_ino t /\ de_bytes e = de_bytes t /\ de_stat e = link_stat (de_stat t) st) /\
    (is_hardlink st = false -> st_is_dir st = false ->
       de_bytes e = (if wants_content st then src p else [])).
Proof.
  intros HS E Hin Hk. apply in_split in Hin. destruct Hin as (pre & post & ->).
  destruct (apply_all_split _ _ _ _ _ _ _ _ E) as (D1 & n1 & D2 & n2 & E1 & Ea & E2).
  apply SS_app_inv in HS. destruct HS as [_ Hpost]. rewrite Forall_forall in Hpost.
  assert (Hfr : forall x, x = p \/ compare_path x p = Lt -> alookup x R = alookup x D2).
  { intros x Hx. eapply apply_all_frame; [exact E2|]. intros c Hc. specialize (Hpost _ Hc).
    unfold clt, ch_path in Hpost. simpl in Hpost. destruct Hx as [->|Hx]; auto.
    eapply compare_path_trans; eauto. }
  destruct (apply_map_at _ _ _ _ _ _ _ Hk Ea) as (e & He & Es & Hc).
  exists e. rewrite (Hfr p (or_introl eq_refl)). split; [rewrite He; apply alookup_aset_same|]. split; auto. split.
  - intros Hh Hlt. destruct Hc as [(Hd & _)|[(_ & _ & t & Ht & Htd & Ei & Eb & Est)|(Hn & _)]].
    + unfold is_hardlink, is_node in Hh. rewrite Hd in Hh. discriminate.
    + exists t. rewrite (Hfr _ (or_intror Hlt)).
      rewrite (apply_map_frame _ _ _ _ _ (st_linkname st) Ea); auto.
      unfold ch_path. simpl. destruct (at_or_below p (st_linkname st)) eqn:Ab; auto.
      apply at_or_below_le in Ab. congruence.
    + congruence.
  - intros Hh Hd. destruct Hc as [(Hd' & _)|[(Hh' & _)|(_ & _ & _ & Eb & _)]]; congruence.
Qed.

Lemma apply_map_add_ok D n p st :
  (is_hardlink st = true -> exists t, alookup (st_linkname st) D = Some t /\ st_is_dir (de_stat t) = false) ->
  exists D' n', apply_map src D n (KAdd, p, Some st) = Some (D', n').
Proof.
  intros Hl. simpl. destruct (alookup p D) as [o|].
  - destruct (st_is_dir st && st_is_dir (de_stat o)); [eauto|].
    destruct (is_hardlink st); [|eauto]. destruct (Hl eq_refl) as (t & -> & ->). eauto.
  - destruct (is_hardlink st); [|eauto]. destruct (Hl eq_refl) as (t & -> & ->). eauto.
Qed.

Definition nodup_keys (D : dmap) : Prop := NoDup (map fst D).

Lemma nodup_keys_remove f (D : dmap) : nodup_keys D -> nodup_keys (aremove_if f D).
Proof.
  unfold nodup_keys, aremove_if. induction D as [|[k v] D IH]; simpl; intros Hn; [constructor|].
  inversion Hn; subst. destruct (f k); simpl; auto. constructor; auto.
  intros Hin. apply in_map_iff in Hin. destruct Hin as ([k' v'] & E & Hin). simpl in E. subst k'.
  apply filter_In in Hin. destruct Hin as [Hin _]. apply H1. apply (in_map fst _ _ Hin).
Qed.

Lemma nodup_keys_aset p v (D : dmap) : nodup_keys D -> nodup_keys (aset p v D).
Proof.
  intros Hn. unfold aset, nodup_keys. simpl. constructor; [|apply nodup_keys_remove; auto].
  intros Hin. apply in_map_iff in Hin. destruct Hin as ([k' v'] & E & Hin). simpl in E. subst k'.
  apply filter_In in Hin. destruct Hin as [_ Hf]. simpl in Hf. rewrite bytes_eqb_refl in Hf. discriminate.
Qed.

Lemma apply_map_nodup_keys D n c D' n' :
  apply_map src D n c = Some (D', n') -> nodup_keys D -> nodup_keys D'.
Proof.
  destruct c as [[k p] o]. intros E Hn.
  destruct (apply_map_kind _ _ _ _ _ _ E) as [->|(Hk & st & ->)].
  - apply apply_map_delete in E. destruct E as [-> _]. apply nodup_keys_remove, Hn.
  - destruct (apply_map_at _ _ _ _ _ _ _ Hk E) as (e & -> & _). apply nodup_keys_aset.
    destruct (removes D p st); [apply nodup_keys_remove|]; exact Hn.
Qed.

Lemma apply_all_nodup_keys cs D n D' n' dn e :
  apply_all src cs D n = (D', n', dn, e) -> nodup_keys D -> nodup_keys D'.
Proof.
  intros E. apply (apply_all_invariant (fun D1 _ => nodup_keys D1) cs) with (2 := E).
  intros D1 n1 c D2 n2 _ Ea. apply (apply_map_nodup_keys _ _ _ _ _ Ea).
Qed.

Lemma nodup_keys_lookup (D : dmap) k v : nodup_keys D -> In (k, v) D -> alookup k D = Some v.
Proof.
  unfold nodup_keys. induction D as [|[k0 v0] D IH]; simpl; intros Hn Hin; [destruct Hin|].
  inversion Hn; subst. rewrite alookup_cons. destruct Hin as [E|Hin].
  - inversion E; subst. rewrite bytes_eqb_refl. reflexivity.
  - destruct (bytes_eqb k0 k) eqn:Ek; [|auto]. apply bytes_eqb_eq in Ek. subst.
    exfalso. apply H1. apply (in_map fst _ _ Hin).
Qed.

End Gen.
