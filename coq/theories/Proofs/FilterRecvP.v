(* C05 — the receiver's Filter (ReceiveOpt.Filter = DiskWriterOpt.Filter; Model/AbsDest.v,
   receive_abs_f).  A transfer through a filter that never skips and keeps path, type bits and
   link name ([filter_ok]) is, as far as the DESTINATION, the requests and the failure flag are
   concerned, the unfiltered transfer of the source with every stat rewritten by the filter
   ([filter_entries]); the notifications are the images of the changes AS RECEIVED (stat as
   sent, header of the stat as sent).  Hence notify_exact / notify_digest with a filter. *)
From Coq Require Import List NArith Lia Bool Sorting.Sorted.
From FS Require Import Sx Model.Path Model.Stat Model.Diff Model.AbsDest
  Proofs.Lex Proofs.PathP Proofs.DiffP Proofs.DiffSpecP Proofs.AbsDestP Proofs.ReceiveP.
Import ListNotations.
Open Scope N_scope.
Open Scope bool_scope.

Notation idf := (fun s : stat => s).

Lemma filter_map_filter_map {X Y Z} (f : X -> option Y) (g : Y -> option Z) l :
  filter_map g (filter_map f l) = filter_map (fun x => match f x with Some y => g y | None => None end) l.
Proof.
  induction l as [|x l IH]; [reflexivity|]. simpl. destruct (f x) as [y|]; simpl; [|exact IH].
  destruct (g y); rewrite IH; reflexivity.
Qed.

Lemma filter_map_total {X Y} (f : X -> option Y) (g : X -> Y) l :
  (forall x, In x l -> f x = Some (g x)) -> filter_map f l = map g l.
Proof.
  induction l as [|x l IH]; intros Hl; [reflexivity|]. cbn [filter_map map].
  rewrite (Hl x (or_introl eq_refl)), IH; [reflexivity|]. intros y Hy. apply Hl. right; auto.
Qed.

Lemma emit_map (f : change -> change) o r :
  match emit o r with Some l => Some (map f l) | None => None end
  = emit (option_map f o) (match r with Some l => Some (map f l) | None => None end).
Proof. destruct r as [l|]; [|reflexivity]. destruct o; reflexivity. Qed.

Section Filt.
Variable wf : bytes -> stat -> bool * stat.
Hypothesis Hok : filter_ok wf.
Notation F := (filter_stat wf).

Lemma F_path s : st_path (F s) = st_path s.
Proof. unfold filter_stat. apply (proj2 (Hok (st_path s) s)). reflexivity. Qed.
Lemma F_is_dir s : st_is_dir (F s) = st_is_dir s.
Proof. unfold filter_stat. apply (proj2 (Hok (st_path s) s)). reflexivity. Qed.
Lemma F_special s : is_special (F s) = is_special s.
Proof. unfold filter_stat. apply (proj2 (Hok (st_path s) s)). reflexivity. Qed.
Lemma F_symlink s : mode_is_symlink (st_mode (F s)) = mode_is_symlink (st_mode s).
Proof. unfold filter_stat. apply (proj2 (Hok (st_path s) s)). reflexivity. Qed.
Lemma F_linkname s : st_linkname (F s) = st_linkname s.
Proof. unfold filter_stat. apply (proj2 (Hok (st_path s) s)). reflexivity. Qed.
Lemma wf_total p s : fst (wf p s) = true.
Proof. apply (proj1 (Hok p s)). Qed.

Lemma F_is_reg s : is_reg (F s) = is_reg s.
Proof. unfold is_reg. rewrite F_is_dir, F_special, F_symlink. reflexivity. Qed.
Lemma F_is_node s : is_node (F s) = is_node s.
Proof. unfold is_node. rewrite F_is_dir, F_symlink. reflexivity. Qed.
Lemma F_is_hardlink s : is_hardlink (F s) = is_hardlink s.
Proof. unfold is_hardlink. rewrite F_is_node, F_linkname. reflexivity. Qed.
Lemma F_wants_content s : wants_content (F s) = wants_content s.
Proof. unfold wants_content. rewrite F_is_reg, F_linkname. reflexivity. Qed.

(* the change as the writer executes it *)
Definition restat (c : change) : change :=
  match c with
  | (KDelete, _, _) => c
  | (k, p, Some st) => (k, p, Some (F st))
  | (_, _, None) => c
  end.

Lemma diff_loop_filter d : forall fuel rm A B,
  match diff_loop F d fuel rm A B with Some l => Some (map restat l) | None => None end
  = diff_loop idf d fuel rm A (map F B).
Proof.
  induction fuel as [|f IH]; intros rm A B; [reflexivity|].
  destruct A as [|a A'], B as [|b B']; cbn [diff_loop map].
  - reflexivity.
  - unfold step_add. rewrite emit_map, IH. cbn [option_map restat map]. rewrite F_path. reflexivity.
  - unfold step_del. destruct (under_rm rm (st_path a)); rewrite emit_map, IH; reflexivity.
  - rewrite F_path. destruct (compare_path (st_path a) (st_path b)).
    + unfold step_mod. cbv zeta. rewrite emit_map, IH. cbn [map]. f_equal.
      destruct (same_file d a (F b)); cbn [option_map restat]; [reflexivity|]. rewrite F_path. reflexivity.
    + unfold step_del. destruct (under_rm rm (st_path a)); rewrite emit_map, IH; reflexivity.
    + unfold step_add. rewrite emit_map, IH. cbn [option_map restat map]. rewrite F_path. reflexivity.
Qed.

Lemma diff_filter d A B : map restat (diff F d A B) = diff idf d A (map F B).
Proof.
  unfold diff, diff_opt. pose proof (diff_loop_filter d (diff_fuel A B) [] A B) as E.
  assert (Ef : diff_fuel A (map F B) = diff_fuel A B) by (unfold diff_fuel; rewrite map_length; reflexivity).
  rewrite Ef, <- E. destruct (diff_loop F d (diff_fuel A B) [] A B); reflexivity.
Qed.

Lemma diff_change_path d A B k p st : sorted A -> sorted B -> closed B ->
  In (k, p, Some st) (diff F d A B) -> p = st_path st.
Proof.
  intros HsA HsB HcB Hin. apply (diff_changes_exact_proof F d A B HsA HsB HcB F_is_dir) in Hin.
  destruct k; simpl in Hin.
  - destruct Hin as (_ & E & _). symmetry. exact E.
  - destruct Hin as (_ & E & _). symmetry. exact E.
  - destruct Hin.
Qed.

Lemma filter_change_restat c :
  (forall k p st, c = (k, p, Some st) -> p = st_path st) -> filter_change wf c = Some (restat c).
Proof.
  destruct c as [[k p] [st|]]; intros Hp.
  - destruct k; cbn [filter_change restat]; rewrite wf_total; try reflexivity;
      rewrite (Hp _ _ _ eq_refl); reflexivity.
  - destruct k; cbn [filter_change restat]; rewrite ?wf_total; reflexivity.
Qed.

Section Writer.
Variable src : bytes -> bytes.

Lemma apply_all_f_spec : forall cs D n,
  apply_all src (filter_map (filter_change wf) cs) D n
  = let '(D', n', done, e) := apply_all_f wf src cs D n in (D', n', filter_map (filter_change wf) done, e).
Proof.
  induction cs as [|c cs IH]; intros D n; [reflexivity|].
  cbn [filter_map apply_all_f]. destruct (filter_change wf c) as [c'|] eqn:Ec; [|apply IH].
  cbn [apply_all]. destruct (apply_map src D n c') as [[D1 n1]|]; [|reflexivity].
  rewrite IH. destruct (apply_all_f wf src cs D1 n1) as [[[D2 n2] dn] e].
  cbn [filter_map]. rewrite Ec. reflexivity.
Qed.

Lemma apply_all_f_noerr : forall cs D n D' n' done,
  (forall c, In c cs -> filter_change wf c <> None) ->
  apply_all_f wf src cs D n = (D', n', done, false) -> done = cs.
Proof.
  induction cs as [|c cs IH]; intros D n D' n' done Hall E; cbn [apply_all_f] in E.
  - inversion E; reflexivity.
  - destruct (filter_change wf c) as [c'|] eqn:Ec; [|exfalso; apply (Hall c); [left; auto|exact Ec]].
    destruct (apply_map src D n c') as [[D1 n1]|]; [|inversion E].
    destruct (apply_all_f wf src cs D1 n1) as [[[D2 n2] dn] e] eqn:Er. inversion E; subst.
    f_equal. eapply IH; eauto. intros x Hx. apply Hall. right; auto.
Qed.
End Writer.

Lemma apply_map_ext src1 src2 D n c : (forall p, src1 p = src2 p) -> apply_map src1 D n c = apply_map src2 D n c.
Proof.
  intros E. destruct c as [[k p] [st|]]; [|reflexivity]. destruct k; cbn [apply_map]; rewrite ?(E p); reflexivity.
Qed.

Lemma apply_all_ext src1 src2 : (forall p, src1 p = src2 p) ->
  forall cs D n, apply_all src1 cs D n = apply_all src2 cs D n.
Proof.
  intros E. induction cs as [|c cs IH]; intros D n; [reflexivity|].
  cbn [apply_all]. rewrite (apply_map_ext src1 src2 D n c E).
  destruct (apply_map src2 D n c) as [[D1 n1]|]; [|reflexivity]. rewrite IH. reflexivity.
Qed.

Lemma efind_filter_entries p B :
  efind p (filter_entries wf B) = option_map (fun e => (F (fst e), snd e)) (efind p B).
Proof.
  unfold efind, filter_entries. induction B as [|e B IH]; [reflexivity|].
  cbn [map find fst]. rewrite F_path. destruct (bytes_eqb (st_path (fst e)) p); [reflexivity|exact IH].
Qed.

Lemma src_of_filter_entries B p : src_of (filter_entries wf B) p = src_of B p.
Proof. unfold src_of. rewrite efind_filter_entries. destruct (efind p B); reflexivity. Qed.

Lemma fst_filter_entries B : map fst (filter_entries wf B) = map F (map fst B).
Proof. unfold filter_entries. rewrite !map_map. reflexivity. Qed.

Lemma sorted_filter L : sorted L -> sorted (map F L).
Proof.
  induction 1 as [|a L HS IH HF]; simpl; constructor; auto.
  rewrite Forall_forall in *. intros y Hy. apply in_map_iff in Hy. destruct Hy as (x & <- & Hx).
  unfold plt. rewrite !F_path. apply (HF x Hx).
Qed.

Lemma closed_filter L : closed L -> closed (map F L).
Proof.
  intros HC s Hs q r Ep. apply in_map_iff in Hs. destruct Hs as (s0 & <- & Hs0). rewrite F_path in Ep.
  destruct (HC s0 Hs0 q r Ep) as (t & Ht & Et & Hd). exists (F t).
  split; [apply in_map; auto|]. rewrite F_path, F_is_dir. auto.
Qed.

Lemma wf_listing_filter L : wf_listing L -> wf_listing (map F L).
Proof. intros [H1 H2]. split; [apply sorted_filter|apply closed_filter]; auto. Qed.

Lemma links_ok_filter B : links_ok B -> links_ok (filter_entries wf B).
Proof.
  intros HL sb bb Hin Hl. unfold filter_entries in Hin. apply in_map_iff in Hin.
  destruct Hin as ([sb0 bb0] & E & Hin0). cbn [fst snd] in E. inversion E; subst sb bb. clear E.
  rewrite F_is_hardlink in Hl. destruct (HL sb0 bb0 Hin0 Hl) as (st & bt & Ht & Ep & Hlt & Hr & Hrr & Eb).
  exists (F st), bt. split; [unfold filter_entries; apply in_map_iff; exists (st, bt); auto|].
  rewrite !F_path, F_linkname, F_is_node, !F_is_reg. auto.
Qed.

Section Red.
Variable H : bytes -> bytes.
Variable hdr : stat -> bytes.
Variable d : differ.
Variables A B : list entry.
Notation LA := (map fst A).
Notation LB := (map fst B).
Notation B' := (filter_entries wf B).

Theorem receive_abs_f_reduce m :
  wf_listing LA -> wf_listing LB ->
  let r := receive_abs_f wf H hdr m d A B in
  let r' := receive_abs H hdr m d A B' in
  ds_map r = ds_map r' /\ ds_err r = ds_err r' /\ ds_reqs r = ds_reqs r' /\
  map restat (ds_changes r) = ds_changes r' /\
  ds_notifs r = map (notif_of (src_of B) H hdr) (ds_changes r) /\
  (ds_err r = false -> ds_changes r = diff F d (match m with Fresh => LA | Merge => [] end) LB).
Proof.
  intros HwA HwB. cbv zeta. unfold receive_abs_f, receive_abs.
  set (LA' := match m with Fresh => LA | Merge => [] end).
  set (cs := diff F d LA' LB).
  assert (HsA' : sorted LA') by (unfold LA'; destruct m; [apply HwA|constructor]).
  assert (Hcs : forall c, In c cs -> filter_change wf c = Some (restat c)).
  { intros c Hc. apply filter_change_restat. intros k p st ->.
    apply (diff_change_path d LA' LB k p st HsA' (proj1 HwB) (proj2 HwB) Hc). }
  assert (Efm : filter_map (filter_change wf) cs = diff idf d LA' (map fst B')).
  { rewrite fst_filter_entries, <- diff_filter. apply filter_map_total, Hcs. }
  rewrite <- Efm.
  rewrite (apply_all_ext (src_of B') (src_of B) (src_of_filter_entries B)).
  rewrite (apply_all_f_spec (src_of B) cs (dest_of A) (N.of_nat (length A))).
  destruct (apply_all_f wf (src_of B) cs (dest_of A) (N.of_nat (length A))) as [[[D n] dn] e] eqn:E.
  cbn [ds_map ds_err ds_reqs ds_changes ds_notifs].
  assert (Hdn : forall c, In c dn -> In c cs).
  { clear -E. revert D n dn e E. generalize (dest_of A), (N.of_nat (length A)).
    induction cs as [|c l IH]; intros D0 n0 D n dn e E; cbn [apply_all_f] in E.
    - inversion E; subst. intros c [].
    - destruct (filter_change wf c) as [c'|].
      + destruct (apply_map (src_of B) D0 n0 c') as [[D1 n1]|]; [|inversion E; subst; intros x []].
        destruct (apply_all_f wf (src_of B) l D1 n1) as [[[D2 n2] dn2] e2] eqn:Er. inversion E; subst.
        intros x [<-|Hx]; [left; auto|right; eapply IH; eauto].
      + intros x Hx. right. eapply IH; eauto. }
  assert (Erestat : filter_map (filter_change wf) dn = map restat dn).
  { apply filter_map_total. intros c Hc. apply Hcs, Hdn, Hc. }
  split; [reflexivity|]. split; [reflexivity|]. split.
  - unfold req_of_f. rewrite filter_map_filter_map. reflexivity.
  - split; [symmetry; exact Erestat|]. split; [reflexivity|].
    intros ->. eapply apply_all_f_noerr; [|exact E]. intros c Hc. rewrite (Hcs c Hc). discriminate.
Qed.

Hypothesis HwA : wf_listing LA.
Hypothesis HwB : wf_listing LB.
Hypothesis Hlinks : links_ok B.
Hypothesis Hfaith : identity_faithful d A B'.     (* same identity key AFTER the filter => same bytes *)

Notation r := (receive_abs_f wf H hdr Fresh d A B).
Notation nof := (notif_of (src_of B) H hdr).

Lemma HwB' : wf_listing (map fst B').
Proof. rewrite fst_filter_entries. apply wf_listing_filter; auto. Qed.

Theorem receive_f_fresh_proof :
  ds_err r = false /\
  ds_changes r = diff F d LA LB /\
  (forall p, view_equiv_w (alookup p (ds_map r)) (efind p B')).
Proof.
  destruct (receive_abs_f_reduce Fresh HwA HwB) as (Em & Ee & _ & _ & _ & Ec). cbv zeta in *.
  destruct (receive_fresh_weak H hdr d A B' HwA HwB' (links_ok_filter B Hlinks) Hfaith) as (He & _ & Hv & _).
  cbv zeta in He, Hv. rewrite <- Ee in He. split; [exact He|]. split; [apply Ec; exact He|].
  intros p. rewrite Em. apply Hv.
Qed.

(* C05 notify_exact with a filter: the notifications are exactly the images — stat AS SENT —
   of the changes of the specification for the differ with that filter *)
Theorem notify_exact_f_proof :
  ds_err r = false /\
  ds_notifs r = map nof (diff F d LA LB) /\
  (forall n, In n (ds_notifs r) <-> exists c, spec_change F d LA LB c /\ n = nof c) /\
  NoDup (map notif_path (ds_notifs r)).
Proof.
  destruct receive_f_fresh_proof as (He & Ec & _).
  destruct (receive_abs_f_reduce Fresh HwA HwB) as (_ & _ & _ & _ & En & _). cbv zeta in En.
  rewrite Ec in En. split; auto. split; auto. rewrite En. apply notifs_of_diff; auto; [apply HwA|apply F_is_dir].
Qed.

(* C05 notify_digest with a filter: the digest is the hash of the header of the stat AS SENT
   followed by the bytes the destination finally holds (the destination's stat is the filtered one) *)
Theorem notify_digest_f_proof k p st dg :
  In (k, p, Some (st, dg)) (ds_notifs r) ->
  exists e, alookup p (ds_map r) = Some e /\
            dg = H (hdr st ++ (if wants_content st then de_bytes e else [])) /\
            (is_hardlink st = false -> same_file DMetadata (de_stat e) (F st) = true).
Proof.
  intros Hin. destruct notify_exact_f_proof as (_ & En & _). rewrite En in Hin.
  destruct (notif_in_diff H hdr d B F LA k p st dg (proj1 HwA) HwB F_is_dir Hin) as (Hst & Ep & ->).
  destruct receive_f_fresh_proof as (_ & _ & Hview). destruct (B_efind B (proj1 HwB) st Hst) as (bb & HinB & Ef).
  specialize (Hview p). rewrite efind_filter_entries in Hview. rewrite <- Ep in Hview at 2. rewrite Ef in Hview.
  destruct (digest_of_view H hdr B p st (F st) bb _ (proj1 HwB) HinB Ep (F_is_reg st) Hview) as (e & -> & Hd & Hk).
  exists e. rewrite F_is_hardlink in Hk. auto.
Qed.

(* C02 with a filter: the transfer reaches the fixpoint OF THE FILTERED COMPARISON.  After a
   transfer through the filter the destination, listed again, shows at every path the identity
   key of the FILTERED source entry — what landed is what the differ compares with — so a second
   synchronisation of the unchanged source through the same filter hands nothing to the writer:
   no request, no notification, nothing touched.  ([links_meta] on the filtered source: the
   filter treats the names of one inode alike.) *)
Theorem resync_after_transfer_noop_f_proof :
  links_meta B' ->
  let A' := dest_listing B (ds_map r) in
  receive_abs_f wf H hdr Fresh DMetadata A' B =
  {| ds_map := dest_of A'; ds_reqs := []; ds_notifs := []; ds_changes := []; ds_err := false |}.
Proof.
  intros Hm. cbv zeta.
  destruct (receive_abs_f_reduce Fresh HwA HwB) as (Em & _). cbv zeta in Em.
  destruct (receive_fresh_proof H hdr d A B' HwA HwB' (links_ok_filter B Hlinks) Hfaith Hm) as (_ & _ & Hv & _).
  cbv zeta in Hv. rewrite <- Em in Hv.
  set (R := ds_map r) in *. destruct HwB as [HsB HcB].
  assert (Hent : forall sb bb, In (sb, bb) B ->
            exists x, alookup (st_path sb) R = Some x /\ same_file DMetadata (de_stat x) (F sb) = true).
  { intros sb bb Hin. specialize (Hv (st_path sb)). rewrite efind_filter_entries in Hv.
    pose proof (efind_in_sorted B (sb, bb) HsB Hin) as Ef. simpl in Ef. rewrite Ef in Hv. cbn [option_map fst snd] in Hv.
    destruct (alookup (st_path sb) R) as [x|]; [|destruct Hv]. exists x. split; auto. apply Hv. }
  unfold receive_abs_f. rewrite (resync_noop_gen _ _ _ _ (dest_listing_same F R B Hent)). reflexivity.
Qed.

End Red.
End Filt.

Definition wf_id (p : bytes) (s : stat) : bool * stat := (true, s).
Lemma wf_id_ok : filter_ok wf_id.
Proof. intros p s. split; [reflexivity|]. intros _. cbn. auto. Qed.

(* a umask-022 filter, for the examples of Properties/C05.v *)
Definition umask22 (p : bytes) (s : stat) : bool * stat :=
  (true, {| st_path := st_path s; st_mode := N.ldiff (st_mode s) 18; st_uid := st_uid s; st_gid := st_gid s;
            st_size := st_size s; st_mtime := st_mtime s; st_linkname := st_linkname s;
            st_devmajor := st_devmajor s; st_devminor := st_devminor s; st_xattrs := st_xattrs s |}).
Lemma umask22_ok : filter_ok umask22.
Proof.
  intros p s. split; [reflexivity|]. intros _. cbn [umask22 snd st_path st_linkname].
  assert (Hb : forall mask, N.land mask 18 = 0 -> has_bits (N.ldiff (st_mode s) 18) mask = has_bits (st_mode s) mask).
  { intros mask Hm. unfold has_bits. f_equal. f_equal. apply N.bits_inj. intros i.
    rewrite !N.land_spec, N.ldiff_spec.
    assert (Hi : N.testbit mask i && N.testbit 18 i = false).
    { rewrite <- N.land_spec, Hm. apply N.bits_0. }
    destruct (N.testbit (st_mode s) i), (N.testbit mask i), (N.testbit 18 i); simpl in *; congruence. }
  split; [reflexivity|]. unfold st_is_dir, mode_is_dir, is_special, mode_is_symlink. cbn [st_mode].
  rewrite !Hb by reflexivity. auto.
Qed.
