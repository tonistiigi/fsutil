(* C19 — compositions: the listing file at byte level (with C20), convergence of the
   destination to the projection (with C01), the REQ ids (with C02).  The theorems of the other
   properties are used through their property files (Properties/C01.v, C02.v, C20.v). *)
From Coq Require Import List NArith Bool Lia ZifyN ZifyNat ZifyBool Permutation Sorting.Sorted.
From FS Require Import Sx Model.Path Model.Stat Model.Validator Model.Hardlinks Model.Diff Model.AbsDest
  Model.Varint Model.Codec Model.MetaBuffer Model.Listing Model.Converge Model.ConvergeA
  Model.MetaOnly Model.MetaTransfer
  Proofs.Lex Proofs.PathP Proofs.ValidatorP Proofs.VarintP Proofs.DiffP Proofs.ConvergeP Proofs.MetaOnlyP Proofs.MetaAcceptP.
From FS Require Proofs.RefValidP Proofs.ListingP.
From FS Require Properties.C01 Properties.C02 Properties.C20.
Import ListNotations.
Open Scope bool_scope.


(* this property's transcription of buffer.go and C20's are the same function *)
Lemma alloc_write_same b r : MetaOnly.alloc_write b r = MetaBuffer.alloc_write b r.
Proof.
  unfold MetaOnly.alloc_write, MetaBuffer.alloc_write, MetaOnly.chunk_size, MetaBuffer.chunk_size.
  rewrite <- (len_length r). destruct b as [|[c cap] b']; [reflexivity|].
  rewrite <- (len_length c). reflexivity.
Qed.

Lemma alloc_all_same recs : forall b, fold_left MetaOnly.alloc_write recs b = fold_left MetaBuffer.alloc_write recs b.
Proof.
  induction recs as [|r recs IH]; intros b; [reflexivity|]. cbn [fold_left].
  rewrite alloc_write_same. apply IH.
Qed.

Lemma buf_bytes_same b : buf_bytes b = write_to b.
Proof. unfold buf_bytes, write_to. rewrite map_rev. reflexivity. Qed.

Lemma buffers_agree_proof recs :
  fold_left MetaOnly.alloc_write recs [] = alloc_all recs /\ listing_file_of recs = write_to (alloc_all recs).
Proof.
  unfold listing_file_of, alloc_all. rewrite alloc_all_same. split; [reflexivity|apply buf_bytes_same].
Qed.

Lemma forall_listable stats :
  (forall s, In s stats -> is_listing s = false -> listable s) -> Forall listable (recv_stream stats).
Proof.
  intros H. apply Forall_forall. intros s Hs. unfold recv_stream in Hs. apply filter_In in Hs.
  destruct Hs as [Hs Hn]. apply negb_true_iff in Hn. auto.
Qed.

(* every map iteration order, through the chunked buffer *)
Theorem listing_roundtrip_any_order_proof sel stats recs :
  (forall s, In s stats -> is_listing s = false -> listable s) ->
  Forall2 lrecord_of (r_listing (meta_recv sel stats)) recs ->
  decode_listing (listing_file_of recs) = Some (recv_stream stats).
Proof.
  intros Hl Hr. unfold listing_file_of. rewrite buffer_is_concat_proof.
  rewrite (listing_exact_proof sel stats) in Hr.
  apply Properties.C20.listing_roundtrip_any_order; [apply forall_listable; exact Hl|exact Hr].
Qed.

Theorem listing_roundtrip_proof sel stats :
  (forall s, In s stats -> is_listing s = false -> listable s) ->
  decode_listing (listing_file sel stats) = Some (recv_stream stats).
Proof.
  intros Hl. apply (listing_roundtrip_any_order_proof sel stats); [exact Hl|].
  unfold listing_records, listing_record. rewrite <- map_map. apply ListingP.lrecord_of_canonical.
Qed.


Lemma map_fst_filter {X Y} (f : X -> bool) (l : list (X * Y)) :
  map fst (filter (fun e => f (fst e)) l) = filter f (map fst l).
Proof.
  induction l as [|e l IH]; [reflexivity|]. cbn [filter map]. destruct (f (fst e)); cbn [map]; rewrite IH; reflexivity.
Qed.

Lemma filter_filter {X} (f g : X -> bool) (l : list X) :
  filter g (filter f l) = filter (fun x => f x && g x) l.
Proof.
  induction l as [|x l IH]; [reflexivity|]. cbn [filter]. destruct (f x); cbn [filter andb]; rewrite IH; reflexivity.
Qed.

Lemma sorted_filter (f : stat -> bool) L : sorted L -> sorted (filter f L).
Proof.
  unfold sorted. induction L as [|a L IH]; intros HS; [constructor|].
  apply StronglySorted_inv in HS. destruct HS as [HS Ha]. cbn [filter].
  destruct (f a); [|auto]. constructor; [auto|].
  apply Forall_forall. intros x Hx. apply filter_In in Hx. rewrite Forall_forall in Ha. apply Ha. tauto.
Qed.

Lemma is_reg_plain s : AbsDest.is_reg s = true -> hl_plain s = true.
Proof.
  unfold AbsDest.is_reg, hl_plain, st_is_dir. intros H. apply andb_true_iff in H. destruct H as [H Hs].
  apply andb_true_iff in H. destruct H as [Hd _]. rewrite Hd, Hs. reflexivity.
Qed.

Lemma is_hardlink_facts s : is_hardlink s = true -> hl_plain s = true /\ has_link s = true.
Proof.
  unfold is_hardlink, has_link. intros H. apply andb_true_iff in H. destruct H as [Hr He].
  split; [exact Hr|]. destruct (st_linkname s); [discriminate|reflexivity].  (* is_node IS hl_plain *)
Qed.

Section Proj.
Variable sel : stat -> bool.

Lemma proj_stats B : map fst (meta_proj sel B) = filter (fwd_pred sel (map fst B)) (map fst B).
Proof. unfold meta_proj. apply (map_fst_filter (fwd_pred sel (map fst B))). Qed.

Lemma fwd_filter L : filter (fwd_pred sel L) L = filter (needed sel (recv_stream L)) (recv_stream L).
Proof. unfold recv_stream at 2. rewrite filter_filter. reflexivity. Qed.

(* the stats of the projection are what the receive loop forwards *)
Theorem proj_is_forwarded_proof B :
  valid_stream (recv_stream (map fst B)) ->
  map fst (meta_proj sel B) = r_forwarded (meta_recv sel (map fst B)).
Proof.
  intros Hv. rewrite proj_stats, fwd_filter. symmetry. apply forwarded_exact_proof. exact Hv.
Qed.

Lemma in_proj B s c : In (s, c) (meta_proj sel B) <-> In (s, c) B /\ fwd_pred sel (map fst B) s = true.
Proof. unfold meta_proj. rewrite filter_In. reflexivity. Qed.

Lemma in_recv_stream L s : In s (recv_stream L) <-> In s L /\ is_listing s = false.
Proof. unfold recv_stream. rewrite filter_In, negb_true_iff. reflexivity. Qed.

Lemma no_dep L : listing_dependents L = false ->
  forall t, In t L -> under listing_name (st_path t) = false /\ (hl_plain t = true -> st_linkname t <> listing_name).
Proof.
  intros H t Ht. unfold listing_dependents in H.
  destruct (under listing_name (st_path t) || (hl_plain t && bytes_eqb (st_linkname t) listing_name)) eqn:E.
  - rewrite (proj2 (existsb_exists _ _)) in H by eauto. discriminate.
  - apply orb_false_iff in E. destruct E as [Eu El]. split; [exact Eu|]. intros Hp Eq.
    rewrite Hp, Eq, bytes_eqb_refl in El. discriminate.
Qed.

Lemma no_dep_under L : listing_dependents L = false -> forall t, In t L -> under listing_name (st_path t) = false.
Proof. intros H t Ht. apply (no_dep L H t Ht). Qed.

Lemma no_dep_link L : listing_dependents L = false ->
  forall t, In t L -> hl_plain t = true -> st_linkname t <> listing_name.
Proof. intros H t Ht. apply (no_dep L H t Ht). Qed.

Lemma under_app q r : under q (q ++ sep :: r) = true.
Proof.
  unfold under. replace (q ++ sep :: r) with ((q ++ [sep]) ++ r) by (rewrite <- app_assoc; reflexivity).
  apply has_prefix_app_r.
Qed.

Lemma under_trans q r t : under (q ++ sep :: r) t = true -> under q t = true.
Proof.
  unfold under. intros H. apply has_prefix_app in H. destruct H as [y Hy]. subst t.
  replace ((q ++ sep :: r) ++ [sep]) with ((q ++ [sep]) ++ r ++ [sep]) by (repeat rewrite <- app_assoc; reflexivity).
  rewrite <- app_assoc. apply has_prefix_app_r.
Qed.

Lemma proj_closed L : closed L -> listing_dependents L = false -> closed (filter (fwd_pred sel L) L).
Proof.
  intros HC Hnd s Hs q r E. apply filter_In in Hs. destruct Hs as [Hs Hp].
  destruct (HC s Hs q r E) as (t & Ht & Et & Hd). exists t. split; [|auto].
  apply filter_In. split; [exact Ht|]. unfold fwd_pred in *. apply andb_true_iff in Hp. destruct Hp as [Hl Hn].
  apply negb_true_iff in Hl.
  assert (Hlt : is_listing t = false).
  { destruct (is_listing t) eqn:El; [|reflexivity]. unfold is_listing in El. apply bytes_eqb_eq in El.
    pose proof (no_dep_under L Hnd s Hs) as X. rewrite E, <- Et, El, under_app in X. discriminate. }
  rewrite Hlt. cbn [negb andb]. unfold needed in Hn. apply orb_true_iff in Hn. destruct Hn as [Hsel|Hn].
  - apply (nd_anc sel _ t s); auto. { apply in_recv_stream. auto. } rewrite Et, E. apply under_app.
  - apply andb_true_iff in Hn. destruct Hn as [_ Hn]. apply existsb_exists in Hn. destruct Hn as (x & Hx & Hn).
    apply andb_true_iff in Hn. destruct Hn as [Hsx Hu]. apply (nd_anc sel _ t x); auto.
    rewrite Et. rewrite E in Hu. apply (under_trans q r). exact Hu.
Qed.

Lemma proj_links_canon B :
  links_canon B -> listing_dependents (map fst B) = false -> link_closed sel (recv_stream (map fst B)) = true ->
  links_canon (meta_proj sel B).
Proof.
  intros HL Hnd Hlc sb bb Hin Hh. apply in_proj in Hin. destruct Hin as [Hin Hp].
  destruct (HL sb bb Hin Hh) as (st & bt & Ht & Ep & Hlt & Hr & Hln & Hm & Eb).
  exists st, bt. split; [|tauto]. apply in_proj. split; [exact Ht|].
  destruct (is_hardlink_facts sb Hh) as [Hpl Hhl].
  assert (Hsb : In sb (map fst B)) by (apply (in_map fst) in Hin; exact Hin).
  assert (Hst : In st (map fst B)) by (apply (in_map fst) in Ht; exact Ht).
  unfold fwd_pred in *. apply andb_true_iff in Hp. destruct Hp as [Hl Hn]. apply negb_true_iff in Hl.
  assert (Hlt' : is_listing st = false).
  { destruct (is_listing st) eqn:El; [|reflexivity]. unfold is_listing in El. apply bytes_eqb_eq in El.
    exfalso. apply (no_dep_link _ Hnd sb Hsb Hpl). rewrite <- Ep. exact El. }
  rewrite Hlt'. cbn [negb andb]. rewrite (needed_plain sel _ sb Hpl) in Hn.
  unfold needed. rewrite (proj1 (link_closed_iff sel _) Hlc sb st); auto; apply in_recv_stream; auto.
Qed.

Theorem proj_wf_entries B :
  wf_entries B -> listing_dependents (map fst B) = false -> recv_accepts sel (map fst B) = true ->
  wf_entries (meta_proj sel B).
Proof.
  intros [[HS HC] HL] Hnd Hacc. pose proof (accepts_link_closed_proof sel _ Hacc) as Hlc. split; [split|].
  - rewrite proj_stats. apply sorted_filter. exact HS.
  - rewrite proj_stats. apply proj_closed; auto.
  - apply proj_links_canon; auto.
Qed.

(* convergence of the destination to the projection; nothing is left under the listing name
   (a stale listing file, symlink or directory of the prior destination is removed) *)
Theorem meta_transfer_converges_proof (H : bytes -> bytes) (hdr : stat -> bytes) d A B :
  wf_entries A -> wf_entries B ->
  listing_dependents (map fst B) = false -> recv_accepts sel (map fst B) = true ->
  AbsDest.identity_faithful d A (meta_proj sel B) ->
  let r := receive_abs H hdr Fresh d A (meta_proj sel B) in
  ds_err r = false /\ approx A (meta_proj sel B) (view_of (ds_map r)) /\
  find_obs listing_name (view_of (ds_map r)) = None.
Proof.
  intros HA HB Hnd Hlc Hf. cbv zeta.
  destruct (Properties.C01.diff_apply_converges H hdr d A (meta_proj sel B) HA (proj_wf_entries B HB Hnd Hlc) Hf) as [He Hap].
  split; [exact He|]. split; [exact Hap|].
  destruct (find_obs listing_name _) as [o|] eqn:Ef; [|reflexivity]. exfalso.
  destruct Hap as [Hsp _]. destruct (proj1 (Hsp listing_name) (ex_intro _ o Ef)) as ([s c] & Hin & Ep).
  apply in_proj in Hin. destruct Hin as [_ Hp]. unfold fwd_pred, is_listing in Hp. cbn [fst] in Ep.
  rewrite Ep, bytes_eqb_refl in Hp. discriminate.
Qed.

(* a well-formed source listing with clean relative paths and nothing below the listing name
   is accepted by the receiver's order validator after the skip *)
Lemma receiver_accepts_wf_proof L :
  wf_listing L -> (forall s, In s L -> ok_path (st_path s) = true) -> listing_dependents L = false ->
  valid_stream (recv_stream L).
Proof.
  intros Hw Hok Hnd. apply recv_valid_of_valid_proof; [|apply no_dep_under; exact Hnd].
  exact (RefValidP.listing_passes_validator L Hw Hok).
Qed.

(* the bytes that arrive under a registered id are the bytes of that entry of the projection *)
Theorem registered_content_proof B p id :
  In (p, id) (r_files (meta_recv sel (map fst B))) ->
  exists s c, nth_error B id = Some (s, c) /\ st_path s = p /\ In (s, c) (meta_proj sel B).
Proof.
  intros Hin. destruct (ids_only_selected_proof sel _ p id Hin) as (s & Hn & Ep & Hs & _ & Hne).
  rewrite nth_error_map in Hn. destruct (nth_error B id) as [[s' c]|] eqn:En; [|discriminate].
  cbn in Hn. inversion Hn; subst s'. exists s, c. repeat split; auto.
  apply in_proj. split; [eapply nth_error_In; eauto|]. unfold fwd_pred, needed, is_listing.
  apply bytes_eqb_neq in Hne. rewrite Hne, Hs. reflexivity.
Qed.

End Proj.


Lemma files_get_in files p : forall id, files_get files p = Some id -> In (p, id) files.
Proof.
  induction files as [|[q x] r IH]; intros id Hg; [discriminate|]. cbn [files_get] in Hg.
  destruct (files_get r p) as [y|] eqn:E.
  - inversion Hg; subst y. right. apply IH. reflexivity.
  - destruct (bytes_eqb q p) eqn:Eq; [|discriminate]. inversion Hg; subst x.
    apply bytes_eqb_eq in Eq. subst q. left. reflexivity.
Qed.

Lemma files_get_unique files p id :
  In (p, id) files -> (forall id', In (p, id') files -> id' = id) -> files_get files p = Some id.
Proof.
  induction files as [|[q x] r IH]; intros Hin Hu; [destruct Hin|]. cbn [files_get].
  destruct (files_get r p) as [y|] eqn:E.
  - f_equal. apply Hu. right. apply files_get_in. exact E.
  - destruct (bytes_eqb q p) eqn:Eq.
    + apply bytes_eqb_eq in Eq. subst q. f_equal. apply Hu. left. reflexivity.
    + destruct Hin as [Hin|Hin].
      * inversion Hin; subst. rewrite bytes_eqb_refl in Eq. discriminate.
      * assert (X : @None nat = Some id).
        { apply IH; [exact Hin|]. intros id' H'. apply Hu. right. exact H'. }
        discriminate.
Qed.

Lemma sorted_nth_unique L : sorted L -> forall i j s t,
  nth_error L i = Some s -> nth_error L j = Some t -> st_path s = st_path t -> i = j.
Proof.
  induction L as [|a L IH]; intros HS i j s t Hi Hj E; [destruct i; discriminate|].
  apply sorted_inv in HS. destruct HS as [HS Ha].
  destruct i as [|i], j as [|j]; cbn [nth_error] in *.
  - reflexivity.
  - exfalso. inversion Hi; subst a. apply nth_error_In in Hj. specialize (Ha t Hj). unfold plt in Ha.
    rewrite E, compare_path_refl in Ha. discriminate.
  - exfalso. inversion Hj; subst a. apply nth_error_In in Hi. specialize (Ha s Hi). unfold plt in Ha.
    rewrite E, compare_path_refl in Ha. discriminate.
  - f_equal. eapply IH; eauto.
Qed.

Lemma map_get_positions (f : bytes -> option nat) (h : stat -> bool) L : forall i0,
  (forall j s, nth_error L j = Some s -> h s = true -> f (st_path s) = Some (i0 + j)) ->
  map f (map st_path (filter h L)) = map Some (positions_from i0 h L).
Proof.
  induction L as [|a L IH]; intros i0 Hf; [reflexivity|]. cbn [filter positions_from].
  assert (IH' : map f (map st_path (filter h L)) = map Some (positions_from (S i0) h L)).
  { apply IH. intros j s Hj Hh. rewrite (Hf (S j) s Hj Hh). f_equal. lia. }
  destruct (h a) eqn:Eh; cbn [map app]; [|exact IH'].
  rewrite IH', (Hf 0 a eq_refl Eh). do 2 f_equal. lia.
Qed.

Section Reqs.
Variable sel : stat -> bool.

(* the id the writer's request for an announced wanted entry carries is its position *)
Lemma files_get_position L : sorted L -> forall j s,
  nth_error L j = Some s -> is_listing s = false -> sel s = true -> mode_is_regular (st_mode s) = true ->
  files_get (r_files (meta_recv sel L)) (st_path s) = Some j.
Proof.
  intros HS j s Hj Hl Hs Hm. apply files_get_unique.
  - apply ids_complete_proof; auto. unfold is_listing in Hl. apply bytes_eqb_neq. exact Hl.
  - intros id' Hin. destruct (ids_aligned_proof sel L _ _ Hin) as (s' & Hn' & Ep).
    apply (sorted_nth_unique L HS id' j s' s); auto.
Qed.

Theorem meta_req_ids_proof (H : bytes -> bytes) (hdr : stat -> bytes) d A B :
  wf_entries A -> wf_entries B ->
  listing_dependents (map fst B) = false -> recv_accepts sel (map fst B) = true ->
  AbsDest.identity_faithful d A (meta_proj sel B) ->
  (forall s, In s (map fst B) -> wants_content s = true -> mode_is_regular (st_mode s) = true) ->
  req_ids (r_files (meta_recv sel (map fst B))) (ds_reqs (receive_abs H hdr Fresh d A (meta_proj sel B)))
  = map Some (positions_from 0 (wanted sel d (map fst A)) (map fst B)).
Proof.
  intros HA HB Hnd Hlc Hf Hreg.
  destruct (proj_wf_entries sel B HB Hnd Hlc) as [HwP HlP].
  rewrite (Properties.C02.reqs_exact H hdr d A (meta_proj sel B) (proj1 HA) HwP (links_canon_ok _ HlP) Hf).
  rewrite proj_stats, filter_filter.
  rewrite (filter_ext_in _ (wanted sel d (map fst A))).
  - unfold req_ids. apply map_get_positions. intros j s Hj Hw. cbn [plus].
    unfold wanted in Hw. apply andb_true_iff in Hw. destruct Hw as [Hw _].
    apply andb_true_iff in Hw. destruct Hw as [Hw Hwc]. apply andb_true_iff in Hw. destruct Hw as [Hl Hs].
    apply negb_true_iff in Hl. apply files_get_position; auto.
    + exact (proj1 (proj1 HB)).
    + apply Hreg; auto. eapply nth_error_In; eauto.
  - intros x Hx. unfold fwd_pred, wanted. destruct (wants_content x) eqn:Ew.
    + assert (Hp : hl_plain x = true).
      { apply is_reg_plain. unfold wants_content in Ew. apply andb_true_iff in Ew. tauto. }
      rewrite (needed_plain sel _ x Hp). destruct (is_listing x), (sel x); reflexivity.
    + cbn [andb]. repeat rewrite andb_false_r. reflexivity.
Qed.

End Reqs.
