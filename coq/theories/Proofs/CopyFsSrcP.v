(* C14 — the source side: when srcRoot and dstRoot are disjoint, the tree below srcRoot is the same
   in every state the copier goes through, and source paths resolve inside it. *)
From Coq Require Import List Arith NArith Lia Bool ZifyN ZifyNat ZifyBool.
From FS Require Import Sx Model.Path Model.Fs Model.RootPath Model.CopyFs Model.CopyFsSpec
  Proofs.Lex Proofs.PathP Proofs.FsP Proofs.RootPathStrP Proofs.FsCopyFrameP Proofs.FsCopyInvP
  Proofs.FsCopySafeP Proofs.FsCopyLinksP Proofs.FsCopySysP Proofs.CopyFsP Proofs.CopyRecP Proofs.CopyFsTopP
  Proofs.CopyFsTop2P.
From FS Require Proofs.RootPathP.
Import ListNotations.
Open Scope N_scope.
Open Scope bool_scope.

Local Opaque rfuel.

Lemma chain_common f : (forall j1 j2 n1 n2 i, blookup n1 (dents f j1) = Some i -> blookup n2 (dents f j2) = Some i ->
                          is_dir f i = true -> j1 = j2 /\ n1 = n2) ->
  forall ns a d, chain f a ns d -> forall ms b, chain f b ms d -> inside_dir f a b \/ inside_dir f b a.
Proof.
  intros Hs ns. induction ns as [|x ns IH] using rev_ind; intros a d Ha ms b Hb.
  - inversion Ha; subst. right. exists ms. exact Hb.
  - destruct ms as [|y ms _] using rev_ind.
    + inversion Hb; subst. left. eexists. exact Ha.
    + destruct (chain_split f ns a [x] d Ha) as (m & P & Q).
      destruct (chain_split f ms b [y] d Hb) as (m' & P' & Q').
      inversion Q as [|? ? i ? ? Bx Dx Rx]; subst. inversion Rx; subst.
      inversion Q' as [|? ? i' ? ? By Dy Ry]; subst. inversion Ry; subst.
      destruct (Hs _ _ _ _ _ Bx By Dx) as [-> _]. eapply IH; eauto.
Qed.

Lemma resolve_no_nul c f p fl r : resolve c f p fl = inl r -> has_nul p = false.
Proof. unfold resolve. destruct p; [discriminate|]. destruct (has_nul (n :: p)); [discriminate|reflexivity]. Qed.

Section Src.
  Variables (c : ctx) (f0 : fs) (dr : N) (dcs scs : list bytes) (sr : N).
  Notation Ctx := (Ctx c f0 dr dcs).
  Hypothesis W : fs_wf f0.
  Hypothesis Hs1 : Forall nm scs.
  Hypothesis Hs2 : Forall nonul scs.
  Hypothesis Hsc : chain f0 (c_root c) scs sr.
  Hypothesis Hsl : (length scs < rfuel)%nat.
  Hypothesis D1 : ~ inside_dir f0 dr sr.
  Hypothesis D2 : ~ inside_dir f0 sr dr.

  Lemma below_src_outside ns d : chain f0 sr ns d -> ~ inside_dir f0 dr d.
  Proof.
    intros H (ms & Hm). destruct (chain_common f0 (wf_single f0 W) ns sr d H ms dr Hm) as [G|G]; auto.
  Qed.

  Lemma above_src_outside p s m : scs = p ++ s -> chain f0 (c_root c) p m -> ~ inside_dir f0 dr m.
  Proof.
    intros E Hp (cs & Hcs). apply D1. subst scs.
    exists (cs ++ s). eapply chain_app; [exact Hcs|eapply chain_rest; eauto].
  Qed.

  Lemma dir_old d : is_dir f0 d = true -> d < f_next f0.
  Proof. intros H. apply (exists_lt_next f0 d (wf_alloc f0 W)). apply is_dir_exists. exact H. Qed.

  Section State.
    Variable f : fs.
    Hypothesis I : Inv f0 dr f.

    Lemma st_dir ns d : chain f0 sr ns d -> get f d = get f0 d.
    Proof.
      intros H. apply (inv_frame f0 dr f I).
      - apply dir_old. eapply chain_end_dir; eauto.
      - eapply below_src_outside; eauto.
    Qed.

    Lemma st_child ns d x i : chain f0 sr ns d -> blookup x (dents f0 d) = Some i -> get f i = get f0 i.
    Proof.
      intros H Hb. apply (inv_frame f0 dr f I).
      - eapply (wf_target f0 W); eauto.
      - intros Hin. assert (Hd : is_dir f0 i = true) by (destruct Hin as (cs & Hcs); eapply chain_end_dir; eauto).
        apply (below_src_outside (ns ++ [x]) i); auto. eapply chain_snoc; eauto.
    Qed.

    Lemma get_dents j : get f j = get f0 j -> dents f j = dents f0 j.
    Proof. intros E. unfold dents, dir_of. rewrite E. reflexivity. Qed.
    Lemma get_is_dir j : get f j = get f0 j -> is_dir f j = is_dir f0 j.
    Proof. intros E. unfold is_dir, dir_of. rewrite E. reflexivity. Qed.
    Lemma get_dir_of j : get f j = get f0 j -> dir_of f j = dir_of f0 j.
    Proof. intros E. unfold dir_of. rewrite E. reflexivity. Qed.

    Lemma st_chain a ns d : chain f0 a ns d -> forall pre, chain f0 sr pre a -> chain f a ns d.
    Proof.
      intros H pre Hp. apply (chain_outside f0 dr); auto; [apply W|].
      apply (below_src_outside (pre ++ ns)). eapply chain_app; eauto.
    Qed.

    Lemma st_chain_rev : forall a ns d, chain f a ns d -> forall pre, chain f0 sr pre a -> chain f0 a ns d.
    Proof.
      induction 1 as [d Hd|d x i cs e Hb Hi Hc IH]; intros pre Hp.
      - constructor. rewrite <- (get_is_dir d (st_dir pre d Hp)). exact Hd.
      - rewrite (get_dents d (st_dir pre d Hp)) in Hb.
        rewrite (get_is_dir i (st_child pre d x i Hp Hb)) in Hi.
        econstructor; eauto. apply (IH (pre ++ [x])). eapply chain_snoc; eauto.
    Qed.

    Lemma st_root_chain : chain f (c_root c) scs sr.
    Proof. exact (chain_outside f0 dr f _ _ _ (wf_alloc f0 W) I Hsc D1). Qed.

    Lemma st_link_free : forall cs a pre, chain f0 sr pre a -> link_free f a cs = link_free f0 a cs.
    Proof.
      induction cs as [|x rest IH]; intros a pre Hp; [reflexivity|].
      cbn [link_free]. rewrite (get_dir_of a (st_dir pre a Hp)).
      destruct (dir_of f0 a) as [[pp es]|] eqn:Ed; [|reflexivity].
      destruct (blookup x es) as [i|] eqn:Eb; [|reflexivity].
      assert (Hb : blookup x (dents f0 a) = Some i) by (unfold dents; rewrite Ed; exact Eb).
      rewrite (st_child pre a x i Hp Hb).
      destruct (get f0 i) as [[[p0 es0|dd|t|ty rd] m]|] eqn:Eg; try reflexivity.
      (* below anything but a directory the lookup stops *)
      2-4: destruct rest; [reflexivity|]; cbn [link_free]; unfold dir_of; rewrite (st_child pre a x i Hp Hb), Eg; reflexivity.
      apply (IH i (pre ++ [x])). eapply chain_snoc; eauto. unfold is_dir, dir_of. rewrite Eg. reflexivity.
    Qed.
  End State.

  (* "<srcRoot>/ps" where no proper prefix of ps is a symlink (in the initial, hence in every, state) *)
  Definition SPc (p : bytes) : Prop :=
    exists ps, p = render (scs ++ ps) /\ Forall nm ps /\ link_free f0 sr (removelast ps) = true.
  (* ps names inode i: srcRoot itself, or an entry of a directory below srcRoot *)
  Definition sres (ps : list bytes) (i : N) : Prop :=
    (ps = [] /\ i = sr) \/ exists ns x d, ps = ns ++ [x] /\ chain f0 sr ns d /\ blookup x (dents f0 d) = Some i.
  (* a source path that names something that is not a symlink *)
  Definition SPNc (p : bytes) : Prop :=
    exists ps i n, p = render (scs ++ ps) /\ Forall nm ps /\ Forall nonul ps /\ sres ps i /\
                   get f0 i = Some n /\ kind_is_link n = false.
  Definition Rc (i : N) : Prop := src_reach f0 sr i.

  Lemma sr_dir : is_dir f0 sr = true.
  Proof. eapply chain_end_dir; eauto. Qed.
  Lemma sr_chain : chain f0 sr [] sr.
  Proof. constructor. apply sr_dir. Qed.

  Lemma sres_reach ps i : sres ps i -> Rc i.
  Proof.
    intros [[-> ->]|(ns & x & d & -> & Hc & Hb)].
    - exists [], sr. split; [apply sr_chain|left; reflexivity].
    - exists ns, d. split; auto. right. eauto.
  Qed.

  Lemma sres_get f ps i : Inv f0 dr f -> sres ps i -> get f i = get f0 i.
  Proof.
    intros I [[-> ->]|(ns & x & d & -> & Hc & Hb)].
    - apply (st_dir f I [] sr sr_chain).
    - eapply st_child; eauto.
  Qed.

  Lemma sres_link_free ps i : sres ps i -> link_free f0 sr (removelast ps) = true.
  Proof.
    intros [[-> ->]|(ns & x & d & -> & Hc & Hb)]; [reflexivity|].
    rewrite removelast_last. eapply chain_link_free; eauto.
  Qed.

  Lemma sres_dir_chain ps i : sres ps i -> is_dir f0 i = true -> chain f0 sr ps i.
  Proof.
    intros [[-> ->]|(ns & x & d & -> & Hc & Hb)] Hd; [apply sr_chain|]. eapply chain_snoc; eauto.
  Qed.

  Lemma rfuel_split : rfuel = (length scs + (rfuel - length scs))%nat.
  Proof. lia. Qed.

  Lemma res_nf f p i : Inv f0 dr f -> SPc p -> resolve_ino c f p false = inl i ->
    exists ps, p = render (scs ++ ps) /\ Forall nm ps /\ Forall nonul ps /\ sres ps i.
  Proof.
    intros I (ps & -> & Hn & Hlf) H. unfold resolve_ino in H.
    destruct (resolve c f (render (scs ++ ps)) false) as [r|e] eqn:Er; [|discriminate].
    destruct (l_ino r) as [j|] eqn:Ej; [|discriminate]. injection H as ->.
    pose proof (resolve_no_nul _ _ _ _ _ Er) as Hnul. apply has_nul_render in Hnul.
    apply Forall_app in Hnul. destruct Hnul as [_ Hpn].
    exists ps. split; [reflexivity|]. split; [exact Hn|]. split; [exact Hpn|].
    destruct ps as [|x ns _] using rev_ind.
    - left. split; [reflexivity|]. rewrite app_nil_r in Er.
      destruct (resolve_chain c f scs sr false (st_root_chain f I) Hs1 Hs2 Hsl) as (r' & E' & Hi').
      rewrite E' in Er. injection Er as <-. congruence.
    - right. rewrite removelast_last in Hlf.
      apply Forall_app in Hn. destruct Hn as [Hn Hx]. inversion Hx as [|? ? Hx1 _]; subst.
      apply Forall_app in Hpn. destruct Hpn as [Hpn Hxn].
      rewrite resolve_render in Er;
        [|repeat (apply Forall_app; split; auto)|repeat (apply Forall_app; split; auto)|destruct scs; [destruct ns|]; discriminate].
      rewrite rfuel_split in Er.
      rewrite (walk_chain_prefix f scs (c_root c) sr (st_root_chain f I) Hs1 (ns ++ [x])) in Er by (destruct ns; discriminate).
      rewrite <- (st_link_free f I ns sr [] sr_chain) in Hlf.
      destruct (lf_walk_entry f _ ns sr x _ _ r i Hlf Hn Hx1 Er Ej) as (d' & Hc & Hb).
      pose proof (st_chain_rev f I sr ns d' Hc [] sr_chain) as Hc0.
      exists ns, x, d'. split; [reflexivity|]. split; [exact Hc0|].
      rewrite <- (get_dents f d' (st_dir f I ns d' Hc0)). exact Hb.
  Qed.

  Lemma res_fl f p j : Inv f0 dr f -> SPNc p -> resolve_ino c f p true = inl j ->
    exists ps n, p = render (scs ++ ps) /\ Forall nm ps /\ Forall nonul ps /\ sres ps j /\ get f0 j = Some n.
  Proof.
    intros I (ps & i & n & -> & Hn & Hpn & Hs & Hg & Hk) H.
    exists ps, n. split; [reflexivity|]. split; [exact Hn|]. split; [exact Hpn|].
    assert (E : j = i); [|subst j; auto].
    unfold resolve_ino in H.
    destruct (resolve c f (render (scs ++ ps)) true) as [r|e] eqn:Er; [|discriminate].
    destruct (l_ino r) as [j'|] eqn:Ej; [|discriminate]. injection H as ->.
    destruct Hs as [[-> ->]|(ns & x & d & -> & Hc & Hb)].
    - rewrite app_nil_r in Er.
      destruct (resolve_chain c f scs sr true (st_root_chain f I) Hs1 Hs2 Hsl) as (r' & E' & Hi').
      rewrite E' in Er. injection Er as <-. congruence.
    - apply Forall_app in Hn. destruct Hn as [Hn Hx]. inversion Hx as [|? ? Hx1 _]; subst.
      apply Forall_app in Hpn. destruct Hpn as [Hpn Hxn].
      rewrite resolve_render in Er;
        [|repeat (apply Forall_app; split; auto)|repeat (apply Forall_app; split; auto)|destruct scs; [destruct ns|]; discriminate].
      assert (Hcf : chain f (c_root c) (scs ++ ns) d).
      { eapply chain_app; [apply (st_root_chain f I)|]. apply (st_chain f I sr ns d Hc [] sr_chain). }
      rewrite app_assoc in Er.
      assert (Hbf : blookup x (dents f d) = Some i) by (rewrite (get_dents f d (st_dir f I ns d Hc)); exact Hb).
      destruct (walk_chain f (c_root c) (scs ++ ns) d Hcf (proj2 (Forall_app _ _ _) (conj Hs1 Hn)) x Hx1 _ _ _ _ _ Er)
        as [(_ & _ & Hl)|(_ & i' & Hb' & Hlk)].
      + rewrite Hl, Hbf in Ej. congruence.
      + exfalso. rewrite Hbf in Hb'. injection Hb' as <-.
        unfold FsP.is_link in Hlk. rewrite (st_child f I ns d x i Hc Hb), Hg in Hlk.
        unfold kind_is_link in Hk. destruct n as [[? ?|?|?|? ?] ?]; simpl in *; discriminate.
  Qed.

  Lemma src_reads_ok : reads_ok c f0 dr dcs Rc SPc SPNc.
  Proof.
    split.
    - intros f p i C Hp H. destruct (res_nf f p i (cx_inv _ _ _ _ _ C) Hp H) as (ps & _ & _ & _ & Hs). eapply sres_reach; eauto.
    - intros f p i n C Hp H Hg Hk. pose proof (cx_inv _ _ _ _ _ C) as I.
      destruct (res_nf f p i I Hp H) as (ps & -> & Hn & Hpn & Hs).
      exists ps, i, n. repeat (split; auto). rewrite <- (sres_get f ps i I Hs). exact Hg.
    - intros f p j C Hp H. destruct (res_fl f p j (cx_inv _ _ _ _ _ C) Hp H) as (ps & n & _ & _ & _ & Hs & _). eapply sres_reach; eauto.
    - intros f p j pp es n C Hp H Hd Hin. pose proof (cx_inv _ _ _ _ _ C) as I.
      destruct (res_fl f p j I Hp H) as (ps & n0 & -> & Hn & Hpn & Hs & Hg).
      rewrite (get_dir_of f j (sres_get f ps j I Hs)) in Hd.
      assert (Hdj : is_dir f0 j = true) by (unfold is_dir; rewrite Hd; reflexivity).
      pose proof (sres_dir_chain ps j Hs Hdj) as Hc.
      assert (Hnn : nm n).
      { pose proof (wf_names f0 W j) as Hw. unfold dents in Hw. rewrite Hd in Hw.
        unfold entry_name_ok in Hw. apply forallb_name_ok in Hw. destruct Hw as [Hw _].
        rewrite Forall_forall in Hw. apply Hw. exact Hin. }
      exists (ps ++ [n]). split; [|split].
      + rewrite join2_names by (try apply Forall_app; auto). rewrite <- app_assoc. reflexivity.
      + apply Forall_app; split; auto.
      + rewrite removelast_last. eapply chain_link_free; eauto.
    - intros p (ps & i & n & -> & Hn & Hpn & Hs & _). exists ps. split; [reflexivity|]. split; [exact Hn|].
      eapply sres_link_free; eauto.
  Qed.

  Lemma src_arg_SP f src follow sf : Ctx f -> copy_root_path c f (render scs) src follow = inl sf -> SPc sf.
  Proof.
    intros C H. pose proof (cx_inv _ _ _ _ _ C) as I.
    assert (Hnm : forallb name_ok scs = true) by (apply forallb_name_ok; split; auto).
    pose proof (chain_plain_dir f scs (c_root c) sr (st_root_chain f I)) as Hpd.
    destruct (RootPathP.copy_rootpath_result_link_free_proof c f scs sr src follow sf Hnm Hpd H) as (cs & -> & Hlex & _ & Hlf).
    exists cs. split; [reflexivity|]. split; [apply forallb_lex_name_ok; exact Hlex|].
    rewrite <- (st_link_free f I (removelast cs) sr [] sr_chain).
    destruct follow; [apply link_free_removelast_gen|]; exact Hlf.
  Qed.

  Lemma src_root_SP : SPc (render scs).
  Proof. exists []. rewrite app_nil_r. split; [reflexivity|]. split; [constructor|reflexivity]. Qed.
End Src.
