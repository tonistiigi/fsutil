(* C01 — convergence from any prior content: [diff_apply_converges_proof] with identity_faithful
   replaced by the condition on size, mtime and mode of [faithful_from_stamps]. *)
From Coq Require Import List NArith Bool Sorting.Sorted.
From FS Require Import Sx Model.Path Model.Stat Model.Diff Model.AbsDest Model.Converge Model.ConvergeA Proofs.ConvergeP.
Import ListNotations.
Open Scope N_scope.

Lemma converges_from_any_prior_top : forall (H : bytes -> bytes) (hdr : stat -> bytes) d A B,
  wf_entries A -> wf_entries B ->
  (forall sa ba sb bb, In (sa, ba) A -> In (sb, bb) B -> st_path sa = st_path sb -> AbsDest.is_reg sb = true ->
     ba = bb \/ st_size sa <> st_size sb \/ st_mtime sa <> st_mtime sb \/ st_mode sa <> st_mode sb) ->
  let r := receive_abs H hdr Fresh d A B in
  ds_err r = false /\ approx A B (view_of (ds_map r)).
Proof.
  intros H hdr d A B HA HB Hs.
  exact (diff_apply_converges_proof H hdr d A B HA HB (faithful_from_stamps d A B Hs)).
Qed.
