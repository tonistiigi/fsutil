(* NESTED composites (a SubDirFS whose sub-root is a SubDirFS): the outer walk is the outer Stat
   followed by the inner listing with the outer name put in front (prefix_stat applied a second
   time).  The order of the listing is the subject of WalkNestOrd. *)
From Coq Require Import List NArith Bool Lia Sorting.Permutation Sorting.Sorted.
From FS Require Import Sx Model.Path Model.Stat Model.Tree Model.Walk Proofs.Lex Proofs.PathP Proofs.WalkP Proofs.WalkSD.
Import ListNotations.
Open Scope N_scope.
Open Scope bool_scope.

(* the callbacks of a SubDirFS walk are again of the shape the rewriting relies on, and are called
   with the path of their Stat *)
Definition cb_shape (c : bytes * stat) : Prop := fst c = st_path (snd c) /\ st_shape (snd c).

Lemma block_at_cb_shape d rest c : sd_ok d -> st_linkname (sd_stat d) = [] ->
  In c (sd_block_at d rest) -> cb_shape c.
Proof.
  intros (Hw & Hd & Hwf) Hnl [<-|Hin].
  - split; [reflexivity|]. split; [|intros _; left; exact Hnl].
    exists [sd_name d]. repeat split; [discriminate|constructor; auto].
  - apply in_map_iff in Hin. destruct Hin as (st0 & <- & Hin). split; cbn [fst snd].
    + symmetry. apply prefix_stat_path.
    + apply prefix_stat_shape, (walk_at_shape _ _ _ Hwf Hin). exact Hw.
Qed.

Lemma select_shape ds first rest c : sd_wf ds -> no_linkname ds ->
  In c (flat_map (sd_select first rest) (isort_sd ds)) -> cb_shape c.
Proof.
  intros Hsd Hnl Hin. destruct (sd_wf_sorted ds Hsd) as (Hok & _).
  apply in_flat_map in Hin. destruct Hin as (d & Hd & Hin).
  rewrite Forall_forall in Hok. unfold no_linkname in Hnl. rewrite Forall_forall in Hnl.
  unfold sd_select in Hin. destruct (_ || _); [|contradiction].
  eapply block_at_cb_shape; eauto. apply Hnl. eapply Permutation_in; [apply isort_sd_perm|exact Hd].
Qed.

Lemma nest_rewrite_eq o c : wf_name o -> cb_shape c ->
  (join2 o (fst c), sub_rewrite o (snd c)) = nest_rewrite o c.
Proof.
  intros Ho [Hf Hs]. unfold nest_rewrite.
  destruct (sub_rewrite_prefix o (snd c) Ho Hs) as [Hj ->]. rewrite Hf, Hj. reflexivity.
Qed.

Theorem nested_walk_any_proof ost inner target :
  sd_wf inner -> no_linkname inner -> wf_name (st_path ost) -> st_is_dir ost = true ->
  walk_nested ost inner target = Some (nested_listing ost inner target, false).
Proof.
  intros Hsd Hnl Ho Hd. unfold walk_nested, nested_listing.
  rewrite base_wf_name, bytes_eqb_refl by auto. cbn [negb].
  rewrite (subdir_walk_any_proof inner [] Hsd).
  destruct (cut_sep target) as [first rest]. cbn [fst snd].
  rewrite <- negb_orb. destruct (bytes_eqb first [] || bytes_eqb first (st_path ost)); cbn [negb]; [|reflexivity].
  rewrite Hd. cbn [negb]. rewrite (subdir_walk_any_proof inner rest Hsd). f_equal. f_equal. f_equal.
  apply map_ext_in. intros c Hc. apply nest_rewrite_eq; auto. eapply select_shape; eauto.
Qed.

Lemma sd_select_whole d : sd_select [] [] d = sd_block d.
Proof. reflexivity. Qed.
