(* C14 — fs.RootPath returns a path below root none of whose components is a symlink.

   Why: the pass of RootPath that walks no link (the last one) Lstat-s every state it goes
   through; the states form a stack of names (Join cleans lexically: "." keeps, ".." pops,
   a name pushes), every prefix of the final stack was the whole stack at the moment it was
   pushed, and the Lstat of that moment said "not a symlink" or "does not exist". *)
From Coq Require Import List NArith Lia Bool ZifyN ZifyNat ZifyBool.
From FS Require Import Sx Model.Path Model.Fs Model.RootPath Proofs.Lex Proofs.PathP Proofs.FsP Proofs.RootPathStrP.
Import ListNotations.
Open Scope N_scope.
Open Scope bool_scope.

Lemma plain_lookup_cons f cur x rest fo :
  plain_lookup f cur (x :: rest) fo =
  match dir_of f cur with
  | None => PErr ENOTDIR
  | Some (_, ents) =>
    match blookup x ents with
    | None => if is_nil rest then PFound {| l_dir := cur; l_name := x; l_ino := None |} else PErr ENOENT
    | Some i =>
      if is_link f i then
        (if is_nil rest && fo then PFound {| l_dir := cur; l_name := x; l_ino := Some i |} else PLink)
      else if is_nil rest then PFound {| l_dir := cur; l_name := x; l_ino := Some i |}
           else plain_lookup f i rest fo
    end
  end.
Proof.
  cbn [plain_lookup]. destruct (dir_of f cur) as [[par ents]|]; [|reflexivity].
  destruct (blookup x ents) as [i|]; [|reflexivity].
  unfold is_link. destruct (get f i) as [[[p0 es|d|t|ty rd] m]|]; reflexivity.
Qed.

Lemma plain_lookup_nil f cur fo :
  plain_lookup f cur [] fo =
  match dir_of f cur with
  | None => PErr ENOTDIR
  | Some _ => PFound {| l_dir := cur; l_name := []; l_ino := Some cur |}
  end.
Proof. cbn [plain_lookup]. destruct (dir_of f cur) as [[par ents]|]; reflexivity. Qed.

Lemma link_free_cons f cur x rest :
  link_free f cur (x :: rest) =
  match dir_of f cur with
  | None => true
  | Some (_, ents) =>
    match blookup x ents with
    | None => true
    | Some i => if is_link f i then false else link_free f i rest
    end
  end.
Proof.
  cbn [link_free]. destruct (dir_of f cur) as [[par ents]|]; [|reflexivity].
  destruct (blookup x ents) as [i|]; [|reflexivity].
  unfold is_link. destruct (get f i) as [[[p0 es|d|t|ty rd] m]|]; reflexivity.
Qed.

(* the result w of [walk] against the result p of [plain_lookup]: nothing is claimed once p has met a symlink *)
Definition agrees (fo fl : bool) (w : lres + errno) (p : plain_res) : Prop :=
  match p with
  | PFound r => (fo = true -> fl = false) -> w = inl r
  | PErr e => w = inr e
  | PLink => True
  end.

Lemma walk_plain fuel : forall f rt cur cs fo fl n, Forall nm cs ->
  walk fuel f rt cur cs fl n = inr ELOOP \/
  agrees fo fl (walk fuel f rt cur cs fl n) (plain_lookup f cur cs fo).
Proof.
  induction fuel as [|fuel IH]; intros f rt cur cs fo fl n Hcs; [left; reflexivity|].
  destruct cs as [|x rest].
  - right. rewrite plain_lookup_nil. cbn [walk].
    destruct (dir_of f cur) as [[par ents]|]; simpl; auto.
  - inversion Hcs as [|? ? Hx Hrest]; subst. destruct (nm_not_dots x Hx) as [E1 E2].
    rewrite plain_lookup_cons. cbn [walk].
    destruct (dir_of f cur) as [[par ents]|]; [|right; reflexivity].
    rewrite E1, E2.
    destruct (blookup x ents) as [i|].
    + unfold is_link. destruct (get f i) as [[[p0 es|d|t|ty rd] m]|];
        try (destruct (is_nil rest); [right; simpl; auto|apply IH; auto]).
      destruct (is_nil rest); simpl.
      * destruct fo; simpl; [|right; exact I]. right. intros H. rewrite (H eq_refl). reflexivity.
      * right. exact I.
    + right. destruct (is_nil rest); simpl; auto.
Qed.

Lemma walk_link_free_indep fuel : forall f cur cs rt1 rt2 fl1 fl2 n1 n2,
  Forall nm cs -> link_free f cur cs = true ->
  walk fuel f rt1 cur cs fl1 n1 = walk fuel f rt2 cur cs fl2 n2.
Proof.
  induction fuel as [|fuel IH]; intros f cur cs rt1 rt2 fl1 fl2 n1 n2 Hcs Hlf; [reflexivity|].
  destruct cs as [|x rest]; [reflexivity|].
  inversion Hcs as [|? ? Hx Hrest]; subst. destruct (nm_not_dots x Hx) as [E1 E2].
  rewrite link_free_cons in Hlf. cbn [walk].
  destruct (dir_of f cur) as [[par ents]|]; [|reflexivity].
  rewrite E1, E2.
  destruct (blookup x ents) as [i|]; [|reflexivity].
  unfold is_link in Hlf. destruct (get f i) as [[[p0 es|d|t|ty rd] m]|]; try discriminate;
    (destruct (is_nil rest); [reflexivity|apply IH; auto]).
Qed.

Lemma plain_lookup_app f fo b : b <> [] -> forall a cur d,
  plain_dir f cur a = Some d -> plain_lookup f cur (a ++ b) fo = plain_lookup f d b fo.
Proof.
  intros Hb. induction a as [|x a IH]; intros cur d H.
  - unfold plain_dir in H. rewrite plain_lookup_nil in H.
    destruct (dir_of f cur) as [[par ents]|] eqn:Ed; [|discriminate]. cbn [l_ino] in H.
    unfold is_dir in H. rewrite Ed in H. inversion H; subst. reflexivity.
  - unfold plain_dir in H. rewrite plain_lookup_cons in H. simpl app. rewrite plain_lookup_cons.
    destruct (dir_of f cur) as [[par ents]|]; [|discriminate].
    destruct (blookup x ents) as [i|].
    + destruct (is_link f i).
      * rewrite andb_false_r in H. discriminate.
      * destruct a as [|y a].
        -- simpl in H. simpl app. destruct b as [|b0 b]; [congruence|]. simpl is_nil.
           destruct (is_dir f i); inversion H; subst. reflexivity.
        -- simpl is_nil in *. apply IH. unfold plain_dir. exact H.
    + destruct (is_nil a); simpl in H; discriminate.
Qed.

Lemma link_free_prefix f b : forall a d, link_free f d (a ++ b) = true -> link_free f d a = true.
Proof.
  induction a as [|x a IH]; intros d H; [reflexivity|].
  simpl app in H. rewrite link_free_cons in *.
  destruct (dir_of f d) as [[par ents]|]; auto.
  destruct (blookup x ents) as [i|]; auto.
  destruct (is_link f i); auto.
Qed.

Lemma link_free_snoc f x : forall a d, link_free f d a = true ->
  match plain_lookup f d (a ++ [x]) true with
  | PLink => False
  | PFound r => link_free f d (a ++ [x]) =
                match l_ino r with Some i => negb (is_link f i) | None => true end
  | PErr _ => link_free f d (a ++ [x]) = true
  end.
Proof.
  induction a as [|y a IH]; intros d H.
  - simpl app. rewrite plain_lookup_cons, link_free_cons.
    destruct (dir_of f d) as [[par ents]|]; auto.
    destruct (blookup x ents) as [i|]; [|reflexivity].
    cbn [is_nil andb]. destruct (is_link f i) eqn:El; cbn [l_ino]; rewrite ?El; reflexivity.
  - simpl app. rewrite plain_lookup_cons, link_free_cons. rewrite link_free_cons in H.
    destruct (dir_of f d) as [[par ents]|]; auto.
    destruct (blookup y ents) as [i|].
    + destruct (is_link f i); [discriminate|].
      replace (is_nil (a ++ [x])) with false by (destruct a; reflexivity).
      apply IH; auto.
    + replace (is_nil (a ++ [x])) with false by (destruct a; reflexivity). reflexivity.
Qed.

Local Opaque rfuel.

Definition lstat_not_link (r : result) : Prop :=
  r = RErr ENOENT \/ exists i n, r = RStat i n /\ forall t, i_kind n <> KLink t.

(* a path with a NUL byte is refused with EINVAL *)
Lemma lstat_not_link_nonul c f p : lstat_not_link (snd (sys_lstat c f p)) -> has_nul p = false.
Proof.
  intros H. destruct (has_nul p) eqn:E; auto. exfalso.
  unfold sys_lstat, resolve_ino, resolve in H. destruct p as [|a p]; rewrite ?E in H; simpl in H;
    destruct H as [H|(i & n & H & _)]; discriminate.
Qed.

(* walkLink either reads a link and counts it, or returns the cleaned path unchanged: when that
   is "/", or when Lstat found no symlink there *)
Lemma walk_link_inv c f root path nl np b nl' : walk_link c f root path nl = inl (np, b, nl') ->
  let p := join2 [sep] path in
  b = true /\ nl' = nl + 1 \/
  b = false /\ nl' = nl /\ np = p /\ (p = [sep] \/ lstat_not_link (snd (sys_lstat c f (join2 root p)))).
Proof.
  unfold walk_link. intros H. set (p := join2 [sep] path) in *. destruct (N.ltb rp_max_links nl); [discriminate|].
  destruct (bytes_eqb p [sep]) eqn:Esep.
  - apply bytes_eqb_eq in Esep. inversion H; subst. auto 6.
  - destruct (snd (sys_lstat c f (join2 root p))) as [|e|i n| | |] eqn:El; try discriminate.
    + destruct e; try discriminate. inversion H; subst. right. repeat split; auto. right. left. reflexivity.
    + destruct (i_kind n) as [p0 es|d|t|ty rd] eqn:Ek.
      3: { destruct (snd (sys_readlink c f (join2 root p))); try discriminate. inversion H; subst. auto. }
      all: inversion H; subst; right; repeat split; auto; right; right; exists i, n; split; auto;
        intros t; rewrite Ek; discriminate.
Qed.

Lemma link_step_mono c f root st x nl st' nl' : link_step c f root st x nl = inl (st', nl') -> nl <= nl'.
Proof.
  unfold link_step. destruct (walk_link c f root (join2 st x) nl) as [[[np b] nl1]|e] eqn:Ew; [|discriminate].
  destruct (walk_link_inv _ _ _ _ _ _ _ _ Ew) as [[-> ->]|(-> & -> & _)]; [destruct (is_abs np)|];
    intros [= _ <-]; lia.
Qed.

Lemma walk_links_rest_mono c f root cs : forall st nl st' nl',
  walk_links_rest c f root st nl cs = inl (st', nl') -> nl <= nl'.
Proof.
  induction cs as [|[|x0 x] cs IH]; intros st nl st' nl' H; cbn [walk_links_rest] in H.
  - inversion H; lia.
  - eauto.
  - destruct (link_step c f root st (x0 :: x) nl) as [[st1 nl1]|e] eqn:E; [|discriminate].
    apply link_step_mono in E. apply IH in H. lia.
Qed.

Section Root.
  Variables (c : ctx) (f : fs) (rcs : list bytes) (dr : N).
  Hypothesis Hrcs : Forall nm rcs.
  Hypothesis Hrnul : Forall nonul rcs.
  Hypothesis Hdr : plain_dir f (c_root c) rcs = Some dr.

  Lemma lstat_not_link_free a x : Forall nm a -> nm x -> link_free f dr a = true ->
    lstat_not_link (snd (sys_lstat c f (render (rcs ++ a ++ [x])))) ->
    link_free f dr (a ++ [x]) = true /\ nonul x.
  Proof.
    intros Ha Hx Hlf Hst.
    assert (Hnul : Forall nonul (rcs ++ a ++ [x])).
    { apply has_nul_render. eapply lstat_not_link_nonul; eauto. }
    split; [|apply Forall_app in Hnul; destruct Hnul as [_ Hn]; apply Forall_app in Hn; destruct Hn as [_ Hn];
             inversion Hn; auto].
    pose proof (link_free_snoc f x a dr Hlf) as Hs.
    assert (Hne : a ++ [x] <> []) by (destruct a; discriminate).
    assert (Hall : Forall nm (rcs ++ a ++ [x])).
    { apply Forall_app; split; auto. apply Forall_app; split; auto. }
    pose proof (plain_lookup_app f true (a ++ [x]) Hne rcs (c_root c) dr Hdr) as Happ.
    destruct (plain_lookup f dr (a ++ [x]) true) as [r|e|] eqn:Ep; [|exact Hs|contradiction].
    rewrite Hs. destruct (l_ino r) as [i|] eqn:Ei; [|reflexivity].
    destruct (is_link f i) eqn:El; [|reflexivity]. exfalso.
    (* the real lstat would have seen the link *)
    unfold sys_lstat, resolve_ino in Hst.
    assert (Hne2 : rcs ++ a ++ [x] <> []) by (destruct rcs; [exact Hne|discriminate]).
    rewrite resolve_render in Hst by assumption.
    destruct (walk_plain rfuel f (c_root c) (c_root c) (rcs ++ a ++ [x]) true false 0 Hall) as [W|W].
    - rewrite W in Hst. cbn [snd] in Hst. destruct Hst as [Hst|(i0 & n0 & Hst & _)]; discriminate.
    - rewrite Happ in W. unfold agrees in W. rewrite (W (fun _ => eq_refl)) in Hst. rewrite Ei in Hst.
      unfold is_link in El. destruct (get f i) as [[[p0 es|d|t|ty rd] m]|]; try discriminate.
      cbn [snd] in Hst. destruct Hst as [Hst|(i0 & n0 & Hst & Hk)]; [discriminate|].
      inversion Hst; subst. apply (Hk t). reflexivity.
  Qed.

  (* the state st of walkLinks is a stack of names none of whose prefixes, looked up from dr, is a symlink *)
  Definition good (st : bytes) : Prop :=
    exists stk, st = render (rev stk) /\ Forall nm stk /\ Forall nonul stk /\ link_free f dr (rev stk) = true.

  Lemma join_root_render l : Forall nm l -> join2 [sep] (render l) = render l.
  Proof. intros H. rewrite join2_root, stk_from_render by auto. rewrite app_nil_r, rev_involutive. reflexivity. Qed.

  Lemma join_rcs_render l : Forall nm l -> join2 (render rcs) (render l) = render (rcs ++ l).
  Proof.
    intros H. rewrite join2_render, stk_from_render by auto.
    rewrite rev_app_distr, !rev_involutive. reflexivity.
  Qed.

  (* A pass that walks no link keeps the state [good].  One walkLink whose argument cleans to the
     stack [cstep true stk x]: *)
  Lemma walk_link_good stk x path nl np b :
    Forall nm stk -> Forall nonul stk -> nosep x -> link_free f dr (rev stk) = true ->
    join2 [sep] path = render (rev (cstep true stk x)) ->
    walk_link c f (render rcs) path nl = inl (np, b, nl) -> b = false /\ good np.
  Proof.
    intros Hstk Hnul Hx Hlf Hp H.
    destruct (walk_link_inv _ _ _ _ _ _ _ _ H) as [[_ E]|(-> & _ & -> & Hcase)]; [lia|]. split; auto.
    rewrite Hp in *. set (stk1 := cstep true stk x) in *.
    assert (Hstk1 : Forall nm stk1) by (apply cstep_nm; auto).
    exists stk1. split; [reflexivity|]. split; [auto|].
    destruct (cstep_cases stk x Hstk Hx) as [E|[E|[Hnx E]]]; fold stk1 in E; rewrite E in *.
    - auto.
    - destruct stk as [|t r]; [split; [constructor|reflexivity]|]. simpl tl. simpl rev in Hlf.
      inversion Hnul; subst. split; auto. eapply link_free_prefix; eauto.
    - simpl rev in *. assert (Hrev : Forall nm (rev stk ++ [x])) by (apply Forall_app; auto using Forall_rev).
      destruct Hcase as [Es|Hst].
      + apply bytes_eqb_eq, render_eq_sep in Es; auto. destruct (rev stk); discriminate.
      + rewrite join_rcs_render in Hst by auto.
        destruct (lstat_not_link_free (rev stk) x) as [G1 G2]; auto using Forall_rev.
  Qed.

  Lemma link_step_good st x nl st' :
    good st -> nosep x -> link_step c f (render rcs) st x nl = inl (st', nl) -> good st'.
  Proof.
    intros (stk & -> & Hstk & Hnul & Hlf) Hx H. unfold link_step in H.
    destruct (walk_link c f (render rcs) (join2 (render (rev stk)) x) nl) as [[[np b] nl1]|e] eqn:Ew; [|discriminate].
    assert (nl1 = nl) as -> by (destruct b; [destruct (is_abs np)|]; congruence).
    assert (Hp : join2 [sep] (join2 (render (rev stk)) x) = render (rev (cstep true stk x))).
    { rewrite join2_render by (apply Forall_rev; auto). rewrite rev_involutive, stk_from_single by auto.
      apply join_root_render. apply Forall_rev. apply cstep_nm; auto. }
    destruct (walk_link_good stk x _ nl np b Hstk Hnul Hx Hlf Hp Ew) as [-> Hg]. congruence.
  Qed.

  Lemma walk_links_rest_good cs : Forall nosep cs -> forall st nl st',
    good st -> walk_links_rest c f (render rcs) st nl cs = inl (st', nl) -> good st'.
  Proof.
    induction 1 as [|x cs Hx Hcs IH]; intros st nl st' Hg H; cbn [walk_links_rest] in H.
    - congruence.
    - destruct x as [|x0 x1]; [eauto|].
      destruct (link_step c f (render rcs) st (x0 :: x1) nl) as [[st1 nl1]|e] eqn:Es; [|discriminate].
      pose proof (link_step_mono _ _ _ _ _ _ _ _ Es). pose proof (walk_links_rest_mono _ _ _ _ _ _ _ _ H).
      assert (nl1 = nl) as -> by lia. eauto using link_step_good.
  Qed.

  Lemma walk_links_good path nl st' : walk_links c f (render rcs) path nl = inl (st', nl) -> good st'.
  Proof.
    unfold walk_links. pose proof (comps_all_nosep path) as Hns.
    destruct (comps path) as [|c1 rest]; [discriminate|]. inversion Hns as [|? ? Hc1 Hrest]; subst.
    destruct (walk_links_first c f (render rcs) c1 nl) as [[st nl1]|e] eqn:E1; [|discriminate].
    intros H. pose proof (walk_links_rest_mono _ _ _ _ _ _ _ _ H) as Hle.
    assert (Hfirst : nl <= nl1 /\ (nl1 = nl -> good st)).
    { unfold walk_links_first in E1. destruct c1 as [|c0 c1].
      - inversion E1; subst. split; [lia|]. intros _. exists []. repeat split; auto.
      - destruct (walk_link c f (render rcs) (c0 :: c1) nl) as [[[np b] nl2]|e] eqn:Ew; [|discriminate].
        inversion E1; subst.
        split; [destruct (walk_link_inv _ _ _ _ _ _ _ _ Ew) as [[_ ?]|(_ & ? & _)]; lia|]. intros ->.
        assert (Hp : join2 [sep] (c0 :: c1) = render (rev (cstep true [] (c0 :: c1))))
          by (rewrite join2_root, stk_from_single by auto; reflexivity).
        apply (walk_link_good [] (c0 :: c1) _ nl st b (Forall_nil _) (Forall_nil _) Hc1 eq_refl Hp Ew). }
    destruct Hfirst as [Hge Hg]. assert (nl1 = nl) as -> by lia. eauto using walk_links_rest_good.
  Qed.

  Lemma root_path_loop_good fuel : forall path nl out,
    root_path_loop fuel c f (render rcs) path nl = inl out ->
    exists cs, out = render (rcs ++ cs) /\ Forall nm cs /\ Forall nonul cs /\ link_free f dr cs = true.
  Proof.
    induction fuel as [|fuel IH]; intros path nl out H; [discriminate|].
    cbn [root_path_loop] in H.
    destruct (walk_links c f (render rcs) path nl) as [[np nl']|e] eqn:Ew; [|discriminate].
    destruct (N.eqb nl nl') eqn:En.
    - destruct (bytes_eqb np (join2 [sep] np)) eqn:Eb.
      + apply N.eqb_eq in En. subst nl'.
        destruct (walk_links_good path nl np Ew) as (stk & -> & Hstk & Hnul & Hlf).
        assert (Eo : join2 (render rcs) (join2 [sep] (render (rev stk))) = out) by congruence.
        rewrite <- Eo. exists (rev stk). split; [|split; [|split]; auto using Forall_rev].
        rewrite join_root_render by (apply Forall_rev; auto).
        apply join_rcs_render. apply Forall_rev; auto.
      + eapply IH; eauto.
    - eapply IH; eauto.
  Qed.

  Lemma root_path_good path out :
    root_path c f (render rcs) path = inl out ->
    exists cs, out = render (rcs ++ cs) /\ Forall nm cs /\ Forall nonul cs /\ link_free f dr cs = true.
  Proof.
    unfold root_path. destruct path as [|a p].
    - intros H. inversion H; subst. exists []. rewrite app_nil_r. repeat split; auto.
    - apply root_path_loop_good.
  Qed.

  (* copy.rootPath: with followLinks the whole result is symlink-free, without it everything
     but the final name *)
  Lemma copy_root_path_good p follow out :
    copy_root_path c f (render rcs) p follow = inl out ->
    exists cs, out = render (rcs ++ cs) /\ Forall nm cs /\
               let l := if follow then cs else removelast cs in
               Forall nm l /\ Forall nonul l /\ link_free f dr l = true.
  Proof.
    unfold copy_root_path. rewrite join2_root.
    set (l := rev (stk_from [] p)).
    assert (Hl : Forall nm l) by (apply Forall_rev, stk_from_nm; constructor).
    destruct (bytes_eqb (render l) [sep]) eqn:E.
    - intros H. inversion H; subst. exists []. rewrite app_nil_r. destruct follow; repeat split; auto; constructor.
    - destruct follow.
      + intros H. destruct (root_path_good _ _ H) as (cs & -> & Hcs & Hn & Hlf). exists cs. auto 6.
      + assert (Hne : l <> []).
        { intros El. rewrite El in E. discriminate. }
        destruct (exists_last Hne) as (d & b & El). rewrite El in *.
        rewrite split_path_render by auto.
        destruct (root_path c f (render rcs) _) as [pp|e] eqn:Er; [|discriminate].
        intros H. assert (Eo : join2 pp b = out) by congruence. clear H.
        destruct (root_path_good _ _ Er) as (cs & -> & Hcs & Hcnul & Hlf).
        apply Forall_app in Hl. destruct Hl as [Hd Hb]. inversion Hb as [|? ? Hb1 _]; subst.
        exists (cs ++ [b]). cbv zeta. rewrite removelast_last. split; [|split; [apply Forall_app|]]; auto.
        assert (Hall : Forall nm (rcs ++ cs)) by (apply Forall_app; auto).
        rewrite join2_render by auto. rewrite stk_from_single by (destruct Hb1; auto).
        rewrite cstep_normal by (destruct Hb1; auto). simpl rev. rewrite rev_involutive, <- app_assoc. reflexivity.
  Qed.
End Root.

Theorem rootpath_result_link_free_proof c f rcs dr p out :
  forallb name_ok rcs = true ->
  plain_dir f (c_root c) rcs = Some dr ->
  root_path c f (render rcs) p = inl out ->
  exists cs, out = render (rcs ++ cs) /\ forallb name_ok cs = true /\ link_free f dr cs = true.
Proof.
  intros Hr Hd H. apply forallb_name_ok in Hr. destruct Hr as [Hr1 Hr2].
  destruct (root_path_good c f rcs dr Hr1 Hr2 Hd p out H) as (cs & E & Hcs & Hnul & Hlf).
  exists cs. repeat split; auto. apply forallb_name_ok; auto.
Qed.

Theorem copy_rootpath_result_link_free_proof c f rcs dr p follow out :
  forallb name_ok rcs = true ->
  plain_dir f (c_root c) rcs = Some dr ->
  copy_root_path c f (render rcs) p follow = inl out ->
  exists cs, out = render (rcs ++ cs) /\ forallb lex_name_ok cs = true /\
             forallb name_ok (if follow then cs else removelast cs) = true /\
             link_free f dr (if follow then cs else removelast cs) = true.
Proof.
  intros Hr Hd H. apply forallb_name_ok in Hr. destruct Hr as [Hr1 Hr2].
  destruct (copy_root_path_good c f rcs dr Hr1 Hr2 Hd p follow out H) as (cs & E & Hcs & Hl & Hnul & Hlf).
  exists cs. repeat split; auto.
  - apply forallb_lex_name_ok; auto.
  - apply forallb_name_ok; auto.
Qed.

(* a symlink-free path below a directory names the same object for every process root, with or
   without following the final component, whatever the symlink budget left *)
Theorem link_free_resolution_rootless_proof f dr cs :
  forallb lex_name_ok cs = true -> link_free f dr cs = true ->
  forall fuel rt1 rt2 fl1 fl2 n1 n2,
    walk fuel f rt1 dr cs fl1 n1 = walk fuel f rt2 dr cs fl2 n2.
Proof.
  intros H Hlf fuel rt1 rt2 fl1 fl2 n1 n2. apply walk_link_free_indep; auto. apply forallb_lex_name_ok; auto.
Qed.
