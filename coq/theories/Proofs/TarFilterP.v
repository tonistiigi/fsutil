(* The tar export model (Model/TarHdr.v) composed with the hard-link reset (Model/Hardlinks.v,
   C11) on FILTERED listings.  Whatever sub-sequence of a canonical
   walk the filters leave — in particular when the first member of a hard-link group is
   excluded — the archive WriteTar writes is self-contained: every hard-link member names an
   earlier regular member, and extraction gives back the reset listing.
   Uses C11's theorems (Proofs/HardlinksP.v): the reset output passes the hard-link validator
   and equals its declarative description. *)
From Coq Require Import List NArith ZArith Bool.
From FS Require Import Sx Model.Path Model.Stat Model.Tree Model.Hardlinks Model.TarHdr Proofs.Lex.
From FS Require Proofs.HardlinksP.
From FS Require Import Proofs.TarP Proofs.TarExtractP Proofs.TarSpecP.
Import ListNotations.
Open Scope N_scope.

Lemma combine_map_fst_snd : forall (f : stat -> stat) (l : list entry),
  combine (map f (map fst l)) (map snd l) = map (fun e => (f (fst e), snd e)) l.
Proof. intros f l. induction l as [| [a b] r IH]; [reflexivity |]. cbn. rewrite IH. reflexivity. Qed.

Definition rse (l : list entry) (e : entry) : entry := (reset_spec_entry (map fst l) (fst e), snd e).

Lemma reset_entries_spec : forall l, wf_links (map fst l) = true -> reset_entries l = map (rse l) l.
Proof.
  intros l H. unfold reset_entries. rewrite (HardlinksP.reset_eq_spec_proof _ H). unfold reset_spec.
  apply combine_map_fst_snd.
Qed.

Lemma map_fst_reset_entries : forall l, wf_links (map fst l) = true ->
  map fst (reset_entries l) = hardlink_reset (map fst l).
Proof.
  intros l H. rewrite (reset_entries_spec l H), (HardlinksP.reset_eq_spec_proof _ H). unfold reset_spec.
  rewrite !map_map. reflexivity.
Qed.

(* the reset only touches link names *)
Lemma rse_stat_cases : forall w s,
  reset_spec_entry w s = s \/ exists k, reset_spec_entry w s = set_linkname s k.
Proof.
  intros w s. unfold reset_spec_entry.
  destruct (negb (hl_plain s)); [left; reflexivity |].
  destruct (first_rep w (orig_rep s)) as [r |]; [| left; reflexivity].
  destruct (bytes_eqb r (st_path s)); right; eexists; reflexivity.
Qed.
Lemma rse_path : forall w s, st_path (reset_spec_entry w s) = st_path s.
Proof. intros w s. destruct (rse_stat_cases w s) as [E | [k E]]; rewrite E; reflexivity. Qed.
Lemma rse_mode : forall w s, st_mode (reset_spec_entry w s) = st_mode s.
Proof. intros w s. destruct (rse_stat_cases w s) as [E | [k E]]; rewrite E; reflexivity. Qed.
Lemma rse_size : forall w s, st_size (reset_spec_entry w s) = st_size s.
Proof. intros w s. destruct (rse_stat_cases w s) as [E | [k E]]; rewrite E; reflexivity. Qed.

Lemma wf_links_fresh : forall l before, wf_links_from before l = true ->
  forall b, In b l -> forall a, In a before -> st_path a <> st_path b.
Proof.
  induction l as [| s r IH]; intros before H b Hb a Ha; [destruct Hb |].
  cbn [wf_links_from] in H. apply andb_true_iff in H. destruct H as [H Hrest].
  apply andb_true_iff in H. destruct H as [H _]. apply andb_true_iff in H. destruct H as [Hfresh _].
  apply negb_true_iff in Hfresh.
  destruct Hb as [Hb | Hb].
  - subst b. apply (HardlinksP.existsb_path_false _ _ Hfresh). exact Ha.
  - apply (IH _ Hrest b Hb a). apply in_or_app. left. exact Ha.
Qed.

Lemma wf_links_inj : forall l before, wf_links_from before l = true ->
  forall a b, In a l -> In b l -> st_path a = st_path b -> a = b.
Proof.
  induction l as [| s r IH]; intros before H a b Ha Hb E; [destruct Ha |].
  pose proof H as H0.
  cbn [wf_links_from] in H. apply andb_true_iff in H. destruct H as [_ Hrest].
  destruct Ha as [Ha | Ha], Hb as [Hb | Hb].
  - congruence.
  - subst a. exfalso. apply (wf_links_fresh _ _ Hrest b Hb s); [apply in_or_app; right; left; reflexivity | exact E].
  - subst b. exfalso. apply (wf_links_fresh _ _ Hrest a Ha s); [apply in_or_app; right; left; reflexivity | symmetry; exact E].
  - apply (IH _ Hrest a b Ha Hb E).
Qed.

(* where a link of the reset listing points: at the first kept member of its group, which
   itself carries no link name after the reset *)
Lemma first_rep_some : forall w s, In s w -> hl_plain s = true -> first_rep w (orig_rep s) <> None.
Proof.
  induction w as [| x r IH]; intros s Hin Hp; [destruct Hin |].
  cbn [first_rep]. destruct (hl_plain x && bytes_eqb (orig_rep x) (orig_rep s)) eqn:E; [discriminate |].
  destruct Hin as [Hin | Hin].
  - subst x. rewrite Hp, bytes_eqb_refl in E. discriminate.
  - apply IH; assumption.
Qed.

Lemma reset_link_target : forall w s,
  In s w -> hl_plain s = true -> is_nil (st_linkname (reset_spec_entry w s)) = false ->
  exists b, In b w /\ hl_plain b = true /\ orig_rep b = orig_rep s
            /\ st_linkname (reset_spec_entry w s) = st_path b
            /\ st_linkname (reset_spec_entry w b) = [].
Proof.
  intros w s Hin Hp Hl. unfold reset_spec_entry in Hl |- *. rewrite Hp in Hl |- *. cbn [negb] in Hl |- *.
  destruct (first_rep w (orig_rep s)) as [r |] eqn:F.
  - destruct (bytes_eqb r (st_path s)); [discriminate |].
    destruct (HardlinksP.first_rep_in _ _ _ F) as [b [Hb [Hpath [Hpb Ho]]]].
    exists b. repeat split; try assumption.
    + cbn. symmetry. exact Hpath.
    + rewrite Hpb. cbn [negb]. rewrite Ho, F. rewrite <- Hpath, bytes_eqb_refl. reflexivity.
  - exfalso. apply (first_rep_some w s Hin Hp). exact F.
Qed.

Lemma hl_step_seen : forall seen s seen', hl_step seen s = Some seen' ->
  forall p, In p seen' -> In p seen \/ p = st_path s.
Proof.
  intros seen s seen' H p Hp. unfold hl_step in H.
  destruct (negb (hl_plain s)); [inversion H; subst; left; exact Hp |].
  destruct (has_link s).
  - destruct (mem_bytes (st_linkname s) seen); [| discriminate]. inversion H; subst. left. exact Hp.
  - inversion H; subst. destruct Hp as [Hp | Hp]; [right; symmetry; exact Hp | left; exact Hp].
Qed.

Lemma hl_step_link : forall seen s seen',
  hl_plain s = true -> is_nil (st_linkname s) = false -> hl_step seen s = Some seen' ->
  In (st_linkname s) seen.
Proof.
  intros seen s seen' Hp Hl H. unfold hl_step in H. rewrite Hp, has_link_nil, Hl in H. cbn [negb] in H.
  destruct (mem_bytes (st_linkname s) seen) eqn:M; [| discriminate].
  apply HardlinksP.mem_bytes_in. exact M.
Qed.

(* a hard-link member of a listing: regular with a link name *)
Definition is_link_member (e : entry) : Prop :=
  mode_is_regular (st_mode (fst e)) = true /\ is_nil (st_linkname (fst e)) = false.

(* a TypeLink member comes from a hard-link member of the listing *)
Lemma link_member_of_wf : forall e,
  link_ok (st_mode (fst e)) (st_linkname (fst e)) = true ->
  is_nil (st_linkname (fst e)) = false -> mode_is_symlink (st_mode (fst e)) = false ->
  is_link_member e.
Proof.
  intros e Hlk Hnil Hsym. unfold link_ok in Hlk. rewrite Hnil, Hsym in Hlk. cbn [orb] in Hlk.
  split; assumption.
Qed.

Lemma existsb_seen_mono : forall p x (seen : list bytes),
  existsb (bytes_eqb p) seen = true -> existsb (bytes_eqb p) (x :: seen) = true.
Proof. intros p x seen H. cbn [existsb]. rewrite H. apply orb_true_r. Qed.

(* a listing that passes the validator and whose link targets are regular non-link
   entries yields an archive whose hard-link members name earlier regular members *)
Lemma resolve_of_check : forall (W : list entry) r seenH seenT i,
  (forall e, In e r -> In e W) -> links_wf r ->
  (forall e t, In e W -> In t W -> is_link_member e -> st_path (fst t) = st_linkname (fst e) ->
               carries_size (fst t) = true) ->
  (forall p, In p seenH -> (exists e, In e W /\ is_link_member e /\ st_linkname (fst e) = p) ->
             existsb (bytes_eqb p) seenT = true) ->
  hl_run seenH (map fst r) i = None ->
  links_resolve_from seenT (map archived_member (tar_of_listing r)) = true.
Proof.
  intros W. induction r as [| e r IH]; intros seenH seenT i Hin Hwf HA Hseen Hrun; [reflexivity |].
  assert (Hwf' : links_wf r) by (intros x Hx; apply Hwf; right; exact Hx).
  assert (Hin' : forall x, In x r -> In x W) by (intros x Hx; apply Hin; right; exact Hx).
  pose proof (Hwf e (or_introl eq_refl)) as Hlk.
  pose proof (Hin e (or_introl eq_refl)) as HeW.
  cbn [map hl_run] in Hrun.
  destruct (hl_step seenH (fst e)) as [seenH' |] eqn:Hs; [| discriminate].
  cbn [tar_of_listing map links_resolve_from].
  apply andb_true_iff. split.
  - apply link_member_resolves. intros Hnil Hsym.
    pose proof (link_member_of_wf e Hlk Hnil Hsym) as Hlm. destruct Hlm as [Hreg _].
    apply Hseen.
    + apply (hl_step_link _ _ _ (regular_plain _ Hreg) Hnil Hs).
    + exists e. repeat split; assumption.
  - apply (IH seenH' _ (S i)); try assumption.
    intros p Hp HK. destruct (hl_step_seen _ _ _ Hs p Hp) as [Hold | Hnew].
    + pose proof (Hseen p Hold HK) as X.
      destruct (N.eqb (h_typeflag (fst (archived_member (member_of_entry e)))) TypeReg); [| exact X].
      apply existsb_seen_mono. exact X.
    + destruct HK as [e0 [He0 [Hlm0 Hl0]]].
      assert (C : carries_size (fst e) = true) by (apply (HA e0 e He0 HeW Hlm0); congruence).
      destruct (carries_size_member e C) as [Htf Hnm]. rewrite Htf, Hnm, Hnew.
      cbn [N.eqb existsb]. rewrite N.eqb_refl. cbn [existsb]. rewrite bytes_eqb_refl. reflexivity.
Qed.

(* ... and, when the targets also agree in size and bytes, a listing whose links are closed *)
Lemma find_entry_found : forall p l t, In t l -> st_path (fst t) = p -> find_entry p l <> None.
Proof.
  intros p l t Hin Hp. unfold find_entry. intro F.
  pose proof (find_none _ _ F t Hin) as X. cbn beta in X. rewrite Hp, bytes_eqb_refl in X. discriminate.
Qed.

Lemma closed_of_check : forall (W : list entry) r done seenH i,
  (forall e, In e r -> In e W) -> (forall e, In e done -> In e W) -> links_wf r ->
  (forall e t, In e W -> In t W -> is_link_member e -> st_path (fst t) = st_linkname (fst e) ->
               carries_size (fst t) = true /\ st_size (fst t) = st_size (fst e) /\ snd t = snd e) ->
  (forall e, In e r -> mode_is_regular (st_mode (fst e)) = false -> snd e = []) ->
  (forall p, In p seenH -> exists t, In t done /\ st_path (fst t) = p) ->
  hl_run seenH (map fst r) i = None ->
  links_closed_from done r = true.
Proof.
  intros W. induction r as [| e r IH]; intros done seenH i Hin Hdone Hwf HA HN Hseen Hrun; [reflexivity |].
  assert (Hwf' : links_wf r) by (intros x Hx; apply Hwf; right; exact Hx).
  assert (Hin' : forall x, In x r -> In x W) by (intros x Hx; apply Hin; right; exact Hx).
  pose proof (Hwf e (or_introl eq_refl)) as Hlk.
  pose proof (Hin e (or_introl eq_refl)) as HeW.
  cbn [map hl_run] in Hrun.
  destruct (hl_step seenH (fst e)) as [seenH' |] eqn:Hs; [| discriminate].
  cbn [links_closed_from]. apply andb_true_iff. split.
  - unfold link_target_ok. destruct (carries_size (fst e)) eqn:C; [reflexivity |].
    destruct (mode_is_regular (st_mode (fst e))) eqn:Hreg.
    + unfold carries_size in C. rewrite Hreg, andb_true_r in C.
      assert (Hlm : is_link_member e) by (split; assumption).
      pose proof (hl_step_link _ _ _ (regular_plain _ Hreg) C Hs) as Hmem.
      destruct (Hseen _ Hmem) as [t [Ht Hp]].
      destruct (find_entry (st_linkname (fst e)) done) as [t0 |] eqn:F;
        [| exfalso; apply (find_entry_found _ _ _ Ht Hp); exact F].
      destruct (find_entry_some _ _ _ F) as [Ht0 Hp0].
      destruct (HA e t0 HeW (Hdone _ Ht0) Hlm Hp0) as [C0 [Hsz Hc]].
      rewrite C0, Hsz, Hc, N.eqb_refl, bytes_eqb_refl. reflexivity.
    + rewrite (HN e (or_introl eq_refl) Hreg). reflexivity.
  - apply (IH (done ++ [e]) seenH' (S i)); try assumption.
    + intros x Hx. apply in_app_or in Hx. destruct Hx as [Hx | [Hx | []]]; [apply Hdone; exact Hx | subst x; exact HeW].
    + intros x Hx. apply HN. right. exact Hx.
    + intros p Hp. destruct (hl_step_seen _ _ _ Hs p Hp) as [Hold | Hnew].
      * destruct (Hseen p Hold) as [t [Ht Hpt]]. exists t. split; [apply in_or_app; left; exact Ht | exact Hpt].
      * exists e. split; [apply in_or_app; right; left; reflexivity | symmetry; exact Hnew].
Qed.

(* link groups of the source view: entries that are the same file (same inode) have the same
   type, size and bytes *)
Lemma forallb2_in : forall (f : entry -> entry -> bool) (l : list entry),
  forallb (fun a => forallb (f a) l) l = true -> forall a b, In a l -> In b l -> f a b = true.
Proof.
  intros f l H a b Ha Hb. rewrite forallb_forall in H. specialize (H a Ha).
  rewrite forallb_forall in H. apply H. exact Hb.
Qed.

Lemma same_group_intro : forall a b,
  hl_plain a = true -> hl_plain b = true -> orig_rep a = orig_rep b -> same_group a b = true.
Proof. intros a b Ha Hb E. unfold same_group. rewrite Ha, Hb, E, bytes_eqb_refl. reflexivity. Qed.

Lemma reset_targets : forall l, wf_links (map fst l) = true ->
  forall e' t', In e' (reset_entries l) -> In t' (reset_entries l) ->
    is_link_member e' -> st_path (fst t') = st_linkname (fst e') ->
    exists e t, In e l /\ In t l /\ e' = rse l e /\ t' = rse l t
                /\ same_group (fst e) (fst t) = true /\ st_linkname (fst t') = [].
Proof.
  intros l Hwf e' t' He' Ht' [Hreg Hnil] Hp.
  rewrite (reset_entries_spec l Hwf) in He', Ht'.
  apply in_map_iff in He'. destruct He' as [e [Ee He]]. apply in_map_iff in Ht'. destruct Ht' as [t [Et Ht]].
  subst e' t'. unfold rse in Hreg, Hnil, Hp. cbn [fst] in Hreg, Hnil, Hp.
  rewrite rse_mode in Hreg. rewrite rse_path in Hp.
  pose proof (regular_plain _ Hreg) as Hpl.
  assert (Hes : In (fst e) (map fst l)) by (apply in_map; exact He).
  assert (Hts : In (fst t) (map fst l)) by (apply in_map; exact Ht).
  destruct (reset_link_target _ _ Hes Hpl Hnil) as [b [Hb [Hpb [Ho [Hlb Hbl]]]]].
  assert (Etb : fst t = b).
  { apply (wf_links_inj _ [] Hwf _ _ Hts Hb). rewrite Hp, Hlb. reflexivity. }
  exists e, t. repeat split; try assumption.
  - apply same_group_intro; [exact Hpl | rewrite Etb; exact Hpb | rewrite Etb; symmetry; exact Ho].
  - unfold rse. cbn [fst]. rewrite Etb. exact Hbl.
Qed.

(* hence the target of a link of the reset listing is a regular member without link name,
   with the size and bytes of the link when the groups also agree in content *)
Lemma reset_targets_agree : forall l, wf_links (map fst l) = true -> group_types_agree l = true ->
  forall e' t', In e' (reset_entries l) -> In t' (reset_entries l) ->
    is_link_member e' -> st_path (fst t') = st_linkname (fst e') ->
    carries_size (fst t') = true /\
    (group_contents_agree l = true -> st_size (fst t') = st_size (fst e') /\ snd t' = snd e').
Proof.
  intros l Hwf Hty e' t' He' Ht' Hlm Hp.
  destruct (reset_targets l Hwf e' t' He' Ht' Hlm Hp) as [e [t [He [Ht [Ee [Et [Hg Hl]]]]]]].
  pose proof (forallb2_in _ _ Hty e t He Ht) as X. cbn beta in X. rewrite Hg in X. cbn [negb orb] in X.
  apply eqb_prop in X. destruct Hlm as [Hreg _].
  unfold carries_size. rewrite Hl. cbn [is_nil andb].
  subst e' t'. unfold rse in Hreg |- *. cbn [fst snd] in Hreg |- *. rewrite !rse_mode in *. rewrite !rse_size.
  split; [rewrite <- X; exact Hreg|]. intros Hct.
  pose proof (forallb2_in _ _ Hct e t He Ht) as Y. cbn beta in Y. rewrite Hg in Y. cbn [negb orb] in Y.
  apply andb_true_iff in Y. destruct Y as [Ys Yc]. apply N.eqb_eq in Ys. apply bytes_eqb_eq in Yc. auto.
Qed.

Lemma reset_links_wf : forall l, wf_listing_b (reset_entries l) = true -> links_wf (reset_entries l).
Proof. intros l H. apply wf_links_wf. exact H. Qed.

Lemma filtered_links_resolve_proof : forall l,
  wf_links (map fst l) = true -> group_types_agree l = true ->
  wf_listing_b (reset_entries l) = true ->
  links_resolve (map archived_member (tar_members_listing l)) = true.
Proof.
  intros l Hwf Hty Hwl. unfold links_resolve, tar_members_listing.
  apply (resolve_of_check (reset_entries l) (reset_entries l) [] [] 0%nat).
  - intros e He. exact He.
  - apply reset_links_wf. exact Hwl.
  - intros e' t' He' Ht' Hlm Hp. apply (reset_targets_agree l Hwf Hty e' t' He' Ht' Hlm Hp).
  - intros p [].
  - rewrite (map_fst_reset_entries l Hwf). apply (HardlinksP.reset_links_valid_proof _ Hwf).
Qed.

Lemma filtered_links_closed_proof : forall l,
  wf_links (map fst l) = true -> group_types_agree l = true -> group_contents_agree l = true ->
  no_content_unless_regular l = true ->
  wf_listing_b (reset_entries l) = true ->
  links_closed (reset_entries l) = true.
Proof.
  intros l Hwf Hty Hct Hnc Hwl. unfold links_closed.
  apply (closed_of_check (reset_entries l) (reset_entries l) [] [] 0%nat).
  - intros e He. exact He.
  - intros e [].
  - apply reset_links_wf. exact Hwl.
  - intros e' t' He' Ht' Hlm Hp.
    destruct (reset_targets_agree l Hwf Hty e' t' He' Ht' Hlm Hp) as [C K]. exact (conj C (K Hct)).
  - intros e' He' Hreg. rewrite (reset_entries_spec l Hwf) in He'.
    apply in_map_iff in He'. destruct He' as [e [Ee He]]. subst e'.
    unfold rse in Hreg |- *. cbn [fst snd] in Hreg |- *. rewrite rse_mode in Hreg.
    unfold no_content_unless_regular in Hnc. rewrite forallb_forall in Hnc. specialize (Hnc e He).
    rewrite Hreg in Hnc. cbn [orb] in Hnc. destruct (snd e); [reflexivity | discriminate].
  - intros p [].
  - rewrite (map_fst_reset_entries l Hwf). apply (HardlinksP.reset_links_valid_proof _ Hwf).
Qed.

Lemma extract_filtered_roundtrip_proof : forall l,
  wf_links (map fst l) = true -> group_types_agree l = true -> group_contents_agree l = true ->
  no_content_unless_regular l = true ->
  wf_listing_b (reset_entries l) = true ->
  extract (map archived_member (tar_members_listing l)) = map extracted (reset_entries l).
Proof.
  intros l Hwf Hty Hct Hnc Hwl. apply extract_listing_roundtrip_proof; [exact Hwl |].
  apply filtered_links_closed_proof; assumption.
Qed.
