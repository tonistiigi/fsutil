(* The executable specification used as oracle by the glue (Diff.diff_spec_b, evaluated on
   the IMPLEMENTATION's change list) is exactly the predicate of
   C02.diff_changes_exact + "no path twice":
   [diff_spec_b_iff], for sorted listings A and B. *)
From Coq Require Import List NArith Lia Bool Sorting.Sorted.
From FS Require Import Sx Model.Path Model.Stat Model.Diff Proofs.Lex Proofs.PathP Proofs.DiffP.
Import ListNotations.
Open Scope N_scope.
Open Scope bool_scope.

Lemma opt_stat_eqb_eq a b : opt_stat_eqb a b = true <-> a = b.
Proof.
  destruct a, b; simpl; split; intros H; try discriminate; auto.
  - apply stat_eqb_eq in H. congruence.
  - inversion H. apply stat_eqb_eq. reflexivity.
Qed.

Lemma ckind_eqb_eq a b : ckind_eqb a b = true <-> a = b.
Proof. destruct a, b; simpl; split; intros H; try discriminate; auto. Qed.

Lemma lookup_iff L p s : sorted L -> (lookup p L = Some s <-> In s L /\ st_path s = p).
Proof.
  intros HS. split; [apply lookup_some|]. intros [Hin <-]. apply lookup_in_sorted; auto.
Qed.

Fixpoint nodup_paths_b_iff (ps : list bytes) : nodup_paths_b ps = true <-> NoDup ps.
Proof.
  destruct ps as [|p r]; simpl.
  - split; [constructor|reflexivity].
  - rewrite andb_true_iff, negb_true_iff, nodup_paths_b_iff. split.
    + intros [H1 H2]. constructor; auto. intros Hin.
      assert (existsb (bytes_eqb p) r = true) by (apply existsb_exists; exists p; split; auto; apply bytes_eqb_refl).
      congruence.
    + intros H. inversion H; subst. split; auto.
      destruct (existsb (bytes_eqb p) r) eqn:E; auto. apply existsb_exists in E.
      destruct E as (q & Hq & Eq). apply bytes_eqb_eq in Eq. subst. contradiction.
Qed.

Section Refl.
Variable flt : stat -> stat.
Variable d : differ.
Variables A B : list stat.
Hypothesis HsA : sorted A.
Hypothesis HsB : sorted B.

Lemma removed_root_b_iff a : In a A -> (removed_root_b flt B a = true <-> removed_root flt A B a).
Proof.
  intros Ha. unfold removed_root_b, removed_root. rewrite andb_true_iff. split.
  - intros [Hd Hl]. split; auto. split; auto.
    destruct (lookup (st_path a) B) as [b|] eqn:E.
    + right. apply lookup_some in E. destruct E. exists b. apply negb_true_iff in Hl. auto.
    + left. unfold notin; apply lookup_none; auto.
  - intros (_ & Hd & [Hn|(b & Hb & Eb & Hdb)]); split; auto.
    + rewrite (proj2 (lookup_none_iff _ _) Hn). reflexivity.
    + rewrite <- Eb, (lookup_in_sorted B b HsB Hb), Hdb. reflexivity.
Qed.

Lemma hidden_b_iff p : hidden_b flt A B p = true <-> hidden flt A B p.
Proof.
  unfold hidden_b, hidden, hidden_by. rewrite existsb_exists. split.
  - intros (a & Ha & Hc). apply andb_true_iff in Hc. destruct Hc as [H1 H2].
    exists a. split; auto. split; auto. apply removed_root_b_iff; auto.
  - intros (a & Ha & Hr & Hab). exists a. split; auto. apply andb_true_iff. split; auto.
    apply removed_root_b_iff; auto.
Qed.

Lemma spec_change_b_iff c : spec_change_b flt d A B c = true <-> spec_change flt d A B c.
Proof.
  destruct c as [[k p] st]. unfold spec_change_b. cbn [ch_kind ch_path ch_stat fst snd].
  destruct (lookup p A) as [a|] eqn:EA, (lookup p B) as [b|] eqn:EB;
    try (apply lookup_some in EA; destruct EA as [Ha <-]); try (apply lookup_some in EB; destruct EB as [Hb Eb]).
  - rewrite (spec_at_AB flt d A B HsA HsB a b (k, st_path a, st) Ha Hb (eq_sym Eb) (eq_sym Eb)), <- Eb.
    destruct k; rewrite ?andb_true_iff, ?opt_stat_eqb_eq, ?negb_true_iff; intuition congruence.
  - rewrite (spec_at_A flt d A B a (k, st_path a, st) Ha (lookup_none _ _ EB) eq_refl), <- hidden_b_iff.
    destruct k; rewrite ?andb_true_iff, ?opt_stat_eqb_eq, ?negb_true_iff, ?not_true_iff_false; intuition congruence.
  - rewrite (spec_at_B flt d A B HsB b (k, p, st) Hb (lookup_none _ _ (eq_trans (f_equal (fun q => lookup q A) Eb) EA)) (eq_sym Eb)), <- Eb.
    destruct k; rewrite ?opt_stat_eqb_eq; intuition congruence.
  - split; [destruct k; discriminate|]. intros Hc. apply spec_change_path_in in Hc. exfalso.
    destruct Hc as [Hc|Hc]; apply in_map_iff in Hc; destruct Hc as (s & E & Hs);
      [apply (lookup_none _ _ EA s Hs E)|apply (lookup_none _ _ EB s Hs E)].
Qed.

Lemma reported_iff out k p :
  reported out k p = true <-> exists c, In c out /\ ch_kind c = k /\ ch_path c = p.
Proof.
  unfold reported. rewrite existsb_exists. split; intros (c & Hc & H); exists c; split; auto.
  - apply andb_true_iff in H. destruct H as [H1 H2]. apply ckind_eqb_eq in H1. apply bytes_eqb_eq in H2. auto.
  - destruct H as [-> ->]. apply andb_true_iff. split; [apply ckind_eqb_eq|apply bytes_eqb_eq]; reflexivity.
Qed.

Lemma spec_change_functional c1 c2 :
  spec_change flt d A B c1 -> spec_change flt d A B c2 ->
  ch_kind c1 = ch_kind c2 -> ch_path c1 = ch_path c2 -> c1 = c2.
Proof.
  destruct c1 as [[k1 p1] s1], c2 as [[k2 p2] s2]. cbn [ch_kind ch_path fst snd]. intros H1 H2 -> ->.
  destruct k2; destruct s1 as [b1|], s2 as [b2|]; simpl in H1, H2; try tauto.
  - destruct H1 as (Hb1 & E1 & _), H2 as (Hb2 & E2 & _).
    assert (b1 = b2) by (apply (sorted_unique B); auto; congruence). subst. reflexivity.
  - destruct H1 as (Hb1 & E1 & _), H2 as (Hb2 & E2 & _).
    assert (b1 = b2) by (apply (sorted_unique B); auto; congruence). subst. reflexivity.
Qed.

Theorem diff_spec_b_iff out :
  diff_spec_b flt d A B out = true <->
  (forall c, In c out <-> spec_change flt d A B c) /\ NoDup (map ch_path out).
Proof.
  unfold diff_spec_b. rewrite !andb_true_iff, nodup_paths_b_iff, forallb_forall.
  split.
  - intros [[Hsound Hcomp] Hnd]. split; auto.
    assert (Hs : forall c, In c out -> spec_change flt d A B c).
    { intros c Hc. apply spec_change_b_iff. auto. }
    intros c. split; auto. intros Hc.
    (* completeness: some change of that kind and path is reported, and it is this one *)
    assert (Hrep : reported out (ch_kind c) (ch_path c) = true).
    { unfold complete_b in Hcomp. apply andb_true_iff in Hcomp. destruct Hcomp as [HB HA].
      rewrite forallb_forall in HB, HA.
      destruct c as [[k p] st]. cbn [ch_kind ch_path fst snd].
      destruct k; destruct st as [b|]; simpl in Hc; try tauto.
      - destruct Hc as (Hb & Eb & Hn). specialize (HB b Hb). rewrite Eb in HB.
        rewrite (proj2 (lookup_none_iff _ _) Hn) in HB. exact HB.
      - destruct Hc as (Hb & Eb & a & Ha & Ea & Hsf). specialize (HB b Hb). rewrite Eb in HB.
        rewrite <- Ea, (lookup_in_sorted A a HsA Ha), Hsf in HB. simpl in HB. rewrite Ea in HB. exact HB.
      - destruct Hc as ((a & Ha & Ea) & Hn & Hh). specialize (HA a Ha). rewrite Ea in HA.
        rewrite (proj2 (lookup_none_iff _ _) Hn) in HA.
        destruct (hidden_b flt A B p) eqn:E; [apply hidden_b_iff in E; contradiction|]. exact HA. }
    apply reported_iff in Hrep. destruct Hrep as (c' & Hc' & Ek & Ep).
    assert (c' = c) by (apply spec_change_functional; auto). subst. exact Hc'.
  - intros [Hex Hnd]. split; auto. split.
    + intros c Hc. apply spec_change_b_iff. apply Hex. exact Hc.
    + unfold complete_b. apply andb_true_iff. split; apply forallb_forall.
      * intros b Hb. destruct (lookup (st_path b) A) as [a|] eqn:EA.
        -- destruct (same_file d a (flt b)) eqn:Es; auto. simpl. apply reported_iff.
           exists (KModify, st_path b, Some b). split; [|auto]. apply Hex. simpl.
           apply lookup_some in EA. destruct EA as [Ha Ea]. split; auto. split; auto. exists a. auto.
        -- apply reported_iff. exists (KAdd, st_path b, Some b). split; [|auto]. apply Hex. simpl.
           split; auto. split; auto. unfold notin; apply lookup_none; auto.
      * intros a Ha. destruct (lookup (st_path a) B) as [b|] eqn:EB; auto.
        destruct (hidden_b flt A B (st_path a)) eqn:Eh; auto. simpl. apply reported_iff.
        exists (KDelete, st_path a, None). split; [|auto]. apply Hex. simpl.
        split; [eauto|]. split; [unfold notin; apply lookup_none; auto|].
        intros Hc. apply hidden_b_iff in Hc. congruence.
Qed.

End Refl.

(* the oracle accepts the model's own output on well-formed input (sanity of the pair
   model / oracle: a disagreement in the run can then only come from the implementation) *)
Corollary diff_spec_b_accepts_diff flt d A B :
  sorted A -> sorted B -> closed B -> (forall s, st_is_dir (flt s) = st_is_dir s) ->
  diff_spec_b flt d A B (diff flt d A B) = true.
Proof.
  intros HsA HsB HcB Hf. apply diff_spec_b_iff; auto. split.
  - intros c. apply diff_changes_exact_proof; auto.
  - apply diff_nodup_proof; auto.
Qed.
