(* C14 — the theorems about Model/CopyFs.v, stated in the vocabulary of Model/CopyFsSpec.v: what
   Copy can change (containment) and what it reads through source paths. *)
From Coq Require Import List Arith NArith Lia Bool ZifyN ZifyNat ZifyBool.
From FS Require Import Sx Model.Path Model.Fs Model.RootPath Model.CopyFs Model.CopyFsSpec
  Proofs.Lex Proofs.PathP Proofs.FsP Proofs.RootPathStrP Proofs.FsCopyFrameP Proofs.FsCopyInvP
  Proofs.FsCopySafeP Proofs.FsCopyLinksP Proofs.FsCopySysP Proofs.CopyFsP Proofs.CopyRecP Proofs.CopyFsRec2P Proofs.CopyFsTopP.
Import ListNotations.
Open Scope N_scope.
Open Scope bool_scope.

Lemma wf_inv f0 dr : fs_wf f0 -> Inv f0 dr f0.
Proof.
  intros W. apply inv_init.
  - apply W.
  - intros j _. apply W.
  - intros j. pose proof (wf_names f0 W j) as H. unfold entry_name_ok in H.
    apply forallb_name_ok in H. destruct H as [H1 H2].
    clear -H1 H2. induction (map fst (dents f0 j)) as [|a l IH]; [constructor|].
    inversion H1; inversion H2; subst. constructor; [split; auto|auto].
  - apply W.
  - apply W.
Qed.

Lemma wf_ctx c f0 dr dcs : fs_wf f0 -> forallb name_ok dcs = true -> chain f0 (c_root c) dcs dr ->
  (length dcs < rfuel)%nat -> Ctx c f0 dr dcs f0.
Proof.
  intros W Hn Hc Hl. apply forallb_name_ok in Hn. destruct Hn as [H1 H2].
  constructor; auto; [apply W|eapply chain_end_dir; eauto|apply wf_inv; auto].
Qed.

Lemma lok_init (c : ctx) f0 dr dcs : lok f0 dr dcs (cst_init f0).
Proof. intros e He. destruct He. Qed.

Lemma deferred_targets_eq dcs : forall pend cs, deferred_targets dcs cs pend = pend_paths dcs cs pend.
Proof. induction pend as [|p r IH]; intros cs; [reflexivity|]. cbn [deferred_targets pend_paths]. rewrite IH. reflexivity. Qed.

Lemma lok_parents (c : ctx) f0 dr dcs ps : lok f0 dr dcs (cst_with_parents f0 ps).
Proof. intros e He. destruct He. Qed.

(* the recursive copy into "<dstRoot>/cs/pend/x": cs real directories, pend the directories whose
   creation is deferred (the uncopied entries of the parentDirs stack), any selector, any flags:
   of the inodes that existed before, only directories at or below dstRoot (reached through real
   directories) can have changed *)
Theorem copy_rec_contained_proof fuel c o sl src comps ow pinc pexc f0 dr dcs cs pend x d ps s' r :
  fs_wf f0 ->
  forallb name_ok dcs = true -> chain f0 (c_root c) dcs dr -> (length dcs < rfuel)%nat ->
  forallb name_ok cs = true -> forallb name_ok pend = true -> name_ok x = true -> chain f0 dr cs d ->
  uncopied_targets ps = deferred_targets dcs cs pend ->
  copy_rec fuel c o sl src comps (render (dcs ++ cs ++ pend ++ [x])) ow pinc pexc (cst_with_parents f0 ps) = (s', r) ->
  forall i, i < f_next f0 -> ~ inside_dir f0 dr i -> get (s_fs s') i = get f0 i.
Proof.
  intros W Hdn Hdc Hl Hcn Hpn Hxn Hc Hps H i Hi Hout.
  pose proof (wf_ctx c f0 dr dcs W Hdn Hdc Hl) as C.
  apply forallb_name_ok in Hcn. destruct Hcn as [Hc1 Hc2].
  apply forallb_name_ok in Hpn. destruct Hpn as [Hp1 Hp2].
  destruct (name_ok_nm x Hxn) as [Hx1 Hx2].
  rewrite deferred_targets_eq in Hps.
  destruct (copy_rec_spec c f0 dr dcs fuel o sl src comps cs d pend x ow pinc pexc (cst_with_parents f0 ps) s' r
              C Hc Hc1 Hc2 Hp1 Hp2 Hx1 Hx2 Hps (lok_parents c f0 dr dcs ps) H) as ((C' & _) & _).
  apply (inv_frame f0 dr (s_fs s') (cx_inv _ _ _ _ _ C')); auto.
Qed.

From FS Require Import Proofs.CopyFsTop2P Proofs.CopyFsTop3P.

Local Opaque rfuel.

(* srcRoot stays a directory: it is the destination root itself, or lies outside it *)
Lemma src_root_dir c f0 dr dcs scs sr f : alloc_ok f0 ->
  Ctx c f0 dr dcs f -> forallb name_ok scs = true -> chain f0 (c_root c) scs sr -> (length scs < rfuel)%nat ->
  (scs = dcs \/ ~ inside_dir f0 dr sr) ->
  forall ino fi, snd (sys_lstat c f (render scs)) = RStat ino fi -> kind_is_dir fi = true.
Proof.
  intros Ha0 C Hn Hc Hl [->|Hout] ino fi H.
  - destruct (stat_root c f0 dr dcs f C) as (n & Hk & _ & E). rewrite E in H. inversion H; subst. exact Hk.
  - apply forallb_name_ok in Hn. destruct Hn as [Hn1 Hn2].
    pose proof (cx_inv _ _ _ _ _ C) as I.
    (* the chain to srcRoot is untouched *)
    pose proof (chain_outside f0 dr f _ _ _ Ha0 I Hc Hout) as Hc'.
    unfold sys_lstat in H. rewrite (resolve_ino_chain c f scs sr false Hc' Hn1 Hn2 Hl) in H.
    pose proof (chain_end_dir _ _ _ _ Hc) as Hd.
    rewrite (inv_frame f0 dr f I sr (exists_lt_next f0 sr Ha0 (is_dir_exists _ _ Hd)) Hout) in H. unfold is_dir, dir_of in Hd.
    destruct (get f0 sr) as [[[pp es|?|?|? ?] mm]|] eqn:Eg; try discriminate.
    cbn [snd] in H. inversion H; subst. reflexivity.
Qed.

Lemma nonul_matches (matches : option (list bytes)) :
  (forall l, matches = Some l -> forallb (fun m => negb (has_nul m)) l = true) ->
  forall l, matches = Some l -> Forall (fun m => has_nul m = false) l.
Proof.
  intros Hm l El. specialize (Hm l El). rewrite forallb_forall in Hm. apply Forall_forall. intros x Hx.
  apply negb_true_iff. apply Hm. exact Hx.
Qed.

(* Copy keeps the invariant of the destination side *)
Lemma copy_top_ctx fuel c o osl scs src dcs dst matches f0 dr sr s' res :
  fs_wf f0 ->
  forallb name_ok dcs = true -> chain f0 (c_root c) dcs dr -> (length dcs < rfuel)%nat ->
  forallb name_ok scs = true -> chain f0 (c_root c) scs sr -> (length scs < rfuel)%nat ->
  (scs = dcs \/ ~ inside_dir f0 dr sr) ->
  has_nul src = false -> (forall l, matches = Some l -> forallb (fun m => negb (has_nul m)) l = true) ->
  copy_top fuel c o osl (render scs) src (render dcs) dst matches (cst_init f0) = (s', res) ->
  Ctx c f0 dr dcs (s_fs s').
Proof.
  intros W Hdn Hdc Hdl Hsn Hsc Hsl Hsd Hnul Hm H.
  eapply (copy_top_spec c f0 dr dcs (render scs)); [| |apply lok_init; exact c|reflexivity|exact Hnul|apply nonul_matches; exact Hm|exact H].
  - intros f Cf. eapply src_root_dir; eauto. apply W.
  - apply wf_ctx; auto.
Qed.

(* Copy: of the inodes that existed before, only directories at or below dstRoot can have changed *)
Theorem copy_contained_proof fuel c o osl scs src dcs dst matches f0 dr sr s' res :
  fs_wf f0 ->
  forallb name_ok dcs = true -> chain f0 (c_root c) dcs dr -> (length dcs < rfuel)%nat ->
  forallb name_ok scs = true -> chain f0 (c_root c) scs sr -> (length scs < rfuel)%nat ->
  (scs = dcs \/ ~ inside_dir f0 dr sr) ->
  has_nul src = false -> (forall l, matches = Some l -> forallb (fun m => negb (has_nul m)) l = true) ->
  copy_top fuel c o osl (render scs) src (render dcs) dst matches (cst_init f0) = (s', res) ->
  forall i, i < f_next f0 -> ~ inside_dir f0 dr i -> get (s_fs s') i = get f0 i.
Proof.
  intros W Hdn Hdc Hdl Hsn Hsc Hsl Hsd Hnul Hm H i Hi Hout.
  pose proof (copy_top_ctx fuel c o osl scs src dcs dst matches f0 dr sr s' res W Hdn Hdc Hdl Hsn Hsc Hsl Hsd Hnul Hm H) as C'.
  apply (inv_frame f0 dr (s_fs s') (cx_inv _ _ _ _ _ C')); auto.
Qed.

From FS Require Import Proofs.CopyFsSrcP.

(* Copy with disjoint roots: every inode the copier reads through a source path (Lstat, the
   directory listings, os.Open of regular files, os.Stat of deferred parents, xattrs) is srcRoot, a
   directory below it, or an entry of such a directory — in the INITIAL file system: the tree below
   srcRoot does not change during the copy, and no symlink is followed on the way. *)
Theorem copy_reads_inside_proof fuel c o osl scs src dcs dst matches f0 dr sr s' res :
  fs_wf f0 ->
  forallb name_ok dcs = true -> chain f0 (c_root c) dcs dr -> (length dcs < rfuel)%nat ->
  forallb name_ok scs = true -> chain f0 (c_root c) scs sr -> (length scs < rfuel)%nat ->
  ~ inside_dir f0 dr sr -> ~ inside_dir f0 sr dr ->
  has_nul src = false -> (forall l, matches = Some l -> forallb (fun m => negb (has_nul m)) l = true) ->
  copy_top fuel c o osl (render scs) src (render dcs) dst matches (cst_init f0) = (s', res) ->
  forall i, In i (s_reads s') -> src_reach f0 sr i.
Proof.
  intros W Hdn Hdc Hdl Hsn Hsc Hsl D1 D2 Hnul Hm H.
  pose proof (wf_ctx c f0 dr dcs W Hdn Hdc Hdl) as C.
  pose proof (fun f Cf => src_root_dir c f0 dr dcs scs sr f (wf_alloc f0 W) Cf Hsn Hsc Hsl (or_intror D1)) as Hsr.
  pose proof (nonul_matches matches Hm) as Hm'.
  apply forallb_name_ok in Hsn. destruct Hsn as [Hs1 Hs2].
  assert (Rk0 : rok (Rc f0 sr) (cst_init f0)) by (intros i Hi; destruct Hi).
  destruct (copy_top_spec_r c f0 dr dcs (render scs) Hsr (Rc f0 sr) (SPc f0 scs sr) (SPNc f0 scs sr)
              (src_reads_ok c f0 dr dcs scs sr W Hs1 Hs2 Hsc Hsl D1 D2) (fun _ _ => True)
              (fun f src0 follow sf Cf _ => src_arg_SP c f0 dr dcs scs sr W Hs1 Hs2 Hsc D1 D2 f src0 follow sf Cf)
              fuel o osl src dst matches (cst_init f0) s' res C (lok_init c f0 dr dcs) eq_refl Hnul Hm' (fun _ => I)
              (fun l _ => proj2 (Forall_forall _ l) (fun _ _ => I)) Rk0 H) as (_ & Rk).
  exact Rk.
Qed.

(* Overlapping roots: what is static whatever the roots.
   A directory that existed before the copy and is reached from a (below srcRoot, say) through real
   directories after the copy was reached by the same names initially: the copier never links or
   moves an old directory, and new directories contain no old ones. *)
Theorem copy_old_dirs_static_proof fuel c o osl scs src dcs dst matches f0 dr sr s' res :
  fs_wf f0 ->
  forallb name_ok dcs = true -> chain f0 (c_root c) dcs dr -> (length dcs < rfuel)%nat ->
  forallb name_ok scs = true -> chain f0 (c_root c) scs sr -> (length scs < rfuel)%nat ->
  (scs = dcs \/ ~ inside_dir f0 dr sr) ->
  has_nul src = false -> (forall l, matches = Some l -> forallb (fun m => negb (has_nul m)) l = true) ->
  copy_top fuel c o osl (render scs) src (render dcs) dst matches (cst_init f0) = (s', res) ->
  forall a ns d, chain (s_fs s') a ns d -> d < f_next f0 -> chain f0 a ns d.
Proof.
  intros W Hdn Hdc Hdl Hsn Hsc Hsl Hsd Hnul Hm H a ns d Hch Hold.
  pose proof (copy_top_ctx fuel c o osl scs src dcs dst matches f0 dr sr s' res W Hdn Hdc Hdl Hsn Hsc Hsl Hsd Hnul Hm H) as C'.
  apply (chain_old f0 dr (s_fs s') a ns d (cx_inv _ _ _ _ _ C') Hch Hold).
Qed.

Lemma root_path_sep_render c f m : Forall nm m -> root_path c f (render m) [sep] = inl (render m).
Proof.
  intros H. remember (render m) as r eqn:Er. unfold root_path, root_path_fuel. cbn. subst r.
  rewrite join2_render_sep by auto. reflexivity.
Qed.

Lemma copy_root_path_name c f scs y sf : Forall nm scs -> nm y ->
  copy_root_path c f (render scs) y false = inl sf -> sf = render (scs ++ [y]).
Proof.
  intros Hs Hy H. unfold copy_root_path in H.
  assert (E : join2 [sep] y = render [y]) by (apply (join2_names [] y); auto).
  rewrite E in H.
  assert (Hne : bytes_eqb (render [y]) [sep] = false).
  { apply bytes_eqb_neq. unfold render. simpl. intros Q. injection Q as Q. apply (nm_nonempty _ Hy). exact Q. }
  rewrite Hne in H.
  pose proof (split_path_render [] y (Forall_cons y Hy (Forall_nil _))) as Esp. simpl app in Esp. rewrite Esp in H.
  rewrite root_path_sep_render in H by auto. injection H as <-.
  apply join2_names; auto.
Qed.

(* Overlapping roots, a case that closes: dstRoot may lie below srcRoot; the source argument is a
   single name y that names a directory st of srcRoot, disjoint from dstRoot; no wildcards, no
   FollowLinks.  Then the walk stays in the static tree below st. *)
Theorem copy_reads_inside_overlap_partial_proof fuel c o osl scs y dcs dst f0 dr sr st s' res :
  fs_wf f0 ->
  forallb name_ok dcs = true -> chain f0 (c_root c) dcs dr -> (length dcs < rfuel)%nat ->
  forallb name_ok scs = true -> chain f0 (c_root c) scs sr -> (length scs + 1 < rfuel)%nat ->
  ~ inside_dir f0 dr sr ->
  name_ok y = true -> blookup y (dents f0 sr) = Some st -> is_dir f0 st = true ->
  ~ inside_dir f0 dr st -> ~ inside_dir f0 st dr ->
  o_follow o = false ->
  copy_top fuel c o osl (render scs) y (render dcs) dst None (cst_init f0) = (s', res) ->
  forall i, In i (s_reads s') -> src_reach f0 st i.
Proof.
  intros W Hdn Hdc Hdl Hsn Hsc Hsl Dsr Hyn Hby Hdt D1 D2 Hfo H.
  pose proof (wf_ctx c f0 dr dcs W Hdn Hdc Hdl) as C.
  assert (Hsl0 : (length scs < rfuel)%nat) by lia.
  pose proof (fun f Cf => src_root_dir c f0 dr dcs scs sr f (wf_alloc f0 W) Cf Hsn Hsc Hsl0 (or_intror Dsr)) as Hsr.
  apply forallb_name_ok in Hsn. destruct Hsn as [Hs1 Hs2].
  destruct (name_ok_nm y Hyn) as [Hy1 Hy2].
  assert (Ht1 : Forall nm (scs ++ [y])) by (apply Forall_app; split; auto).
  assert (Ht2 : Forall nonul (scs ++ [y])) by (apply Forall_app; split; auto).
  assert (Htc : chain f0 (c_root c) (scs ++ [y]) st) by (eapply chain_snoc; eauto).
  assert (Htl : (length (scs ++ [y]) < rfuel)%nat) by (rewrite app_length; simpl; lia).
  assert (Hnul : has_nul y = false) by exact Hy2.
  assert (Rk0 : rok (Rc f0 st) (cst_init f0)) by (intros i Hi; destruct Hi).
  destruct (copy_top_spec_r c f0 dr dcs (render scs) Hsr (Rc f0 st) (SPc f0 (scs ++ [y]) st) (SPNc f0 (scs ++ [y]) st)
              (src_reads_ok c f0 dr dcs (scs ++ [y]) st W Ht1 Ht2 Htc Htl D1 D2) (fun src0 follow => src0 = y /\ follow = false)
              (fun f src0 follow sf Cf Hp E =>
                 match Hp with conj Es Ef =>
                   eq_ind_r (fun q => SPc f0 (scs ++ [y]) st q)
                     (src_root_SP f0 (scs ++ [y]) st)
                     (copy_root_path_name c f scs y sf Hs1 Hy1
                        (eq_ind src0 (fun a => copy_root_path c f (render scs) a false = inl sf)
                           (eq_ind follow (fun b => copy_root_path c f (render scs) src0 b = inl sf) E false Ef) y Es))
                 end)
              fuel o osl y dst None (cst_init f0) s' res C (lok_init c f0 dr dcs) eq_refl Hnul
              (fun l El => ltac:(discriminate El)) (fun _ => conj eq_refl Hfo)
              (fun l El => ltac:(discriminate El)) Rk0 H) as (_ & Rk).
  exact Rk.
Qed.
