(* Safety over all reachable states of the goroutine LTS: the invariants of LtsInv.v plus those
   on the writers give no_false_success; single receiver, payload ownership, fault_reaches_peer.
   A step is described once by case analysis, and the rest argues from the descriptions: what it
   does to the writers (writers_step), to the stream buffers (bufs_step), and whose program
   counter it moves (pc_frame). *)
From Coq Require Import List Arith Bool PeanoNat Lia.
From FS Require Import Model.Lts Proofs.LtsInv.
Import ListNotations.

Lemma nth_error_set_nth_inv : forall A (l : list A) j j' x y z,
  nth_error l j = Some y -> nth_error (set_nth j x l) j' = Some z -> z = x \/ nth_error l j' = Some z.
Proof.
  intros A l j j' x y z E H. rewrite (nth_error_set_nth _ _ _ j' x _ E) in H.
  destruct (j =? j'); [left; congruence | right; exact H].
Qed.

Lemma nth_error_snoc_inv : forall A (l : list A) x j z,
  nth_error (l ++ [x]) j = Some z -> z = x \/ nth_error l j = Some z.
Proof.
  intros A l x j z H. rewrite nth_error_snoc in H.
  destruct (j <? length l); auto. destruct (j =? length l); [left; congruence | discriminate].
Qed.

Lemma memb_cons : forall x y l, memb x (y :: l) = Nat.eqb x y || memb x l.
Proof. reflexivity. Qed.

(* What one step does to the writers: none moves (the receive loop may complete a file), or
   writer j moves from pc to pc', or the diff loop starts a writer for an entry whose content
   it needs.  Every invariant over the writers is preserved by a look at these three cases. *)
Definition wr_next (st st' : state) (id : nat) (pc pc' : wrpc) : Prop :=
  match pc' with
  | WR_Start => False
  | WR_Lock => pc = WR_Start /\ reqs st' = reqs st
  | WR_Send => pc = WR_Lock /\ reqs st' = reqs st
  | WR_Wait => pc = WR_Send /\ reqs st' = id :: reqs st
  | WR_Notify => pc = WR_Wait /\ reqs st' = reqs st /\ memb id (completed st) = true
  | WR_Done => reqs st' = reqs st /\ (eg_err st' = true \/ pc = WR_Notify)
  end.

Lemma writers_step : forall p st l st', step p st l = Some st' ->
  (wrs st' = wrs st /\ reqs st' = reqs st /\ eg_err st' = eg_err st /\
   (completed st' = completed st \/ exists id, completed st' = id :: completed st)) \/
  (exists j id pc pc', nth_error (wrs st) j = Some {| wr_id := id; wr_pc := pc |} /\
     wrs st' = set_nth j {| wr_id := id; wr_pc := pc' |} (wrs st) /\ completed st' = completed st /\
     (eg_err st = true -> eg_err st' = true) /\ wr_next st st' id pc pc') \/
  (exists i, dl_pc st = DL_Handle i /\ kind_of p i = ENeed /\
     wrs st' = wrs st ++ [{| wr_id := i; wr_pc := WR_Start |}] /\ reqs st' = reqs st /\
     eg_err st' = eg_err st /\ completed st' = completed st /\ dl_pc st' = DL_Next /\ dl_i st' = dl_i st).
Proof.
  intros p st l st' H.
  step_cases H l;
  repeat match goal with w : writer |- _ => destruct w; cbn in * |- end; subst.
  all: try (left; cbn; eauto 6; fail).
  all: try (right; left; do 4 eexists; split; [eassumption|]; cbn; repeat split; auto; fail).
  right; right. eexists. cbn. repeat split; auto.
Qed.

Lemma sets_grow : forall p st l st', step p st l = Some st' ->
  (eg_err st = true -> eg_err st' = true) /\
  (forall id, memb id (completed st) = true -> memb id (completed st') = true) /\
  (forall id, memb id (reqs st) = true -> memb id (reqs st') = true).
Proof.
  intros p st l st' H.
  destruct (writers_step _ _ _ _ H) as
    [(_ & R & G & C)|[(j & id & pc & pc' & _ & _ & C & G & X)|(i & _ & _ & _ & R & G & C & _)]].
  - rewrite R, G. repeat split; auto. destruct C as [C|[x C]]; rewrite C; auto.
    intros y M. rewrite memb_cons, M. apply orb_true_r.
  - rewrite C. repeat split; auto. intros y M.
    destruct pc'; cbn in X; try contradiction; decompose [and] X; clear X;
    match goal with R : reqs st' = _ |- _ => rewrite R end; auto.
    rewrite memb_cons, M. apply orb_true_r.
  - rewrite R, G, C. auto.
Qed.

(* A property of each writer that survives the growth of the sets, a move of the writer and
   the start of a new writer holds of all writers after the step. *)
Lemma forall_writers_step : forall (P : state -> writer -> Prop) p st l st',
  step p st l = Some st' ->
  (forall w, P st w -> P st' w) ->
  (forall id pc pc', P st {| wr_id := id; wr_pc := pc |} -> wr_next st st' id pc pc' ->
     P st' {| wr_id := id; wr_pc := pc' |}) ->
  (forall i, dl_pc st = DL_Handle i -> kind_of p i = ENeed -> P st' {| wr_id := i; wr_pc := WR_Start |}) ->
  (forall j w, nth_error (wrs st) j = Some w -> P st w) ->
  forall j w, nth_error (wrs st') j = Some w -> P st' w.
Proof.
  intros P p st l st' H Grow Move New I j w Hn.
  destruct (writers_step _ _ _ _ H) as
    [(E & _)|[(j0 & id & pc & pc' & N & E & _ & _ & X)|(i & D & K & E & _)]]; rewrite E in Hn.
  - eauto.
  - destruct (nth_error_set_nth_inv _ _ _ _ _ _ _ N Hn) as [->|Hn']; eauto.
  - destruct (nth_error_snoc_inv _ _ _ _ _ Hn) as [->|Hn']; eauto.
Qed.

Definition wr_ok (st : state) (w : writer) : Prop :=
  match wr_pc w with
  | WR_Notify => memb (wr_id w) (completed st) = true
  | WR_Done => eg_err st = true \/ memb (wr_id w) (completed st) = true
  | _ => True
  end.
Definition inv4 (st : state) : Prop :=
  forall j w, nth_error (wrs st) j = Some w -> wr_ok st w.

Lemma inv4_step : forall p st l st', inv4 st -> step p st l = Some st' -> inv4 st'.
Proof.
  intros p st l st' I H. destruct (sets_grow _ _ _ _ H) as (G & C & _).
  unfold inv4. apply (forall_writers_step wr_ok _ _ _ _ H); auto.
  - intros w. unfold wr_ok. destruct (wr_pc w); intuition.
  - intros id pc pc'. unfold wr_ok. destruct pc'; cbn; intuition (subst; auto).
  - intros; exact Logic.I.
Qed.

Lemma inv4_init : forall p, inv4 (init p).
Proof. intros p j w H. destruct j; discriminate H. Qed.


Definition has_writer (l : list writer) (i : nat) : Prop :=
  exists j w, nth_error l j = Some w /\ wr_id w = i.
Lemma has_writer_snoc_old : forall l x i, has_writer l i -> has_writer (l ++ [x]) i.
Proof.
  intros l x i (j & w & A & B). exists j, w. split; auto.
  rewrite nth_error_app1; auto. eapply nth_error_some_lt; eauto.
Qed.
Lemma has_writer_snoc_new : forall l x, has_writer (l ++ [x]) (wr_id x).
Proof.
  intros. exists (length l), x. split; auto. rewrite nth_error_app2 by lia.
  rewrite Nat.sub_diag. reflexivity.
Qed.
Lemma has_writer_set_nth : forall l j w0 x i,
  nth_error l j = Some w0 -> wr_id x = wr_id w0 -> has_writer l i -> has_writer (set_nth j x l) i.
Proof.
  intros l j w0 x i E Hid (j' & w & A & B).
  destruct (Nat.eqb_spec j j').
  - subst j'. exists j, x. split. apply nth_error_set_nth_eq. eapply nth_error_some_lt; eauto. congruence.
  - exists j', w. split; auto. rewrite nth_error_set_nth_neq; auto.
Qed.

Lemma has_writer_step : forall p st l st' id,
  step p st l = Some st' -> has_writer (wrs st) id -> has_writer (wrs st') id.
Proof.
  intros p st l st' id H W.
  destruct (writers_step _ _ _ _ H) as [(E & _)|[(j & i & pc & pc' & N & E & _)|(i & _ & _ & E & _)]];
    rewrite E; auto.
  - eapply has_writer_set_nth; eauto.
  - apply has_writer_snoc_old; auto.
Qed.

Definition inv5 (p : params) (st : state) : Prop :=
  d_err st = false -> forall i, i < dl_i st -> kind_of p i = ENeed ->
  dl_pc st = DL_Handle i \/ has_writer (wrs st) i.

Lemma inv5_step : forall p st l st', inv5 p st -> step p st l = Some st' -> inv5 p st'.
Proof.
  intros p st l st' I H. unfold inv5 in *.
  assert (M: forall id, has_writer (wrs st) id -> has_writer (wrs st') id)
    by (intros; eapply has_writer_step; eauto).
  step_cases H l; try exact I; cbn in M |- *; intros Hd ii Hi Hk; try discriminate Hd.
  all: try (destruct (I Hd ii Hi Hk) as [X|X]; [left; congruence | right; apply M; exact X]; fail).
  - destruct (Nat.eq_dec ii (dl_i st)); [left; congruence|].
    destruct (I Hd ii) as [X|X]; [lia | exact Hk | discriminate X | right; exact X].
  - right. destruct (I Hd ii Hi Hk) as [X|X].
    + injection X as <-. apply (has_writer_snoc_new (wrs st) {| wr_id := i; wr_pc := WR_Start |}).
    + apply M, X.
  - congruence.
  - destruct (I eq_refl ii Hi Hk); [discriminate | right; auto].
Qed.

Lemma inv5_init : forall p, inv5 p (init p).
Proof. intros p _ i H. cbn in H. lia. Qed.

Definition inv6 (st : state) : Prop :=
  sw_pc st = SW_Done -> s_err st = true \/ g_end_sr st = true.
Lemma inv6_step : forall p st l st', inv6 st -> step p st l = Some st' -> inv6 st'.
Proof.
  intros p st l st' I H. unfold inv6 in *.
  step_cases H l; try exact I; cbn; auto; discriminate.
Qed.

Record inv (p : params) (st : state) : Prop := {
  i_mu : mutex_inv st; i_1 : inv1 st; i_2 : inv2 p st; i_3 : inv3 st; i_4 : inv4 st;
  i_5 : inv5 p st; i_6 : inv6 st }.

Lemma inv_reachable : forall p st, reachable p st -> inv p st.
Proof.
  induction 1.
  - constructor; [apply mutex_inv_init | apply inv1_init | apply inv2_init | apply inv3_init
                 | apply inv4_init | apply inv5_init | intro X; discriminate X].
  - destruct IHreachable. constructor.
    + destruct i_mu0. split; [eapply mutex_s_step | eapply mutex_r_step]; eauto.
    + eapply inv1_step; eauto.
    + eapply inv2_step; eauto.
    + eapply inv3_step; eauto.
    + eapply inv4_step; eauto.
    + eapply inv5_step; eauto.
    + eapply inv6_step; eauto.
Qed.

Definition recv_ok_spec (p : params) (st : state) : Prop :=
  g_got_end_r st = true /\
  (forall i, i < nentries p -> kind_of p i = ENeed -> memb i (completed st) = true) /\
  (dl_pc st = DL_Done /\ d_err st = false /\ dl_i st = nentries p) /\
  g_fin_rs st = true.
Definition send_ok_spec (st : state) : Prop :=
  g_got_fin_s st = true /\ g_fin_sr st = true /\ g_end_sr st = true.

Lemma no_false_success_proof : forall p st, reachable p st ->
  (recv_ret st = Some true -> recv_ok_spec p st) /\
  (send_ret st = Some true -> send_ok_spec st).
Proof.
  intros p st R. destruct (inv_reachable _ _ R) as [_ J1 J2 J3 J4 J5 J6].
  unfold inv1 in J1. destruct J1 as (A1 & A2 & A3 & A4 & A5 & A6 & A7 & A8 & A9 & A10 & A11).
  split.
  - intro Rk.
    assert (Re: r_err st = false) by auto.
    destruct A10 as [Dd Rd]; [congruence|].
    rewrite Rd in A9. destruct A9 as [X|Gf]; [congruence|].
    assert (Frs: g_fin_rs st = true) by auto.
    unfold inv3, wok in J3. destruct J3 as (B1 & B2 & B3 & B4 & B5 & B6 & B7 & B8).
    destruct (B4 Frs) as (_ & De & Ee & Wd).
    rewrite Dd in B1. destruct B1 as [Fd Ld].
    rewrite Fd in B5, B8. destruct (B5 De) as [Wc Wn].
    destruct (B7 Ld De) as [_ Cn].
    unfold inv2 in J2. destruct J2 as (_ & _ & _ & _ & C5 & _ & C7 & _ & _).
    assert (Ge: g_got_end_r st = true) by auto.
    destruct (C5 Ge) as (_ & _ & Ri).
    specialize (B8 Re De I). unfold rl_holds, fl_holds in B8. rewrite Rd, Fd, Wn, Cn in B8. cbn in B8.
    assert (Di: dl_i st = nentries p) by lia.
    unfold recv_ok_spec. repeat split; auto.
    intros i Hi Hk. unfold inv5 in J5. rewrite <- Di in Hi.
    destruct (J5 De i Hi Hk) as [X|(j & w & Hn & Hid)]; [congruence|].
    pose proof (J4 _ _ Hn) as Wk. pose proof (forallb_nth _ _ _ _ _ Wd Hn) as Wdn.
    unfold wr_ok in Wk. unfold wr_done in Wdn. destruct (wr_pc w); try discriminate.
    subst i. destruct Wk; [congruence | auto].
  - intro Sk. assert (Se: s_err st = false) by auto.
    destruct A1 as (Sw & Rq & _); [congruence|].
    rewrite Rq in A3. destruct A3 as [X|[G1 G2]]; [congruence|].
    unfold send_ok_spec. repeat split; auto.
    destruct (J6 Sw); [congruence | auto].
Qed.

Lemma app_length_lt : forall A (l : list A) x, length (l ++ [x]) < length l -> False.
Proof. intros. rewrite app_length in H. cbn in H. lia. Qed.

(* A stream buffer is left alone, appended to, or popped by its one receiver. *)
Lemma bufs_step : forall p st l st', step p st l = Some st' ->
  (buf_rs st' = buf_rs st \/ (exists pk, buf_rs st' = buf_rs st ++ [pk]) \/
   (l = LReq /\ rq_pc st = RQ_Recv /\ exists pk, buf_rs st = pk :: buf_rs st')) /\
  (buf_sr st' = buf_sr st \/ (exists pk, buf_sr st' = buf_sr st ++ [pk]) \/
   (l = LRecvLoop /\ (rl_pc st = RL_Recv \/ rl_pc st = RL_Drain) /\ exists pk, buf_sr st = pk :: buf_sr st')).
Proof.
  intros p st l st' H. step_cases H l; try (split; left; reflexivity); cbn; split; auto; eauto 7.
Qed.

Lemma pc_frame : forall p st l st', step p st l = Some st' ->
  (l <> LSWalk -> l <> LSWalkErr -> sw_pc st' = sw_pc st) /\
  (l <> LRecvLoop -> l <> LRecvLoopClosed -> rl_pc st' = rl_pc st /\ written st' = written st) /\
  (l <> LDiffOuter -> do_pc st' = do_pc st) /\
  (d_err st = true -> d_err st' = true).
Proof.
  intros p st l st' H. step_cases H l; repeat split; intros; try reflexivity; try assumption; congruence.
Qed.

Lemma single_recv_proof : forall p st l st', step p st l = Some st' ->
  (buf_rs st' <> buf_rs st -> (exists pk, buf_rs st' = buf_rs st ++ [pk]) \/
                              (l = LReq /\ rq_pc st = RQ_Recv /\ exists pk, buf_rs st = pk :: buf_rs st')) /\
  (buf_sr st' <> buf_sr st -> (exists pk, buf_sr st' = buf_sr st ++ [pk]) \/
                              (l = LRecvLoop /\ (rl_pc st = RL_Recv \/ rl_pc st = RL_Drain) /\
                               exists pk, buf_sr st = pk :: buf_sr st')).
Proof.
  intros p st l st' H. destruct (bufs_step _ _ _ _ H) as [[A|A] [B|B]]; split; intro X; congruence || assumption.
Qed.

Lemma payload_consumed_proof : forall p st id,
  rl_pc st = RL_Write id ->
  (* the only move of the receive loop is the write to the pipe ... *)
  (forall st', step p st LRecvLoop = Some st' ->
     written st' = id :: written st /\ rl_pc st' = RL_Recv /\ buf_sr st' = buf_sr st) /\
  step p st LRecvLoopClosed = None /\
  (* ... and no other label moves the receive loop or consumes from its stream *)
  (forall l st', step p st l = Some st' -> l <> LRecvLoop ->
     rl_pc st' = RL_Write id /\ written st' = written st /\
     (buf_sr st' = buf_sr st \/ exists pk, buf_sr st' = buf_sr st ++ [pk])).
Proof.
  intros p st id Hpc.
  assert (C: step p st LRecvLoopClosed = None) by (cbn; unfold step_recvloop_closed; rewrite Hpc; reflexivity).
  split; [|split; [exact C|]].
  - intros st' H. cbn in H. unfold step_recvloop in H. rewrite Hpc in H. inv_some. subst. auto.
  - intros l st' H NL.
    destruct (pc_frame _ _ _ _ H) as (_ & F & _). destruct F as [F1 F2]; auto; [congruence|].
    rewrite F1, F2. repeat split; auto.
    destruct (bufs_step _ _ _ _ H) as (_ & [B|[B|(B & _)]]); auto. contradiction.
Qed.

Lemma run_reachable : forall p ls st st', reachable p st -> run p st ls = Some st' -> reachable p st'.
Proof.
  induction ls; intros st st' R H; cbn in H.
  - injection H as H. subst. auto.
  - destruct (step p st a) eqn:E; try discriminate. eapply IHls; [|eauto]. econstructor; eauto.
Qed.

(* sender: the walker is on its way to SendMsg(ERR) *)
Definition err_path_s (st : state) : Prop := sw_pc st = SW_Lock KErr \/ sw_pc st = SW_Send KErr.
(* receiver: the first goroutine of receiver.run is on its way to SendMsg(ERR) *)
Definition err_path_r (st : state) : Prop :=
  (do_pc st = DO_WaitDiff /\ d_err st = true) \/ do_pc st = DO_LockErr \/ do_pc st = DO_SendErr.

Lemma fault_reaches_peer_sender : forall p st,
  (* a walk error (or the walker seeing its context cancelled, or a failed SendMsg(STAT)) puts
     the walker on the error path ... *)
  (forall st', step p st LSWalkErr = Some st' -> err_path_s st') /\
  (sw_pc st = SW_Next -> sw_i st < nentries p -> s_cancel st = true -> forall st', step p st LSWalk = Some st' -> err_path_s st') /\
  (forall k, sw_pc st = SW_Send k -> s_broken st = true -> forall st', step p st LSWalk = Some st' ->
     err_path_s st' \/ k = KErr) /\
  (* ... on which its only move is LSWalk, no other label changes its pc, and the move is either
     taking the mutex or completing SendMsg(ERR): the ERR packet is appended to the stream
     unless this endpoint has failed. *)
  (err_path_s st ->
     step p st LSWalkErr = None /\
     (forall l st', step p st l = Some st' -> l <> LSWalk -> sw_pc st' = sw_pc st) /\
     (forall st', step p st LSWalk = Some st' ->
        (sw_pc st = SW_Lock KErr /\ sw_pc st' = SW_Send KErr /\ buf_sr st' = buf_sr st) \/
        (sw_pc st = SW_Send KErr /\ sw_pc st' = SW_Done /\
         (s_broken st = false -> buf_sr st' = buf_sr st ++ [PErr])))).
Proof.
  intros p st. split; [|split; [|split]].
  - intros st' H. unfold_steps H; step_split H; inv_some; subst; left; reflexivity.
  - intros A Lt B st' H. unfold_steps H. apply Nat.ltb_lt in Lt. rewrite A, Lt, B in H. inv_some. subst. left. reflexivity.
  - intros k A B st' H. unfold_steps H. rewrite A, B in H. cbn in H. destruct k; inv_some; subst; cbn;
    [left; left; reflexivity | left; left; reflexivity | right; reflexivity].
  - intros E.
    assert (N: step p st LSWalkErr = None) by (destruct E as [E|E]; unfold step, step_walker_err; rewrite E; reflexivity).
    split; [exact N|split].
    + intros l st' S NL. apply (pc_frame _ _ _ _ S); congruence.
    + intros st' S. destruct E as [E|E]; unfold_steps S; rewrite E in S; step_split S; inv_some; subst; cbn.
      * left. auto.
      * right. repeat split; auto. intro; discriminate.
      * right. repeat split; auto.
Qed.

Lemma fault_reaches_peer_receiver : forall p st, reachable p st ->
  (* an error inside HandleChange (callback / syscall) ends the diff loop with an error while the
     parent goroutine is still waiting for doubleWalkDiff ... *)
  (forall st', step p st LDiffCbErr = Some st' -> err_path_r st') /\
  (* ... from there every move of that goroutine stays on the error path or completes
     SendMsg(ERR); no other label takes it off the path. *)
  (err_path_r st ->
     (forall l st', step p st l = Some st' -> l <> LDiffOuter -> err_path_r st') /\
     (forall st', step p st LDiffOuter = Some st' ->
        err_path_r st' \/
        (do_pc st = DO_SendErr /\ do_pc st' = DO_Done /\
         (r_broken st = false -> buf_rs st' = buf_rs st ++ [PErr])))).
Proof.
  intros p st R. pose proof (inv_reachable _ _ R) as J. destruct J as [_ _ _ J3 _ _ _].
  destruct J3 as (B1 & _). repeat split.
  - intros st' H. unfold_steps H; step_split H; inv_some; subst; unfold err_path_r; cbn;
    destruct (do_pc st) eqn:D; try (destruct B1 as [_ B1]; congruence); left; auto.
  - intros l st' S NL. destruct (pc_frame _ _ _ _ S) as (_ & _ & D & E).
    unfold err_path_r in *. rewrite (D NL). intuition.
  - intros st' S. unfold err_path_r in *.
    destruct H as [[A B]|[A|A]]; unfold_steps S; rewrite A in S; step_split S; inv_some; subst; cbn; auto;
    try congruence.
    all: try (right; repeat split; auto; intro; discriminate).
Qed.

(* Bookkeeping for the liveness proofs: end marker, FIN in both directions, request loop after
   FIN, fill's close. *)
Definition linv (st : state) : Prop :=
  (* N1 *) (g_end_sr st = true -> has_end (buf_sr st) = true \/ g_got_end_r st = true \/ g_got_fin_r st = true) /\
  (* N2 *) (g_got_end_r st = true -> rl_pc st = RL_UpdEnd \/ walk_closed st = true \/ r_err st = true) /\
  (* N3 *) (do_pc st = DO_Done -> g_fin_rs st = true \/ r_err st = true \/ r_broken st = true) /\
  (* N4 *) (g_fin_rs st = true -> has_fin (buf_rs st) = true \/ g_got_fin_s st = true) /\
  (* N7 *) (match rq_pc st with RQ_LockFin | RQ_SendFin => g_fin_sr st = false | _ => True end) /\
  (* N8 *) (g_got_fin_s st = true -> match rq_pc st with RQ_Top | RQ_Recv | RQ_Push _ => False | _ => True end) /\
  (* N9 *) (match fl_pc st with FL_Ret _ | FL_Done => c2_closed st = true | _ => True end).

Lemma linv_step : forall p st l st', inv1 st -> linv st -> step p st l = Some st' -> linv st'.
Proof.
  intros p st l st' J1 (N1 & N2 & N3 & N4 & N7 & N8 & N9) H.
  destruct J1 as (_ & _ & _ & J4 & _ & _ & _ & _ & J9 & _).
  step_cases H l; unfold linv; frame; cbn; rw_eqs; auto; try discriminate;
    rewrite ?has_end_app, ?existsb_app; cbn; rewrite ?orb_false_r, ?orb_true_r; auto.
  (* N2 where the receive loop moves on: it was not at RL_UpdEnd unless this step closes walkChan *)
  all: try (intro X; destruct (N2 X) as [Y|Y]; [discriminate Y | auto]).
  (* FIN is sent to the receiver only after the receiver's FIN was taken: N8 at RQ_LockFin *)
  destruct (g_fin_sr st) eqn:G; auto. exfalso. apply N8. apply J4. reflexivity.
Qed.

Lemma linv_init : forall p, linv (init p).
Proof. intro p. unfold linv; cbn. repeat split; intros; try discriminate; auto. Qed.

Lemma linv_reachable : forall p st, reachable p st -> linv st.
Proof.
  induction 1. apply linv_init. eapply linv_step; eauto. apply (inv_reachable _ _ H).
Qed.
