(* The model component evaluated by the correspondence of kind 0906 (Glue.C09G.nested_judge) IS
   Model.Walk.walk_nested, encoded, and that of Glue.C09G.subdir_judge IS walk_subdirs: the theorems
   about them speak about exactly what is compared with the real (nested) SubDirFS. *)
From Coq Require Import List NArith Bool.
From FS Require Import Sx Model.Path Model.Stat Model.Walk Glue.C09G.
Import ListNotations.
Open Scope N_scope.
Open Scope bool_scope.

Definition enc_walk_result (o : option (list (bytes * stat) * bool)) : sx :=
  match o with
  | None => SL [SL []; SN 2]
  | Some (out, e) => SL [SL (map enc_cb out); SN (if e then 1 else 0)]
  end.

Lemma cut_sep_before_after s : cut_sep s = (before_sep s, after_sep s).
Proof.
  induction s as [|a r IH]; cbn [cut_sep before_sep after_sep]; [reflexivity|].
  destruct (N.eqb a sep); [reflexivity|]. rewrite IH. reflexivity.
Qed.

Theorem nested_judge_model_proof ost zs target cbs err :
  fst (nested_judge ost zs target cbs err) = enc_walk_result (walk_nested ost (map fst zs) target).
Proof.
  unfold nested_judge, walk_nested. cbn [fst]. rewrite cut_sep_before_after.
  destruct (negb (bytes_eqb (base (st_path ost)) (st_path ost))); [reflexivity|].
  destruct (walk_subdirs (map fst zs) []); [|reflexivity].
  rewrite negb_orb.
  destruct (negb (bytes_eqb (before_sep target) []) && negb (bytes_eqb (before_sep target) (st_path ost))); [reflexivity|].
  destruct (negb (st_is_dir ost)); [reflexivity|].
  destruct (walk_subdirs (map fst zs) (after_sep target)) as [[out e]|]; reflexivity.
Qed.

Theorem subdir_judge_model_proof zs target cbs err :
  fst (subdir_judge zs target cbs err) = enc_walk_result (walk_subdirs (map fst zs) target).
Proof.
  unfold subdir_judge, subdir_model. cbn [fst].
  destruct (walk_subdirs (map fst zs) target) as [[out e]|]; reflexivity.
Qed.
