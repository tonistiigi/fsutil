(* C01 — sync convergence of the level-A receiver model: the destination map left by
   receive_abs (Model/AbsDest.v), seen through [view_of], satisfies the convergence relation
   [approx] of Model/Converge.v with respect to the source listing; and a counterexample showing
   that the hypothesis identity_faithful cannot be dropped.
   Identity keys, bytes and in-place entries come from receive_fresh_proof (C02/C05); the exact
   stat of re-created entries and the hard-link partition (inode classes) from the invariants
   [ino_lt], [nonlink_inj] of ApplyInoP. *)
From Coq Require Import List NArith Lia Bool Sorting.Sorted.
From FS Require Import Sx Model.Path Model.Stat Model.Diff Model.AbsDest Model.Converge Model.ConvergeA
  Proofs.Lex Proofs.PathP Proofs.DiffP Proofs.DiffSpecP Proofs.AbsDestP Proofs.ReceiveP Proofs.ApplyInoP Proofs.OracleP.
Import ListNotations.
Open Scope N_scope.
Open Scope bool_scope.

Notation idf := (fun s : stat => s).

Lemma find_obs_view_of p D : find_obs p (view_of D) = option_map (obs_of_dentry p) (alookup p D).
Proof.
  induction D as [|[k v] D IH]; [reflexivity|].
  simpl view_of. simpl find_obs. rewrite alookup_cons, bytes_eqb_sym.
  destruct (bytes_eqb k p) eqn:E.
  - apply bytes_eqb_eq in E. subst. reflexivity.
  - exact IH.
Qed.

Lemma efind_find_entry p (A : list AbsDest.entry) : efind p A = find_entry p A.
Proof.
  unfold efind. induction A as [|e A IH]; [reflexivity|]. simpl. rewrite bytes_eqb_sym.
  destruct (bytes_eqb p (st_path (fst e))); auto.
Qed.

Lemma find_entry_sorted (E : list AbsDest.entry) s c :
  sorted (map fst E) -> In (s, c) E -> find_entry (st_path s) E = Some (s, c).
Proof. intros HS He. rewrite <- efind_find_entry. apply (efind_in_sorted E (s, c) HS He). Qed.

Lemma same_file_hardlink d a b : same_file d a b = true -> is_hardlink a = is_hardlink b.
Proof.
  intros Hs. destruct (same_file_fields _ _ _ Hs) as (_ & Em & _ & _ & _ & _ & El & _).
  unfold is_hardlink, is_node, st_is_dir. rewrite Em, El. reflexivity.
Qed.

(* Converge.is_linkable (type neither S_IFDIR nor S_IFLNK) implies AbsDest.is_node *)
Lemma conv_linkable_node s : Converge.is_linkable s = true -> is_node s = true.
Proof.
  unfold Converge.is_linkable, is_node, st_is_dir, mode_is_dir, mode_is_symlink, unix_type_of_gomode.
  destruct (has_bits (st_mode s) ModeDir); [discriminate|].
  destruct (has_bits (st_mode s) ModeSymlink); [discriminate|]. reflexivity.
Qed.

Lemma nolink_not_hardlink s : st_linkname s = [] -> is_hardlink s = false.
Proof. intros E. unfold is_hardlink. rewrite E. simpl. apply andb_false_r. Qed.

(* Converge.is_reg (st_mode type S_IFREG) is the narrower notion *)
Lemma conv_reg_abs_reg s : Converge.is_reg s = true -> AbsDest.is_reg s = true.
Proof.
  unfold Converge.is_reg. rewrite N.eqb_eq. intros H. apply unix_type_reg in H.
  destruct H as (H1 & H2 & H3 & H4).
  unfold AbsDest.is_reg, st_is_dir, mode_is_dir, is_special, mode_is_symlink. rewrite H1, H2, H3, H4. reflexivity.
Qed.

Lemma reg_link_hardlink s : Converge.is_reg s = true -> st_linkname s <> [] -> is_hardlink s = true.
Proof.
  intros Hr Hl. unfold is_hardlink. rewrite (is_reg_is_node _ (conv_reg_abs_reg _ Hr)).
  destruct (st_linkname s); [congruence|reflexivity].
Qed.

Lemma links_canon_ok B : links_canon B -> AbsDest.links_ok B.
Proof.
  intros H sb bb Hin Hl. destruct (H sb bb Hin Hl) as (st & bt & H1 & H2 & H3 & H4 & _ & Hm & H5).
  exists st, bt. repeat split; auto. intros Hr. rewrite (is_reg_mode_eq st sb); auto. apply Hm.
Qed.

(* discharges hypothesis AbsDest.links_meta of receive_fresh_proof (C02/C05) *)
Lemma links_canon_meta B : sorted (map fst B) -> links_canon B -> AbsDest.links_meta B.
Proof.
  intros HS H sb bb st bt Hin Hl Ht Ep.
  destruct (H sb bb Hin Hl) as (st' & bt' & H1 & H2 & _ & _ & _ & Hm & _).
  assert (st' = st).
  { apply (sorted_unique (map fst B)); auto; [apply (in_map fst _ _ H1)|apply (in_map fst _ _ Ht)|congruence]. }
  subst st'. exact Hm.
Qed.

Lemma link_meta_eqb_iff t s : link_meta_eqb t s = true <-> link_meta_eq t s.
Proof. unfold link_meta_eqb, link_meta_eq. rewrite !andb_true_iff, !N.eqb_eq, xattrs_eqb_eq. tauto. Qed.

Lemma links_canon_b_sound B : links_canon_b B = true -> links_canon B.
Proof.
  unfold links_canon_b, links_canon. rewrite forallb_forall. intros H sb bb Hin Hl.
  specialize (H _ Hin). simpl in H. rewrite Hl in H. simpl in H.
  apply existsb_exists in H. destruct H as ([st bt] & Ht & Hc). simpl in Hc.
  rewrite !andb_true_iff in Hc. destruct Hc as [[[[[H1 H2] H3] H4] H5] H6].
  apply bytes_eqb_eq in H1, H6. apply path_ltb_iff in H2. apply link_meta_eqb_iff in H5.
  exists st, bt. repeat split; auto; try apply H5. destruct (st_linkname st); [reflexivity|discriminate].
Qed.

Lemma wf_entries_b_sound E : wf_entries_b E = true -> wf_entries E.
Proof.
  unfold wf_entries_b, wf_entries. rewrite andb_true_iff. intros [H1 H2]. split.
  - apply listing_ok_b_iff; auto.
  - apply links_canon_b_sound; auto.
Qed.

Lemma dest_from_nonlink_ge : forall A i seen p e,
  alookup p (dest_from A i seen) = Some e -> is_hardlink (de_stat e) = false -> i <= de_ino e.
Proof.
  induction A as [|[st bs] A IH]; intros i seen p e He Hn; [discriminate|].
  simpl dest_from in He. rewrite alookup_cons in He. destruct (bytes_eqb (st_path st) p).
  - inversion He; subst. simpl in *. rewrite Hn. lia.
  - specialize (IH _ _ _ _ He Hn). lia.
Qed.

Lemma dest_from_nonlink_inj : forall A i seen, nonlink_inj (dest_from A i seen).
Proof.
  induction A as [|[st bs] A IH]; intros i seen p q e1 e2 Hpq H1 H2 L1 L2; [discriminate|].
  simpl dest_from in H1, H2. rewrite alookup_cons in H1, H2.
  destruct (bytes_eqb (st_path st) p) eqn:Ep, (bytes_eqb (st_path st) q) eqn:Eq.
  - apply bytes_eqb_eq in Ep, Eq. congruence.
  - inversion H1; subst. simpl in *. rewrite L1. pose proof (dest_from_nonlink_ge _ _ _ _ _ H2 L2). lia.
  - inversion H2; subst. simpl in *. rewrite L2. pose proof (dest_from_nonlink_ge _ _ _ _ _ H1 L1). lia.
  - eapply IH; eauto.
Qed.

Lemma dest_of_ino_lt A : ino_lt (dest_of A) (N.of_nat (length A)).
Proof. intros p e. apply dest_of_ino_bound. Qed.

(* a link entry after its target: the class recorded for the target is found in [seen] *)
Lemma dest_from_link_seen : forall A i (seen : amap N) sb bb j,
  In (sb, bb) A -> is_hardlink sb = true -> alookup (st_linkname sb) seen = Some j ->
  NoDup (map (fun e => st_path (fst e)) A) ->
  (forall e, In e A -> st_path (fst e) <> st_linkname sb) ->
  exists e, alookup (st_path sb) (dest_from A i seen) = Some e /\ de_ino e = j.
Proof.
  induction A as [|[st bs] A IH]; intros i seen sb bb j Hin Hl Hs Hnd Hno; [destruct Hin|].
  simpl in Hnd. inversion Hnd as [|? ? Hni Hnd']; subst.
  simpl dest_from. rewrite alookup_cons. destruct Hin as [E|Hin].
  - inversion E; subst. rewrite bytes_eqb_refl, Hl, Hs. eexists. split; [reflexivity|reflexivity].
  - assert (Hne : st_path st <> st_path sb).
    { intros E. apply Hni. rewrite E. apply (in_map (fun e => st_path (fst e)) _ _ Hin). }
    apply bytes_eqb_neq in Hne. rewrite Hne.
    apply (IH (i + 1) _ sb bb j); auto.
    + rewrite alookup_cons.
      assert (Hne2 : st_path st <> st_linkname sb) by (apply (Hno (st, bs)); left; auto).
      apply bytes_eqb_neq in Hne2. rewrite Hne2. exact Hs.
    + intros e He. apply Hno. right; auto.
Qed.

Lemma dest_from_link : forall A1 A2 i seen st bt sb bb,
  NoDup (map (fun e => st_path (fst e)) (A1 ++ (st, bt) :: A2)) ->
  is_hardlink st = false -> In (sb, bb) A2 -> is_hardlink sb = true -> st_linkname sb = st_path st ->
  exists t e, alookup (st_path st) (dest_from (A1 ++ (st, bt) :: A2) i seen) = Some t /\
              alookup (st_path sb) (dest_from (A1 ++ (st, bt) :: A2) i seen) = Some e /\
              de_ino e = de_ino t.
Proof.
  induction A1 as [|[s0 b0] A1 IH]; intros A2 i seen st bt sb bb Hnd Hn Hin Hl El.
  - simpl app. simpl dest_from. rewrite Hn. simpl in Hnd. inversion Hnd as [|? ? Hni Hnd']; subst.
    rewrite !alookup_cons, bytes_eqb_refl.
    assert (Hne : st_path st <> st_path sb).
    { intros E. apply Hni. rewrite E. apply (in_map (fun e => st_path (fst e)) _ _ Hin). }
    apply bytes_eqb_neq in Hne. rewrite Hne.
    destruct (dest_from_link_seen A2 (i + 1) ((st_path st, i) :: seen) sb bb i Hin Hl) as (e & He & Ei); auto.
    + rewrite El, alookup_cons, bytes_eqb_refl. reflexivity.
    + intros e He E. apply Hni. rewrite El in E. rewrite <- E. apply (in_map (fun e => st_path (fst e)) _ _ He).
    + eexists. exists e. split; [reflexivity|]. split; auto.
  - simpl app in *. simpl dest_from. simpl in Hnd. inversion Hnd as [|? ? Hni Hnd']; subst.
    rewrite !alookup_cons.
    assert (H1 : st_path s0 <> st_path st).
    { intros E. apply Hni. rewrite E. apply (in_map (fun e => st_path (fst e)) _ (st, bt)). apply in_or_app. right; left; auto. }
    assert (H2 : st_path s0 <> st_path sb).
    { intros E. apply Hni. rewrite E. apply (in_map (fun e => st_path (fst e)) _ (sb, bb)). apply in_or_app. right; right; auto. }
    apply bytes_eqb_neq in H1, H2. rewrite H1, H2. apply (IH A2 _ _ st bt sb bb); auto.
Qed.

Lemma sorted_nodup_paths (E : list AbsDest.entry) :
  sorted (map fst E) -> NoDup (map (fun e => st_path (fst e)) E).
Proof.
  induction E as [|e E IH]; simpl; intros HS; [constructor|].
  apply sorted_inv in HS. destruct HS as [HS Hlt]. constructor; auto.
  intros Hin. apply in_map_iff in Hin. destruct Hin as (e' & Ep & He').
  specialize (Hlt (fst e') (in_map fst _ _ He')). unfold plt in Hlt.
  rewrite Ep, compare_path_refl in Hlt. discriminate.
Qed.

Lemma sorted_split_after (E : list AbsDest.entry) x y :
  sorted (map fst E) -> In x E -> In y E -> compare_path (st_path (fst x)) (st_path (fst y)) = Lt ->
  exists E1 E2, E = E1 ++ x :: E2 /\ In y E2.
Proof.
  intros HS Hx Hy Hlt. apply in_split in Hx. destruct Hx as (E1 & E2 & ->). exists E1, E2. split; auto.
  apply in_app_or in Hy. destruct Hy as [Hy|[<-|Hy]]; auto; exfalso.
  - rewrite map_app in HS. simpl in HS. apply sorted_app_inv in HS. destruct HS as (_ & _ & H12).
    specialize (H12 (fst y) (fst x) (in_map fst _ _ Hy) (or_introl eq_refl)). unfold plt in H12.
    eapply compare_path_asym; eauto.
  - rewrite compare_path_refl in Hlt. discriminate.
Qed.

Lemma dest_of_link A sb bb st bt :
  sorted (map fst A) -> In (sb, bb) A -> In (st, bt) A -> is_hardlink sb = true ->
  st_linkname sb = st_path st -> st_linkname st = [] -> compare_path (st_path st) (st_path sb) = Lt ->
  exists t e, alookup (st_path st) (dest_of A) = Some t /\ alookup (st_path sb) (dest_of A) = Some e /\
              de_ino e = de_ino t.
Proof.
  intros HS Hb Ht Hl El En Hlt.
  destruct (sorted_split_after A (st, bt) (sb, bb) HS Ht Hb Hlt) as (A1 & A2 & -> & Hin).
  apply dest_from_link with (bb := bb) (bt := bt); auto.
  - apply sorted_nodup_paths; auto.
  - apply nolink_not_hardlink; auto.
Qed.

Lemma dest_from_keys : forall A i seen, map fst (dest_from A i seen) = map (fun e => st_path (fst e)) A.
Proof. induction A as [|[st bs] A IH]; intros i seen; simpl; [reflexivity|]. rewrite IH. reflexivity. Qed.

Lemma dest_of_nodup_keys A : sorted (map fst A) -> nodup_keys (dest_of A).
Proof. intros HS. unfold nodup_keys, dest_of. rewrite dest_from_keys. apply sorted_nodup_paths; auto. Qed.

Lemma run_nonlink_inj src cs A R nR dn e :
  apply_all src cs (dest_of A) (N.of_nat (length A)) = (R, nR, dn, e) -> nonlink_inj R.
Proof. intros E. apply (apply_all_inv _ _ _ _ _ _ _ _ E (dest_of_ino_lt A) (dest_from_nonlink_inj A 0 [])). Qed.

(* The hard-link partition, from two facts about the map: every name of an inode shows the class
   of the first name of its group, whose entry is no link; entries that are no links have classes
   of their own. *)
Lemma partition_of_reps B R :
  nonlink_inj R ->
  (forall s c x, In (s, c) B -> is_node s = true -> alookup (st_path s) R = Some x ->
     exists t, alookup (group_rep s) R = Some t /\ de_ino t = de_ino x /\ is_hardlink (de_stat t) = false) ->
  link_partition B (view_of R).
Proof.
  intros Hinj Hrep [s1 c1] [s2 c2] d1 d2 H1 H2 R1 R2 F1 F2. simpl fst in *.
  rewrite find_obs_view_of in F1, F2.
  destruct (alookup (st_path s1) R) as [x1|] eqn:X1; [|discriminate].
  destruct (alookup (st_path s2) R) as [x2|] eqn:X2; [|discriminate].
  simpl in F1, F2. inversion F1; inversion F2; subst d1 d2. simpl o_ino.
  destruct (Hrep s1 c1 x1 H1 (conv_linkable_node _ R1) X1) as (t1 & T1 & I1 & L1).
  destruct (Hrep s2 c2 x2 H2 (conv_linkable_node _ R2) X2) as (t2 & T2 & I2 & L2).
  rewrite <- I1, <- I2. split.
  - intros Ei. destruct (list_eq_dec N.eq_dec (group_rep s1) (group_rep s2)) as [E|E]; auto.
    exfalso. apply (Hinj _ _ _ _ E T1 T2 L1 L2 Ei).
  - intros E. rewrite E, T2 in T1. inversion T1; subst. reflexivity.
Qed.

Section Fresh.
Variable H : bytes -> bytes.
Variable hdr : stat -> bytes.
Variable d : differ.
Variables A B : list AbsDest.entry.
Notation LA := (map fst A).
Notation LB := (map fst B).
Hypothesis HwA : wf_listing LA.
Hypothesis HwB : wf_listing LB.
Hypothesis HlA : links_canon A.
Hypothesis HlB : links_canon B.
Hypothesis Hfaith : AbsDest.identity_faithful d A B.

Let r := receive_abs H hdr Fresh d A B.
Let R := ds_map r.
Let n0 := N.of_nat (length A).

Lemma fresh_recv :
  ds_err r = false /\ ds_changes r = diff idf d LA LB /\
  (forall p, view_equiv (alookup p R) (efind p B)) /\
  (forall p, unchanged d A B p -> alookup p R = alookup p (dest_of A)).
Proof.
  destruct (receive_fresh_proof H hdr d A B HwA HwB (links_canon_ok _ HlB) Hfaith
              (links_canon_meta _ (proj1 HwB) HlB)) as (H1 & H2 & H3 & H4 & _).
  auto.
Qed.

Lemma fresh_run :
  exists nR, apply_all (src_of B) (diff idf d LA LB) (dest_of A) n0 = (R, nR, diff idf d LA LB, false).
Proof.
  destruct (apply_all (src_of B) (diff idf d LA LB) (dest_of A) n0) as [[[D n] dn] e] eqn:E.
  pose proof (receive_abs_unfold H hdr d A B Fresh D n dn e E) as Hu. cbv zeta in Hu.
  destruct fresh_recv as (He & Hc & _). unfold R, r in *. rewrite Hu in *. simpl in He, Hc. subst e dn.
  exists n. reflexivity.
Qed.

Lemma fresh_nonlink_inj : nonlink_inj R.
Proof. destruct fresh_run as [nR E]. apply (run_nonlink_inj _ _ _ _ _ _ _ E). Qed.

Lemma fresh_cases b : In b LB ->
  (exists a, In a LA /\ st_path a = st_path b /\ same_file d a b = true) \/
  (exists k, k <> KDelete /\ In (k, st_path b, Some b) (diff idf d LA LB)).
Proof.
  intros Hb. destruct HwA as [HsA HcA], HwB as [HsB HcB].
  destruct (lookup (st_path b) LA) as [a|] eqn:El.
  - apply lookup_some in El. destruct El as [Ha Ea].
    destruct (same_file d a b) eqn:Es; [left; exists a; auto|].
    right. exists KModify. split; [discriminate|].
    apply diff_changes_exact_proof; auto. simpl. split; auto. split; auto. exists a. auto.
  - right. exists KAdd. split; [discriminate|].
    apply diff_changes_exact_proof; auto. simpl. split; auto. split; auto.
    exact (lookup_none _ _ El).
Qed.

Lemma B_entry s c : In (s, c) B -> efind (st_path s) B = Some (s, c).
Proof. intros Hin. apply (efind_in_sorted B (s, c) (proj1 HwB) Hin). Qed.

Lemma fresh_at s c : In (s, c) B ->
  exists x, alookup (st_path s) R = Some x /\ same_file DMetadata (de_stat x) s = true /\
            (AbsDest.is_reg s = true -> de_bytes x = c).
Proof.
  intros Hin. pose proof (proj1 (proj2 (proj2 fresh_recv)) (st_path s)) as Hv. rewrite (B_entry _ _ Hin) in Hv.
  destruct (alookup (st_path s) R) as [x|]; [|destruct Hv]. exists x. simpl in Hv. tauto.
Qed.

Lemma B_first s c : In (s, c) B -> is_hardlink s = true ->
  exists st bt, In (st, bt) B /\ st_path st = st_linkname s /\ st_linkname st = [] /\ link_meta_eq st s /\
                compare_path (st_linkname s) (st_path s) = Lt.
Proof.
  intros Hin Hh. destruct (HlB s c Hin Hh) as (st & bt & Hst & Ep & Hlt & _ & Ent & Hmeta & _).
  exists st, bt. rewrite <- Ep. auto.
Qed.

(* a re-created entry holds exactly the source's stat — except a hard link, which shows the
   metadata of the inode it joined (AbsDest.link_stat) under its own path *)
Lemma fresh_changed k b c : In (b, c) B -> k <> KDelete -> In (k, st_path b, Some b) (diff idf d LA LB) ->
  exists e, alookup (st_path b) R = Some e /\ (is_hardlink b = false -> de_stat e = b) /\
    (is_hardlink b = true ->
       exists t, alookup (st_linkname b) R = Some t /\ de_ino e = de_ino t /\
                 de_stat e = link_stat (de_stat t) b).
Proof.
  intros Hb Hk Hin. destruct fresh_run as [nR E]. destruct HwA as [HsA HcA], HwB as [HsB HcB].
  destruct (changed_final _ _ _ _ _ _ _ _ _ _ (diff_sorted_proof idf d LA LB HsA HsB HcB (fun s => eq_refl)) E Hin Hk)
    as (e & He & Es & Hl & _).
  exists e. split; auto. split; auto. intros Hh.
  destruct (B_first b c Hb Hh) as (_ & _ & _ & _ & _ & _ & Hlt).
  destruct (Hl Hh Hlt) as (t & Ht & _ & Ei & _ & Est). eauto.
Qed.

(* not created: an entry with the same identity key, hence of the same type, is listed at the path *)
Lemma not_created_if_same_file a s : In a LA -> st_path a = st_path s -> same_file d a s = true ->
  created_by_transfer A s = false.
Proof.
  intros Ha Ea Es. apply in_map_iff in Ha. destruct Ha as ([a' ba] & E1 & Ha). simpl in E1. subst a'.
  unfold created_by_transfer. rewrite <- Ea, (find_entry_sorted A a ba (proj1 HwA) Ha). simpl.
  unfold same_type. rewrite (same_file_mode _ _ _ Es), N.eqb_refl. reflexivity.
Qed.

(* created_by_transfer: absent from the prior listing, or of another type there *)
Lemma fresh_created_change s c : In (s, c) B -> created_by_transfer A s = true ->
  exists k, k <> KDelete /\ In (k, st_path s, Some s) (diff idf d LA LB).
Proof.
  intros Hin Hc. destruct (fresh_cases s (in_map fst _ _ Hin)) as [(a & Ha & Ea & Es)|Hd]; [|exact Hd].
  rewrite (not_created_if_same_file a s Ha Ea Es) in Hc. discriminate.
Qed.

Lemma fresh_created s c : In (s, c) B -> created_by_transfer A s = true -> is_hardlink s = false ->
  exists e, alookup (st_path s) R = Some e /\ de_stat e = s.
Proof.
  intros Hin Hc Hn. destruct (fresh_created_change s c Hin Hc) as (k & Hk & Hd).
  destruct (fresh_changed k s c Hin Hk Hd) as (e & He & Es & _). eauto.
Qed.

(* when the inode of a regular entry is created, so is the first name of its group: an entry
   that is no link and carries the metadata of every name of the group *)
Lemma created_first s c : In (s, c) B -> Converge.is_reg s = true -> inode_created A B s = true ->
  exists sr cr, In (sr, cr) B /\ st_path sr = group_rep s /\ st_linkname sr = [] /\
                created_by_transfer A sr = true /\ link_meta_eq sr s.
Proof.
  intros Hin Hr Hic. unfold inode_created in Hic. rewrite Hr in Hic.
  apply andb_true_iff in Hic. destruct Hic as [Hc1 Hc2]. unfold group_rep.
  destruct (st_linkname s) as [|l0 l] eqn:El.
  - exists s, c. repeat split; auto.
  - assert (Hh : is_hardlink s = true) by (apply reg_link_hardlink; [auto|congruence]).
    destruct (B_first s c Hin Hh) as (st & bt & Hst & Ep & Ent & Hmeta & _).
    rewrite El in Ep. rewrite <- Ep, (find_entry_sorted B _ _ (proj1 HwB) Hst) in Hc2.
    exists st, bt. auto.
Qed.

(* a hard link whose whole inode the transfer created also shows the source's stat: the first
   name of its group was re-created with it, and the link carries the same metadata *)
Lemma fresh_created_inode s c : In (s, c) B -> inode_created A B s = true ->
  Converge.is_reg s = true \/ is_hardlink s = false ->
  exists e, alookup (st_path s) R = Some e /\ de_stat e = s.
Proof.
  intros Hin Hic Hty. assert (Hc1 : created_by_transfer A s = true).
  { unfold inode_created in Hic. apply andb_true_iff in Hic. tauto. }
  destruct (is_hardlink s) eqn:Hh; [|apply (fresh_created s c); auto].
  destruct Hty as [Hr|?]; [|discriminate].
  destruct (created_first s c Hin Hr Hic) as (sr & cr & Hsr & Ep & Ent & Hcr & Hmeta).
  destruct (fresh_created sr cr Hsr Hcr (nolink_not_hardlink _ Ent)) as (et & Het & Est).
  destruct (fresh_created_change s c Hin Hc1) as (k & Hk & Hd).
  destruct (fresh_changed k s c Hin Hk Hd) as (e & He & _ & Hl).
  destruct (Hl Hh) as (t & Ht & _ & Es).
  unfold group_rep in Ep. destruct (is_hardlink_node _ Hh) as [_ Hln].
  destruct (st_linkname s) eqn:El; [congruence|]. rewrite <- Ep, Het in Ht. inversion Ht; subst t.
  exists e. split; auto. rewrite Es, Est. apply link_stat_honest. exact Hmeta.
Qed.

Lemma fresh_entry_ok s c : In (s, c) B ->
  exists dd, find_obs (st_path s) (view_of R) = Some dd /\ entry_ok (inode_created A B s) s c dd.
Proof.
  intros Hin. destruct (fresh_at s c Hin) as (x & Hx & Hs & Hb).
  exists (obs_of_dentry (st_path s) x). rewrite find_obs_view_of, Hx. split; [reflexivity|].
  destruct (same_file_fields _ _ _ Hs) as (_ & Em & Eu & Eg & Ema & Emi & El & Hnd).
  assert (Hcr : inode_created A B s = true -> Converge.is_reg s = true \/ is_hardlink s = false -> de_stat x = s).
  { intros Hcr Hty. destruct (fresh_created_inode s c Hin Hcr Hty) as (e & He & Es). rewrite Hx in He. inversion He; subst. auto. }
  assert (Hdir : unix_type_of_gomode (st_mode s) = S_IFDIR -> is_hardlink s = false).
  { intros Hty. apply unix_type_dir in Hty. unfold is_hardlink, is_node, st_is_dir. rewrite Hty. reflexivity. }
  unfold entry_ok, obs_of_dentry. cbv zeta. simpl.
  rewrite Em. split; [reflexivity|]. split; [reflexivity|]. split; [reflexivity|].
  split; [auto|]. split; [auto|].
  split.
  { intros Hn. apply Hnd. unfold st_is_dir. rewrite Em.
    destruct (mode_is_dir (st_mode s)) eqn:Ed; auto. exfalso. apply Hn. apply unix_type_dir; auto. }
  split; [intros Hty Hcr'; rewrite (Hcr Hcr'); auto|].
  split.
  { intros Hr. apply Hb. apply conv_reg_abs_reg. unfold Converge.is_reg. rewrite Hr. apply N.eqb_refl. }
  split; [auto|]. split; [auto|].
  intros Hcr' Hty. rewrite (Hcr Hcr'); [reflexivity|]. destruct Hty as [Hty|Hty]; [left|auto].
  unfold Converge.is_reg. rewrite Hty. reflexivity.
Qed.

(* a link entry that is unchanged has an unchanged target: the old listing holds a canonical link
   pair at the same two paths with the same identity keys *)
Lemma unchanged_link_target s a ba st :
  is_hardlink s = true -> In (a, ba) A -> same_file d a s = true ->
  st_path st = st_linkname s -> st_linkname st = [] -> link_meta_eq st s ->
  exists at_ bat, In (at_, bat) A /\ st_path at_ = st_path st /\ same_file d at_ st = true /\
                  is_hardlink a = true /\ st_linkname a = st_path at_ /\ st_linkname at_ = [] /\
                  compare_path (st_path at_) (st_path a) = Lt.
Proof.
  intros Hh Ha Es Ep Ent Hmeta.
  destruct (same_file_fields _ _ _ Es) as (Ed & Em & Eu & Eg & Ema & Emi & Eln & Hnd).
  assert (Hha : is_hardlink a = true) by (rewrite (same_file_hardlink _ _ _ Es); auto).
  destruct (HlA a ba Ha Hha) as (at_ & bat & Hat & Epa & Hlta & Hrta & Enta & Hma & _).
  destruct Hmeta as (M1 & M2 & M3 & M4 & M5 & M6 & M7 & _).
  destruct Hma as (N1 & N2 & N3 & N4 & N5 & N6 & N7 & _).
  assert (Hda : st_is_dir a = false) by (apply is_node_not_dir; apply is_hardlink_node; auto).
  destruct (Hnd Hda) as [Esz Emt].
  exists at_, bat. split; auto. split; [congruence|]. split; [|auto].
  rewrite Ed. apply same_file_iff. repeat split; congruence.
Qed.

Lemma fresh_rep s c x : In (s, c) B -> is_node s = true -> alookup (st_path s) R = Some x ->
  exists t, alookup (group_rep s) R = Some t /\ de_ino t = de_ino x /\ is_hardlink (de_stat t) = false.
Proof.
  intros Hin Hreg Hx.
  assert (Hnl : forall s' c' x', In (s', c') B -> st_linkname s' = [] -> alookup (st_path s') R = Some x' ->
                  is_hardlink (de_stat x') = false).
  { intros s' c' x' Hin' En Hx'. destruct (fresh_at s' c' Hin') as (y & Hy & Hs & _).
    rewrite Hx' in Hy. inversion Hy; subst y.
    rewrite (same_file_hardlink _ _ _ Hs). apply nolink_not_hardlink, En. }
  unfold group_rep. destruct (st_linkname s) as [|l0 l] eqn:El; [exists x; eauto|]. rewrite <- El.
  assert (Hh : is_hardlink s = true) by (unfold is_hardlink; rewrite Hreg, El; reflexivity).
  destruct (B_first s c Hin Hh) as (st & bt & Ht & Ep & Ent & Hmeta & _).
  destruct (fresh_at st bt Ht) as (t & Hxt & _). rewrite <- Ep.
  exists t. split; auto. split; [|eapply Hnl; eauto].
  destruct (fresh_cases s (in_map fst _ _ Hin)) as [(a & Ha & Ea & Es)|(k & Hk & Hd)].
  + (* the link entry is unchanged: so is its target, and the old map has them in one class *)
    apply in_map_iff in Ha. destruct Ha as ([a' ba] & E1 & Ha). simpl in E1. subst a'.
    destruct (unchanged_link_target s a ba st Hh Ha Es Ep Ent Hmeta)
      as (at_ & bat & Hat & Epa & Hsame & Hha & Ela & Enta & Hlta).
    assert (Hun : unchanged d A B (st_path st)).
    { exists at_, st. split; [apply (in_map fst _ _ Hat)|]. split; [apply (in_map fst _ _ Ht)|]. auto. }
    assert (Hus : unchanged d A B (st_path s)).
    { exists a, s. split; [apply (in_map fst _ _ Ha)|]. split; [apply (in_map fst _ _ Hin)|]. auto. }
    destruct fresh_recv as (_ & _ & _ & Hu). rewrite (Hu _ Hun) in Hxt. rewrite (Hu _ Hus) in Hx.
    destruct (dest_of_link A a ba at_ bat (proj1 HwA) Ha Hat Hha Ela Enta Hlta) as (t' & e' & Ht' & He' & Ei).
    rewrite Epa, Hxt in Ht'. rewrite Ea, Hx in He'. inversion Ht'; inversion He'; subst. auto.
  + destruct (fresh_changed k s c Hin Hk Hd) as (e & He & _ & Hl).
    rewrite Hx in He. inversion He; subst e.
    destruct (Hl Hh) as (t' & Ht' & Ei & _). rewrite <- Ep, Hxt in Ht'. inversion Ht'; subst. auto.
Qed.

Lemma fresh_partition : link_partition B (view_of R).
Proof. exact (partition_of_reps B R fresh_nonlink_inj fresh_rep). Qed.

Lemma fresh_nodup_keys : nodup_keys R.
Proof.
  destruct fresh_run as [nR E]. eapply apply_all_nodup_keys; [exact E|].
  apply dest_of_nodup_keys, HwA.
Qed.

(* metadata per inode: when the inode shown at a regular entry was created by this transfer, EVERY
   name of that inode class in the final map carries the metadata of that entry's stat *)
Lemma fresh_group_meta s c x : In (s, c) B -> Converge.is_reg s = true -> inode_created A B s = true ->
  alookup (st_path s) R = Some x ->
  forall q v, In (q, v) R -> de_ino v = de_ino x -> link_meta_eq (de_stat v) s.
Proof.
  intros Hin Hcreg Hic Hx q v Hqv Hino.
  pose proof (nodup_keys_lookup R q v fresh_nodup_keys Hqv) as Hq.
  (* the first name of the group of s: created, with the source's stat, in the class of x *)
  destruct (created_first s c Hin Hcreg Hic) as (sr & cr & Hsr & EP & Entr & Hcr & Hmr).
  destruct (fresh_rep s c x Hin (is_reg_is_node _ (conv_reg_abs_reg _ Hcreg)) Hx) as (er & Her & Hir & Hnr).
  rewrite <- EP in Her.
  destruct (fresh_created sr cr Hsr Hcr (nolink_not_hardlink _ Entr)) as (e' & He' & Esr).
  rewrite Her in He'. inversion He'; subst e'.
  destruct (list_eq_dec N.eq_dec q (st_path sr)) as [->|Nq].
  { rewrite Her in Hq. inversion Hq; subst v. rewrite Esr. exact Hmr. }
  (* another name of that inode: no link would have a class of its own, so it is a link entry *)
  destruct (is_hardlink (de_stat v)) eqn:Hhv.
  2:{ exfalso. apply (fresh_nonlink_inj q (st_path sr) v er Nq Hq Her Hhv Hnr). congruence. }
  pose proof (proj1 (proj2 (proj2 fresh_recv)) q) as Hv. rewrite Hq in Hv.
  destruct (efind q B) as [[sq cq]|] eqn:Efq; [|destruct Hv]. destruct Hv as [Hsf _].
  apply efind_some in Efq. destruct Efq as [Hsq Epq]. simpl in Epq. subst q.
  assert (Hhq : is_hardlink sq = true) by (rewrite <- (same_file_hardlink _ _ _ Hsf); auto).
  destruct (is_hardlink_node _ Hhq) as [Hrq Hlnq].
  (* ... of the group of sr, by the classes again *)
  destruct (fresh_rep sq cq v Hsq Hrq Hq) as (tq & Htq & Hitq & Hntq).
  assert (Egr : st_linkname sq = st_path sr).
  { replace (st_linkname sq) with (group_rep sq) by (unfold group_rep; destruct (st_linkname sq); congruence).
    destruct (list_eq_dec N.eq_dec (group_rep sq) (st_path sr)) as [E|E]; auto. exfalso.
    apply (fresh_nonlink_inj _ _ tq er E Htq Her Hntq Hnr). congruence. }
  destruct (B_first sq cq Hsq Hhq) as (st' & bt' & Hst' & Ep' & Ent' & Hmeta' & _).
  assert (st' = sr).
  { apply (sorted_unique LB); [apply HwB|apply (in_map fst _ _ Hst')|apply (in_map fst _ _ Hsr)|congruence]. }
  subst st'.
  destruct (fresh_cases sq (in_map fst _ _ Hsq)) as [(a & Ha & Ea & Es)|(k & Hk & Hd)].
  - (* unchanged: then its target sr would be unchanged too, not created *)
    exfalso. apply in_map_iff in Ha. destruct Ha as ([a' ba] & E1 & Ha). simpl in E1. subst a'.
    destruct (unchanged_link_target sq a ba sr Hhq Ha Es Ep' Ent' Hmeta')
      as (at_ & bat & Hat & Epa & Hsame & _).
    rewrite (not_created_if_same_file at_ sr (in_map fst _ _ Hat) Epa Hsame) in Hcr. discriminate.
  - destruct (fresh_changed k sq cq Hsq Hk Hd) as (e & He & _ & Hle). rewrite Hq in He. inversion He; subst e.
    destruct (Hle Hhq) as (t & Ht & _ & Ese). rewrite Egr, Her in Ht. inversion Ht; subst t.
    rewrite Ese, Esr, (link_stat_honest _ _ Hmeta').
    apply (ino_meta_eq_trans sq sr s); [apply ino_meta_eq_sym, Hmeta'|exact Hmr].
Qed.

Lemma fresh_group_xattrs s c x : In (s, c) B -> Converge.is_reg s = true -> inode_created A B s = true ->
  alookup (st_path s) R = Some x ->
  forall q v, In (q, v) R -> de_ino v = de_ino x -> st_xattrs (de_stat v) = st_xattrs s.
Proof. intros Hin Hr Hic Hx q v Hqv Hino. apply (fresh_group_meta s c x Hin Hr Hic Hx q v Hqv Hino). Qed.

End Fresh.

(* Fresh / dirty mode: the transfer does not fail and leaves a destination ≈ the source view *)
Theorem diff_apply_converges_proof (H : bytes -> bytes) (hdr : stat -> bytes) d A B :
  wf_entries A -> wf_entries B -> AbsDest.identity_faithful d A B ->
  let r := receive_abs H hdr Fresh d A B in
  ds_err r = false /\ approx A B (view_of (ds_map r)).
Proof.
  intros [HwA HlA] [HwB HlB] Hf. cbv zeta.
  destruct (fresh_recv H hdr d A B HwA HwB HlB Hf) as (He & _ & Hv & _).
  split; [exact He|]. split; [|split].
  - intros p. rewrite find_obs_view_of. specialize (Hv p). split.
    + intros [dd Hd]. destruct (alookup p _) as [x|]; [|discriminate].
      destruct (efind p B) as [e|] eqn:Ee; [|destruct Hv]. apply efind_some in Ee. exists e. exact Ee.
    + intros (e & He' & Ep). pose proof (efind_in_sorted B e (proj1 HwB) He') as Ef. rewrite Ep in Ef.
      rewrite Ef in Hv. destruct (alookup p _) as [x|]; [|destruct Hv]. simpl. eauto.
  - intros s c Hin. apply fresh_entry_ok; auto.
  - apply fresh_partition; auto.
Qed.

(* a sufficient condition for identity_faithful, meant for the leftovers of an aborted run (crash
   states of the writer are not modelled): a file of the old destination that does not hold the
   source's bytes differs from the source's entry in size, mtime or mode (a partially written
   file carries the time of its last write) *)
Lemma faithful_from_stamps d A B :
  (forall sa ba sb bb, In (sa, ba) A -> In (sb, bb) B -> st_path sa = st_path sb -> AbsDest.is_reg sb = true ->
     ba = bb \/ st_size sa <> st_size sb \/ st_mtime sa <> st_mtime sb \/ st_mode sa <> st_mode sb) ->
  AbsDest.identity_faithful d A B.
Proof.
  intros Hs sa ba sb bb Ha Hb Ep Hsf Hr.
  destruct (same_file_fields _ _ _ Hsf) as (_ & Em & _ & _ & _ & _ & _ & Hnd).
  assert (Hda : st_is_dir sa = false).
  { unfold st_is_dir. rewrite Em. apply is_reg_not_dir in Hr. exact Hr. }
  destruct (Hnd Hda) as [Esz Emt].
  destruct (Hs sa ba sb bb Ha Hb Ep Hr) as [E|[E|[E|E]]]; auto; contradiction.
Qed.

Definition mkst (p : bytes) (mode uid gid size mtime : N) (ln : bytes) : stat :=
  {| st_path := p; st_mode := mode; st_uid := uid; st_gid := gid; st_size := size; st_mtime := mtime;
     st_linkname := ln; st_devmajor := 0; st_devminor := 0; st_xattrs := [] |}.
(* one regular file "f", same size, mtime, mode, owner on both sides — other bytes *)
Definition collide_A : list AbsDest.entry := [ (mkst [102] 420 0 0 3 5 [], [1; 1; 1]) ].
Definition collide_B : list AbsDest.entry := [ (mkst [102] 420 0 0 3 5 [], [2; 2; 2]) ].

Theorem unrestricted_convergence_refuted_proof :
  exists A B, wf_entries A /\ wf_entries B /\
    forall H hdr, let r := receive_abs H hdr Fresh DMetadata A B in
      ds_err r = false /\ ds_reqs r = [] /\ ~ approx A B (view_of (ds_map r)).
Proof.
  exists collide_A, collide_B.
  split; [apply wf_entries_b_sound; vm_compute; reflexivity|].
  split; [apply wf_entries_b_sound; vm_compute; reflexivity|].
  intros H hdr. cbv zeta. split; [vm_compute; reflexivity|]. split; [vm_compute; reflexivity|].
  intros Ha. apply oracle_iff_proof in Ha. vm_compute in Ha. discriminate.
Qed.
