(* C14 — the pieces of copier.copy (copy_rec) around the recursion keep the containment invariant:
   preparing the target, createParentDirs and the parentDirs stack, the reads of the source side,
   the loop over the children. *)
From Coq Require Import List NArith Lia Bool ZifyN ZifyNat ZifyBool.
From FS Require Import Sx Model.Path Model.Fs Model.RootPath Model.CopyFs Model.CopyFsSpec
  Proofs.Lex Proofs.PathP Proofs.FsP Proofs.RootPathStrP Proofs.FsCopyFrameP Proofs.FsCopyInvP
  Proofs.FsCopySafeP Proofs.FsCopyLinksP Proofs.FsCopySysP Proofs.CopyFsP Proofs.CopyFsNrP.
Import ListNotations.
Open Scope N_scope.
Open Scope bool_scope.

Section Rec.
  Variables (c : ctx) (f0 : fs) (dr : N) (dcs : list bytes).
  Notation Ctx := (Ctx c f0 dr dcs).
  Notation tpath := (tpath dcs).
  Notation SS := (SS f0 dr).
  Notation Tgt := (Tgt c f0 dr dcs).
  Notation names_ss := (names_ss f0 dr).
  Notation stays := (stays c f0 dr dcs).
  Notation stays_ok := (stays_ok c f0 dr dcs).
  Notation mstep := (mstep c f0 dr dcs).
  Notation lok := (lok f0 dr dcs).
  Notation made := (made f0 dr).
  Notation forgotten := CopyFsP.forgotten.
  Let b := f_next f0.

  Lemma mstep_stays_ok {A} d s s' (r : A + N) : mstep s s' -> stays_ok d s s' r.
  Proof. intros M. apply stays_stays_ok. apply mstep_stays. exact M. Qed.

  Lemma forget_path_inv l m : Forall nm l -> Forall nm m -> forget_path (render l) (render m) = true ->
    exists r, m = l ++ r.
  Proof.
    intros Hl Hm H. unfold forget_path in H. apply orb_true_iff in H. destruct H as [H|H].
    - apply bytes_eqb_eq in H. apply render_inj in H; auto. exists []. rewrite app_nil_r. auto.
    - apply has_prefix_app in H. destruct H as [rest E]. unfold render in E.
      assert (Ej : joinc m = joinc l ++ sep :: rest).
      { simpl in E. rewrite <- app_assoc in E. simpl in E. injection E as E. exact E. }
      destruct m as [|m0 m'].
      + exfalso. simpl in Ej. destruct (joinc l); discriminate.
      + assert (Ec : comps (joinc (m0 :: m')) = comps (joinc l ++ sep :: rest)) by (rewrite Ej; reflexivity).
        rewrite comps_app_sep_gen in Ec.
        rewrite comps_joinc in Ec by (try discriminate; apply Forall_nm_nosep; auto).
        destruct l as [|l0 l'].
        * exfalso. simpl in Ec. inversion Ec; subst. inversion Hm as [|? ? Hx _]; subst. apply (nm_nonempty _ Hx). reflexivity.
        * rewrite comps_joinc in Ec by (try discriminate; apply Forall_nm_nosep; auto).
          exists (comps rest). exact Ec.
  Qed.

  (* the parentDirs stack: the target paths not made yet; the paths of the directories pend below
     "<dstRoot>/cs"; the stack with every entry marked as made *)
  Definition uncopied (l : list (bytes * bytes * bool)) : list bytes :=
    map (fun e => snd (fst e)) (filter (fun e => negb (snd e)) l).
  Fixpoint pend_paths (cs pend : list bytes) : list bytes :=
    match pend with
    | [] => []
    | p :: r => render (dcs ++ cs ++ [p]) :: pend_paths (cs ++ [p]) r
    end.
  Definition allc (l : list (bytes * bytes * bool)) : list (bytes * bytes * bool) := map (fun e => (fst e, true)) l.

  Lemma uncopied_app l1 l2 : uncopied (l1 ++ l2) = uncopied l1 ++ uncopied l2.
  Proof. unfold uncopied. rewrite filter_app, map_app. reflexivity. Qed.
  Lemma uncopied_allc l : uncopied (allc l) = [].
  Proof. induction l as [|e l IH]; auto. Qed.
  Lemma allc_app l1 l2 : allc (l1 ++ l2) = allc l1 ++ allc l2.
  Proof. apply map_app. Qed.
  Lemma allc_idem l : allc (allc l) = allc l.
  Proof. unfold allc. rewrite map_map. reflexivity. Qed.
  Lemma removelast_allc l : removelast (allc l) = allc (removelast l).
  Proof. induction l as [|e l IH]; auto. simpl. destruct l; auto. simpl in *. rewrite IH. reflexivity. Qed.
  Lemma allc_id l : uncopied l = [] -> allc l = l.
  Proof.
    induction l as [|[[a b0] [|]] l IH]; intros H; auto.
    - simpl. rewrite IH; auto.
    - discriminate.
  Qed.
  Lemma pend_paths_app cs p1 p2 : pend_paths cs (p1 ++ p2) = pend_paths cs p1 ++ pend_paths (cs ++ p1) p2.
  Proof.
    revert cs. induction p1 as [|p p1 IH]; intros cs; simpl; [rewrite app_nil_r; auto|].
    rewrite IH. rewrite <- app_assoc. reflexivity.
  Qed.

  (* prep_rest: removeTargetIfNeeded + forgetLinkSources + ensureEmptyFileTarget *)
  Lemma prep_rest_spec s s' r cs d x o fi tfi : Tgt (s_fs s) cs d x ->
    (tfi = None -> forgotten s (tpath cs x)) ->
    prep_rest c o (tpath cs x) fi tfi s = (s', r) ->
    stays d s s' /\ (r = inl tt -> kind_is_dir fi = false -> absent (s_fs s') d x).
  Proof.
    intros T Hf H. unfold prep_rest in H. rewrite bind_run in H.
    assert (Hd : is_dir (s_fs s) d = true) by (eapply tgt_dir; eauto).
    destruct (remove_target_if_needed c o (tpath cs x) fi tfi s) as [s2 r2] eqn:E2.
    destruct (remove_target_spec c f0 dr dcs s s2 _ cs d x o fi tfi T E2) as (S2 & P2).
    destruct r2 as [[]|e]; [|injection H as <- <-; split; [exact S2|discriminate]].
    pose proof (tgt_stays c f0 dr dcs _ _ _ _ _ T S2) as T2.
    destruct (kind_is_dir fi); [injection H as <- <-; split; [exact S2|discriminate]|].
    rewrite bind_run in H.
    (* whatever stood at the target is forgotten before it is removed *)
    assert (G : exists s3, (match tfi with Some _ => forget_links (tpath cs x) | None => ret tt end) s2 = (s3, inl tt) /\
                           stays d s2 s3 /\ forgotten s3 (tpath cs x)).
    { destruct tfi as [ti|].
      - destruct (forget_links_spec c f0 dr dcs (tpath cs x) s2 d (tg_ctx _ _ _ _ _ _ _ _ T2)) as (G1 & G2 & _).
        rewrite forget_links_run in *. eauto.
      - exists s2. split; [reflexivity|]. split; [apply stays_refl; apply T2|auto]. }
    destruct G as (s3 & E3 & S3 & Hfg). rewrite E3 in H.
    destruct (ensure_empty_spec c f0 dr dcs s3 s' r cs d x (tgt_stays c f0 dr dcs _ _ _ _ _ T2 S3) Hfg H) as (S4 & _ & P4).
    split; [|auto]. eapply stays_trans; [exact Hd|exact S2|]. eapply stays_trans; [eapply tgt_dir; eauto|exact S3|exact S4].
  Qed.

  (* the target Lstat said "nothing there": no recorded hard-link path lies at or below the target *)
  Lemma tfi_none_forgotten s s1 L x : Ctx (s_fs s) -> lok s ->
    Forall nm L -> Forall nonul L -> nm x -> nonul x ->
    lstat_opt_nd c (render (dcs ++ L ++ [x])) s = (s1, inl None) -> forgotten s (render (dcs ++ L ++ [x])).
  Proof.
    intros C Lk HL HLn Hx Hxn H e He. destruct (forget_path (render (dcs ++ L ++ [x])) (snd e)) eqn:E; auto. exfalso.
    pose proof (cx_dcs _ _ _ _ _ C) as Hd.
    destruct (link_ok_tgt c f0 dr dcs _ _ C (Lk e He)) as (cs1 & x1 & d1 & i1 & Ep & T1 & Hb1 & Hi1 & (data & m & Hg1)).
    rewrite Ep in E. unfold FsCopySafeP.tpath in E.
    assert (Hm : Forall nm (dcs ++ cs1 ++ [x1])).
    { apply Forall_app; split; auto. apply Forall_app; split; [apply T1|constructor; [apply T1|constructor]]. }
    assert (Hl : Forall nm (dcs ++ L ++ [x])) by (apply Forall_app; split; auto; apply Forall_app; split; auto).
    destruct (forget_path_inv _ _ Hl Hm E) as (r & Er).
    rewrite <- !app_assoc in Er. apply app_inv_head in Er.
    (* the target names something that exists *)
    assert (Hex : exists dL i n, chain (s_fs s) dr L dL /\ blookup x (dents (s_fs s) dL) = Some i /\ get (s_fs s) i = Some n).
    { destruct r as [|r0 r' _] using rev_ind.
      - rewrite app_nil_r in Er. apply app_inj_tail in Er. destruct Er as [-> ->].
        exists d1, i1. eexists. split; [apply T1|]. split; eauto.
      - rewrite !app_assoc in Er. apply app_inj_tail in Er. destruct Er as [Ec _].
        pose proof (tg_chain _ _ _ _ _ _ _ _ T1) as Hc1. rewrite Ec in Hc1. rewrite <- app_assoc in Hc1.
        destruct (chain_split _ L dr ([x] ++ r') d1 Hc1) as (dL & P & Q).
        inversion Q as [|? ? i ? ? Bx Dx Rx]; subst.
        unfold is_dir, dir_of in Dx. destruct (get (s_fs s) i) as [n|] eqn:Eg; [|discriminate].
        exists dL, i, n. auto. }
    destruct Hex as (dL & i & n & HcL & Hb & Hg).
    assert (T : Tgt (s_fs s) L dL x) by (constructor; auto).
    rewrite (lstat_opt_nd_tgt c f0 dr dcs s L dL x T : lstat_opt_nd c (render (dcs ++ L ++ [x])) s = _) in H.
    destruct (lstat_opt_spec c f0 dr dcs s s1 _ L dL x T H) as (_ & _ & _ & Hab).
    eapply absent_not_some; eauto.
  Qed.

  Lemma stays_chain d s s' a p e q : stays d s s' -> chain (s_fs s) a p e -> chain (s_fs s) e q d -> chain (s_fs s') a p e.
  Proof. intros (_ & A & _) H1 H2. eapply A; eauto. Qed.

  Lemma pend_paths_nil cs pend : pend_paths cs pend = [] -> pend = [].
  Proof. destruct pend; [auto|discriminate]. Qed.

  Definition setp (s : cst) (l : list (bytes * bytes * bool)) : cst :=
    {| s_fs := s_fs s; s_links := s_links s; s_parents := l; s_reads := s_reads s |}.
  Lemma get_parents_run s : get_parents s = (s, inl (s_parents s)). Proof. reflexivity. Qed.
  Lemma set_parents_run l s : set_parents l s = (setp s l, inl tt). Proof. reflexivity. Qed.
  Lemma push_parent_run sp dp cp s : push_parent sp dp cp s = (setp s (s_parents s ++ [(sp, dp, cp)]), inl tt).
  Proof. reflexivity. Qed.
  Lemma pop_parent_run s : pop_parent s = (setp s (removelast (s_parents s)), inl tt).
  Proof. reflexivity. Qed.

  Lemma stays_ok_setp {A} d s l (r : A + N) : Ctx (s_fs s) -> stays_ok d s (setp s l) r.
  Proof. intros C. split; [exact C|]. split; [apply above_refl|]. split; [auto|apply keeps_new_refl]. Qed.

  (* The reads of the source side.
     R: the inodes a source read may name; SP: source paths; SPN: source paths that name something
     that is not a symlink (in every state): what Lstat, Stat / Open / the listing of such a path
     name, and that the entries of a listed directory are source paths again.  Proved for disjoint
     roots in CopyFsSrcP.v; trivial with R, SP, SPN := True (the lemmas without "_r" below). *)
  Record reads_ok (R : N -> Prop) (SP SPN : bytes -> Prop) : Prop := {
    ro_lstat : forall f p i, Ctx f -> SP p -> resolve_ino c f p false = inl i -> R i;
    ro_real : forall f p i n, Ctx f -> SP p -> resolve_ino c f p false = inl i -> get f i = Some n ->
      kind_is_link n = false -> SPN p;
    ro_stat : forall f p j, Ctx f -> SPN p -> resolve_ino c f p true = inl j -> R j;
    ro_child : forall f p j pp es n, Ctx f -> SPN p -> resolve_ino c f p true = inl j ->
      dir_of f j = Some (pp, es) -> In n (map fst es) -> SP (join2 p n);
    ro_sp : forall p, SPN p -> SP p
  }.

  Lemma reads_ok_any : reads_ok (fun _ => True) (fun _ => True) (fun _ => True).
  Proof. split; intros; exact I. Qed.

  Section Reads.
    Variable R : N -> Prop.
    Variables SP SPN : bytes -> Prop.
    Hypothesis HR : reads_ok R SP SPN.

    Definition rok (s : cst) : Prop := forall i, In i (s_reads s) -> R i.
    (* the source paths on the parentDirs stack name real directories *)
    Definition pok (l : list (bytes * bytes * bool)) : Prop := Forall (fun e => SPN (fst (fst e))) l.

    Lemma rok_same s s' : s_reads s' = s_reads s -> rok s -> rok s'.
    Proof. intros E H i Hi. rewrite E in Hi. auto. Qed.
    Lemma rok_cons s s' i : s_reads s' = i :: s_reads s -> R i -> rok s -> rok s'.
    Proof. intros E Hr H j Hj. rewrite E in Hj. destruct Hj as [<-|Hj]; auto. Qed.
    Lemma rok_nr {A} (m : M A) s s' r : NR m -> m s = (s', r) -> rok s -> rok s'.
    Proof. intros Hm E. apply rok_same. eapply Hm; eauto. Qed.

    (* what a piece of copier.copy run from s leaves: it stayed at or below d (the link map still
       sound if it succeeded), P holds of a result, and the reads are in R either way *)
    Definition cpost {A} (d : N) (s : cst) (P : A -> cst -> Prop) (s' : cst) (r : A + N) : Prop :=
      stays_ok d s s' r /\ (forall a, r = inl a -> P a s') /\ rok s'.

    Lemma cpost_stays {A} d s (P : A -> cst -> Prop) s' r :
      stays d s s' -> rok s' -> (forall a, r = inl a -> P a s') -> cpost d s P s' r.
    Proof. intros S Rk HP. split; [apply stays_stays_ok; exact S|auto]. Qed.

    Lemma cpost_below {A} d d1 q s (P : A -> cst -> Prop) s' r :
      chain (s_fs s) d q d1 -> cpost d1 s P s' r -> cpost d s P s' r.
    Proof. intros Hq (S & HP). split; [eapply stays_ok_below; eauto|exact HP]. Qed.

    (* the state before may differ in the stack and in the reads logged *)
    Lemma cpost_from {A} d s s1 (P : A -> cst -> Prop) s' r :
      s_fs s1 = s_fs s -> s_links s1 = s_links s -> cpost d s1 P s' r -> cpost d s P s' r.
    Proof. unfold cpost, CopyFsP.stays_ok, CopyFsP.lok. intros -> ->. auto. Qed.

    Lemma cpost_after {A} d s s1 (P : A -> cst -> Prop) s' r :
      is_dir (s_fs s) d = true -> stays d s s1 -> cpost d s1 P s' r -> cpost d s P s' r.
    Proof. intros Hd S (S' & HP). split; [eapply stays_ok_pre; eauto|exact HP]. Qed.

    Lemma cpost_weaken {A} d s (P Q : A -> cst -> Prop) s' r :
      (forall a, P a s' -> Q a s') -> cpost d s P s' r -> cpost d s Q s' r.
    Proof. intros HPQ (S & HP & Rk). split; [exact S|]. split; [intros a E; apply HPQ, HP, E|exact Rk]. Qed.

    Lemma tgt_stays_ok {A} s s' (r : A + N) cs d x : Tgt (s_fs s) cs d x -> stays_ok d s s' r -> Tgt (s_fs s') cs d x.
    Proof. intros T (C & A0 & _). eapply tgt_step; eauto. Qed.

    Lemma cpost_bind {A B} d s (m : M A) (k : A -> M B) (P : A -> cst -> Prop) (Q : B -> cst -> Prop) s' r :
      is_dir (s_fs s) d = true -> lok s -> bind m k s = (s', r) ->
      (forall s1 r1, m s = (s1, r1) -> cpost d s P s1 r1) ->
      (forall s1 a, stays_ok d s s1 (@inl A N a) -> lok s1 -> rok s1 -> P a s1 -> k a s1 = (s', r) -> cpost d s1 Q s' r) ->
      cpost d s Q s' r.
    Proof.
      intros Hd L H Hm Hk. rewrite bind_run in H.
      destruct (m s) as [s1 [a|e]] eqn:E; destruct (Hm _ _ eq_refl) as (S1 & P1 & Rk1).
      - assert (L1 : lok s1) by (apply S1; [exists a; reflexivity|exact L]).
        destruct (Hk s1 a S1 L1 Rk1 (P1 a eq_refl) H) as (S2 & P2).
        split; [eapply stays_ok_seq; eauto|exact P2].
      - injection H as <- <-. split; [eapply stays_ok_fail; eauto|]. split; [discriminate|exact Rk1].
    Qed.

    Lemma sys_lstat_ino f p i n : snd (sys_lstat c f p) = RStat i n -> resolve_ino c f p false = inl i /\ get f i = Some n.
    Proof.
      unfold sys_lstat. destruct (resolve_ino c f p false) as [j|e]; [|discriminate].
      destruct (get f j) as [m|] eqn:Eg; [|discriminate]. cbn [snd]. intros H. inversion H; subst. auto.
    Qed.
    Lemma sys_stat_ino f p i n : snd (sys_stat c f p) = RStat i n -> resolve_ino c f p true = inl i /\ get f i = Some n.
    Proof.
      unfold sys_stat. destruct (resolve_ino c f p true) as [j|e]; [|discriminate].
      destruct (get f j) as [m|] eqn:Eg; [|discriminate]. cbn [snd]. intros H. inversion H; subst. auto.
    Qed.

    Lemma pok_allc l : pok l -> pok (allc l).
    Proof. unfold pok, allc. intros H. rewrite Forall_map. exact H. Qed.
    Lemma pok_app l1 l2 : pok (l1 ++ l2) <-> pok l1 /\ pok l2.
    Proof. apply Forall_app. Qed.

    (* copyXAttrs: Lstat-like reads of the source entry *)
    Lemma copy_xattrs_reads s s' r dst src : Ctx (s_fs s) -> SP src ->
      copy_xattrs c dst src s = (s', r) -> rok s -> rok s'.
    Proof.
      intros C Hs H Rk. unfold copy_xattrs in H. rewrite sys_bind in H.
      rewrite sys_lstat_fs in H.
      destruct (snd (sys_lstat c (s_fs s) src)) as [|e|j n| | |] eqn:El;
        try (unfold fail in H; injection H as <- <-; exact Rk).
      destruct (sys_lstat_ino _ _ _ _ El) as [Er _].
      rewrite bind_run, log_read_run in H. cbn [s_fs s_links s_parents s_reads] in H.
      match type of H with set_xattrs _ _ _ ?sx = _ => assert (Rx : rok sx) end.
      { eapply rok_cons; [reflexivity| |exact Rk]. eapply (ro_lstat _ _ _ HR); eauto. }
      eapply rok_nr; [apply NR_set_xattrs|exact H|exact Rx].
    Qed.

    Lemma finish_meta_reads s s' r cs d x i o fi src : Tgt (s_fs s) cs d x -> names_ss (s_fs s) d x i ->
      (kind_is_link fi = false -> FsP.is_link (s_fs s) i = false) -> SP src ->
      finish_meta c o fi src (tpath cs x) s = (s', r) -> rok s -> rok s'.
    Proof.
      intros T Hn Hl Hs H Rk. unfold finish_meta in H. rewrite bind_run in H.
      destruct (copy_file_info c o fi (tpath cs x) s) as [s1 [[]|e]] eqn:E1.
      - pose proof (copy_file_info_spec c f0 dr dcs cs d x i o fi s s1 _ T Hn Hl E1) as M1.
        assert (C1 : Ctx (s_fs s1)) by (destruct M1 as (M1 & _); apply M1).
        eapply copy_xattrs_reads; [exact C1|exact Hs|exact H|]. eapply rok_nr; [apply NR_copy_file_info|exact E1|exact Rk].
      - injection H as <- <-. eapply rok_nr; [apply NR_copy_file_info|exact E1|exact Rk].
    Qed.

    (* copyFile: os.Open(source) *)
    Lemma copy_file_reads s s' r src target : Ctx (s_fs s) -> SPN src ->
      copy_file c src target s = (s', r) -> rok s -> rok s'.
    Proof.
      intros C Hs H Rk. unfold copy_file in H. rewrite bind_run in H. unfold get_fs at 1 in H.
      destruct (resolve_ino c (s_fs s) src true) as [j|e] eqn:Er; [|unfold fail in H; injection H as <- <-; exact Rk].
      destruct (get (s_fs s) j) as [[[pp es|data|t|ty rd] m]|]; try (unfold fail in H; injection H as <- <-; exact Rk).
      rewrite bind_run, log_read_run in H.
      match type of H with bind _ _ ?sx = _ => assert (Rx : rok sx) end.
      { eapply rok_cons; [reflexivity| |exact Rk]. eapply (ro_stat _ _ _ HR); eauto. }
      revert H. match goal with |- ?m ?sx = _ -> _ => intros H; eapply (rok_nr m); [|exact H|exact Rx] end.
      nr.
    Qed.

    Lemma copy_regular_reads s s' r src target ino multi : Ctx (s_fs s) -> SPN src ->
      copy_regular c src target ino multi s = (s', r) -> rok s -> rok s'.
    Proof.
      intros C Hs H Rk. unfold copy_regular in H.
      destruct multi; [|eapply copy_file_reads; eauto].
      rewrite bind_run in H. unfold get_links at 1 in H.
      destruct (assoc_N ino (s_links s)) as [first|].
      - revert H. match goal with |- ?m s = _ -> _ => intros H; eapply (rok_nr m); [|exact H|exact Rk] end. nr.
      - rewrite bind_run in H. unfold add_link at 1 in H.
        eapply copy_file_reads; [| |exact H|]; auto.
    Qed.

    (* like cpost, for pieces that leave the link map and the stack alone (createParentDirs: os.Stat
       of the source directories whose copy was deferred) *)
    Definition spost {A} (d : N) (s : cst) (P : A -> cst -> Prop) (s' : cst) (r : A + N) : Prop :=
      stays d s s' /\ s_links s' = s_links s /\ (forall a, r = inl a -> P a s') /\ rok s'.

    Lemma spost_bind {A B} d s (m : M A) (k : A -> M B) (P : A -> cst -> Prop) (Q : B -> cst -> Prop) s' r :
      is_dir (s_fs s) d = true -> bind m k s = (s', r) ->
      (forall s1 r1, m s = (s1, r1) -> spost d s P s1 r1) ->
      (forall s1 a, stays d s s1 -> rok s1 -> P a s1 -> k a s1 = (s', r) -> spost d s1 Q s' r) ->
      spost d s Q s' r.
    Proof.
      intros Hd H Hm Hk. rewrite bind_run in H.
      destruct (m s) as [s1 [a|e]] eqn:E; destruct (Hm _ _ eq_refl) as (S1 & EL1 & P1 & Rk1).
      - destruct (Hk s1 a S1 Rk1 (P1 a eq_refl) H) as (S2 & EL2 & P2).
        split; [eapply stays_trans; eauto|]. split; [congruence|exact P2].
      - injection H as <- <-. split; [exact S1|]. split; [exact EL1|]. split; [discriminate|exact Rk1].
    Qed.

    Lemma create_parents_go_spec_r o ow : forall todo done cs d pend s s' r,
      Ctx (s_fs s) -> chain (s_fs s) dr cs d -> Forall nm cs -> Forall nonul cs -> Forall nm pend -> Forall nonul pend ->
      uncopied todo = pend_paths cs pend -> pok todo -> rok s ->
      create_parents_go c o ow todo done s = (s', r) ->
      spost d s (fun ps' s' => ps' = done ++ allc todo /\ exists d', chain (s_fs s') dr (cs ++ pend) d') s' r.
    Proof.
      induction todo as [|[[sp dp] copied] rest IH]; intros done cs d pend s s' r C Hc Hcs Hcn Hp Hpn Hu Hpk Rk H;
        cbn [create_parents_go] in H.
      - injection H as <- <-. symmetry in Hu. apply pend_paths_nil in Hu. subst pend.
        split; [apply stays_refl; auto|]. split; [reflexivity|]. split; [|exact Rk].
        intros ps' E. inversion E; subst. rewrite !app_nil_r. eauto.
      - inversion Hpk as [|? ? Hsp Hpk']; subst. cbn [fst] in Hsp. destruct copied.
        + destruct (IH _ cs d pend s s' r C Hc Hcs Hcn Hp Hpn Hu Hpk' Rk H) as (S & EL & P & Rk').
          split; auto. split; auto. split; auto.
          intros ps' E. destruct (P ps' E) as (-> & Hd'). split; auto. rewrite <- app_assoc. reflexivity.
        + assert (Hd : is_dir (s_fs s) d = true) by (eapply chain_end_dir; eauto).
          destruct pend as [|p pend']; [discriminate|]. simpl in Hu. injection Hu as -> Hu'.
          inversion Hp as [|? ? Hp1 Hp']; subst. inversion Hpn as [|? ? Hpn1 Hpn']; subst.
          rewrite sys_bind, sys_stat_fs in H.
          destruct (snd (sys_stat c (s_fs s) sp)) as [| |si sfi| | |] eqn:Est;
            try (injection H as <- <-; split; [apply stays_same; auto|split; [reflexivity|split; [discriminate|exact Rk]]]).
          rewrite bind_run, log_read_run in H. cbn [s_fs s_links s_parents s_reads] in H.
          set (s1 := {| s_fs := s_fs s; s_links := s_links s; s_parents := s_parents s; s_reads := si :: s_reads s |}) in H.
          assert (Rk1 : rok s1).
          { eapply rok_cons; [reflexivity| |exact Rk]. destruct (sys_stat_ino _ _ _ _ Est) as [Er _]. eapply (ro_stat _ _ _ HR); eauto. }
          destruct (negb (kind_is_dir sfi));
            [injection H as <- <-; split; [apply stays_same; auto|split; [reflexivity|split; [discriminate|exact Rk1]]]|].
          assert (T1 : Tgt (s_fs s1) cs d p) by (constructor; auto).
          change (render (dcs ++ cs ++ [p])) with (tpath cs p) in *.
          assert (G : spost d s1 (fun ps' s' => ps' = done ++ allc ((sp, tpath cs p, false) :: rest) /\
                                     exists d', chain (s_fs s') dr (cs ++ p :: pend') d') s' r);
            [|destruct G as (S & G); split; [eapply stays_trans; [exact Hd|apply (stays_same c f0 dr dcs d s s1); auto|exact S]|exact G]].
          eapply (spost_bind d s1 _ _ (fun _ s2 => exists d1, blookup p (dents (s_fs s2) d) = Some d1 /\ is_dir (s_fs s2) d1 = true));
            [exact Hd|exact H| |]; clear H.
          { intros s2 r2 E2. destruct (copy_directory_only_spec c f0 dr dcs s1 s2 _ cs d p sfi ow T1 E2) as (S2 & EL2 & P2).
            split; [exact S2|]. split; [exact EL2|]. split; [exact P2|]. eapply rok_nr; [apply NR_copy_directory_only|exact E2|exact Rk1]. }
          intros s2 created S2 Rk2 (d1 & Hb1 & Hd1) H.
          assert (T2 : Tgt (s_fs s2) cs d p) by (eapply tgt_stays; eauto).
          assert (Hc2 : chain (s_fs s2) dr (cs ++ [p]) d1) by (eapply chain_snoc; eauto; apply T2).
          (* metadata of a created parent *)
          eapply (spost_bind d s2 _ _ (fun _ s3 => chain (s_fs s3) dr (cs ++ [p]) d1)); [eapply tgt_dir; eauto|exact H| |]; clear H.
          { intros s3 r3 E3.
            assert (M3 : mstep s2 s3 /\ rok s3).
            { destruct created; [|injection E3 as <- <-; split; [apply mstep_refl; apply T2|exact Rk2]].
              change (finish_meta c o sfi sp (tpath cs p) s2 = (s3, r3)) in E3.
              assert (Hn : names_ss (s_fs s2) d p d1).
              { split; auto. eapply (chain_SS f0 dr (s_fs s2)); [eapply tgt_inv; eauto|exact Hc2|eapply ctx_dr_SS; apply T2]. }
              pose proof (fun _ : kind_is_link sfi = false => dir_not_link _ _ Hd1) as Hl.
              split; [eapply (finish_meta_spec c f0 dr dcs); eauto|eapply finish_meta_reads; eauto; apply (ro_sp _ _ _ HR), Hsp]. }
            destruct M3 as (M3 & Rk3). split; [apply mstep_stays; exact M3|]. split; [apply M3|]. split; [|exact Rk3].
            intros _ _. eapply (stays_chain d1 s2 s3); [apply mstep_stays; exact M3|exact Hc2|]. constructor; auto. }
          intros s3 [] S3 Rk3 Hc3 H.
          pose proof (chain_rest _ _ _ _ _ _ Hc3 (tg_chain _ _ _ _ _ _ _ _ (tgt_stays _ _ _ _ _ _ _ _ _ T2 S3))) as Hq3.
          destruct (IH (done ++ [(sp, tpath cs p, true)]) (cs ++ [p]) d1 pend' s3 s' r) as (S4 & EL4 & P4 & Rk4); auto;
            try (apply Forall_app; split; auto); [apply S3|].
          split; [eapply (stays_below c f0 dr dcs); eauto|]. split; [exact EL4|]. split; [|exact Rk4].
          intros ps' E. destruct (P4 ps' E) as (-> & d' & Hd'). rewrite <- app_assoc in *. eauto.
    Qed.

    Lemma create_parent_dirs_spec_r o ow cs d pend s s' r :
      Ctx (s_fs s) -> chain (s_fs s) dr cs d -> Forall nm cs -> Forall nonul cs -> Forall nm pend -> Forall nonul pend ->
      uncopied (s_parents s) = pend_paths cs pend -> pok (s_parents s) -> rok s ->
      create_parent_dirs c o ow s = (s', r) ->
      (stays_ok d s s' r /\ (lok s -> lok s') /\ s_links s' = s_links s /\
       (r = inl tt -> s_parents s' = allc (s_parents s) /\ exists d', chain (s_fs s') dr (cs ++ pend) d')) /\ rok s'.
    Proof.
      intros C Hc H1 H2 H3 H4 Hu Hpk Rk H. unfold create_parent_dirs in H. rewrite bind_run, get_parents_run in H. rewrite bind_run in H.
      destruct (create_parents_go c o ow (s_parents s) [] s) as [s1 [ps'|e]] eqn:E1;
        destruct (create_parents_go_spec_r o ow _ [] cs d pend s s1 _ C Hc H1 H2 H3 H4 Hu Hpk Rk E1) as ((C1 & A1 & L1 & K1 & Q1) & EL1 & P1 & Rk1).
      - destruct (P1 ps' eq_refl) as (-> & d' & Hd'). rewrite set_parents_run in H. injection H as <- <-.
        split; [|exact Rk1]. split; [split; auto|]. split; [exact L1|]. split; [exact EL1|]. intros _. split; [reflexivity|eauto].
      - injection H as <- <-. split; [|exact Rk1]. split; [split; auto|]. split; [exact L1|]. split; [exact EL1|discriminate].
    Qed.

    Lemma finish_meta_cpost s s' r cs d x i o fi src : Tgt (s_fs s) cs d x -> names_ss (s_fs s) d x i ->
      (kind_is_link fi = false -> FsP.is_link (s_fs s) i = false) -> SP src -> rok s ->
      finish_meta c o fi src (tpath cs x) s = (s', r) -> cpost d s (fun _ s' => s_parents s' = s_parents s) s' r.
    Proof.
      intros T Hn Hl Hs Rk H. pose proof (finish_meta_spec c f0 dr dcs _ _ _ _ _ _ _ _ _ _ T Hn Hl H) as M.
      apply cpost_stays; [apply mstep_stays; exact M|eapply finish_meta_reads; eauto|intros _ _; apply M].
    Qed.

    (* os.Lstat of a source path: the inode is logged; unless it is a symlink the path may be followed *)
    Lemma src_lstat_spec {B} d src (k : N -> inode -> M B) (Q : B -> cst -> Prop) s s' r :
      Ctx (s_fs s) -> SP src -> rok s ->
      (r0 <~ sys (fun f => sys_lstat c f src) ;;
       match r0 with RStat ino fi => log_read ino ;;; k ino fi | _ => fail E_SYS end) s = (s', r) ->
      (forall s1 ino fi, s_fs s1 = s_fs s -> s_links s1 = s_links s -> s_parents s1 = s_parents s -> rok s1 ->
         snd (sys_lstat c (s_fs s) src) = RStat ino fi -> (kind_is_link fi = false -> SPN src) ->
         k ino fi s1 = (s', r) -> cpost d s Q s' r) ->
      cpost d s Q s' r.
    Proof.
      intros C Hs Rk H Hk. rewrite sys_bind, sys_lstat_fs in H.
      destruct (snd (sys_lstat c (s_fs s) src)) as [| |ino fi| | |] eqn:El;
        try (injection H as <- <-; apply cpost_stays; [apply stays_same; auto|exact Rk|discriminate]).
      destruct (sys_lstat_ino _ _ _ _ El) as [Er Eg]. rewrite bind_run, log_read_run in H.
      refine (Hk _ ino fi _ _ _ _ eq_refl _ H); try reflexivity.
      - eapply rok_cons; [reflexivity| |exact Rk]. eapply (ro_lstat _ _ _ HR); eauto.
      - intros Hkl. eapply (ro_real _ _ _ HR); eauto.
    Qed.

    (* listing a source directory: proper names, which name source paths again; the directory is logged *)
    Lemma list_dir_spec {B} d src (k : list bytes -> M B) (Q : B -> cst -> Prop) s s' r :
      Ctx (s_fs s) -> SPN src -> rok s ->
      (l <~ sys (fun f => sys_readdir c f src) ;;
       match l with
       | RNames names =>
         f1 <~ get_fs ;;
         (match resolve_ino c f1 src true with inl di => log_read di | inr _ => ret tt end) ;;; k names
       | _ => fail E_SYS
       end) s = (s', r) ->
      (forall s1 names, s_fs s1 = s_fs s -> s_links s1 = s_links s -> s_parents s1 = s_parents s -> rok s1 ->
         Forall (fun n => okn n /\ SP (join2 src n)) (sorted_names names) -> k names s1 = (s', r) -> cpost d s Q s' r) ->
      cpost d s Q s' r.
    Proof.
      intros C Hs Rk H Hk. rewrite sys_bind, sys_readdir_fs in H.
      destruct (snd (sys_readdir c (s_fs s) src)) as [| | | |names|] eqn:Er;
        try (injection H as <- <-; apply cpost_stays; [apply stays_same; auto|exact Rk|discriminate]).
      assert (Hnames : Forall (fun n => okn n /\ SP (join2 src n)) (sorted_names names)).
      { apply sorted_names_forall.
        pose proof (readdir_names c f0 dr (s_fs s) src names (cx_inv _ _ _ _ _ C) Er) as Hn.
        unfold sys_readdir in Er. destruct (resolve_ino c (s_fs s) src true) as [j|e] eqn:Ej; [|discriminate].
        destruct (dir_of (s_fs s) j) as [[pp es]|] eqn:Ed; [|discriminate]. cbn [snd] in Er. injection Er as <-.
        rewrite Forall_forall in *. intros n Hin. split; auto. eapply (ro_child _ _ _ HR); eauto. }
      rewrite bind_run in H. unfold get_fs at 1 in H. rewrite bind_run in H. cbn [s_fs mk] in H.
      destruct (resolve_ino c (s_fs s) src true) as [di|e] eqn:Ei; [rewrite log_read_run in H|cbn [ret] in H];
        refine (Hk _ names _ _ _ _ Hnames H); try reflexivity; [|exact Rk].
      eapply rok_cons; [reflexivity| |exact Rk]. eapply (ro_stat _ _ _ HR); eauto.
    Qed.

    Lemma each_m_inv_r (P : bytes -> Prop) (I : cst -> Prop) g d :
      (forall s, I s -> Ctx (s_fs s) /\ is_dir (s_fs s) d = true) ->
      (forall n s s' r, P n -> I s -> lok s -> rok s -> g n s = (s', r) -> cpost d s (fun _ => I) s' r) ->
      forall ns, Forall P ns -> forall s s' r, I s -> lok s -> rok s ->
        each_m g ns s = (s', r) -> cpost d s (fun _ => I) s' r.
    Proof.
      intros HI Hg ns Hall. induction Hall as [|n ns Hn Hns IH]; intros s s' r Is L Rk H; cbn [each_m] in H.
      - injection H as <- <-. apply cpost_stays; auto. apply stays_refl. apply HI; auto.
      - eapply cpost_bind; [apply HI; auto|exact L|exact H|intros; eapply Hg; eauto|].
        intros s1 a _ L1 Rk1 I1. apply IH; auto.
    Qed.
  End Reads.

  Lemma rok_any s : rok (fun _ => True) s.
  Proof. intros i _. exact I. Qed.
  Lemma pok_any l : pok (fun _ => True) l.
  Proof. apply Forall_forall. intros; exact I. Qed.

  Lemma create_parents_go_spec o ow : forall todo done cs d pend s s' r,
    Ctx (s_fs s) -> chain (s_fs s) dr cs d -> Forall nm cs -> Forall nonul cs -> Forall nm pend -> Forall nonul pend ->
    uncopied todo = pend_paths cs pend ->
    create_parents_go c o ow todo done s = (s', r) ->
    stays d s s' /\ s_links s' = s_links s /\
    (forall ps', r = inl ps' -> ps' = done ++ allc todo /\ exists d', chain (s_fs s') dr (cs ++ pend) d').
  Proof.
    intros todo done cs d pend s s' r C Hc H1 H2 H3 H4 Hu H.
    destruct (create_parents_go_spec_r _ _ _ reads_ok_any o ow todo done cs d pend s s' r) as (S & EL & P & _);
      auto using rok_any, pok_any.
  Qed.

  Lemma create_parent_dirs_spec o ow cs d pend s s' r :
    Ctx (s_fs s) -> chain (s_fs s) dr cs d -> Forall nm cs -> Forall nonul cs -> Forall nm pend -> Forall nonul pend ->
    uncopied (s_parents s) = pend_paths cs pend ->
    create_parent_dirs c o ow s = (s', r) ->
    stays_ok d s s' r /\ (lok s -> lok s') /\ s_links s' = s_links s /\
    (r = inl tt -> s_parents s' = allc (s_parents s) /\ exists d', chain (s_fs s') dr (cs ++ pend) d').
  Proof.
    intros C Hc H1 H2 H3 H4 Hu H.
    destruct (create_parent_dirs_spec_r _ _ _ reads_ok_any o ow cs d pend s s' r) as (G & _); auto using rok_any, pok_any.
  Qed.

  Lemma each_m_inv (I : cst -> Prop) g d :
    (forall s, I s -> Ctx (s_fs s) /\ is_dir (s_fs s) d = true) ->
    (forall n s s' r, okn n -> I s -> lok s -> g n s = (s', r) -> stays_ok d s s' r /\ (ok_res r -> I s')) ->
    forall ns, Forall okn ns -> forall s s' r, I s -> lok s ->
      each_m g ns s = (s', r) -> stays_ok d s s' r /\ (ok_res r -> I s').
  Proof.
    rename I into I0.
    intros HI Hg ns Hall s s' r Is L H.
    destruct (each_m_inv_r (fun _ => True) okn I0 g d HI) with (ns := ns) (s := s) (s' := s') (r := r) as (S & P & _); auto using rok_any.
    - intros n sa sb rb Hn Ia La _ E. destruct (Hg n sa sb rb Hn Ia La E) as (Sb & Pb).
      split; [exact Sb|]. split; [intros a ->; apply Pb; exists a; reflexivity|apply rok_any].
    - split; [exact S|]. intros [a ->]. eapply P; reflexivity.
  Qed.

  Lemma chain_last f cs d x d1 d' : chain f dr (cs ++ [x]) d1 -> chain f dr cs d' -> d' = d ->
    blookup x (dents f d) = Some d1 /\ is_dir f d1 = true.
  Proof.
    intros H Hc ->. pose proof (chain_rest _ _ _ _ _ _ H Hc) as Q.
    inversion Q as [|? ? i ? ? Bx Dx Rx]; subst. inversion Rx; subst. auto.
  Qed.

  (* what a copier.copy leaves of the stack: untouched, or every pending parent made *)
  Definition stack_post (cs pend : list bytes) (ps : list (bytes * bytes * bool)) (s' : cst) : Prop :=
    s_parents s' = ps \/ (s_parents s' = allc ps /\ exists d', chain (s_fs s') dr (cs ++ pend) d').
End Rec.
