(* Facts about the pattern model: string helpers, the classification of prefix-only
   patterns, the key lemma behind both SkipDir shortcuts, stability of the incremental
   verdict below a directory. *)
From Coq Require Import List NArith Lia Bool.
From FS Require Import Sx Model.Path Model.Pattern Proofs.Lex Proofs.PathP.
Import ListNotations.
Open Scope N_scope.
Open Scope bool_scope.

Lemma has_prefix_refl s : has_prefix s s = true.
Proof. rewrite <- (app_nil_r s) at 2. apply has_prefix_app_r. Qed.

Lemma has_prefix_trans a b s : has_prefix a b = true -> has_prefix b s = true -> has_prefix a s = true.
Proof.
  intros H1 H2. apply has_prefix_iff in H1, H2. destruct H1 as [r1 ->], H2 as [r2 ->].
  rewrite <- app_assoc. apply has_prefix_app_r.
Qed.

Lemma prefix_comparable a b s : has_prefix a s = true -> has_prefix b s = true ->
  has_prefix a b = true \/ has_prefix b a = true.
Proof.
  revert b s. induction a as [|x a IH]; intros [|y b] [|z s]; simpl; auto; try discriminate.
  intros H1 H2. apply andb_true_iff in H1, H2. destruct H1 as [E1 H1], H2 as [E2 H2].
  apply N.eqb_eq in E1, E2. subst y z. rewrite N.eqb_refl. exact (IH b s H1 H2).
Qed.

Lemma has_prefix_app_same d a b : has_prefix (d ++ a) (d ++ b) = has_prefix a b.
Proof. induction d as [|x d IH]; simpl; auto. rewrite N.eqb_refl. exact IH. Qed.

Lemma has_prefix_snoc_r x (s : N) r : has_prefix (x ++ [s]) (x ++ s :: r) = true.
Proof. change (x ++ s :: r) with (x ++ [s] ++ r). rewrite app_assoc. apply has_prefix_app_r. Qed.

Lemma strip_suffix_spec suf s pre : strip_suffix suf s = Some pre <-> s = pre ++ suf.
Proof.
  revert pre. induction s as [|a s IH]; intros pre; cbn [strip_suffix];
    (destruct (bytes_eqb _ suf) eqn:E; [apply bytes_eqb_eq in E; subst suf|apply bytes_eqb_neq in E]).
  1,3: split; [intros [= <-]; reflexivity|]; intros H; apply (app_inv_tail _ [] pre) in H; congruence.
  - split; [discriminate|]. intros H. symmetry in H. apply app_eq_nil in H. destruct H; congruence.
  - destruct pre as [|x pre]; [split; [destruct (strip_suffix suf s); discriminate|intros H; destruct (E H)]|].
    rewrite <- app_comm_cons. specialize (IH pre). destruct (strip_suffix suf s) as [pre'|].
    + split; [intros [= <- <-]; f_equal; apply IH; reflexivity|intros [= <- H]; apply IH in H; congruence].
    + split; [discriminate|]. intros [= _ H]. apply IH in H. discriminate.
Qed.

Lemma strip_suffix_none suf s : strip_suffix suf s = None <-> forall pre, s <> pre ++ suf.
Proof.
  split.
  - intros H pre E. apply strip_suffix_spec in E. congruence.
  - intros H. destruct (strip_suffix suf s) eqn:E; auto. apply strip_suffix_spec in E. exfalso. eapply H; eauto.
Qed.

Lemma strip_prefix_spec pre s r : strip_prefix pre s = Some r <-> s = pre ++ r.
Proof.
  revert s; induction pre as [|a pre IH]; intros s; simpl.
  - split; [intros [= <-]|intros ->]; reflexivity.
  - destruct s as [|b s]; [split; discriminate|].
    destruct (N.eqb a b) eqn:E.
    + apply N.eqb_eq in E. subst b. rewrite IH. split; [intros ->; reflexivity|intros [= ->]; reflexivity].
    + apply N.eqb_neq in E. split; [discriminate|]. intros [= -> _]. congruence.
Qed.

Lemma no_sep_nosep s : no_sep s = true <-> nosep s.
Proof.
  unfold no_sep, nosep. rewrite negb_true_iff, <- not_true_iff_false, existsb_exists. split; intros H.
  - intros Hin. apply H. exists sep. split; [exact Hin|apply N.eqb_refl].
  - intros (x & Hin & Hx). apply N.eqb_eq in Hx. subst x. contradiction.
Qed.

Lemma split_first_unique (s : N) r1 r2 a b : ~ In s r1 -> ~ In s r2 -> r1 ++ s :: a = r2 ++ s :: b -> r1 = r2 /\ a = b.
Proof.
  revert r2; induction r1 as [|x r1 IH]; intros [|y r2] H1 H2 E; simpl in E.
  - injection E; auto.
  - injection E as -> _. destruct H2. left; reflexivity.
  - injection E as <- _. destruct H1. left; reflexivity.
  - injection E as -> E. destruct (IH r2) as [-> ->]; auto; intro; [apply H1|apply H2]; right; assumption.
Qed.

Lemma split_last_unique (s : N) a b r1 r2 : ~ In s r1 -> ~ In s r2 -> a ++ s :: r1 = b ++ s :: r2 -> a = b /\ r1 = r2.
Proof.
  revert b; induction a as [|x a IH]; intros [|y b] H1 H2 E; simpl in E.
  - injection E; auto.
  - injection E as _ ->. destruct H1. apply in_elt.
  - injection E as _ <-. destruct H2. apply in_elt.
  - injection E as -> E. destruct (IH b H1 H2 E) as [-> ->]; auto.
Qed.

Definition kind_lit (k : pkind) : bytes :=
  match k with Lit L | LitStar L | LitStarStar L => L | Glob => [] end.

Lemma trim_suffix_some s suf pre : s = pre ++ suf -> trim_suffix s suf = pre.
Proof. intros H. unfold trim_suffix. apply strip_suffix_spec in H. rewrite H. reflexivity. Qed.

Lemma trim_suffix_none s suf : strip_suffix suf s = None -> trim_suffix s suf = s.
Proof. intros H. unfold trim_suffix. rewrite H. reflexivity. Qed.

Lemma pat_kind_wtg P : pat_kind P <> Glob -> without_trailing_glob P = kind_lit (pat_kind P).
Proof.
  unfold pat_kind. destruct (contains_pattern_chars (without_trailing_glob P)) eqn:Ec; [congruence|].
  intros _. unfold without_trailing_glob.
  destruct (strip_suffix s_sep_starstar P) as [L|] eqn:E1.
  - apply strip_suffix_spec in E1. rewrite (trim_suffix_some _ _ _ E1). simpl.
    assert (Hne : bytes_eqb L P = false).
    { apply bytes_eqb_neq. intro H. apply (f_equal (@length N)) in E1. rewrite H, app_length in E1. simpl in E1. lia. }
    rewrite Hne. reflexivity.
  - rewrite (trim_suffix_none _ _ E1). rewrite bytes_eqb_refl. simpl.
    destruct (strip_suffix s_sep_star P) as [L|] eqn:E2.
    + apply strip_suffix_spec in E2. rewrite (trim_suffix_some _ _ _ E2). reflexivity.
    + rewrite (trim_suffix_none _ _ E2). reflexivity.
Qed.

Lemma prefix_only_kind P : prefix_only P = true <-> pat_kind P <> Glob.
Proof.
  unfold prefix_only, pat_kind. destruct (contains_pattern_chars (without_trailing_glob P)); simpl.
  - split; [discriminate|congruence].
  - split; auto. intros _.
    destruct (strip_suffix s_sep_starstar P); [discriminate|]. destruct (strip_suffix s_sep_star P); discriminate.
Qed.

(* The key lemma of both shortcuts.
   d: the directory the shortcut looks at; x: d or a directory below it; name: a child of x.
   If the literal part of a prefix-only pattern does not reach into d, then the pattern
   cannot start matching at x/name: if it matches there, it already matched x. *)
Definition below (d x : bytes) : Prop := has_prefix (d ++ [sep]) (x ++ [sep]) = true.

Lemma below_refl d : below d d.
Proof. apply has_prefix_refl. Qed.

Lemma below_child d x name : below d x -> below d (x ++ sep :: name).
Proof.
  unfold below. intros H. eapply has_prefix_trans; [exact H|].
  rewrite <- app_assoc. apply has_prefix_snoc_r.
Qed.

Lemma key_lemma k d x name :
  k <> Glob -> below d x -> nosep name ->
  has_prefix (d ++ [sep]) (kind_lit k ++ [sep]) = false ->
  prefix_match k (x ++ sep :: name) = true -> prefix_match k x = true.
Proof.
  intros Hk Hb Hn Hreach Hm. unfold below in Hb.
  assert (He : has_prefix (d ++ [sep]) (x ++ sep :: name) = true).
  { eapply has_prefix_trans; [exact Hb|]. apply has_prefix_snoc_r. }
  destruct k as [L|L|L|]; [| | |congruence]; simpl in *.
  - (* literal: x/name = L, so L/ = x/name/ has prefix d/ *)
    apply bytes_eqb_eq in Hm. subst L. exfalso.
    assert (X : has_prefix (d ++ [sep]) ((x ++ sep :: name) ++ [sep]) = true).
    { eapply has_prefix_trans; [exact He|]. apply has_prefix_app_r. }
    congruence.
  - (* L/* : x/name = L/c with c separator-free, so L = x *)
    destruct (strip_prefix (L ++ [sep]) (x ++ sep :: name)) as [rest|] eqn:E; [|discriminate].
    apply strip_prefix_spec in E. apply no_sep_nosep in Hm.
    rewrite <- app_assoc in E. simpl in E.
    destruct (split_last_unique sep x L name rest Hn Hm E) as [-> _]. congruence.
  - (* L/** : L/ and d/ are both prefixes of x/name; d/ is not a prefix of L/, so L/ is a
       proper prefix of d/, hence a prefix of x *)
    destruct (prefix_comparable _ _ _ Hm He) as [H|H]; [|congruence].
    assert (H2 : has_prefix (L ++ [sep]) (x ++ [sep]) = true) by (eapply has_prefix_trans; eauto).
    apply has_prefix_iff in H2. destruct H2 as [r Hr].
    destruct r as [|y r] using rev_ind.
    + rewrite app_nil_r in Hr. apply app_inj_tail in Hr. destruct Hr as [-> _]. congruence.
    + rewrite app_assoc in Hr. apply app_inj_tail in Hr. destruct Hr as [-> _]. apply has_prefix_app_r.
Qed.

(* what the proofs assume about Pattern.match for the strings filter.go classifies as
   prefix-only (validated against the real library by harness kind 1003): *)
Definition pmatch_lit (pmatch : bytes -> bytes -> bool) : Prop :=
  forall P q, pat_kind P = Lit P -> pmatch P q = bytes_eqb q P.
Definition pmatch_starstar (pmatch : bytes -> bytes -> bool) : Prop :=
  forall P L q, pat_kind P = LitStarStar L -> pmatch P q = has_prefix (L ++ [sep]) q.
Definition pmatch_star (pmatch : bytes -> bytes -> bool) : Prop :=
  forall P L q, pat_kind P = LitStar L -> regex_safe L = true ->
    pmatch P q = match strip_prefix (L ++ [sep]) q with Some rest => no_sep rest | None => false end.

Definition prefix_semantics (pmatch : bytes -> bytes -> bool) : Prop :=
  pmatch_lit pmatch /\ pmatch_starstar pmatch /\ pmatch_star pmatch.

Lemma pat_kind_lit_self P L : pat_kind P = Lit L -> L = P.
Proof.
  unfold pat_kind. destruct (contains_pattern_chars _); [discriminate|].
  destruct (strip_suffix s_sep_starstar P); [discriminate|]. destruct (strip_suffix s_sep_star P); [discriminate|].
  intros [= <-]. reflexivity.
Qed.

Lemma prefix_semantics_eq pmatch P q : prefix_semantics pmatch ->
  pat_kind P <> Glob -> kind_safe (pat_kind P) = true -> pmatch P q = prefix_match (pat_kind P) q.
Proof.
  intros (H1 & H2 & H3) Hk Hs. destruct (pat_kind P) as [L|L|L|] eqn:E; [| | |congruence]; simpl in *.
  - pose proof (pat_kind_lit_self _ _ E) as ->. apply H1; auto.
  - apply H3; auto.
  - apply H2; auto.
Qed.

Lemma lit_pmatch_prefix_semantics g : prefix_semantics (lit_pmatch g).
Proof.
  unfold lit_pmatch. repeat split.
  - intros P q E. rewrite E. reflexivity.
  - intros P L q E. rewrite E. reflexivity.
  - intros P L q E _. rewrite E. reflexivity.
Qed.

(* key lemma phrased for the matcher *)
Lemma pmatch_key pmatch P d x name : prefix_semantics pmatch ->
  prefix_only P = true -> kind_safe (pat_kind P) = true ->
  below d x -> nosep name ->
  has_prefix (d ++ [sep]) (without_trailing_glob P ++ [sep]) = false ->
  pmatch P (x ++ sep :: name) = true -> pmatch P x = true.
Proof.
  intros Hsem Hpo Hsafe Hb Hn Hreach Hm. apply prefix_only_kind in Hpo.
  rewrite (prefix_semantics_eq pmatch P (x ++ sep :: name) Hsem Hpo Hsafe) in Hm.
  rewrite (prefix_semantics_eq pmatch P x Hsem Hpo Hsafe).
  rewrite (pat_kind_wtg P Hpo) in Hreach. exact (key_lemma (pat_kind P) d x name Hpo Hb Hn Hreach Hm).
Qed.

Section Incr.
Variable pmatch : bytes -> bytes -> bool.

Lemma incr_go_cons P ps parent hi file m :
  incr_go pmatch (P :: ps) parent hi file m =
  let mm := incr_m pmatch P (hi && hd false parent) hi file m in
  let r := incr_go pmatch ps (tl parent) hi file (if mm then negb (p_excl P) else m) in
  (fst r, mm :: snd r).
Proof. cbn [incr_go]. cbv zeta. destruct (incr_go pmatch ps (tl parent) hi file _); reflexivity. Qed.

Lemma incr_go_length pats : forall parent hi file m, length (snd (incr_go pmatch pats parent hi file m)) = length pats.
Proof.
  induction pats as [|P ps IH]; intros; [reflexivity|]. rewrite incr_go_cons. cbv zeta. cbn [snd length].
  rewrite IH. reflexivity.
Qed.

(* x evaluated somehow (parent info px, flag hx); e evaluated with x's info.  If the final
   verdict at x is b and no pattern with exclusion flag b matches e without matching x,
   the final verdict at e is b. *)
Lemma incr_go_stable (b : bool) x e pats : forall px hx mx me,
  (forall P, In P pats -> p_excl P = b -> pmatch (p_str P) e = true -> pmatch (p_str P) x = true) ->
  (mx = b -> me = b) ->
  fst (incr_go pmatch pats px hx x mx) = b ->
  fst (incr_go pmatch pats (snd (incr_go pmatch pats px hx x mx)) true e me) = b.
Proof.
  induction pats as [|P ps IH]; intros px hx mx me Hd Hinv Hx; [exact (Hinv Hx)|].
  rewrite incr_go_cons in Hx. rewrite !incr_go_cons. cbv zeta in *. cbn [fst snd hd tl] in *. rewrite andb_true_l.
  apply IH; auto.
  - intros Q HQ. apply Hd. right; auto.
  - (* the verdict so far: equal to b at x implies equal to b at e *)
    destruct (incr_m pmatch P (hx && hd false px) hx x mx) eqn:Emx; [auto|]. unfold incr_m.
    intros Hmx. specialize (Hinv Hmx). subst me.
    destruct (negb (eqb (p_excl P) b)) eqn:Esk; [reflexivity|].
    rewrite negb_false_iff in Esk. apply eqb_prop in Esk.
    cbn [negb andb orb]. rewrite orb_false_r.
    destruct (pmatch (p_str P) e) eqn:Epe; [|reflexivity].
    (* then P matches x and was evaluated at x: contradiction with Emx *)
    exfalso. assert (Hpx : pmatch (p_str P) x = true) by (apply Hd; auto; left; auto).
    unfold incr_m in Emx. destruct (hx && hd false px); [discriminate|].
    rewrite Hmx, Esk, eqb_reflx in Emx. simpl in Emx. rewrite Hpx in Emx. discriminate.
Qed.

Lemma incr_eval_info_nonempty pats x px : pats <> [] -> is_nil (snd (incr_eval pmatch pats x px)) = false.
Proof.
  intros H. unfold incr_eval.
  pose proof (incr_go_length pats px (negb (is_nil px)) x false) as L.
  destruct (snd (incr_go pmatch pats px (negb (is_nil px)) x false)); [|reflexivity].
  destruct pats; [congruence|discriminate].
Qed.

Lemma incr_stable (b : bool) pats x px e :
  (forall P, In P pats -> p_excl P = b -> pmatch (p_str P) e = true -> pmatch (p_str P) x = true) ->
  fst (incr_eval pmatch pats x px) = b ->
  fst (incr_eval pmatch pats e (snd (incr_eval pmatch pats x px))) = b.
Proof.
  intros Hd Hx. destruct pats as [|P ps].
  - unfold incr_eval in *. simpl in *. auto.
  - unfold incr_eval at 1. rewrite incr_eval_info_nonempty by discriminate. cbn [negb].
    unfold incr_eval in *. apply incr_go_stable; auto.
Qed.
End Incr.
