(* Proofs about Model/AbsDest.v: one replay step on the consumer's view simulates one
   HandleChange on the destination when the change is honest (a hard-link entry carries the
   metadata of the inode it joins), so replaying the notifications of ANY honest run of
   apply_all — complete or stopped by an error — rebuilds the view of the destination
   ([apply_all_spec]).  Before that, association lists and [link_stat]; at the end, the old
   destination read as a map. *)
From Coq Require Import List NArith Lia Bool.
From FS Require Import Sx Model.Path Model.Stat Model.Diff Model.AbsDest Proofs.Lex Proofs.PathP Proofs.DiffP
  Proofs.DiffSpecP.
Import ListNotations.
Open Scope N_scope.
Open Scope bool_scope.

Section AMapP.
Context {V : Type}.
Implicit Types M : amap V.

Lemma alookup_cons k v M p :
  alookup p ((k, v) :: M) = if bytes_eqb k p then Some v else alookup p M.
Proof. unfold alookup. simpl. destruct (bytes_eqb k p); reflexivity. Qed.

Lemma alookup_aremove_if f M p :
  alookup p (aremove_if f M) = if f p then None else alookup p M.
Proof.
  induction M as [|[k v] M IH].
  - simpl. destruct (f p); reflexivity.
  - unfold aremove_if in *. simpl filter. destruct (f k) eqn:Ek; simpl negb; cbv iota.
    + rewrite IH, alookup_cons. destruct (bytes_eqb k p) eqn:E; auto.
      apply bytes_eqb_eq in E. subst. rewrite Ek. reflexivity.
    + rewrite !alookup_cons, IH. destruct (bytes_eqb k p) eqn:E; auto.
      apply bytes_eqb_eq in E. subst. rewrite Ek. reflexivity.
Qed.

Lemma alookup_aset k v M p :
  alookup p (aset k v M) = if bytes_eqb k p then Some v else alookup p M.
Proof.
  unfold aset. rewrite alookup_cons, alookup_aremove_if. destruct (bytes_eqb k p); reflexivity.
Qed.

Lemma alookup_aset_same k v M : alookup k (aset k v M) = Some v.
Proof. rewrite alookup_aset, bytes_eqb_refl. reflexivity. Qed.

Lemma alookup_aset_other k v M p : k <> p -> alookup p (aset k v M) = alookup p M.
Proof. intros H. rewrite alookup_aset. apply bytes_eqb_neq in H. rewrite H. reflexivity. Qed.
End AMapP.

Lemma alookup_map_val {V W} (g : V -> W) (M : amap V) p :
  alookup p (map (fun kv => (fst kv, g (snd kv))) M) = option_map g (alookup p M).
Proof.
  induction M as [|[k v] M IH]; [reflexivity|].
  simpl map. rewrite !alookup_cons, IH. destruct (bytes_eqb k p); reflexivity.
Qed.

Lemma aremove_if_map_val {V W} (g : V -> W) f (M : amap V) :
  aremove_if f (map (fun kv => (fst kv, g (snd kv))) M) = map (fun kv => (fst kv, g (snd kv))) (aremove_if f M).
Proof.
  induction M as [|[k v] M IH]; [reflexivity|].
  unfold aremove_if in *. simpl. destruct (f k); simpl; rewrite IH; reflexivity.
Qed.

Lemma aset_map_val {V W} (g : V -> W) k v (M : amap V) :
  aset k (g v) (map (fun kv => (fst kv, g (snd kv))) M) = map (fun kv => (fst kv, g (snd kv))) (aset k v M).
Proof. unfold aset. rewrite aremove_if_map_val. reflexivity. Qed.

Lemma at_or_below_iff q p : at_or_below q p = true <-> q = p \/ above q p = true.
Proof. unfold at_or_below. rewrite orb_true_iff, bytes_eqb_eq. tauto. Qed.

Lemma at_or_below_refl p : at_or_below p p = true.
Proof. unfold at_or_below. rewrite bytes_eqb_refl. reflexivity. Qed.

Lemma at_or_below_le q p : at_or_below q p = true -> compare_path p q <> Lt.
Proof.
  intros H. apply at_or_below_iff in H. destruct H as [->|H].
  - rewrite compare_path_refl. discriminate.
  - apply above_lt in H. rewrite compare_path_opp, H. discriminate.
Qed.

Lemma ino_meta_eqb_iff t s : ino_meta_eqb t s = true <-> ino_meta_eq t s.
Proof. unfold ino_meta_eqb, ino_meta_eq. rewrite !andb_true_iff, !N.eqb_eq, xattrs_eqb_eq. tauto. Qed.

Lemma ino_meta_eq_refl s : ino_meta_eq s s.
Proof. unfold ino_meta_eq. tauto. Qed.

Lemma ino_meta_eq_sym t s : ino_meta_eq t s -> ino_meta_eq s t.
Proof. unfold ino_meta_eq. intros (H1 & H2 & H3 & H4 & H5 & H6 & H7 & H8). repeat split; congruence. Qed.

Lemma ino_meta_eq_trans a b c : ino_meta_eq a b -> ino_meta_eq b c -> ino_meta_eq a c.
Proof.
  unfold ino_meta_eq. intros (H1 & H2 & H3 & H4 & H5 & H6 & H7 & H8) (K1 & K2 & K3 & K4 & K5 & K6 & K7 & K8).
  repeat split; congruence.
Qed.

Lemma is_reg_mode_eq a b : st_mode a = st_mode b -> is_reg a = is_reg b.
Proof. intros E. unfold is_reg, st_is_dir, is_special. rewrite E. reflexivity. Qed.

Lemma is_node_mode_eq a b : st_mode a = st_mode b -> is_node a = is_node b.
Proof. intros E. unfold is_node, st_is_dir. rewrite E. reflexivity. Qed.

Lemma is_reg_is_node st : is_reg st = true -> is_node st = true.
Proof. unfold is_reg, is_node. rewrite !andb_true_iff. tauto. Qed.

Lemma is_node_not_dir st : is_node st = true -> st_is_dir st = false.
Proof. unfold is_node. rewrite andb_true_iff, !negb_true_iff. tauto. Qed.

Lemma is_hardlink_node st : is_hardlink st = true -> is_node st = true /\ st_linkname st <> [].
Proof.
  unfold is_hardlink. rewrite andb_true_iff, negb_true_iff. intros [H1 H2]. split; auto.
  intros E. rewrite E in H2. discriminate.
Qed.

Lemma link_stat_honest t s : ino_meta_eq t s -> link_stat t s = s.
Proof.
  intros (H1 & H2 & H3 & H4 & H5 & H6 & H7 & H8). unfold link_stat. destruct (is_node t); [|reflexivity].
  destruct s; simpl in *. subst. reflexivity.
Qed.

Lemma link_stat_path t s : st_path (link_stat t s) = st_path s.
Proof. unfold link_stat. destruct (is_node t); reflexivity. Qed.

Lemma link_stat_linkname t s : st_linkname (link_stat t s) = st_linkname s.
Proof. unfold link_stat. destruct (is_node t); reflexivity. Qed.

Lemma link_stat_meta t s : is_node t = true -> ino_meta_eq (link_stat t s) t.
Proof. intros E. unfold link_stat. rewrite E. unfold ino_meta_eq. simpl. tauto. Qed.

Lemma link_stat_is_hardlink t s : is_hardlink s = true -> is_hardlink (link_stat t s) = true.
Proof.
  intros Hs. unfold link_stat. destruct (is_node t) eqn:Et; [|exact Hs].
  unfold is_hardlink in *. apply andb_true_iff in Hs. destruct Hs as [_ Hl].
  apply andb_true_iff. split; [|exact Hl].
  rewrite <- Et. apply is_node_mode_eq. reflexivity.
Qed.

Lemma link_stat_not_dir t s : is_hardlink s = true -> st_is_dir (link_stat t s) = false.
Proof.
  intros Hs. apply (link_stat_is_hardlink t) in Hs. apply is_hardlink_node in Hs.
  apply is_node_not_dir. tauto.
Qed.

Section Sim.
Variable src : bytes -> bytes.
Variable H : bytes -> bytes.
Variable hdr : stat -> bytes.

Notation nview := (nview H hdr).
Notation digest := (digest H hdr).
Notation notif_of := (notif_of src H hdr).

Definition nval (e : dentry) : stat * bytes := (de_stat e, digest (de_stat e) (de_bytes e)).

Lemma digest_no_content st x y : wants_content st = false -> digest st x = digest st y.
Proof. unfold AbsDest.digest. intros ->. reflexivity. Qed.

Lemma is_hardlink_no_content st : is_hardlink st = true -> wants_content st = false.
Proof.
  unfold is_hardlink, wants_content. intros E. apply andb_true_iff in E. destruct E as [E1 E2].
  apply negb_true_iff in E2. rewrite E2. apply andb_false_r.
Qed.

Lemma dir_no_content st : st_is_dir st = true -> wants_content st = false.
Proof. unfold wants_content, is_reg. intros ->. reflexivity. Qed.

Lemma alookup_nview D p : alookup p (nview D) = option_map nval (alookup p D).
Proof. exact (alookup_map_val nval D p). Qed.

Lemma nview_aremove_if f D : aremove_if f (nview D) = nview (aremove_if f D).
Proof. exact (aremove_if_map_val nval f D). Qed.

Lemma nview_aset p e D : aset p (nval e) (nview D) = nview (aset p e D).
Proof. exact (aset_map_val nval p e D). Qed.

(* HandleChange for an add or a modify, in normal form: an entry ([written_entry]) is set at p in
   the map without the subtree at p when a directory replaces a non-directory or conversely
   ([cleared]; the same on the consumer's view, hence the parameter [isd]) *)
Definition cleared {V} (isd : V -> bool) (M : amap V) (p : bytes) (st : stat) : amap V :=
  match alookup p M with
  | Some o => if Bool.eqb (isd o) (st_is_dir st) then M else aremove_if (at_or_below p) M
  | None => M
  end.
Definition dcleared : dmap -> bytes -> stat -> dmap := cleared (fun o => st_is_dir (de_stat o)).

(* the entry and the next unused inode class; None = error.  [new_inode]: all cases but the
   re-stamping of a directory in place *)
Definition new_inode (D : dmap) (next : N) (p : bytes) (st : stat) : option (dentry * N) :=
  if is_hardlink st then
    match alookup (st_linkname st) D with
    | Some t => if st_is_dir (de_stat t) then None
                else Some ({| de_stat := link_stat (de_stat t) st; de_bytes := de_bytes t; de_ino := de_ino t |}, next)
    | None => None
    end
  else Some ({| de_stat := st; de_bytes := if wants_content st then src p else []; de_ino := next |}, next + 1).
Definition written_entry (D : dmap) (next : N) (p : bytes) (st : stat) : option (dentry * N) :=
  match alookup p D with
  | Some o => if st_is_dir st && st_is_dir (de_stat o)
              then Some ({| de_stat := st; de_bytes := de_bytes o; de_ino := de_ino o |}, next)
              else new_inode D next p st
  | None => new_inode D next p st
  end.

Lemma apply_map_put D next k p st : k <> KDelete ->
  apply_map src D next (k, p, Some st) =
  match k, alookup p D with
  | KModify, None => None
  | _, _ => match written_entry D next p st with
            | Some (e, n) => Some (aset p e (dcleared D p st), n)
            | None => None
            end
  end.
Proof.
  intros Hk. unfold written_entry, new_inode, dcleared, cleared.
  destruct k; [| |congruence]; cbn [apply_map]; destruct (alookup p D) as [o|]; try reflexivity.
  all: destruct (is_hardlink st); [destruct (alookup (st_linkname st) D) as [t|]; [destruct (st_is_dir (de_stat t))|]|];
    try reflexivity; destruct (st_is_dir st), (st_is_dir (de_stat o)); reflexivity.
Qed.

Lemma replay_step_put (M : nmap) k p st dg : k <> KDelete ->
  replay_step M (k, p, Some (st, dg)) = aset p (st, dg) (cleared (fun v => st_is_dir (fst v)) M p st).
Proof.
  intros Hk. unfold cleared. destruct k; [| |congruence]; simpl; destruct (alookup p M) as [[old ?]|]; reflexivity.
Qed.

Lemma nview_cleared D p st : cleared (fun v => st_is_dir (fst v)) (nview D) p st = nview (dcleared D p st).
Proof.
  unfold dcleared, cleared. rewrite alookup_nview. destruct (alookup p D) as [o|]; [|reflexivity]. simpl.
  destruct (Bool.eqb (st_is_dir (de_stat o)) (st_is_dir st)); [reflexivity|apply nview_aremove_if].
Qed.

(* holds because the digest of a directory or a hard link does not depend on the bytes *)
Lemma written_entry_nval D next k p st e n :
  k <> KDelete -> honest_change D (k, p, Some st) = true -> written_entry D next p st = Some (e, n) ->
  nval e = (st, digest st (src p)).
Proof.
  intros Hk Hh. assert (Hl : is_hardlink st = true -> forall t, alookup (st_linkname st) D = Some t ->
                             link_stat (de_stat t) st = st).
  { intros Hl t Ht. apply stat_eqb_eq. unfold honest_change, honest_change_by in Hh. rewrite Hl, Ht in Hh.
    destruct k; congruence. }
  assert (Hfresh : new_inode D next p st = Some (e, n) -> nval e = (st, digest st (src p))).
  { unfold new_inode. destruct (is_hardlink st) eqn:El.
    - destruct (alookup (st_linkname st) D) as [t|]; [|discriminate].
      destruct (st_is_dir (de_stat t)); [discriminate|]. intros [= <- _]. unfold nval. simpl.
      rewrite (Hl eq_refl t eq_refl). f_equal. apply digest_no_content, is_hardlink_no_content, El.
    - intros [= <- _]. unfold nval, AbsDest.digest. simpl. destruct (wants_content st); reflexivity. }
  unfold written_entry. destruct (alookup p D) as [o|]; [|exact Hfresh].
  destruct (st_is_dir st) eqn:Ed; [|exact Hfresh]. destruct (st_is_dir (de_stat o)); [|exact Hfresh].
  intros [= <- _]. unfold nval. simpl. f_equal. apply digest_no_content, dir_no_content, Ed.
Qed.

Lemma replay_put_sim D next k p st D' next' : k <> KDelete ->
  apply_map src D next (k, p, Some st) = Some (D', next') -> honest_change D (k, p, Some st) = true ->
  replay_step (nview D) (notif_of (k, p, Some st)) = nview D'.
Proof.
  intros Hk E Hh. rewrite apply_map_put in E by exact Hk.
  destruct (written_entry D next p st) as [[e n]|] eqn:Ep; [|destruct k, (alookup p D); discriminate].
  assert (D' = aset p e (dcleared D p st)) as -> by (destruct k, (alookup p D); congruence).
  replace (notif_of (k, p, Some st)) with (if wants_content st then KAdd else k, p, Some (st, digest st (src p)))
    by (destruct k; reflexivity || congruence).
  rewrite replay_step_put by (destruct (wants_content st); [discriminate|exact Hk]).
  rewrite nview_cleared, <- (written_entry_nval _ _ _ _ _ _ _ Hk Hh Ep). apply nview_aset.
Qed.

Theorem replay_step_sim D next c D' next' :
  apply_map src D next c = Some (D', next') -> honest_change D c = true ->
  replay_step (nview D) (notif_of c) = nview D'.
Proof.
  destruct c as [[[] p] [st|]]; try (apply replay_put_sim; discriminate); simpl; try discriminate.
  all: intros [= <- _] _; apply nview_aremove_if.
Qed.

Lemma apply_all_spec : forall cs D next D' next' done e,
  apply_all src cs D next = (D', next', done, e) ->
  (exists rest, cs = done ++ rest /\ (e = false -> rest = [])) /\
  (honest_run src cs D next = true -> replay (map notif_of done) (nview D) = nview D').
Proof.
  induction cs as [|c cs IH]; intros D next D' next' done e E; simpl in E.
  - inversion E; subst. split; [exists []; auto|reflexivity].
  - destruct (apply_map src D next c) as [[D1 n1]|] eqn:Ea.
    + destruct (apply_all src cs D1 n1) as [[[D2 n2] dn] e2] eqn:Er. inversion E; subst.
      destruct (IH _ _ _ _ _ _ Er) as [(rest & -> & Hrest) Hrep]. split.
      * exists rest. split; auto.
      * intros Hh. unfold honest_run in Hh. cbn [honest_run_by] in Hh. rewrite Ea in Hh.
        apply andb_true_iff in Hh. destruct Hh as [Hh1 Hh2].
        simpl. unfold replay in *. simpl. rewrite (replay_step_sim _ _ _ _ _ Ea Hh1). exact (Hrep Hh2).
    + inversion E; subst. split; [exists (c :: cs); split; [reflexivity|discriminate]|reflexivity].
Qed.

End Sim.

Lemma dest_from_view : forall A i seen,
  map (fun kv => (fst kv, (de_stat (snd kv), de_bytes (snd kv)))) (dest_from A i seen)
  = map (fun e => (st_path (fst e), e)) A.
Proof.
  induction A as [|[st bs] A IH]; intros i seen; [reflexivity|].
  simpl. rewrite IH. reflexivity.
Qed.

Definition dview (D : dmap) (p : bytes) : option entry :=
  option_map (fun e => (de_stat e, de_bytes e)) (alookup p D).

Lemma alookup_keyed (A : list entry) p :
  alookup p (map (fun e => (st_path (fst e), e)) A) = efind p A.
Proof.
  induction A as [|e A IH]; [reflexivity|].
  simpl map. rewrite alookup_cons, IH. unfold efind. simpl. destruct (bytes_eqb (st_path (fst e)) p); reflexivity.
Qed.

Lemma dview_dest_of A p : dview (dest_of A) p = efind p A.
Proof.
  unfold dview, dest_of. rewrite <- alookup_map_val, dest_from_view. apply alookup_keyed.
Qed.

Lemma lookup_map_fst (E : list entry) p : lookup p (map fst E) = option_map fst (efind p E).
Proof.
  induction E as [|e E IH]; [reflexivity|]. unfold lookup, efind in *. simpl.
  destruct (bytes_eqb (st_path (fst e)) p); auto.
Qed.

Lemma efind_some p E e : efind p E = Some e -> In e E /\ st_path (fst e) = p.
Proof.
  unfold efind. intros Hf. apply find_some in Hf. destruct Hf as [H1 H2]. split; auto. apply bytes_eqb_eq; auto.
Qed.

Lemma efind_none p E : efind p E = None -> forall e, In e E -> st_path (fst e) <> p.
Proof.
  unfold efind. intros Hf e He Ep. pose proof (find_none _ _ Hf _ He) as H1. simpl in H1.
  rewrite Ep, bytes_eqb_refl in H1. discriminate.
Qed.

Lemma efind_in_sorted E e : sorted (map fst E) -> In e E -> efind (st_path (fst e)) E = Some e.
Proof.
  intros HS He. destruct (efind (st_path (fst e)) E) as [e'|] eqn:Ef.
  - apply efind_some in Ef. destruct Ef as [He' Ep]. f_equal.
    clear -HS He He' Ep. induction E as [|x E IH]; [destruct He|].
    simpl in HS. apply sorted_inv in HS. destruct HS as [HS Hx].
    destruct He as [->|He], He' as [->|He']; auto.
    + exfalso. specialize (Hx (fst e') (in_map fst _ _ He')). unfold plt in Hx.
      rewrite <- Ep, compare_path_refl in Hx. discriminate.
    + exfalso. specialize (Hx (fst e) (in_map fst _ _ He)). unfold plt in Hx.
      rewrite Ep, compare_path_refl in Hx. discriminate.
  - exfalso. eapply efind_none; eauto.
Qed.
