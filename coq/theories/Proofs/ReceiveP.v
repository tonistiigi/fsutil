(* Proofs about receive_abs (Model/AbsDest.v): along the run of the diff the abstract
   destination satisfies the invariant of DESIGN A.5 —
     paths already passed hold the source's entry (same identity, same bytes),
     paths not yet reached hold the old entry unless a removed root above them was passed —
   hence the transfer never fails, converges to the source's view, leaves every unchanged
   entry literally in place (stat, bytes, inode class), and the digests in the
   notifications are those of the bytes finally stored.
   Hard links: a new name shows the metadata of the inode it joins (AbsDest.link_stat), not the
   stat that was sent.  The invariant is therefore proved once, parametrised by two
   propositions [Mh] (=> links_meta B: link entries carry the metadata of their target) and
   [Xh] (=> link_xattrs_kept: a link target that stays in place has the source's xattrs):
   without them a passed hard-link path holds a non-directory with the source's bytes; with
   [Mh] also the source's identity key; with both, every hard-link change is honest
   (the destination shows exactly the stat that was announced). *)
From Coq Require Import List NArith Lia Bool Sorting.Sorted.
From FS Require Import Sx Model.Path Model.Stat Model.Diff Model.AbsDest
  Proofs.Lex Proofs.PathP Proofs.DiffP Proofs.DiffSpecP Proofs.AbsDestP.
Import ListNotations.
Open Scope N_scope.
Open Scope bool_scope.

Lemma links_ok_b_sound B : links_ok_b B = true -> links_ok B.
Proof.
  unfold links_ok_b, links_ok. rewrite forallb_forall. intros H sb bb Hin Hl.
  specialize (H _ Hin). simpl in H. rewrite Hl in H. simpl in H.
  apply existsb_exists in H. destruct H as ([st bt] & Ht & Hc). simpl in Hc.
  rewrite !andb_true_iff in Hc. destruct Hc as [[[[H1 H2] H3] H5] H4].
  apply bytes_eqb_eq in H1, H4. apply path_ltb_iff in H2. exists st, bt.
  repeat split; auto. intros Hr. rewrite Hr in H5. exact H5.
Qed.

Lemma identity_faithful_b_sound d A B : identity_faithful_b d A B = true -> identity_faithful d A B.
Proof.
  unfold identity_faithful_b, identity_faithful. rewrite forallb_forall.
  intros H sa ba sb bb Ha Hb Ep Hs Hr. specialize (H _ Ha). rewrite forallb_forall in H.
  specialize (H _ Hb). simpl in H. rewrite Ep, bytes_eqb_refl, Hs, Hr in H. simpl in H.
  apply bytes_eqb_eq; auto.
Qed.

Lemma same_file_DMetadata d a b : same_file d a b = true -> same_file DMetadata a b = true.
Proof. destruct d; auto. discriminate. Qed.

Lemma is_reg_not_dir st : is_reg st = true -> st_is_dir st = false.
Proof. unfold is_reg. rewrite !andb_true_iff, !negb_true_iff. tauto. Qed.

Lemma links_meta_b_sound B : links_meta_b B = true -> links_meta B.
Proof.
  unfold links_meta_b, links_meta. rewrite forallb_forall. intros H sb bb st bt Hb Hl Ht Ep.
  specialize (H _ Hb). simpl in H. rewrite Hl in H. simpl in H. rewrite forallb_forall in H.
  specialize (H _ Ht). simpl in H. rewrite Ep, bytes_eqb_refl in H. simpl in H.
  apply ino_meta_eqb_iff; auto.
Qed.

Lemma link_xattrs_kept_b_sound d A B : link_xattrs_kept_b d A B = true -> link_xattrs_kept d A B.
Proof.
  unfold link_xattrs_kept_b, link_xattrs_kept. rewrite forallb_forall.
  intros H sb bb st bt sa ba Hb Hl Ht Ep Ha Epa Hs.
  specialize (H _ Hb). simpl in H. rewrite Hl in H. simpl in H. rewrite forallb_forall in H.
  specialize (H _ Ht). simpl in H. rewrite Ep, bytes_eqb_refl in H. simpl in H. rewrite forallb_forall in H.
  specialize (H _ Ha). simpl in H. rewrite Epa, Ep, bytes_eqb_refl, Hs in H. simpl in H.
  apply xattrs_eqb_eq; auto.
Qed.

Lemma link_stat_same_file t st b :
  same_file DMetadata t st = true -> is_node st = true -> ino_meta_eq st b ->
  same_file DMetadata (link_stat t b) b = true.
Proof.
  intros Hs Hr (M1 & M2 & M3 & M4 & M5 & M6 & M7 & _).
  assert (Hrt : is_node t = true) by (rewrite (is_node_mode_eq t st (same_file_mode _ _ _ Hs)); exact Hr).
  pose proof (is_node_not_dir _ Hrt) as Hdt.
  apply same_file_iff in Hs. destruct Hs as (F1 & F2 & F3 & F4 & F5 & _ & Hnd). destruct (Hnd Hdt) as [F7 F8].
  unfold link_stat. rewrite Hrt. apply same_file_iff. simpl. repeat split; congruence.
Qed.

Lemma honest_change_nonlink D k p st : is_hardlink st = false -> honest_change D (k, p, Some st) = true.
Proof. intros Hl. unfold honest_change, honest_change_by. rewrite Hl. destruct k; reflexivity. Qed.

Lemma honest_change_link_intro D k p st t :
  alookup (st_linkname st) D = Some t -> link_stat (de_stat t) st = st -> honest_change D (k, p, Some st) = true.
Proof.
  intros Ht E. unfold honest_change, honest_change_by. rewrite Ht, E.
  assert (X : stat_eqb st st = true) by (apply stat_eqb_eq; reflexivity).
  rewrite X. destruct k; destruct (is_hardlink st); reflexivity.
Qed.

Section Conv.
Variable d : differ.
Variables A B : list entry.
Notation LA := (map fst A).
Notation LB := (map fst B).
Notation idf := (fun s : stat => s).
Notation D0 := (dest_of A).
Notation src := (src_of B).

Hypothesis HsA : sorted LA.
Hypothesis HcA : closed LA.
Hypothesis HsB : sorted LB.
Hypothesis HcB : closed LB.
Hypothesis Hlinks : links_ok B.
Hypothesis Hfaith : identity_faithful d A B.
Variable n0 : N.     (* inode classes >= n0 are new *)
(* honesty of the hard-link entries, as far as it is known *)
Variables Mh Xh : Prop.
Hypothesis Hmeta : Mh -> links_meta B.
Hypothesis Hxkept : Xh -> link_xattrs_kept d A B.

Notation removed_root := (removed_root idf LA LB).
Notation run := (run idf d LA LB).

Lemma Hflt : forall s : stat, st_is_dir (idf s) = st_is_dir s.
Proof. reflexivity. Qed.

Lemma D0_some p e : alookup p D0 = Some e -> In (de_stat e, de_bytes e) A /\ st_path (de_stat e) = p.
Proof.
  intros H. pose proof (dview_dest_of A p) as Hv. unfold dview in Hv. rewrite H in Hv. simpl in Hv.
  symmetry in Hv. apply efind_some in Hv. exact Hv.
Qed.

Lemma D0_in a : In a LA ->
  exists ba i, In (a, ba) A /\
    alookup (st_path a) D0 = Some {| de_stat := a; de_bytes := ba; de_ino := i |}.
Proof.
  intros Ha. apply in_map_iff in Ha. destruct Ha as ([a' ba] & E & Hin). simpl in E. subst a'.
  pose proof (dview_dest_of A (st_path a)) as Hv.
  pose proof (efind_in_sorted A (a, ba) HsA Hin) as Hf. simpl in Hf. rewrite Hf in Hv. unfold dview in Hv.
  destruct (alookup (st_path a) D0) as [[s b i]|]; simpl in Hv; [|discriminate].
  inversion Hv; subst. exists ba, i. auto.
Qed.

Lemma D0_stat p : option_map de_stat (alookup p D0) = lookup p LA.
Proof.
  rewrite lookup_map_fst, <- dview_dest_of. unfold dview. destruct (alookup p D0); reflexivity.
Qed.

Lemma D0_notin p : notin LA p -> alookup p D0 = None.
Proof.
  intros Hn. destruct (alookup p D0) as [e|] eqn:E; auto. apply D0_some in E. destruct E as [Hin Ep].
  exfalso. apply (Hn (de_stat e)); auto. apply (in_map fst) in Hin. exact Hin.
Qed.

Lemma D0_below_nondir a p :
  In a LA -> st_is_dir a = false -> above (st_path a) p = true -> alookup p D0 = None.
Proof.
  intros Ha Hd Hab. destruct (alookup p D0) as [e|] eqn:E; auto. apply D0_some in E. destruct E as [Hin Ep].
  apply (in_map fst) in Hin. simpl in Hin. apply above_iff in Hab. destruct Hab as [r Er].
  destruct (HcA _ Hin (st_path a) r) as (t & Ht & Et & Hdt); [congruence|].
  assert (t = a) by (apply (sorted_unique LA); auto). subst. congruence.
Qed.

Lemma B_efind b : In b LB -> exists bb, In (b, bb) B /\ efind (st_path b) B = Some (b, bb).
Proof.
  intros Hb. apply in_map_iff in Hb. destruct Hb as ([b' bb] & E & Hin). simpl in E. subst b'.
  exists bb. split; auto. apply (efind_in_sorted B (b, bb) HsB Hin).
Qed.

Lemma B_notin p : notin LB p -> efind p B = None.
Proof.
  intros Hn. destruct (efind p B) as [e|] eqn:E; auto. apply efind_some in E. destruct E as [Hin Ep].
  exfalso. apply (Hn (fst e)); auto. apply (in_map fst); auto.
Qed.

Definition done (R : list stat) (p : bytes) : Prop :=
  forall y, In y R -> compare_path p (st_path y) = Lt.

Lemma done_not_in R p : done R p -> In p (paths R) -> False.
Proof.
  intros Hd Hin. apply in_map_iff in Hin. destruct Hin as (y & <- & Hy). specialize (Hd _ Hy).
  rewrite compare_path_refl in Hd. discriminate.
Qed.

Notation listed p := (In p (paths LA) \/ In p (paths LB)).

Lemma listed_dec p : listed p \/ (notin LA p /\ notin LB p).
Proof.
  destruct (lookup p LA) as [a|] eqn:Ea; [|destruct (lookup p LB) as [b|] eqn:Eb].
  - left; left. apply lookup_some in Ea. destruct Ea as [Hin <-]. apply in_map, Hin.
  - left; right. apply lookup_some in Eb. destruct Eb as [Hin <-]. apply in_map, Hin.
  - right. split; [exact (lookup_none _ _ Ea)|exact (lookup_none _ _ Eb)].
Qed.

Definition hidden_done (R : list stat) (p : bytes) : Prop :=
  exists q, removed_root q /\ above (st_path q) p = true /\ done R (st_path q).

Notation unchanged := (AbsDest.unchanged d A B).

Notation fresh_target := (AbsDest.fresh_target d A B).
Notation fresh_entry := (AbsDest.fresh_entry B n0).

Definition is_link_target (p : bytes) : Prop :=
  exists l bl, In (l, bl) B /\ is_hardlink l = true /\ st_linkname l = p.

(* what a passed path holds: the source's entry — as far as the honesty of the sender is known *)
Definition veq (o : option dentry) (e : option entry) : Prop :=
  match o, e with
  | None, None => True
  | Some x, Some (sb, bb) =>
      ((is_hardlink sb = false \/ Mh) -> same_file DMetadata (de_stat x) sb = true) /\
      st_is_dir (de_stat x) = st_is_dir sb /\
      (is_reg sb = true -> de_bytes x = bb) /\
      (Mh -> Xh -> is_link_target (st_path sb) -> ino_meta_eq (de_stat x) sb)
  | _, _ => False
  end.

(* R: the entries of both listings not yet read; [done R p]: p lies before all of them.  Paths
   listed nowhere hold nothing (P0); a listed path that is done holds the source's entry (P1, with
   P3, P4, P6 saying which inode it is); an unread one holds the old entry, or nothing once a
   removed root above it is done (P2). *)
Record dinv (D : dmap) (R : list stat) : Prop := {
  dv_M : forall p, listed p -> In p (paths R) \/ done R p;
  dv_P0 : forall p, notin LA p -> notin LB p -> alookup p D = None;
  dv_P1 : forall p, listed p -> done R p -> veq (alookup p D) (efind p B);
  dv_P2a : forall p, In p (paths R) -> hidden_done R p -> alookup p D = None;
  dv_P2b : forall p, In p (paths R) -> ~ hidden_done R p -> alookup p D = alookup p D0;
  dv_P3 : forall p, done R p -> unchanged p -> alookup p D = alookup p D0;
  dv_P4 : forall p, done R p -> fresh_target p -> fresh_entry p (alookup p D);
  dv_P6 : forall p, done R p -> link_changed d A B p -> joined_entry B D p }.

Lemma link_before b : In b LB -> is_hardlink b = true -> compare_path (st_linkname b) (st_path b) = Lt.
Proof.
  intros Hb Hl. apply in_map_iff in Hb. destruct Hb as ([b' bb] & E & Hin). simpl in E. subst b'.
  destruct (Hlinks _ _ Hin Hl) as (st & bt & _ & Ep & Hlt & _). rewrite <- Ep. exact Hlt.
Qed.

(* the entries of the listings at one path are those of a removed root *)
Definition rrb (oa ob : option stat) : bool :=
  match oa with
  | Some a => st_is_dir a && match ob with None => true | Some b => negb (st_is_dir b) end
  | None => false
  end.

Lemma rrb_iff x : rrb (lookup x LA) (lookup x LB) = true <-> exists q, removed_root q /\ st_path q = x.
Proof.
  destruct (lookup x LA) as [a|] eqn:Ea.
  - apply lookup_some in Ea. destruct Ea as [Ha <-].
    pose proof (removed_root_b_iff idf LA LB HsB a Ha) as Hi. split.
    + intros Hr. exists a. split; auto. apply Hi, Hr.
    + intros (q & Hr & Eq). apply Hi. assert (q = a) by (apply (sorted_unique LA); auto; apply Hr). subst; auto.
  - split; [discriminate|]. intros (q & (Hq & _) & <-). rewrite lookup_in_sorted in Ea; auto. discriminate.
Qed.

(* the entries at path x, heads of the unread suffixes, are read: R' is what is left of R *)
Definition advance (x : bytes) (R R' : list stat) : Prop :=
  (forall y, In y R' -> In y R) /\ (forall p, In p (paths R) -> p = x \/ In p (paths R')) /\ In x (paths R) /\
  (forall y, In y R -> compare_path (st_path y) x <> Lt) /\ (forall y, In y R' -> compare_path x (st_path y) = Lt).

Lemma advance_heads hA hB A' B' x :
  hA ++ hB <> [] -> (forall h, In h (hA ++ hB) -> st_path h = x) ->
  (forall y, In y (A' ++ B') -> compare_path x (st_path y) = Lt) ->
  advance x ((hA ++ A') ++ hB ++ B') (A' ++ B').
Proof.
  intros Hne Hh Hlt. split; [|split; [|split; [|split; [|exact Hlt]]]].
  - intros y. rewrite !in_app_iff. tauto.
  - intros p Hp. apply in_map_iff in Hp. destruct Hp as (y & <- & Hy). rewrite !in_app_iff in Hy.
    destruct Hy as [[Hy|Hy]|[Hy|Hy]]; [left; apply Hh|right; apply in_map|left; apply Hh|right; apply in_map];
      apply in_or_app; auto.
  - destruct (hA ++ hB) as [|h l] eqn:E; [congruence|]. rewrite <- (Hh h (or_introl eq_refl)). apply in_map.
    assert (Hin : In h (hA ++ hB)) by (rewrite E; left; auto). rewrite !in_app_iff in *. tauto.
  - intros y Hy. rewrite !in_app_iff in Hy. destruct Hy as [[Hy|Hy]|[Hy|Hy]].
    1,3: rewrite (Hh y) by (apply in_or_app; auto); rewrite compare_path_refl; discriminate.
    all: rewrite compare_path_opp, Hlt by (apply in_or_app; auto); discriminate.
Qed.

Lemma unchanged_at p : unchanged p ->
  exists a b, lookup p LA = Some a /\ lookup p LB = Some b /\ same_file d a b = true.
Proof.
  intros (a & b & Ha & Hb & <- & Eb & Hs). exists a, b.
  split; [|split; [rewrite <- Eb|]]; auto using lookup_in_sorted.
Qed.

Lemma new_or_changed_at p (Q : stat -> Prop) :
  notin LA p \/ (exists a, In a LA /\ st_path a = p /\ Q a) -> forall a, lookup p LA = Some a -> Q a.
Proof.
  intros Hch a Ea. apply lookup_some in Ea. destruct Ea as [Ha Ea]. destruct Hch as [Hn|(a' & Ha' & Ea' & HQ)].
  - exfalso. eapply Hn; eauto.
  - assert (a' = a) by (apply (sorted_unique LA); auto; congruence). subst. auto.
Qed.

Lemma fresh_target_at p : fresh_target p ->
  exists b, lookup p LB = Some b /\ is_hardlink b = false /\
    forall a, lookup p LA = Some a -> same_file d a b = false /\ st_is_dir a && st_is_dir b = false.
Proof.
  intros (b & Hb & <- & Hl & Hch). exists b. split; [apply lookup_in_sorted; auto|]. split; auto.
  exact (new_or_changed_at _ _ Hch).
Qed.

Lemma link_changed_at p : link_changed d A B p ->
  exists b, lookup p LB = Some b /\ is_hardlink b = true /\
    forall a, lookup p LA = Some a -> same_file d a b = false.
Proof.
  intros (b & Hb & <- & Hl & Hch). exists b. split; [apply lookup_in_sorted; auto|]. split; auto.
  exact (new_or_changed_at _ _ Hch).
Qed.

(* the map once the entries at x are read: the subtree at x removed or not, then an entry
   written at x or not *)
Definition stepped (clr : bool) (w : option dentry) (x : bytes) (D : dmap) : dmap :=
  let D1 := if clr then aremove_if (at_or_below x) D else D in
  match w with Some e => aset x e D1 | None => D1 end.

Lemma alookup_stepped_at clr w x D :
  alookup x (stepped clr w x D) = match w with Some e => Some e | None => if clr then None else alookup x D end.
Proof.
  unfold stepped. destruct w, clr; rewrite ?alookup_aset_same, ?alookup_aremove_if, ?at_or_below_refl; reflexivity.
Qed.

Lemma alookup_stepped_other clr w x D p : x <> p ->
  alookup p (stepped clr w x D) = if clr && above x p then None else alookup p D.
Proof.
  intros Hne. unfold stepped. destruct w, clr; rewrite ?alookup_aset_other, ?alookup_aremove_if by exact Hne; auto.
  all: unfold at_or_below; apply bytes_eqb_neq in Hne; rewrite Hne; reflexivity.
Qed.

(* One step of the run: the subtree at x goes when x is a removed root not hidden already, and
   only then (or when it holds nothing anyway, below a non-directory of A); x itself ends up as
   claimed. *)
Lemma step_inv D R R' x clr w oa ob :
  dinv D R -> advance x R R' -> lookup x LA = oa -> lookup x LB = ob ->
  (rrb oa ob = true -> clr = true \/ hidden_done R x) ->
  (clr = true -> rrb oa ob = true \/ exists a, oa = Some a /\ st_is_dir a = false) ->
  let D' := stepped clr w x D in
  veq (alookup x D') (efind x B) ->
  (forall a b, oa = Some a -> ob = Some b -> same_file d a b = true -> alookup x D' = alookup x D0) ->
  (forall b, ob = Some b -> is_hardlink b = false ->
     (forall a, oa = Some a -> same_file d a b = false /\ st_is_dir a && st_is_dir b = false) ->
     fresh_entry x (alookup x D')) ->
  (forall b, ob = Some b -> is_hardlink b = true -> (forall a, oa = Some a -> same_file d a b = false) ->
     joined_entry B D' x) ->
  dinv D' R'.
Proof.
  intros [M P0 P1 P2a P2b P3 P4 P6] (Hsub & Hcov & Hx & Hmin & Hlt) <- <- C1 C2 D' E3 E5 E6 E7.
  assert (Hlt_frame : forall p, compare_path p x = Lt -> alookup p D' = alookup p D).
  { intros p Hp. unfold D'. rewrite alookup_stepped_other by (apply not_eq_sym, compare_path_lt_neq, Hp).
    destruct (above x p) eqn:Eab; [|rewrite andb_false_r; reflexivity].
    exfalso. eapply compare_path_asym; [exact Hp|apply above_lt, Eab]. }
  assert (Hcases : forall p, listed p -> done R' p -> (done R p /\ compare_path p x = Lt) \/ p = x).
  { intros p Hl Hd'. destruct (M p Hl) as [HinR|Hd].
    - right. destruct (Hcov _ HinR) as [->|HinR']; auto. destruct (done_not_in _ _ Hd' HinR').
    - left. split; auto. apply in_map_iff in Hx. destruct Hx as (y & <- & Hy). apply Hd; auto. }
  assert (HcasesB : forall p b, lookup p LB = Some b -> done R' p -> (done R p /\ compare_path p x = Lt) \/ p = x).
  { intros p b Eb. apply Hcases. right. apply lookup_some in Eb. destruct Eb as [Hb <-]. apply in_map, Hb. }
  assert (Hunread : forall p, In p (paths R') -> In p (paths R) /\ x <> p).
  { intros p Hp. apply in_map_iff in Hp. destruct Hp as (y & <- & Hy).
    split; [apply in_map, Hsub, Hy|apply compare_path_lt_neq, Hlt, Hy]. }
  assert (Hhid : forall p, hidden_done R' p -> hidden_done R p \/ (rrb (lookup x LA) (lookup x LB) = true /\ above x p = true)).
  { intros p (q & Hr & Hab & Hd'). destruct (Hcases _ (or_introl (in_map st_path _ _ (proj1 Hr))) Hd') as [[Hd _]|Hq].
    - left. exists q. auto.
    - right. split; [apply rrb_iff; exists q; auto|congruence]. }
  split.
  - (* M *)
    intros p Hin. destruct (M _ Hin) as [HinR|Hd]; [|right; intros y Hy; apply Hd, Hsub, Hy].
    destruct (Hcov _ HinR) as [->|HinR']; auto.
  - (* P0 *)
    intros p HnA HnB. destruct (bytes_eqb x p) eqn:Exp.
    + apply bytes_eqb_eq in Exp. subst p. rewrite (B_notin _ HnB) in E3. destruct (alookup x D'); [destruct E3|reflexivity].
    + unfold D'. rewrite alookup_stepped_other, (P0 p HnA HnB) by (apply bytes_eqb_neq, Exp).
      destruct (clr && above x p); reflexivity.
  - (* P1 *)
    intros p Hl Hd'. destruct (Hcases p Hl Hd') as [[Hd Hpx]| ->]; [rewrite Hlt_frame; auto|exact E3].
  - (* P2a *)
    intros p Hp' Hh'. destruct (Hunread _ Hp') as [Hp Hxp].
    unfold D'. rewrite alookup_stepped_other by exact Hxp.
    destruct (clr && above x p) eqn:Ec; auto. apply P2a; auto.
    destruct (Hhid _ Hh') as [Hh|[Hrr Hab]]; auto.
    destruct (C1 Hrr) as [->|(q & Hr & Hqx & Hd)]; [rewrite Hab in Ec; discriminate|].
    exists q. split; auto. split; auto. eapply above_trans; eauto.
  - (* P2b *)
    intros p Hp' Hnh'. destruct (Hunread _ Hp') as [Hp Hxp].
    assert (Hnh : ~ hidden_done R p).
    { intros (q & Hr & Hab & Hd). apply Hnh'. exists q. split; auto. split; auto. intros y Hy. apply Hd, Hsub, Hy. }
    unfold D'. rewrite alookup_stepped_other, (P2b _ Hp Hnh) by exact Hxp.
    destruct clr; [|reflexivity]. destruct (above x p) eqn:Eab; [|reflexivity]. simpl.
    destruct (C2 eq_refl) as [Hrr|(a & Ea & Hda)].
    + exfalso. apply rrb_iff in Hrr. destruct Hrr as (q & Hr & Eq). apply Hnh'. exists q. rewrite Eq. auto.
    + apply lookup_some in Ea. destruct Ea as [Ha <-]. symmetry. exact (D0_below_nondir a p Ha Hda Eab).
  - (* P3 *)
    intros p Hd' Hu. destruct (unchanged_at _ Hu) as (a & b & Ea & Eb & Hs).
    destruct (HcasesB p b Eb Hd') as [[Hd Hpx]| ->]; [rewrite Hlt_frame; auto|eauto].
  - (* P4 *)
    intros p Hd' Hft. destruct (fresh_target_at _ Hft) as (b & Eb & Hl & Hch).
    destruct (HcasesB p b Eb Hd') as [[Hd Hpx]| ->]; [rewrite Hlt_frame; auto|eauto].
  - (* P6 *)
    intros p Hd' Hlc. destruct (link_changed_at _ Hlc) as (b & Eb & Hl & Hch).
    destruct (HcasesB p b Eb Hd') as [[Hd Hpx]| ->]; [|eauto].
    destruct (P6 p Hd Hlc) as (b' & e & t & Hb' & Ep & He & Ht & Hi).
    exists b', e, t. split; auto. split; auto. rewrite !Hlt_frame; auto.
    apply lookup_some in Eb. destruct Eb as [Hb Eb].
    assert (b' = b) by (apply (sorted_unique LB); auto; congruence). subst b'.
    eapply compare_path_trans; [|exact Hpx]. rewrite <- Ep. apply link_before; auto.
Qed.

Lemma done_before D R x p :
  dinv D R -> (forall y, In y R -> compare_path (st_path y) x <> Lt) ->
  compare_path p x = Lt -> In p (paths LA) \/ In p (paths LB) -> done R p.
Proof.
  intros HD Hmin Hpx Hin. destruct (dv_M _ _ HD _ Hin) as [HinR|Hd]; auto.
  apply in_map_iff in HinR. destruct HinR as (y & <- & Hy). exfalso. apply (Hmin _ Hy). exact Hpx.
Qed.

Lemma not_hidden_in_B R b : In b LB -> ~ hidden_done R (st_path b).
Proof.
  intros Hb (q & Hr & Hab & _). apply above_iff in Hab. destruct Hab as [r Er].
  eapply (removed_root_no_B idf LA LB HsB HcB Hflt); eauto.
Qed.

Lemma head_lookup D R b :
  dinv D R -> In (st_path b) (paths R) -> In b LB -> alookup (st_path b) D = alookup (st_path b) D0.
Proof.
  intros HD Hx Hb. apply (dv_P2b _ _ HD); [exact Hx|apply not_hidden_in_B; auto].
Qed.

Lemma new_entry_equiv b e :
  In b LB -> de_stat e = b ->
  (forall bb, In (b, bb) B -> is_reg b = true -> de_bytes e = bb) ->
  veq (Some e) (efind (st_path b) B).
Proof.
  intros Hb Es Hbytes. destruct (B_efind _ Hb) as (bb & Hin & Ef). rewrite Ef. simpl. rewrite Es.
  split; [intros _; apply same_file_refl|]. split; [reflexivity|].
  split; [intros Hr; apply Hbytes; auto|]. intros _ _ _. apply ino_meta_eq_refl.
Qed.

Lemma link_entry_equiv b e t :
  In b LB -> is_hardlink b = true -> de_stat e = link_stat (de_stat t) b ->
  (forall bb, In (b, bb) B -> is_reg b = true -> de_bytes e = bb) ->
  (Mh -> same_file DMetadata (link_stat (de_stat t) b) b = true) ->
  (Mh -> Xh -> link_stat (de_stat t) b = b) ->
  veq (Some e) (efind (st_path b) B).
Proof.
  intros Hb Hl Es Hbytes Hkey Hexact. destruct (B_efind _ Hb) as (bb & Hin & Ef). rewrite Ef. simpl. rewrite Es.
  split; [intros [X|X]; [congruence|auto]|].
  split.
  { rewrite (link_stat_not_dir _ _ Hl). symmetry. apply is_node_not_dir. apply is_hardlink_node; auto. }
  split; [intros Hr; apply Hbytes; auto|].
  intros X Y _. rewrite (Hexact X Y). apply ino_meta_eq_refl.
Qed.

Lemma src_at b bb : In (b, bb) B -> src (st_path b) = bb.
Proof.
  intros Hin. unfold src_of. pose proof (efind_in_sorted B (b, bb) HsB Hin) as Ef. simpl in Ef. rewrite Ef. reflexivity.
Qed.

Lemma not_hardlink_wants st : is_reg st = true -> is_hardlink st = false -> wants_content st = true.
Proof.
  intros Hr H. unfold is_hardlink in H. rewrite (is_reg_is_node _ Hr) in H. unfold wants_content. rewrite Hr.
  simpl in *. apply negb_false_iff in H. exact H.
Qed.

(* the target of a hard-link entry lies at an earlier path (links_ok), so it has been written
   when the entry is reached *)
Lemma link_target D R b :
  dinv D R -> (forall y, In y R -> compare_path (st_path y) (st_path b) <> Lt) ->
  In b LB -> is_hardlink b = true ->
  exists t, alookup (st_linkname b) D = Some t /\ st_is_dir (de_stat t) = false /\
            (forall bb, In (b, bb) B -> is_reg b = true -> de_bytes t = bb) /\
            (Mh -> same_file DMetadata (link_stat (de_stat t) b) b = true) /\
            (Mh -> Xh -> link_stat (de_stat t) b = b).
Proof.
  intros HD Hmin Hb Hl. destruct (B_efind _ Hb) as (bb & Hin & _).
  destruct (Hlinks _ _ Hin Hl) as (st & bt & Hint & Ep & Hlt & Hreg & Hrr & Ebt).
  assert (Hls : listed (st_path st)) by (right; apply (in_map st_path), (in_map fst _ _ Hint)).
  pose proof (dv_P1 _ _ HD _ Hls (done_before D R _ _ HD Hmin Hlt Hls)) as Hv.
  pose proof (efind_in_sorted B (st, bt) HsB Hint) as Ef. simpl in Ef. rewrite Ef in Hv.
  rewrite Ep in Hv. destruct (alookup (st_linkname b) D) as [t|]; [|destruct Hv].
  destruct Hv as (Hs & Hdir & Hb2 & Hmx). exists t. split; auto. split; [|split; [|split]].
  - rewrite Hdir. apply is_node_not_dir; auto.
  - intros bb' Hin' Hrb. rewrite (Hb2 (Hrr Hrb)). subst bt.
    pose proof (efind_in_sorted B (b, bb) HsB Hin) as E1. pose proof (efind_in_sorted B (b, bb') HsB Hin') as E2.
    simpl in E1, E2. congruence.
  - intros X. apply (link_stat_same_file _ st); auto.
    apply (Hmeta X b bb st bt); auto.
  - intros X Y. apply link_stat_honest. eapply ino_meta_eq_trans.
    + apply Hmx; auto. exists b, bb. auto.
    + apply (Hmeta X b bb st bt); auto.
Qed.

Lemma unchanged_meta a b :
  In a LA -> In b LB -> st_path a = st_path b -> same_file d a b = true ->
  Mh -> Xh -> is_link_target (st_path b) -> ino_meta_eq a b.
Proof.
  intros Ha Hb Ep Hs X Y (l & bl & Hl & Hhl & Eln).
  destruct (Hlinks _ _ Hl Hhl) as (st & bt & Hint & Ept & _ & Hreg & _).
  assert (st = b) by (apply (sorted_unique LB); auto; [apply (in_map fst _ _ Hint)|congruence]). subst st.
  apply in_map_iff in Ha. destruct Ha as ([a' ba] & E1 & Ha). simpl in E1. subst a'.
  pose proof (Hxkept Y l bl b bt a ba Hl Hhl Hint Ept Ha Ep Hs) as Exa.
  assert (Hda : st_is_dir a = false).
  { rewrite (same_file_is_dir _ _ _ Hs). apply is_node_not_dir; auto. }
  destruct (same_file_fields _ _ _ Hs) as (_ & F1 & F2 & F3 & F4 & F5 & _ & Hnd). destruct (Hnd Hda) as [F7 F8].
  unfold ino_meta_eq. repeat split; auto.
Qed.

Lemma written_entry_ok D R b next :
  dinv D R -> (forall y, In y R -> compare_path (st_path y) (st_path b) <> Lt) -> In b LB -> n0 <= next ->
  exists e n1, written_entry src D next (st_path b) b = Some (e, n1) /\
    veq (Some e) (efind (st_path b) B) /\ n0 <= n1 /\
    (Mh -> Xh -> forall k, honest_change D (k, st_path b, Some b) = true) /\
    (is_hardlink b = false -> de_stat e = b /\
       ((forall o, alookup (st_path b) D = Some o -> st_is_dir b && st_is_dir (de_stat o) = false) -> n0 <= de_ino e)) /\
    (is_hardlink b = true -> exists t, alookup (st_linkname b) D = Some t /\ de_ino e = de_ino t /\
                                       de_bytes e = de_bytes t /\ de_stat e = link_stat (de_stat t) b).
Proof.
  intros HD Hmin Hb Hnx. unfold written_entry.
  destruct (alookup (st_path b) D) as [o|]; [destruct (st_is_dir b && st_is_dir (de_stat o)) eqn:Edd|].
  1:{ (* a directory re-stamped in place *)
      apply andb_true_iff in Edd. destruct Edd as [Ed1 Ed2].
      assert (Ehl : is_hardlink b = false) by (unfold is_hardlink, is_node; rewrite Ed1; reflexivity).
      eexists; eexists. split; [reflexivity|]. split.
      { apply (new_entry_equiv b); auto. simpl. intros bb _ Hr. apply is_reg_not_dir in Hr. congruence. }
      split; [exact Hnx|]. split; [intros _ _ k; apply honest_change_nonlink; auto|].
      split; [|congruence]. intros _. split; [reflexivity|]. intros Ho. specialize (Ho o eq_refl). rewrite Ed1, Ed2 in Ho. discriminate. }
  all: unfold new_inode; destruct (is_hardlink b) eqn:Ehl;
    [ destruct (link_target D _ b HD Hmin Hb Ehl) as (t & Et & Hdt & Hbt & Hkey & Hexact); rewrite Et, Hdt;
      eexists; eexists; split; [reflexivity|]; split; [apply (link_entry_equiv b _ t); auto|];
      split; [exact Hnx|]; split; [intros X Y k; apply (honest_change_link_intro D k (st_path b) b t Et); auto|];
      split; [discriminate|]; intros _; exists t; auto
    | eexists; eexists; split; [reflexivity|]; split;
      [ apply new_entry_equiv; auto; simpl; intros bb Hin Hr; rewrite (not_hardlink_wants _ Hr Ehl); apply src_at; auto |];
      split; [etransitivity; [exact Hnx|apply N.le_add_r]|];
      split; [intros _ _ k; apply honest_change_nonlink; auto|];
      split; [intros _; split; [reflexivity|intros _; exact Hnx]|discriminate] ].
Qed.

Lemma put_step D R R' b next :
  dinv D R -> advance (st_path b) R R' -> In b LB -> n0 <= next ->
  (forall a, lookup (st_path b) LA = Some a -> same_file d a b = false) ->
  let c := (if lookup (st_path b) LA then KModify else KAdd, st_path b, Some b) in
  exists D' n1, apply_map src D next c = Some (D', n1) /\ n0 <= n1 /\ dinv D' R' /\
                (Mh -> Xh -> honest_change D c = true).
Proof.
  intros HD Hadv Hb Hnx Hch c. pose proof Hadv as (_ & _ & Hx & Hmin & _).
  destruct (written_entry_ok D _ b next HD Hmin Hb Hnx) as (e & n1 & Ep & Hveq & Hn1 & Hhc & Hnl & Hjoin).
  assert (Hst : option_map de_stat (alookup (st_path b) D) = lookup (st_path b) LA)
    by (rewrite (head_lookup D _ b HD Hx Hb); apply D0_stat).
  set (oa := lookup (st_path b) LA) in *.
  set (clr := match oa with Some a => negb (Bool.eqb (st_is_dir a) (st_is_dir b)) | None => false end).
  assert (Eap : apply_map src D next c = Some (stepped clr (Some e) (st_path b) D, n1)).
  { unfold c, stepped, clr. rewrite apply_map_put, Ep by (destruct oa; discriminate). unfold dcleared, cleared.
    destruct (alookup (st_path b) D) as [o|]; simpl in Hst; rewrite <- Hst; [destruct (Bool.eqb _ _)|]; reflexivity. }
  exists (stepped clr (Some e) (st_path b) D), n1. split; [exact Eap|]. split; [exact Hn1|]. split; [|intros X Y; exact (Hhc X Y _)].
  apply (step_inv D R R' (st_path b) clr (Some e) oa (Some b) HD Hadv eq_refl (lookup_in_sorted LB b HsB Hb)).
  - unfold clr. destruct oa as [a|]; [|discriminate]. simpl. destruct (st_is_dir a), (st_is_dir b); auto.
  - unfold clr. destruct oa as [a|]; [|discriminate]. simpl.
    destruct (st_is_dir a) eqn:Eda, (st_is_dir b); simpl; try discriminate; eauto.
  - rewrite alookup_stepped_at. exact Hveq.
  - intros a b' Ea [= <-] Hs. rewrite (Hch a Ea) in Hs. discriminate.
  - intros b' [= <-] Hl Hfr. destruct (Hnl Hl) as [Es Hino].
    exists e, b. rewrite alookup_stepped_at. repeat split; auto. apply Hino.
    intros o Ho. rewrite Ho in Hst. rewrite andb_comm. apply (Hfr (de_stat o)). symmetry. exact Hst.
  - intros b' [= <-] Hl _. destruct (Hjoin Hl) as (t & Ht & Hi). exists b, e, t. split; auto. split; auto.
    rewrite alookup_stepped_at. split; auto. split; auto.
    pose proof (link_before b Hb Hl) as Hlb.
    rewrite alookup_stepped_other by (apply not_eq_sym, compare_path_lt_neq, Hlb).
    destruct (above (st_path b) (st_linkname b)) eqn:Ab; [|rewrite andb_false_r; auto].
    exfalso. eapply compare_path_asym; [exact Hlb|apply above_lt, Ab].
Qed.

(* the writer applies all of [out] without error and ends in a state where everything is read *)
Definition completes (out : list change) (D : dmap) (next : N) : Prop :=
  exists D' next', apply_all src out D next = (D', next', out, false) /\ dinv D' [] /\
                   (Mh -> Xh -> honest_run src out D next = true).

Lemma completes_cons c out D next D1 n1 :
  apply_map src D next c = Some (D1, n1) -> (Mh -> Xh -> honest_change D c = true) ->
  completes out D1 n1 -> completes (c :: out) D next.
Proof.
  intros Eap Hhc (D' & n' & Eall & HD' & Hhon). exists D', n'.
  split; [cbn [apply_all]; rewrite Eap, Eall; reflexivity|]. split; [exact HD'|].
  intros X Y. unfold honest_run. cbn [honest_run_by]. rewrite Eap. apply andb_true_iff. split; [exact (Hhc X Y)|exact (Hhon X Y)].
Qed.

Lemma run_apply A' B' out : run A' B' out ->
  forall D next, n0 <= next -> dinv D (A' ++ B') -> completes out D next.
Proof.
  induction 1 as [|p oa ob cs A' B' out EA EB Hem Hlt R IH]; intros D next Hnx HD.
  { exists D, next. split; [reflexivity|]. split; [exact HD|reflexivity]. }
  destruct (emits_heads idf d LA LB p oa ob cs EA EB Hem) as [Hne Hp].
  pose proof (advance_heads (heads oa) (heads ob) A' B' p Hne Hp Hlt) as Hadv.
  pose proof Hadv as (_ & _ & Hx & Hmin & _).
  destruct Hem as [a Hh|a Hh|b|a b Hs|a b Hs].
  - (* delete suppressed: nothing is applied, the path holds nothing already *)
    apply (IH D next Hnx).
    assert (Hhd : hidden_done ((heads (Some a) ++ A') ++ heads None ++ B') p).
    { destruct Hh as (q & Hq & Hr & Hab). exists q. split; auto. split; auto.
      eapply done_before; eauto; [apply above_lt; auto|]. left. apply (in_map st_path); auto. }
    apply (step_inv D _ _ p false None _ _ HD Hadv EA EB); try (intros; discriminate); [right; exact Hhd|].
    rewrite alookup_stepped_at, (dv_P2a _ _ HD _ Hx Hhd), (B_notin _ (lookup_none _ _ EB)). exact I.
  - apply (completes_cons (KDelete, p, None) out D next (stepped true None p D) next eq_refl (fun _ _ => eq_refl)),
      (IH _ next Hnx).
    apply (step_inv D _ _ p true None _ _ HD Hadv EA EB); try (intros; discriminate); [left; reflexivity| |].
    + intros _. simpl. destruct (st_is_dir a) eqn:Ed; eauto.
    + rewrite alookup_stepped_at, (B_notin _ (lookup_none _ _ EB)). exact I.
  - destruct (lookup_some _ _ _ EB) as [Hb <-].
    destruct (put_step D _ _ b next HD Hadv Hb Hnx) as (D1 & n1 & Eap & Hn1 & HD1 & Hhc); [rewrite EA; discriminate|].
    rewrite EA in Eap, Hhc. exact (completes_cons _ _ _ _ _ _ Eap Hhc (IH D1 n1 Hn1 HD1)).
  - (* unchanged: the old entry stays *)
    destruct (lookup_some _ _ _ EB) as [Hb <-]. destruct (lookup_some _ _ _ EA) as [Ha E].
    apply (IH D next Hnx).
    apply (step_inv D _ _ (st_path b) false None _ _ HD Hadv EA EB); try (intros; discriminate).
    + simpl. rewrite (same_file_is_dir _ _ _ Hs). destruct (st_is_dir b); discriminate.
    + rewrite alookup_stepped_at, (head_lookup D _ b HD Hx Hb).
      destruct (D0_in a Ha) as (ba & i & HinA & ED0). rewrite E in ED0. rewrite ED0.
      destruct (B_efind _ Hb) as (bb & HinB & Ef). rewrite Ef. simpl. split; [|split; [|split]].
      * intros _. eapply same_file_DMetadata; eauto.
      * eapply same_file_is_dir; eauto.
      * intros Hr. eapply Hfaith; eauto.
      * intros X Y Ht. apply unchanged_meta; auto.
    + intros _ _ _ _ _. rewrite alookup_stepped_at. apply (head_lookup D _ b HD Hx Hb).
    + intros b' [= <-] _ Hfr. destruct (Hfr a eq_refl). simpl in Hs. congruence.
    + intros b' [= <-] _ Hfr. specialize (Hfr a eq_refl). simpl in Hs. congruence.
  - destruct (lookup_some _ _ _ EB) as [Hb <-].
    destruct (put_step D _ _ b next HD Hadv Hb Hnx) as (D1 & n1 & Eap & Hn1 & HD1 & Hhc); [rewrite EA; intros ? [= <-]; exact Hs|].
    rewrite EA in Eap, Hhc. exact (completes_cons _ _ _ _ _ _ Eap Hhc (IH D1 n1 Hn1 HD1)).
Qed.

End Conv.

Section Top.
Variable H : bytes -> bytes.
Variable hdr : stat -> bytes.
Variable d : differ.
Variables A B : list entry.
Notation LA := (map fst A).
Notation LB := (map fst B).
Notation idf := (fun s : stat => s).

Lemma receive_abs_unfold m :
  let LA' := match m with Fresh => LA | Merge => [] end in
  let cs := diff idf d LA' LB in
  forall D n dn e, apply_all (src_of B) cs (dest_of A) (N.of_nat (length A)) = (D, n, dn, e) ->
  receive_abs H hdr m d A B =
  {| ds_map := D; ds_reqs := filter_map req_of dn;
     ds_notifs := map (notif_of (src_of B) H hdr) dn; ds_changes := dn; ds_err := e |}.
Proof. intros LA' cs D n dn e E. unfold receive_abs. fold LA'. fold cs. rewrite E. reflexivity. Qed.

(* C05, part without hypotheses on the listings: whatever the listings, whatever the mode, even
   when the transfer stops on an error — provided every hard-link entry the writer applies
   carries the metadata of the inode it joins — replaying the notifications on the consumer's
   view of the old destination gives the consumer's view of the destination as the writer
   left it *)
Theorem notify_replays_any m :
  recv_honest m d A B = true ->
  let r := receive_abs H hdr m d A B in
  replay (ds_notifs r) (nview H hdr (dest_of A)) = nview H hdr (ds_map r).
Proof.
  intros Hh. cbv zeta.
  destruct (apply_all (src_of B) (diff idf d (match m with Fresh => LA | Merge => [] end) LB)
              (dest_of A) (N.of_nat (length A))) as [[[D n] dn] e] eqn:E.
  rewrite (receive_abs_unfold m D n dn e E). simpl.
  destruct (apply_all_spec _ H hdr _ _ _ _ _ _ _ E) as [_ Hr]. exact (Hr Hh).
Qed.

Hypothesis HwA : wf_listing LA.
Hypothesis HwB : wf_listing LB.
Hypothesis Hlinks : links_ok B.
Hypothesis Hfaith : identity_faithful d A B.

Section Honesty.
Variables Mh Xh : Prop.
Hypothesis Hmeta : Mh -> links_meta B.
Hypothesis Hxkept : Xh -> link_xattrs_kept d A B.

Lemma dinv_init n0 : dinv d A B n0 Mh Xh (dest_of A) (LA ++ LB).
Proof.
  destruct HwA as [HsA HcA]. destruct HwB as [HsB HcB].
  assert (Hnot : forall p, done (LA ++ LB) p -> notin LA p /\ notin LB p).
  { intros p Hd. split; intros s Hs Ep.
    - specialize (Hd s (in_or_app _ _ _ (or_introl Hs))). rewrite Ep, compare_path_refl in Hd. discriminate.
    - specialize (Hd s (in_or_app _ _ _ (or_intror Hs))). rewrite Ep, compare_path_refl in Hd. discriminate. }
  split.
  - intros p Hp. left. unfold paths. rewrite map_app. apply in_or_app. exact Hp.
  - intros p HnA _. apply D0_notin, HnA.
  - intros p _ Hd. destruct (Hnot p Hd) as [HnA HnB].
    rewrite (D0_notin A p HnA), (B_notin B p HnB). exact I.
  - intros p _ (q & (Hq & _) & _ & Hd). destruct (Hnot _ Hd) as [HnA _]. exfalso. eapply HnA; eauto.
  - reflexivity.
  - intros p Hd (a & _ & Ha & _ & Ea & _). destruct (Hnot _ Hd) as [HnA _]. exfalso. eapply HnA; eauto.
  - intros p Hd (b & Hb & Eb & _). destruct (Hnot _ Hd) as [_ HnB]. exfalso. eapply HnB; eauto.
  - intros p Hd (b & Hb & Eb & _). destruct (Hnot _ Hd) as [_ HnB]. exfalso. eapply HnB; eauto.
Qed.

(* the transfer does not fail, hands exactly the diff to the writer, converges to the
   source's view — as far as the honesty of its hard-link entries is known — and leaves every
   unchanged entry literally in place; with an honest sender every hard-link change is honest *)
Theorem receive_fresh_gen :
  let r := receive_abs H hdr Fresh d A B in
  ds_err r = false /\
  ds_changes r = diff idf d LA LB /\
  (forall p, veq B Mh Xh (alookup p (ds_map r)) (efind p B)) /\
  (forall p, unchanged d A B p -> alookup p (ds_map r) = alookup p (dest_of A)) /\
  (forall p, fresh_target d A B p -> fresh_entry B (N.of_nat (length A)) p (alookup p (ds_map r))) /\
  (Mh -> Xh -> recv_honest Fresh d A B = true) /\
  (forall p, link_changed d A B p -> joined_entry B (ds_map r) p).
Proof.
  cbv zeta. destruct HwA as [HsA HcA]. destruct HwB as [HsB HcB].
  pose proof (diff_run idf d LA LB HsA HsB HcB (fun s => eq_refl)) as Hrun.
  destruct (run_apply d A B HsA HcA HsB HcB Hlinks Hfaith (N.of_nat (length A)) Mh Xh Hmeta Hxkept _ _ _ Hrun
              (dest_of A) (N.of_nat (length A)) (N.le_refl _) (dinv_init _))
    as (D' & n' & Eap & HD' & Hhon).
  rewrite (receive_abs_unfold Fresh D' n' _ false Eap). simpl.
  split; auto. split; auto. split; [|split; [|split; [|split]]].
  - intros p. destruct (listed_dec A B p) as [Hl|[HnA HnB]]; [apply (dv_P1 _ _ _ _ _ _ _ _ HD' p Hl); intros y []|].
    rewrite (dv_P0 _ _ _ _ _ _ _ _ HD' p HnA HnB), (B_notin B p HnB). exact I.
  - intros p Hu. apply (dv_P3 _ _ _ _ _ _ _ _ HD'); auto. intros y [].
  - intros p Hf. apply (dv_P4 _ _ _ _ _ _ _ _ HD'); auto. intros y [].
  - exact Hhon.
  - intros p Hl. apply (dv_P6 _ _ _ _ _ _ _ _ HD'); auto. intros y [].
Qed.

End Honesty.

(* without any hypothesis on the metadata of the hard-link entries: no claim on the identity key
   a hard-link path ends up with (AbsDest.view_equiv_w) *)
Theorem receive_fresh_weak :
  let r := receive_abs H hdr Fresh d A B in
  ds_err r = false /\
  ds_changes r = diff idf d LA LB /\
  (forall p, view_equiv_w (alookup p (ds_map r)) (efind p B)) /\
  (forall p, unchanged d A B p -> alookup p (ds_map r) = alookup p (dest_of A)) /\
  (forall p, fresh_target d A B p -> fresh_entry B (N.of_nat (length A)) p (alookup p (ds_map r))).
Proof.
  cbv zeta.
  destruct (receive_fresh_gen False False (fun X : False => match X with end) (fun X : False => match X with end))
    as (H1 & H2 & H3 & H4 & H5 & _).
  split; auto. split; auto. split; [|auto].
  intros p. specialize (H3 p). destruct (alookup p _) as [x|], (efind p B) as [[sb bb]|]; simpl in *; auto.
  destruct H3 as (K1 & K2 & K3 & _). auto.
Qed.

(* a hard-link entry that is new or changed ends up as one more name of the inode shown at the
   path it names — inode class, bytes and THAT inode's metadata — whatever it announced *)
Theorem hard_link_joins_inode_proof :
  let r := receive_abs H hdr Fresh d A B in
  forall p, link_changed d A B p -> joined_entry B (ds_map r) p.
Proof.
  cbv zeta.
  destruct (receive_fresh_gen False False (fun X : False => match X with end) (fun X : False => match X with end))
    as (_ & _ & _ & _ & _ & _ & Hj). exact Hj.
Qed.

(* honest sender (hard-link entries carry the metadata of the entry they name): every path ends
   up with the source's identity key *)
Theorem receive_fresh_proof :
  links_meta B ->
  let r := receive_abs H hdr Fresh d A B in
  ds_err r = false /\
  ds_changes r = diff idf d LA LB /\
  (forall p, view_equiv (alookup p (ds_map r)) (efind p B)) /\
  (forall p, unchanged d A B p -> alookup p (ds_map r) = alookup p (dest_of A)) /\
  (forall p, fresh_target d A B p -> fresh_entry B (N.of_nat (length A)) p (alookup p (ds_map r))).
Proof.
  intros Hmeta. cbv zeta.
  destruct (receive_fresh_gen True False (fun _ => Hmeta) (fun X : False => match X with end))
    as (H1 & H2 & H3 & H4 & H5 & _).
  split; auto. split; auto. split; [|auto].
  intros p. specialize (H3 p). destruct (alookup p _) as [x|], (efind p B) as [[sb bb]|]; simpl in *; auto.
  destruct H3 as (K1 & _ & K3 & _). auto.
Qed.

(* ... and when moreover the link targets that stay in place have the source's xattrs, every
   hard-link change is honest: the destination shows exactly the stat that was announced *)
Theorem receive_fresh_honest :
  links_meta B -> link_xattrs_kept d A B -> recv_honest Fresh d A B = true.
Proof.
  intros Hmeta Hxk.
  destruct (receive_fresh_gen True True (fun _ => Hmeta) (fun _ => Hxk)) as (_ & _ & _ & _ & _ & Hh & _). auto.
Qed.

End Top.

Section Reqs.
Variable d : differ.
Variables LA LB : list stat.
Notation idf := (fun s : stat => s).

Lemma run_reqs A' B' out : run idf d LA LB A' B' out ->
  filter_map req_of out = map st_path (filter (fun b => wants_content b && negb (unchanged_b d LA b)) B').
Proof.
  induction 1 as [|p oa ob cs A' B' out EA EB Hem Hlt R IH]; [reflexivity|].
  destruct Hem as [a Hh|a Hh|b|a b Hs|a b Hs]; try exact IH.
  all: apply lookup_some in EB; destruct EB as [_ <-]; simpl; unfold unchanged_b at 1; rewrite EA.
  - simpl. rewrite andb_true_r. destruct (wants_content b); simpl; rewrite IH; reflexivity.
  - simpl in Hs. rewrite Hs. simpl. rewrite andb_false_r. exact IH.
  - simpl in Hs. rewrite Hs. simpl. rewrite andb_true_r. destruct (wants_content b); simpl; rewrite IH; reflexivity.
Qed.

End Reqs.

Section Top2.
Variable H : bytes -> bytes.
Variable hdr : stat -> bytes.
Variable d : differ.
Variables A B : list entry.
Notation LA := (map fst A).
Notation LB := (map fst B).
Notation idf := (fun s : stat => s).
Notation notif_of := (notif_of (src_of B) H hdr).

Lemma receive_abs_proj m :
  let r := receive_abs H hdr m d A B in
  ds_reqs r = filter_map req_of (ds_changes r) /\ ds_notifs r = map notif_of (ds_changes r).
Proof.
  cbv zeta.
  destruct (apply_all (src_of B) (diff idf d (match m with Fresh => LA | Merge => [] end) LB)
              (dest_of A) (N.of_nat (length A))) as [[[D n] dn] e] eqn:E.
  rewrite (receive_abs_unfold H hdr d A B m D n dn e E). simpl. auto.
Qed.

Definition notif_path (n : notif) : bytes := snd (fst n).

Lemma notif_of_path c : notif_path (notif_of c) = ch_path c.
Proof. destruct c as [[k p] [st|]]; destruct k; reflexivity. Qed.

Lemma notifs_of_diff flt LA' :
  sorted LA' -> wf_listing LB -> (forall s, st_is_dir (flt s) = st_is_dir s) ->
  (forall n, In n (map notif_of (diff flt d LA' LB)) <-> exists c, spec_change flt d LA' LB c /\ n = notif_of c) /\
  NoDup (map notif_path (map notif_of (diff flt d LA' LB))).
Proof.
  intros HsA [HsB HcB] Hf. split.
  - intros n. rewrite in_map_iff.
    split; [intros (c & <- & Hc)|intros (c & Hc & ->)]; exists c; split; auto;
      apply (diff_changes_exact_proof flt d LA' LB); auto.
  - rewrite map_map, (map_ext _ ch_path notif_of_path). apply diff_nodup_proof; auto.
Qed.

Lemma notif_in_diff flt LA' k p st dg :
  sorted LA' -> wf_listing LB -> (forall s, st_is_dir (flt s) = st_is_dir s) ->
  In (k, p, Some (st, dg)) (map notif_of (diff flt d LA' LB)) ->
  In st LB /\ st_path st = p /\ dg = AbsDest.digest H hdr st (src_of B p).
Proof.
  intros HsA HwB Hf Hin. apply (notifs_of_diff flt LA' HsA HwB Hf) in Hin. destruct Hin as (c & Hc & En).
  destruct c as [[[] pc] [sc|]]; simpl in Hc, En; try tauto; inversion En; subst; destruct Hc as (Hst & Ep & _); auto.
Qed.

(* the digest announced for an entry of B whose bytes the destination holds (under the stat st') *)
Lemma digest_of_view p st st' bb o :
  sorted LB -> In (st, bb) B -> st_path st = p -> is_reg st' = is_reg st -> view_equiv_w o (Some (st', bb)) ->
  exists e, o = Some e /\
    AbsDest.digest H hdr st (src_of B p) = H (hdr st ++ (if wants_content st then de_bytes e else [])) /\
    (is_hardlink st' = false -> same_file DMetadata (de_stat e) st' = true).
Proof.
  intros HsB Hin Ep Er Hv. destruct o as [e|]; [|destruct Hv]. destruct Hv as (Hkey & _ & Hbytes).
  exists e. split; auto. split; auto. unfold AbsDest.digest. destruct (wants_content st) eqn:Ew; auto.
  rewrite Hbytes, <- Ep, (src_at B HsB st bb Hin); auto.
  rewrite Er. unfold wants_content in Ew. apply andb_true_iff in Ew. tauto.
Qed.

Hypothesis HwA : wf_listing LA.
Hypothesis HwB : wf_listing LB.
Hypothesis Hlinks : links_ok B.
Hypothesis Hfaith : identity_faithful d A B.

Notation r := (receive_abs H hdr Fresh d A B).

Theorem reqs_exact_proof : ds_reqs r = reqs_spec d LA LB.
Proof.
  destruct (receive_abs_proj Fresh) as [E1 _]. rewrite E1.
  destruct (receive_fresh_weak H hdr d A B HwA HwB Hlinks Hfaith) as (_ & -> & _).
  destruct HwA as [HsA HcA]. destruct HwB as [HsB HcB].
  apply (run_reqs d LA LB LA LB). apply diff_run; auto.
Qed.

Theorem notify_exact_proof :
  ds_err r = false /\
  ds_notifs r = map notif_of (diff idf d LA LB) /\
  (forall n, In n (ds_notifs r) <-> exists c, spec_change idf d LA LB c /\ n = notif_of c) /\
  NoDup (map notif_path (ds_notifs r)).
Proof.
  destruct (receive_abs_proj Fresh) as [_ E2].
  destruct (receive_fresh_weak H hdr d A B HwA HwB Hlinks Hfaith) as (He & Ec & _).
  rewrite Ec in E2. split; auto. split; auto. rewrite E2. apply notifs_of_diff; auto. apply HwA.
Qed.

(* the digest announced for a path is the hash of the header of the stat as sent followed by
   the bytes that the destination finally holds there (header only when no content is sent) *)
Theorem notify_digest_proof k p st dg :
  In (k, p, Some (st, dg)) (ds_notifs r) ->
  exists e, alookup p (ds_map r) = Some e /\
            dg = H (hdr st ++ (if wants_content st then de_bytes e else [])).
Proof.
  intros Hin. destruct notify_exact_proof as (_ & En & _). rewrite En in Hin.
  destruct (notif_in_diff idf LA k p st dg (proj1 HwA) HwB (fun _ => eq_refl) Hin) as (Hst & Ep & ->).
  destruct (receive_fresh_weak H hdr d A B HwA HwB Hlinks Hfaith) as (_ & _ & Hview & _).
  destruct (B_efind B (proj1 HwB) st Hst) as (bb & HinB & Ef).
  specialize (Hview p). rewrite <- Ep in Hview at 2. rewrite Ef in Hview.
  destruct (digest_of_view p st st bb _ (proj1 HwB) HinB Ep eq_refl Hview) as (e & -> & Hd & _). eauto.
Qed.

End Top2.

Lemma reqs_spec_unchanged d LA LB p :
  sorted LA -> sorted LB ->
  (exists a b, In a LA /\ In b LB /\ st_path a = p /\ st_path b = p /\ same_file d a b = true) ->
  ~ In p (reqs_spec d LA LB).
Proof.
  intros HsA HsB (a & b & Ha & Hb & Ea & Eb & Hs) Hin. unfold reqs_spec in Hin.
  apply in_map_iff in Hin. destruct Hin as (b' & Ep & Hf). apply filter_In in Hf. destruct Hf as [Hb' Hc].
  assert (b' = b) by (apply (sorted_unique LB); auto; congruence). subst b'.
  apply andb_true_iff in Hc. destruct Hc as [_ Hc]. apply negb_true_iff in Hc.
  unfold unchanged_b in Hc. rewrite Eb, <- Ea, (lookup_in_sorted LA a HsA Ha) in Hc. congruence.
Qed.

Lemma reqs_spec_none LA LB : reqs_spec DNone LA LB = map st_path (filter wants_content LB).
Proof.
  unfold reqs_spec. f_equal. apply filter_ext. intros b. unfold unchanged_b.
  destruct (lookup (st_path b) LA); simpl; rewrite andb_true_r; reflexivity.
Qed.

Lemma dest_from_ino_bound : forall A i (seen : amap N) bound,
  (forall p j, alookup p seen = Some j -> j < bound) -> i + N.of_nat (length A) <= bound ->
  forall p e, alookup p (dest_from A i seen) = Some e -> de_ino e < bound.
Proof.
  induction A as [|[st bs] A IH]; intros i seen bound Hseen Hb p e He; [discriminate|].
  simpl dest_from in He. rewrite alookup_cons in He.
  set (ino := if is_hardlink st then match alookup (st_linkname st) seen with Some j => j | None => i end else i) in *.
  assert (Hino : ino < bound).
  { unfold ino. simpl length in Hb. rewrite Nat2N.inj_succ in Hb.
    destruct (is_hardlink st); [|lia]. destruct (alookup (st_linkname st) seen) as [j|] eqn:Ej; [eauto|lia]. }
  destruct (bytes_eqb (st_path st) p).
  - inversion He; subst. exact Hino.
  - eapply (IH (i + 1) ((st_path st, ino) :: seen) bound); eauto.
    + intros q j Hq. rewrite alookup_cons in Hq. destruct (bytes_eqb (st_path st) q); [inversion Hq; subst; auto|eauto].
    + simpl length in Hb. rewrite Nat2N.inj_succ in Hb. lia.
Qed.

Lemma dest_of_ino_bound A p e : alookup p (dest_of A) = Some e -> de_ino e < N.of_nat (length A).
Proof.
  apply (dest_from_ino_bound A 0 [] (N.of_nat (length A))); [discriminate|lia].
Qed.

Lemma same_file_set_path d a p b : same_file d (set_path a p) b = same_file d a b.
Proof. destruct d; reflexivity. Qed.

Lemma dest_listing_same flt R : forall B,
  (forall sb bb, In (sb, bb) B ->
     exists x, alookup (st_path sb) R = Some x /\ same_file DMetadata (de_stat x) (flt sb) = true) ->
  Forall2 (fun a b => st_path a = st_path b /\ same_file DMetadata a (flt b) = true)
    (map fst (dest_listing B R)) (map fst B).
Proof.
  induction B as [|[sb bb] B IH]; intros Hent; unfold dest_listing; cbn [map fst]; constructor.
  - destruct (Hent sb bb (or_introl eq_refl)) as (x & -> & Hs). cbn [fst]. rewrite same_file_set_path. auto.
  - apply IH. intros sb' bb' Hin. apply (Hent sb' bb'). right; auto.
Qed.

(* after a transfer from an honest sender the destination, listed again, shows at every path
   the identity key of the source: a second synchronisation of the unchanged source requests
   nothing, notifies nothing and touches nothing *)
Theorem resync_after_transfer_noop_proof (H : bytes -> bytes) (hdr : stat -> bytes) d A B :
  wf_listing (map fst A) -> wf_listing (map fst B) -> links_ok B -> identity_faithful d A B ->
  links_meta B ->
  let r := receive_abs H hdr Fresh d A B in
  let A' := dest_listing B (ds_map r) in
  (forall p, (exists x, alookup p (ds_map r) = Some x) <-> (exists e, In e A' /\ st_path (fst e) = p)) /\
  receive_abs H hdr Fresh DMetadata A' B =
  {| ds_map := dest_of A'; ds_reqs := []; ds_notifs := []; ds_changes := []; ds_err := false |}.
Proof.
  intros HwA HwB Hl Hf Hm. cbv zeta.
  destruct (receive_fresh_proof H hdr d A B HwA HwB Hl Hf Hm) as (_ & _ & Hv & _). cbv zeta in Hv.
  destruct HwB as [HsB HcB].
  set (R := ds_map (receive_abs H hdr Fresh d A B)) in *.
  assert (Hent : forall sb bb, In (sb, bb) B ->
            exists x, alookup (st_path sb) R = Some x /\ same_file DMetadata (de_stat x) sb = true).
  { intros sb bb Hin. specialize (Hv (st_path sb)).
    pose proof (efind_in_sorted B (sb, bb) HsB Hin) as Ef. simpl in Ef. rewrite Ef in Hv.
    destruct (alookup (st_path sb) R) as [x|]; [|destruct Hv]. exists x. split; auto. apply Hv. }
  assert (Hpath : forall e, In e B ->
            st_path (fst (match alookup (st_path (fst e)) R with
                          | Some x => (set_path (de_stat x) (st_path (fst e)), de_bytes x)
                          | None => e end)) = st_path (fst e)).
  { intros e _. destruct (alookup (st_path (fst e)) R); reflexivity. }
  split.
  - intros p. split.
    + intros [x Hx]. specialize (Hv p). rewrite Hx in Hv.
      destruct (efind p B) as [e|] eqn:Ef; [|destruct Hv]. apply efind_some in Ef. destruct Ef as [He Ep].
      eexists. split; [unfold dest_listing; apply in_map; exact He|]. rewrite Hpath; auto.
    + intros (e' & He' & Ep). unfold dest_listing in He'. apply in_map_iff in He'.
      destruct He' as ([sb bb] & <- & Hin). rewrite Hpath in Ep by auto. simpl in Ep. subst p.
      destruct (Hent sb bb Hin) as (x & Hx & _). eauto.
  - unfold receive_abs. rewrite (resync_noop_gen _ _ _ _ (dest_listing_same (fun s => s) R B Hent)). reflexivity.
Qed.
