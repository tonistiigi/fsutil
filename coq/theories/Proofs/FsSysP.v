(* C03 — frame lemmas, part 2: one lemma per system call of the receiver.  A call whose path is
   relative to D, made of normal components, whose parent chain meets no symlink, and which
   does not follow the final component (or whose final component is no symlink either) is a
   step (FsReachP.v) that touches at most the one directory entry it names. *)
From Coq Require Import List Arith NArith Bool Lia ZifyN ZifyNat ZifyBool.
From FS Require Import Sx Model.Path Model.Fs Proofs.Lex Proofs.PathP Proofs.FsP Proofs.FsReachP Proofs.FsFrameP.
Import ListNotations.
Open Scope N_scope.
Open Scope bool_scope.

(* [DiskWriterFs.is_err], stated here on the result type of Model/Fs.v (convertible) *)
Definition rerr (r : result) : bool := match r with RErr _ => true | _ => false end.

Definition stat_ino_of (r : result) : option N := match r with RStat i _ => Some i | _ => None end.

Definition relpath (p : bytes) (cs : list bytes) : Prop :=
  p <> [] /\ is_abs p = false /\ ends_with_sep p = false /\ pcs p = cs /\ cs <> [] /\ Forall okname cs.

Lemma okname_forall cs : Forall okname cs <-> Forall normal cs /\ Forall nosep cs.
Proof. split; [exact (@Forall_and_inv _ normal nosep cs)|intros [H1 H2]; exact (Forall_and H1 H2)]. Qed.

Lemma filter_nonempty_normal cs : Forall normal cs -> filter nonempty cs = cs.
Proof.
  induction cs as [|c cs IH]; intros H; [reflexivity|]. inversion H as [|? ? (Hc & _) Hr]; subst.
  simpl. destruct c; [congruence|]. simpl. rewrite IH; auto.
Qed.

Lemma joinc_last_byte cs : okc cs -> exists pre x, joinc cs = pre ++ [x] /\ x <> sep.
Proof.
  intros (Hne & Hn & Hs).
  destruct cs as [|c0 cs0] using rev_ind; [congruence|]. clear IHcs0.
  apply Forall_app in Hn, Hs. destruct Hn as [_ Hn], Hs as [_ Hs].
  inversion Hn as [|? ? (Hc & _) _]; subst. inversion Hs as [|? ? Hcs _]; subst.
  destruct c0 as [|x bp _] using rev_ind; [congruence|].
  assert (Hx : x <> sep) by (intro; subst; apply Hcs; apply in_or_app; right; left; auto).
  destruct cs0 as [|c d].
  - exists bp, x. split; auto.
  - rewrite joinc_snoc by discriminate. exists (joinc (c :: d) ++ sep :: bp), x.
    rewrite <- app_assoc. split; auto.
Qed.

Lemma relpath_joinc cs : okc cs -> relpath (joinc cs) cs.
Proof.
  intros H. pose proof H as (Hne & Hn & Hs).
  destruct (okc_not_special cs H) as (H1 & _).
  destruct (okc_clean cs H) as (_ & H2).
  destruct (joinc_last_byte cs H) as (pre & x & E & Hx).
  repeat split; auto.
  - unfold ends_with_sep. rewrite E, rev_app_distr. simpl. apply N.eqb_neq. exact Hx.
  - unfold pcs. rewrite comps_joinc by auto. apply filter_nonempty_normal. exact Hn.
  - apply okname_forall. auto.
Qed.

Section Sys.
Variable D : N.
Notation reach := (reach D).
Notation wf := (wf D).
Notation step := (step D).

(* a relative path of fit names whose way meets no symlink resolves as the real walk does, unless
   the lookup gives up (NUL byte, fuel) *)
Lemma resolve_rel c f p pre n (follow : bool) :
  c_cwd c = D -> relpath p (pre ++ [n]) -> safe f D (if follow then pre ++ [n] else pre) ->
  resolve c f p follow = inr EINVAL \/ resolve c f p follow = inr ELOOP \/ walks_to f D pre n (resolve c f p follow).
Proof.
  intros Hc (Hp & Habs & Hsep & Hpcs & _ & Hok) Hs. apply okname_forall in Hok. destruct Hok as [Hn _].
  apply Forall_app in Hn. destruct Hn as [Hpre Hn]. apply Forall_inv in Hn.
  unfold resolve. destruct p as [|a p']; [congruence|].
  destruct (has_nul (a :: p')); [auto|].
  rewrite Hsep, Habs, Hpcs, Hc, orb_false_r.
  destruct (walk_real rfuel f (c_root c) n follow Hn pre D 0 Hpre Hs) as [-> | H]; auto.
  right; right. destruct (walk rfuel f (c_root c) D (pre ++ [n]) follow 0); exact H.
Qed.

(* the entry a path names *)
Definition names (f : fs) (cs : list bytes) (T : N -> bytes -> Prop) : Prop :=
  forall pre n dd, cs = pre ++ [n] -> rwalk f D pre = Some dd -> T dd n.

Lemma dentry_reach f pre dd n i : rwalk f D pre = Some dd -> blookup n (ents f dd) = Some i -> reach f dd /\ reach f i.
Proof.
  intros Hw Hb. pose proof (rwalk_inside D f pre dd Hw) as R. split; auto. exact (blookup_reach D f dd n i R Hb).
Qed.

Lemma call_failed T b f e (P : Prop) :
  wf f -> b <= f_next f -> step T b f (fst (f, RErr e)) /\ (rerr (snd (f, RErr e)) = false -> P).
Proof. intros W Hb. split; [apply step_refl; auto|discriminate]. Qed.

Lemma sys_lstat_fs c f p : fst (sys_lstat c f p) = f.
Proof.
  unfold sys_lstat. destruct (resolve_ino c f p false); [|reflexivity].
  destruct (get f n); reflexivity.
Qed.

Definition T2 (dd : N) (n1 n2 : bytes) : N -> bytes -> Prop := fun d m => d = dd /\ (m = n1 \/ m = n2).

(* a step that only touches entries of the directory at [pre] leaves the way to it alone *)
Lemma rwalk_parent_kept b f f' pre dd n1 n2 :
  wf f -> rwalk f D pre = Some dd -> is_dir f dd = true -> step (T2 dd n1 n2) b f f' ->
  rwalk f' D pre = Some dd.
Proof.
  intros W Hw Hd S. rewrite <- Hw. apply (rwalk_step D (T2 dd n1 n2) b f f' W S pre D (reach_refl D f)).
  apply (avoids_own_dir D (T2 dd n1 n2) f pre W). intros d m [-> _]. auto.
Qed.

Lemma step_move b f pre dd n1 n2 i :
  wf f -> b <= f_next f -> rwalk f D pre = Some dd -> is_dir f dd = true -> okname n2 -> n1 <> n2 ->
  blookup n1 (ents f dd) = Some i ->
  let f1 := del_ent f dd n1 in
  let f2 := match dir_of f1 dd with Some (_, es) => set_ents f1 dd (bset n2 i es) | None => f1 end in
  let f3 := if is_dir f i then set_parent f2 i dd else f2 in
  step (T2 dd n1 n2) b f f3 /\ blookup n2 (ents f3 dd) = Some i /\ blookup n1 (ents f3 dd) = None.
Proof.
  intros W Hb Hw Hd Hn2 Hne Hb1 f1 f2 f3.
  destruct (dentry_reach f pre dd n1 i Hw Hb1) as [Rdd Ri].
  destruct (wf_names D f W dd Rdd) as [Hnd _].
  set (es' := bset n2 i (bremove n1 (ents f dd))).
  assert (E2 : f2 = set_ents f dd es').
  { unfold f2, f1. rewrite (upd_ents_set_ents _ dd (bset n2 i)), del_ent_set_ents, set_ents_twice.
    rewrite ents_set_ents_same by exact Hd. reflexivity. }
  (* the moved inode has no other name here *)
  assert (Hcross : forall m, In (m, i) (bremove n1 (ents f dd)) -> is_dir f i = true -> False).
  { intros m Hm Hdi. apply (bremove_notin n1 (ents f dd) Hnd).
    destruct (wf_single D f W dd dd m n1 i Rdd Rdd (bremove_In _ _ _ Hm) (blookup_In _ _ _ Hb1) Hdi) as [_ <-].
    exact (in_map fst _ _ Hm). }
  assert (S2 : step (T2 dd n1 n2) b f f2).
  { rewrite E2. apply step_set_ents; auto.
    - intros m Hm. unfold es'. rewrite blookup_bset_other by (intros ->; apply Hm; split; auto).
      apply blookup_bremove_other. intros ->. apply Hm. split; auto.
    - apply bset_nodup, bremove_nodup, Hnd.
    - intros m x Hin. apply bset_In in Hin. destruct Hin as [[= -> ->]|Hin]; [right|left; exact (bremove_In _ _ _ Hin)].
      split; auto. split; [|left; exists n1; apply blookup_In, Hb1].
      intros Hdi n' Hin. apply bset_In in Hin. destruct Hin as [[= ->]|Hin]; auto. destruct (Hcross n' Hin Hdi). }
  assert (Hb2 : blookup n2 (ents f2 dd) = Some i).
  { rewrite E2, ents_set_ents_same by exact Hd. apply blookup_bset_same. }
  assert (Hb3 : blookup n1 (ents f2 dd) = None).
  { rewrite E2, ents_set_ents_same by exact Hd. unfold es'. rewrite blookup_bset_other by exact Hne.
    apply blookup_bremove_same, Hnd. }
  unfold f3. destruct (is_dir f i) eqn:Hdi; [|auto]. rewrite !ents_set_parent. split; auto.
  apply (step_trans D _ b f f2); auto. apply (step_set_parent D); auto.
  - exact (st_wf _ _ _ _ _ S2).
  - pose proof (st_next _ _ _ _ _ S2). lia.
  - apply (dentry_reach f2 pre dd n2 i); auto. apply (rwalk_parent_kept b f f2 pre dd n1 n2); auto.
  - intros ->. exact (wf_notD D f W dd n1 Rdd (blookup_In _ _ _ Hb1)).
Qed.

Lemma sys_remove_all_unfold c f p : p <> [] ->
  sys_remove_all c f p =
  if ends_with_dot p then (f, RErr EINVAL)
  else match resolve c f p false with
       | inr ENOENT => (f, ROk)
       | inr e => (f, RErr e)
       | inl r => match l_ino r with
                  | None => (f, ROk)
                  | Some _ => if is_nil (l_name r) then (f, RErr EBUSY) else (del_ent f (l_dir r) (l_name r), ROk)
                  end
       end.
Proof. intros H. destruct p; [congruence|reflexivity]. Qed.

Section Call.
Variables (T : N -> bytes -> Prop) (b : N) (c : ctx) (f : fs) (p : bytes) (pre : list bytes) (n : bytes).
Hypothesis W : wf f.
Hypothesis Hb : b <= f_next f.
Hypothesis Hc : c_cwd c = D.
Hypothesis Hrel : relpath p (pre ++ [n]).
Hypothesis Hsafe : safe f D pre.
Hypothesis HT : forall dd, rwalk f D pre = Some dd -> is_dir f dd = true -> T dd n.

Lemma call_okname : okname n.
Proof using Hrel.
  destruct Hrel as (_ & _ & _ & _ & _ & H). apply Forall_app in H. destruct H as [_ H]. inversion H as [|? ? Hn _]. exact Hn.
Qed.

Lemma nil_name : is_nil n = false.
Proof using Hrel. destruct call_okname as [(H & _) _]. clear - H. destruct n; [congruence|reflexivity]. Qed.

(* how the path resolves: the final component is followed only if [follow], and then must be no
   symlink either *)
Lemma resolve_final (follow : bool) : safe f D (if follow then pre ++ [n] else pre) ->
  (exists e, resolve c f p follow = inr e) \/
  (exists dd, rwalk f D pre = Some dd /\ is_dir f dd = true /\
     resolve c f p follow = inl {| l_dir := dd; l_name := n; l_ino := blookup n (ents f dd) |}).
Proof using Hc Hrel.
  intros Hs. clear - Hc Hrel Hs. destruct (resolve_rel c f p pre n follow Hc Hrel Hs) as [E|[E|H]]; eauto.
  unfold walks_to in H. destruct (rwalk f D pre) as [dd|]; [|destruct H; eauto].
  destruct (is_dir f dd) eqn:Hd; eauto.
Qed.

Lemma lstat_entry dd i : rwalk f D pre = Some dd -> blookup n (ents f dd) = Some i ->
  snd (sys_lstat c f p) = match get f i with Some nd => RStat i nd | None => RErr ENOENT end
  \/ snd (sys_lstat c f p) = RErr EINVAL \/ snd (sys_lstat c f p) = RErr ELOOP.
Proof using Hc Hrel Hsafe.
  intros Hw Eb. unfold sys_lstat, resolve_ino.
  destruct (resolve_rel c f p pre n false Hc Hrel Hsafe) as [E|[E|H]]; rewrite ?E; auto.
  unfold walks_to in H. rewrite Hw, (blookup_ents_dir f dd n i Eb), Eb in H. rewrite H.
  left. cbn [l_ino]. destruct (get f i); reflexivity.
Qed.

Lemma lstat_stat i nd : snd (sys_lstat c f p) = RStat i nd ->
  exists dd, rwalk f D pre = Some dd /\ is_dir f dd = true /\ blookup n (ents f dd) = Some i /\ get f i = Some nd.
Proof using Hc Hrel Hsafe.
  intros H. unfold sys_lstat, resolve_ino in H.
  destruct (resolve_final false Hsafe) as [[e He]|(dd & Hw & Hd & He)]; rewrite He in H; [discriminate|].
  cbn [l_ino] in H. destruct (blookup n (ents f dd)) as [j|] eqn:Eb; [|discriminate].
  destruct (get f j) as [nj|] eqn:Eg; [|discriminate]. injection H as <- <-. eauto 6.
Qed.

(* lstat said ENOENT: whatever the name leads to is no symlink *)
Lemma lstat_enoent_safe : snd (sys_lstat c f p) = RErr ENOENT -> safe f D (pre ++ [n]).
Proof using Hc Hrel Hsafe.
  intros H. apply safe_app. split; auto. intros j Hj. apply safe_unfold.
  destruct (blookup n (ents f j)) as [i|] eqn:Eb; auto. split; [|exact I].
  destruct (lstat_entry j i Hj Eb) as [E|[E|E]]; rewrite E in H; try discriminate.
  unfold is_link. destruct (get f i) as [[[] ?]|]; try reflexivity; discriminate.
Qed.

(* lstat said ENOENT although the entry is there: the inode record is missing *)
Lemma lstat_enoent_dangling : snd (sys_lstat c f p) = RErr ENOENT ->
  forall dd i, rwalk f D pre = Some dd -> blookup n (ents f dd) = Some i -> get f i = None.
Proof using Hc Hrel Hsafe.
  intros H dd i Hw Eb. destruct (lstat_entry dd i Hw Eb) as [E|[E|E]]; rewrite E in H; try discriminate.
  destruct (get f i); [discriminate|reflexivity].
Qed.

Lemma lstat_of_resolve dd i : resolve c f p false = inl {| l_dir := dd; l_name := n; l_ino := Some i |} ->
  stat_ino_of (snd (sys_lstat c f p)) = (match get f i with Some _ => Some i | None => None end).
Proof using.
  intros H. unfold sys_lstat, resolve_ino. rewrite H. simpl. destruct (get f i); reflexivity.
Qed.

Definition created (f' : fs) (k : ikind) : Prop :=
  exists dd m, rwalk f D pre = Some dd /\ is_dir f dd = true /\ blookup n (ents f dd) = None
            /\ blookup n (ents f' dd) = Some (f_next f) /\ get f' (f_next f) = Some {| i_kind := k; i_meta := m |}.

(* a new inode under the name: allocation, then one more entry in the parent *)
Lemma create_step isdir k mode dd : leaf k ->
  rwalk f D pre = Some dd -> is_dir f dd = true -> blookup n (ents f dd) = None ->
  let cr := create_at f {| l_dir := dd; l_name := n; l_ino := None |} isdir k mode in
  step T b f (fst cr) /\ created (fst cr) k /\ snd cr = f_next f.
Proof.
  intros Hl Hw Hd Hb0 cr. set (n0 := {| i_kind := k; i_meta := new_meta f dd isdir mode |}).
  change cr with (add_ent (fst (alloc f n0)) dd n (f_next f), f_next f). clear cr. cbn [fst snd].
  pose proof (rwalk_inside D f pre dd Hw) as Rdd. pose proof (reach_lt D f dd W Rdd) as Hlt.
  pose proof (step_alloc D T b f n0 W Hb Hl) as A. pose proof (ents_alloc D f n0 W Hl) as He.
  set (f1 := fst (alloc f n0)) in *.
  assert (Hr : forall j, reach f1 j <-> reach f j).
  { intros j. split; apply reach_same_ents; auto. }
  destruct (step_add_ent D T b f1 dd n (f_next f)) as [S B].
  - exact (st_wf _ _ _ _ _ A).
  - pose proof (st_next _ _ _ _ _ A). lia.
  - apply Hr, Rdd.
  - rewrite (is_dir_step D T b f f1 dd A Hlt). exact Hd.
  - exact call_okname.
  - rewrite He. exact Hb0.
  - exact (HT dd Hw Hd).
  - right. split; [|simpl; lia]. split; [lia|]. split; [|rewrite He; apply (ents_beyond D f _ W), N.le_refl].
    intros R. apply Hr in R. pose proof (reach_lt D f _ W R). lia.
  - split; [exact (step_trans D T b f f1 _ A S)|]. split; [|reflexivity].
    exists dd, (new_meta f dd isdir mode). repeat split; auto.
    rewrite add_ent_set_ents, get_set_ents_other by lia. exact (get_alloc_new f n0).
Qed.

Lemma sys_mkdir_step mode :
  let f' := fst (sys_mkdir c f p mode) in
  step T b f f' /\ (rerr (snd (sys_mkdir c f p mode)) = false -> exists d0, created f' (KDir d0 [])).
Proof.
  cbv zeta. unfold sys_mkdir.
  destruct (resolve_final false Hsafe) as [[e ->]|(dd & Hw & Hd & ->)]; [apply call_failed; auto|].
  cbn [l_ino l_dir]. destruct (blookup n (ents f dd)) eqn:Eb; [apply call_failed; auto|].
  destruct (create_step true (KDir dd []) (N.land mode mkdir_mask) dd eq_refl Hw Hd Eb) as (S & C & _).
  cbn [fst snd]. split; eauto.
Qed.

Lemma sys_mknod_step typ mode rdev :
  let f' := fst (sys_mknod c f p typ mode rdev) in
  step T b f f' /\ (rerr (snd (sys_mknod c f p typ mode rdev)) = false -> exists t r, created f' (KSpecial t r)).
Proof.
  cbv zeta. unfold sys_mknod.
  destruct (resolve_final false Hsafe) as [[e ->]|(dd & Hw & Hd & ->)]; [apply call_failed; auto|].
  cbn [l_ino l_dir]. destruct (blookup n (ents f dd)) eqn:Eb; [apply call_failed; auto|].
  set (rd := if (_ : bool) then rdev else 0).
  destruct (create_step false (KSpecial typ rd) (N.land mode perm_mask) dd I Hw Hd Eb) as (S & C & _).
  cbn [fst snd]. split; eauto.
Qed.

Lemma sys_symlink_step target :
  let f' := fst (sys_symlink c f target p) in
  step T b f f' /\ (rerr (snd (sys_symlink c f target p)) = false -> created f' (KLink target)).
Proof.
  cbv zeta. unfold sys_symlink. destruct target as [|t0 tr]; [apply call_failed; auto|].
  destruct (has_nul (t0 :: tr)); [apply call_failed; auto|].
  destruct (resolve_final false Hsafe) as [[e ->]|(dd & Hw & Hd & ->)]; [apply call_failed; auto|].
  cbn [l_ino l_dir]. destruct (blookup n (ents f dd)) eqn:Eb; [apply call_failed; auto|].
  destruct (create_step false (KLink (t0 :: tr)) 511 dd I Hw Hd Eb) as (S & C & _).
  cbn [fst snd]. split; eauto.
Qed.

(* open(O_WRONLY|O_CREAT) follows the final component: the whole path must be safe *)
Lemma sys_open_creat_step mode : safe f D (pre ++ [n]) ->
  let f' := fst (sys_open_wronly c f p true mode) in
  step T b f f' /\
  (rerr (snd (sys_open_wronly c f p true mode)) = false ->
   exists i, snd (sys_open_wronly c f p true mode) = RFd i /\
     ((f' = f /\ exists dd nd, rwalk f D pre = Some dd /\ blookup n (ents f dd) = Some i /\ get f i = Some nd /\ ktag (i_kind nd) = 1)
      \/ (i = f_next f /\ created f' (KFile [])))).
Proof.
  intros Hfull. cbv zeta. unfold sys_open_wronly.
  destruct (resolve_final true Hfull) as [[e ->]|(dd & Hw & Hd & ->)]; [apply call_failed; auto|].
  cbn [l_ino l_dir]. destruct (blookup n (ents f dd)) as [i|] eqn:Eb.
  - destruct (get f i) as [[[] m]|] eqn:Eg; try (apply call_failed; auto).
    split; [apply step_refl; auto|]. intros _. exists i. split; auto. left. split; auto.
    exists dd, {| i_kind := KFile data; i_meta := m |}. auto.
  - destruct (create_step false (KFile []) (N.land mode perm_mask) dd I Hw Hd Eb) as (S & C & E).
    destruct (create_at f _ false (KFile []) (N.land mode perm_mask)) as [f1 i1].
    cbn [fst snd] in *. split; auto. intros _. exists i1. auto.
Qed.

(* the inode the name leads to was made by the running operation, or is a directory *)
Definition target_ok : Prop :=
  forall dd i, rwalk f D pre = Some dd -> blookup n (ents f dd) = Some i -> b <= i \/ is_dir f i = true.

Lemma step_meta_at (follow : bool) i nd m' : safe f D (if follow then pre ++ [n] else pre) -> target_ok ->
  resolve_ino c f p follow = inl i -> get f i = Some nd -> step T b f (put f i (set_meta nd m')).
Proof using W Hb Hc Hrel.
  intros Hs Ht Hr Hg. unfold resolve_ino in Hr.
  destruct (resolve_final follow Hs) as [[e He]|(dd & Hw & Hd & He)]; rewrite He in Hr; [discriminate|].
  cbn [l_ino] in Hr. destruct (blookup n (ents f dd)) as [j|] eqn:Eb; [|discriminate]. injection Hr as ->.
  destruct (dentry_reach f pre dd n i Hw Eb) as [Rdd Ri].
  apply (step_put_keep D T b f i nd); eauto.
  - exact (reach_lt D f i W Ri).
  - intros ->. exact (wf_notD D f W dd n Rdd (blookup_In _ _ _ Eb)).
  - destruct (Ht dd i Hw Eb); auto.
Qed.

Lemma sys_lchown_step u g : target_ok -> step T b f (fst (sys_lchown c f p u g)).
Proof using W Hb Hc Hrel Hsafe.
  intros Ht. unfold sys_lchown. destruct (resolve_ino c f p false) as [i|e] eqn:Er; [|apply step_refl; auto].
  destruct (get f i) as [nd|] eqn:Eg; [|apply step_refl; auto].
  exact (step_meta_at false i nd _ Hsafe Ht Er Eg).
Qed.

Lemma sys_utimens_step t : target_ok -> step T b f (fst (sys_utimens c f p t)).
Proof using W Hb Hc Hrel Hsafe.
  intros Ht. unfold sys_utimens. destruct (resolve_ino c f p false) as [i|e] eqn:Er; [|apply step_refl; auto].
  destruct (get f i) as [nd|] eqn:Eg; [|apply step_refl; auto].
  exact (step_meta_at false i nd _ Hsafe Ht Er Eg).
Qed.

Lemma sys_lsetxattr_step key value : target_ok -> step T b f (fst (sys_lsetxattr c f p key value)).
Proof using W Hb Hc Hrel Hsafe.
  intros Ht. unfold sys_lsetxattr. destruct (resolve_ino c f p false) as [i|e] eqn:Er; [|apply step_refl; auto].
  destruct (get f i) as [nd|] eqn:Eg; [|apply step_refl; auto].
  destruct (negb (has_prefix pfx_user key) && negb (has_prefix pfx_trusted key)); [apply step_refl; auto|].
  destruct (has_prefix pfx_user key && _); [apply step_refl; auto|].
  exact (step_meta_at false i nd _ Hsafe Ht Er Eg).
Qed.

(* chmod follows the final component *)
Lemma sys_chmod_step mode : safe f D (pre ++ [n]) -> target_ok -> step T b f (fst (sys_chmod c f p mode)).
Proof using W Hb Hc Hrel Hsafe.
  intros Hfull Ht. unfold sys_chmod. destruct (resolve_ino c f p true) as [i|e] eqn:Er; [|apply step_refl; auto].
  destruct (get f i) as [nd|] eqn:Eg; [|apply step_refl; auto].
  exact (step_meta_at true i nd _ Hfull Ht Er Eg).
Qed.

Lemma del_step dd : rwalk f D pre = Some dd -> is_dir f dd = true ->
  step T b f (del_ent f dd n) /\ forall dd', rwalk f D pre = Some dd' -> blookup n (ents (del_ent f dd n) dd') = None.
Proof.
  intros Hw Hd.
  destruct (step_del_ent D T b f dd n W Hb (rwalk_inside D f pre dd Hw) Hd (HT dd Hw Hd)) as [S B].
  split; auto. intros dd' Hw'. rewrite Hw in Hw'. injection Hw' as <-. exact B.
Qed.

Lemma sys_remove_all_step :
  let f' := fst (sys_remove_all c f p) in
  step T b f f' /\ (f' = f \/ forall dd, rwalk f D pre = Some dd -> blookup n (ents f' dd) = None).
Proof.
  assert (Same : forall r : result, step T b f (fst (f, r)) /\ (fst (f, r) = f \/ forall dd, rwalk f D pre = Some dd -> blookup n (ents (fst (f, r)) dd) = None)).
  { intros r. split; [apply step_refl; auto|left; reflexivity]. }
  cbv zeta. rewrite sys_remove_all_unfold by (destruct Hrel; auto).
  destruct (ends_with_dot p); [apply Same|].
  destruct (resolve_final false Hsafe) as [[e ->]|(dd & Hw & Hd & ->)]; [destruct e; apply Same|].
  cbn [l_ino l_dir l_name]. destruct (blookup n (ents f dd)); [|apply Same].
  rewrite nil_name. cbn [fst]. destruct (del_step dd Hw Hd). auto.
Qed.

Lemma sys_unlink_step :
  let f' := fst (sys_unlink c f p) in
  step T b f f' /\ (rerr (snd (sys_unlink c f p)) = false -> forall dd, rwalk f D pre = Some dd -> blookup n (ents f' dd) = None).
Proof.
  cbv zeta. unfold sys_unlink.
  destruct (resolve_final false Hsafe) as [[e ->]|(dd & Hw & Hd & ->)]; [apply call_failed; auto|].
  cbn [l_ino l_dir l_name]. destruct (blookup n (ents f dd)) as [i|]; [|apply call_failed; auto].
  destruct (is_dir f i); [apply call_failed; auto|].
  cbn [fst snd]. destruct (del_step dd Hw Hd). auto.
Qed.

(* rmdir(2): an empty directory loses its entry *)
Lemma sys_rmdir_step :
  let f' := fst (sys_rmdir c f p) in
  step T b f f' /\ (rerr (snd (sys_rmdir c f p)) = false -> forall dd, rwalk f D pre = Some dd -> blookup n (ents f' dd) = None).
Proof.
  cbv zeta. unfold sys_rmdir.
  destruct (resolve_final false Hsafe) as [[e ->]|(dd & Hw & Hd & ->)]; [apply call_failed; auto|].
  cbn [l_ino l_dir l_name]. destruct (blookup n (ents f dd)) as [i|]; [|apply call_failed; auto].
  destruct (dir_of f i) as [[pp es]|]; [|apply call_failed; auto].
  rewrite nil_name. destruct (is_nil es); [|apply call_failed; auto].
  cbn [fst snd]. destruct (del_step dd Hw Hd). auto.
Qed.

(* open without O_CREAT: nothing changes; the descriptor is the file the name leads to *)
Lemma sys_open_nocreat_fs mode : fst (sys_open_wronly c f p false mode) = f.
Proof.
  unfold sys_open_wronly. destruct (resolve c f p true) as [r|e]; [|reflexivity].
  destruct (l_ino r) as [i|]; [|reflexivity].
  destruct (get f i) as [[k m]|]; [destruct k|]; reflexivity.
Qed.

Lemma sys_open_nocreat_fd mode i : safe f D (pre ++ [n]) -> snd (sys_open_wronly c f p false mode) = RFd i ->
  exists dd, rwalk f D pre = Some dd /\ blookup n (ents f dd) = Some i.
Proof using Hc Hrel.
  intros Hfull. unfold sys_open_wronly.
  destruct (resolve_final true Hfull) as [[e ->]|(dd & Hw & Hd & ->)]; [discriminate|].
  cbn [l_ino]. destruct (blookup n (ents f dd)) as [j|] eqn:Eb; [|discriminate].
  destruct (get f j) as [[[] m]|]; try discriminate. intros [= <-]. eauto.
Qed.

End Call.

(* a descriptor of a file the running operation made: pwrite, and O_TRUNC *)
Lemma step_put_file (T : N -> bytes -> Prop) b f i data m data' m' :
  wf f -> b <= f_next f -> i < f_next f -> i <> D -> b <= i ->
  get f i = Some {| i_kind := KFile data; i_meta := m |} ->
  step T b f (put f i {| i_kind := KFile data'; i_meta := m' |}).
Proof.
  intros W Hb Hr HD Hbi Hg. apply (step_put_keep D T b f i _ _ W Hb Hr HD Hg); auto. discriminate.
Qed.

Lemma fd_pwrite_step (T : N -> bytes -> Prop) b f i off data :
  wf f -> b <= f_next f -> i < f_next f -> i <> D -> b <= i -> step T b f (fst (fd_pwrite f i off data)).
Proof.
  intros W Hb Hr HD Hbi. unfold fd_pwrite.
  destruct (get f i) as [[[] m]|] eqn:Eg; try (apply step_refl; auto).
  destruct data as [|d0 dr]; [apply step_refl; auto|]. exact (step_put_file T b f i _ m _ _ W Hb Hr HD Hbi Eg).
Qed.

Lemma fd_truncate_step (T : N -> bytes -> Prop) b f i :
  wf f -> b <= f_next f -> i < f_next f -> i <> D -> b <= i -> step T b f (fd_truncate f i).
Proof.
  intros W Hb Hr HD Hbi. unfold fd_truncate.
  destruct (get f i) as [[[] m]|] eqn:Eg; try (apply step_refl; auto).
  exact (step_put_file T b f i _ m _ _ W Hb Hr HD Hbi Eg).
Qed.

(* link: the new name gets the inode the old path leads to (never through a final symlink) *)
Lemma sys_link_step (T : N -> bytes -> Prop) b c f oldp newp pre1 n1 pre n :
  wf f -> b <= f_next f -> c_cwd c = D ->
  relpath oldp (pre1 ++ [n1]) -> relpath newp (pre ++ [n]) -> safe f D pre1 -> safe f D pre ->
  (forall dd, rwalk f D pre = Some dd -> is_dir f dd = true -> T dd n) ->
  let f' := fst (sys_link c f oldp newp) in
  step T b f f' /\
  (rerr (snd (sys_link c f oldp newp)) = false ->
   exists dd dd1 i, rwalk f D pre = Some dd /\ is_dir f dd = true /\ rwalk f D pre1 = Some dd1 /\ blookup n1 (ents f dd1) = Some i
                    /\ blookup n (ents f dd) = None /\ blookup n (ents f' dd) = Some i).
Proof.
  intros W Hb Hc Ho Hn S1 S2 HT. cbv zeta. unfold sys_link, resolve_ino.
  destruct (resolve_final c f oldp pre1 n1 Hc Ho false S1) as [[e ->]|(dd1 & Hw1 & Hd1 & ->)]; [apply call_failed; auto|].
  cbn [l_ino]. destruct (blookup n1 (ents f dd1)) as [i|] eqn:Hbl1; [|apply call_failed; auto].
  destruct (resolve_final c f newp pre n Hc Hn false S2) as [[e ->]|(dd & Hw & Hd & ->)]; [apply call_failed; auto|].
  cbn [l_ino l_dir l_name]. destruct (blookup n (ents f dd)) eqn:Eb; [apply call_failed; auto|].
  destruct (is_dir f i) eqn:Hdi; [apply call_failed; auto|].
  destruct (dentry_reach f pre1 dd1 n1 i Hw1 Hbl1) as [_ Ri].
  destruct (step_add_ent D T b f dd n i W Hb (rwalk_inside D f pre dd Hw) Hd (call_okname newp pre n Hn) Eb (HT dd Hw Hd))
    as [S B]; auto.
  cbn [fst snd]. split; auto. intros _. exists dd, dd1, i. auto 7.
Qed.

(* rename inside one directory *)
Lemma sys_rename_step b c f oldp newp pre n1 n2 :
  wf f -> b <= f_next f -> c_cwd c = D ->
  relpath oldp (pre ++ [n1]) -> relpath newp (pre ++ [n2]) -> safe f D pre -> n1 <> n2 ->
  let f' := fst (sys_rename c f oldp newp) in
  forall dd, rwalk f D pre = Some dd ->
  step (T2 dd n1 n2) b f f' /\
  (rerr (snd (sys_rename c f oldp newp)) = false ->
   exists i, blookup n1 (ents f dd) = Some i /\ blookup n2 (ents f' dd) = Some i
             /\ (blookup n2 (ents f dd) <> Some i -> blookup n1 (ents f' dd) = None)
             /\ resolve c f oldp false = inl {| l_dir := dd; l_name := n1; l_ino := Some i |}).
Proof.
  intros W Hb Hc Ho Hn S Hne f' dd Hw. unfold f', sys_rename.
  destruct (resolve_final c f oldp pre n1 Hc Ho false S) as [[e He]|(dd1 & Hw1 & Hd1 & Hr1)];
    rewrite ?He, ?Hr1; [apply call_failed; auto|].
  destruct (resolve_final c f newp pre n2 Hc Hn false S) as [[e ->]|(dd2 & Hw2 & _ & ->)]; [apply call_failed; auto|].
  rewrite Hw in Hw1, Hw2. injection Hw1 as <-. injection Hw2 as <-.
  cbn [l_ino l_dir l_name].
  rewrite (nil_name oldp pre n1 Ho), (nil_name newp pre n2 Hn). cbn [orb].
  destruct (blookup n1 (ents f dd)) as [i|] eqn:Eb1; [|apply call_failed; auto].
  destruct (is_dir f i && is_ancestor rfuel f i dd); [apply call_failed; auto|].
  destruct (step_move b f pre dd n1 n2 i W Hb Hw Hd1 (call_okname newp pre n2 Hn) Hne Eb1) as (M1 & M2 & M3).
  destruct (blookup n2 (ents f dd)) as [j|] eqn:Eb2.
  - destruct (is_dir f j && is_ancestor rfuel f j dd); [apply call_failed; auto|].
    destruct (N.eqb_spec i j) as [<-|_].
    + split; [apply step_refl; auto|]. intros _. exists i. repeat split; auto. congruence.
    + destruct (dir_of f j) as [[pj esj]|].
      * destruct (negb (is_dir f i)); [apply call_failed; auto|].
        destruct (is_nil esj); [|apply call_failed; auto].
        cbn [fst snd]. split; auto. intros _. exists i. repeat split; auto.
      * destruct (is_dir f i); [apply call_failed; auto|].
        cbn [fst snd]. split; auto. intros _. exists i. repeat split; auto.
  - cbn [fst snd]. split; auto. intros _. exists i. repeat split; auto.
Qed.

End Sys.
