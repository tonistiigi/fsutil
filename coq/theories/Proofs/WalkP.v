(* Proofs about the walk model (Model/Walk.v).

   Everything is reduced to [rpr t], the list of (relative component path,
   lstat record) of all nodes of t in DFS order:
     rpr (T r kids) = ([], r) :: concat [ map (cons n) (rpr k) | (n,k) <- kids ].
   * entries_node / entries_root are [rpr] with components joined by '/'  (entries_node_joinc, entries_root_rpr);
   * membership in rpr is [tree_at]                                        (rpr_tree_at);
   * for a tree whose directories are strictly sorted bytewise, rpr is strictly ascending in the
     lexicographic order on component lists                                (rpr_sorted), which is
     ComparePath on the joined paths (PathP.compare_path_lex)             — "separator sorts lowest";
   * sort_tree produces such a tree with the same nodes                   (sort_tree_sorted, sort_tree_at);
   * the WalkDir sequence of a walk at the component list cs, [seq_at t cs] (cs = [] for the whole
     walk), is strictly ascending and holds exactly the nodes at or below cs other than the root
                                                                           (seq_at_sorted, seq_at_in);
   * the seenFiles map after a prefix of a sequence maps every inode to the first non-directory
     path carrying it                                                      (seen_after_first). *)
From Coq Require Import List NArith Bool Lia Sorting.Permutation Sorting.Sorted.
From FS Require Import Sx Model.Path Model.Stat Model.Tree Model.Walk Proofs.Lex Proofs.PathP Proofs.ListAux.
Import ListNotations.
Open Scope N_scope.
Open Scope bool_scope.

Section TreeInd.
  Variable P : tree -> Prop.
  Hypothesis HT : forall r kids, (forall n k, In (n, k) kids -> P k) -> P (T r kids).
  Fixpoint tree_ind' (t : tree) : P t :=
    match t with
    | T r kids =>
      HT r kids
         (fun n k H =>
            proj1 (Forall_forall (fun nk => P (snd nk)) kids)
              ((fix go (l : list (bytes * tree)) : Forall (fun nk => P (snd nk)) l :=
                  match l with
                  | [] => Forall_nil _
                  | nk :: l' => Forall_cons nk (tree_ind' (snd nk)) (go l')
                  end) kids) (n, k) H)
    end.
End TreeInd.

Lemma SS_NoDup {A} (R : A -> A -> Prop) l :
  (forall x, ~ R x x) -> StronglySorted R l -> NoDup l.
Proof.
  intros Hirr. induction l as [|x l IH]; intros HS; constructor; inversion HS; subst; auto.
  intros Hin. rewrite Forall_forall in H2. apply (Hirr x). auto.
Qed.

Lemma SS_tl {A} (R : A -> A -> Prop) l : StronglySorted R l -> StronglySorted R (tl l).
Proof. destruct l; simpl; auto. intros H; inversion H; auto. Qed.

Lemma map_flat_map {A B C} (g : B -> C) (f : A -> list B) l :
  map g (flat_map f l) = flat_map (fun a => map g (f a)) l.
Proof. induction l as [|a l IH]; simpl; auto. rewrite map_app, IH. reflexivity. Qed.

Lemma flat_map_ext_in {A B} (f g : A -> list B) l :
  (forall a, In a l -> f a = g a) -> flat_map f l = flat_map g l.
Proof.
  induction l as [|a l IH]; intros H; simpl; auto.
  rewrite H by (simpl; auto). rewrite IH; auto. intros; apply H; simpl; auto.
Qed.

Lemma in_map_fst {A B} (l : list (A * B)) a : In a (map fst l) <-> exists b, In (a, b) l.
Proof.
  rewrite in_map_iff. split; [intros ([a' b] & <- & H); eauto|intros (b & H); exists (a, b); auto].
Qed.

Lemma app_nonnil {A} (a b : list A) : a <> [] -> a ++ b <> [].
Proof. destruct a; [congruence|discriminate]. Qed.

Lemma lex_nil_cons n a : lex [] (n :: a) = Lt.
Proof. reflexivity. Qed.

Lemma compare_path_joinc a b :
  a <> [] -> b <> [] -> Forall nosep a -> Forall nosep b ->
  compare_path (joinc a) (joinc b) = lex a b.
Proof. intros. rewrite compare_path_lex, !comps_joinc; auto. Qed.

Lemma joinc_inj a b :
  a <> [] -> b <> [] -> Forall nosep a -> Forall nosep b -> joinc a = joinc b -> a = b.
Proof. intros Ha Hb Hna Hnb E. rewrite <- (comps_joinc a), <- (comps_joinc b), E; auto. Qed.

Lemma path_lt_irrefl p : ~ path_lt p p.
Proof. unfold path_lt. rewrite compare_path_refl. discriminate. Qed.

Lemma path_lt_asym p q : path_lt p q -> path_lt q p -> False.
Proof. unfold path_lt. intros H1 H2. rewrite compare_path_opp, H1 in H2. discriminate. Qed.

(* a directory sorts before everything below it *)
Lemma path_lt_below cs c : cs <> [] -> c <> [] -> Forall nosep (cs ++ c) ->
  path_lt (joinc cs) (joinc (cs ++ c)).
Proof.
  intros Hne Hc Hns. unfold path_lt. rewrite compare_path_joinc; auto using app_nonnil.
  - apply lex_prefix_lt, Hc.
  - apply Forall_app in Hns. apply Hns.
Qed.

(* ... hence in a strictly ascending listing it is reported first *)
Lemma sorted_dir_first P cs c : StronglySorted path_lt P ->
  cs <> [] -> c <> [] -> Forall nosep (cs ++ c) -> In (joinc cs) P -> In (joinc (cs ++ c)) P ->
  exists pre post, P = pre ++ joinc (cs ++ c) :: post /\ In (joinc cs) pre.
Proof.
  intros HS Hne Hc Hns Ha Hb.
  apply (SS_split_lt path_lt); auto using path_lt_irrefl, path_lt_below. exact path_lt_asym.
Qed.

Lemma listing_dir_first {A} (f : A -> bytes) L cs c : StronglySorted path_lt (map f L) ->
  cs <> [] -> c <> [] -> Forall nosep (cs ++ c) -> In (joinc cs) (map f L) -> In (joinc (cs ++ c)) (map f L) ->
  exists pre e post, L = pre ++ e :: post /\ f e = joinc (cs ++ c) /\ In (joinc cs) (map f pre).
Proof.
  intros HS Hne Hc Hns Ha Hb. destruct (sorted_dir_first _ cs c HS) as (pre & post & E & Hin); auto.
  apply map_eq_app in E. destruct E as (l1 & l' & -> & <- & E).
  apply map_eq_cons in E. destruct E as (x & l2 & -> & Ex & _). exists l1, x, l2. auto.
Qed.

Definition name_lt {A} (a b : bytes * A) : Prop := cmpb (fst a) (fst b) = Lt.

Lemma insert_kid_perm {A} (x : bytes * A) l : Permutation (insert_kid x l) (x :: l).
Proof.
  induction l as [|y l IH]; simpl; auto.
  destruct (cmp_bytes (fst x) (fst y)); auto.
  eapply perm_trans; [apply perm_skip, IH|apply perm_swap].
Qed.

Lemma isort_kids_perm {A} (l : list (bytes * A)) : Permutation (isort_kids l) l.
Proof.
  induction l as [|x l IH]; simpl; auto.
  eapply perm_trans; [apply insert_kid_perm|apply perm_skip; auto].
Qed.

Lemma insert_kid_sorted {A} (x : bytes * A) l :
  StronglySorted name_lt l -> ~ In (fst x) (map fst l) -> StronglySorted name_lt (insert_kid x l).
Proof.
  induction l as [|y l IH]; intros HS Hn; simpl.
  - constructor; constructor.
  - inversion HS as [|? ? HS' Hy]; subst. rewrite <- cmpb_is_cmp_bytes.
    destruct (cmpb (fst x) (fst y)) eqn:E.
    + exfalso. apply cmpb_eq in E. apply Hn. simpl. auto.
    + constructor; auto. constructor; [exact E|].
      rewrite Forall_forall in *. intros z Hz. unfold name_lt in *. eapply cmpb_trans; eauto.
    + constructor.
      * apply IH; auto. intro; apply Hn; simpl; auto.
      * rewrite Forall_forall in *. intros z Hz.
        apply (Permutation_in _ (insert_kid_perm x l)) in Hz. destruct Hz as [<-|Hz]; auto.
        unfold name_lt. rewrite cmpb_opp, E. reflexivity.
Qed.

Lemma isort_kids_sorted {A} (l : list (bytes * A)) :
  NoDup (map fst l) -> StronglySorted name_lt (isort_kids l).
Proof.
  induction l as [|x l IH]; intros H; simpl; [constructor|].
  inversion H; subst. apply insert_kid_sorted; auto.
  intro Hin. apply H2. eapply Permutation_in; [|exact Hin].
  apply Permutation_map, isort_kids_perm.
Qed.

Lemma isort_kids_in {A} (l : list (bytes * A)) x : In x (isort_kids l) <-> In x l.
Proof.
  split; apply Permutation_in; [apply isort_kids_perm|apply Permutation_sym, isort_kids_perm].
Qed.

Lemma tree_at_cons_inv r kids n cs r' :
  tree_at (T r kids) (n :: cs) r' <-> exists k, In (n, k) kids /\ tree_at k cs r'.
Proof.
  split.
  - intros H. inversion H; subst. eauto.
  - intros (k & H1 & H2). econstructor; eauto.
Qed.

Lemma tree_at_nil_inv t r : tree_at t [] r <-> t_rec t = r.
Proof.
  split.
  - intros H. inversion H; subst. reflexivity.
  - destruct t; simpl; intros <-. constructor.
Qed.

Lemma wf_kid r kids n k : wf_tree (T r kids) -> In (n, k) kids -> wf_name n /\ wf_tree k.
Proof.
  intros H Hi. inversion H as [? ? _ Hn _ Hk]; subst. rewrite Forall_forall in Hn, Hk.
  split; [apply (Hn _ Hi)|apply (Hk _ Hi)].
Qed.

Lemma wf_kid_fun r kids n k1 k2 : wf_tree (T r kids) -> In (n, k1) kids -> In (n, k2) kids -> k1 = k2.
Proof.
  intros H H1 H2. inversion H as [? ? _ _ Hnd _]; subst.
  pose proof (NoDup_map_inj fst _ _ _ Hnd H1 H2 eq_refl) as E. congruence.
Qed.

Lemma tree_at_fun t : wf_tree t -> forall cs r1 r2, tree_at t cs r1 -> tree_at t cs r2 -> r1 = r2.
Proof.
  induction t as [r kids IH] using tree_ind'. intros Hwf [|n cs] r1 r2 H1 H2.
  - apply tree_at_nil_inv in H1, H2. congruence.
  - apply tree_at_cons_inv in H1, H2. destruct H1 as (k & Hi & H1), H2 as (k2 & Hi2 & H2).
    rewrite (wf_kid_fun _ _ _ _ _ Hwf Hi2 Hi) in H2.
    apply (IH n k Hi (proj2 (wf_kid _ _ _ _ Hwf Hi)) cs); assumption.
Qed.

(* names along a path of a well-formed tree are well formed *)
Lemma tree_at_names t : wf_tree t -> forall cs r, tree_at t cs r -> Forall wf_name cs.
Proof.
  induction t as [r kids IH] using tree_ind'. intros Hwf [|n cs] r' H; [constructor|].
  apply tree_at_cons_inv in H. destruct H as (k & Hi & H).
  destruct (wf_kid _ _ _ _ Hwf Hi) as [Hn Hk]. constructor; [exact Hn|]. exact (IH n k Hi Hk cs r' H).
Qed.

Lemma wf_name_nosep n : wf_name n -> nosep n.
Proof. intros (_ & H & _). exact H. Qed.

Lemma tree_at_nosep t cs r : wf_tree t -> tree_at t cs r -> Forall nosep cs.
Proof.
  intros Hwf H. eapply Forall_impl; [|eapply tree_at_names; eauto]. apply wf_name_nosep.
Qed.

Lemma tree_at_prefix t cs c r : tree_at t (cs ++ c) r -> exists r', tree_at t cs r'.
Proof.
  revert t. induction cs as [|n cs IH]; intros [r0 kids] H.
  - eexists. constructor.
  - apply tree_at_cons_inv in H. destruct H as (k & Hi & H).
    destruct (IH _ H) as [r' H']. exists r'. econstructor; eauto.
Qed.

(* the node is determined by the path *)
Lemma node_unique t cs1 r1 cs2 r2 : wf_tree t ->
  cs1 <> [] -> cs2 <> [] -> tree_at t cs1 r1 -> tree_at t cs2 r2 -> joinc cs1 = joinc cs2 ->
  cs1 = cs2 /\ r1 = r2.
Proof.
  intros Hwf H1 H2 A1 A2 E.
  assert (cs1 = cs2) by (apply joinc_inj; auto; eapply tree_at_nosep; eauto).
  subst. split; auto. eapply tree_at_fun; eauto.
Qed.

(* relative component paths with records, in DFS order *)
Fixpoint rpr (t : tree) : list (list bytes * lrec) :=
  match t with
  | T r kids =>
    ([], r) :: flat_map (fun nk => match nk with (n, k) => map (fun cr => (n :: fst cr, snd cr)) (rpr k) end) kids
  end.

Definition rpr_kids (kids : list (bytes * tree)) : list (list bytes * lrec) :=
  flat_map (fun nk => match nk with (n, k) => map (fun cr => (n :: fst cr, snd cr)) (rpr k) end) kids.

Lemma rpr_unfold r kids : rpr (T r kids) = ([], r) :: rpr_kids kids.
Proof. reflexivity. Qed.

Lemma rpr_kids_in kids c r :
  In (c, r) (rpr_kids kids) <-> exists n k c', c = n :: c' /\ In (n, k) kids /\ In (c', r) (rpr k).
Proof.
  unfold rpr_kids. rewrite in_flat_map. split.
  - intros ([n k] & Hi & H). apply in_map_iff in H. destruct H as ([c' r'] & E & H). simpl in E.
    inversion E; subst. exists n, k, c'. auto.
  - intros (n & k & c' & -> & Hi & H). exists (n, k). split; auto.
    apply in_map_iff. exists (c', r). auto.
Qed.

Lemma rpr_tree_at t : forall c r, In (c, r) (rpr t) <-> tree_at t c r.
Proof.
  induction t as [r0 kids IH] using tree_ind'. intros c r. rewrite rpr_unfold. simpl.
  rewrite rpr_kids_in. split.
  - intros [E|(n & k & c' & -> & Hi & H)].
    + inversion E; subst. constructor.
    + econstructor; eauto. apply (IH n k); auto.
  - intros H. destruct c as [|n c'].
    + apply tree_at_nil_inv in H. simpl in H. subst. auto.
    + apply tree_at_cons_inv in H. destruct H as (k & Hi & H). right.
      exists n, k, c'. repeat split; auto. apply (IH n k); auto.
Qed.

Lemma rpr_kids_nonnil kids c r : In (c, r) (rpr_kids kids) -> c <> [].
Proof. rewrite rpr_kids_in. intros (n & k & c' & -> & _). discriminate. Qed.

(* the WalkDir entries are rpr with the components joined *)
Lemma entries_node_joinc t : forall cs,
  cs <> [] -> entries_node (joinc cs) t = map (fun cr => (joinc (cs ++ fst cr), snd cr)) (rpr t).
Proof.
  induction t as [r kids IH] using tree_ind'. intros cs Hne. rewrite rpr_unfold. cbn [entries_node map fst snd].
  rewrite app_nil_r. f_equal. unfold rpr_kids. rewrite map_flat_map. apply flat_map_ext_in.
  intros [n k] Hi. rewrite <- joinc_snoc, (IH n k Hi) by auto using app_nonnil. rewrite map_map. cbn [fst snd].
  apply map_ext. intros cr. rewrite <- app_assoc. reflexivity.
Qed.

Lemma entries_root_rpr t :
  entries_root t = map (fun cr => (joinc (fst cr), snd cr)) (rpr_kids (t_kids t)).
Proof.
  destruct t as [r kids]. unfold entries_root, rpr_kids. simpl. rewrite map_flat_map.
  apply flat_map_ext_in. intros [n k] Hi.
  change n with (joinc [n]) at 1. rewrite entries_node_joinc by discriminate.
  rewrite map_map. reflexivity.
Qed.

Inductive sorted_tree : tree -> Prop :=
| sorted_T r kids :
    StronglySorted name_lt kids ->
    Forall (fun nk => nosep (fst nk)) kids ->
    Forall (fun nk => sorted_tree (snd nk)) kids ->
    sorted_tree (T r kids).

Lemma sorted_kid r kids n k : sorted_tree (T r kids) -> In (n, k) kids -> nosep n /\ sorted_tree k.
Proof.
  intros H Hi. inversion H as [? ? _ Hn Hk]; subst. rewrite Forall_forall in Hn, Hk.
  split; [apply (Hn _ Hi)|apply (Hk _ Hi)].
Qed.

Definition clex (a b : list bytes * lrec) : Prop := lex (fst a) (fst b) = Lt.

Lemma rpr_kids_sorted kids :
  StronglySorted name_lt kids ->
  (forall n k, In (n, k) kids -> StronglySorted clex (rpr k)) ->
  StronglySorted clex (rpr_kids kids).
Proof.
  intros HS HF. apply (SS_flat_map name_lt clex); auto.
  - intros [n k] Hi. eapply SS_map; [|apply (HF n k Hi)]. intros a b _ _ Hab. unfold clex in *. cbn [fst snd].
    rewrite lex_cons_same. exact Hab.
  - intros [n k] [m k'] x y _ _ Hnm Hx Hy. apply in_map_iff in Hx, Hy.
    destruct Hx as (a & <- & _), Hy as (b & <- & _). unfold clex. cbn [fst snd].
    rewrite lex_cons. unfold name_lt in Hnm. cbn [fst] in Hnm. rewrite Hnm. reflexivity.
Qed.

Lemma rpr_sorted t : sorted_tree t -> StronglySorted clex (rpr t).
Proof.
  induction t as [r kids IH] using tree_ind'. intros HS. rewrite rpr_unfold. constructor.
  - apply rpr_kids_sorted; [inversion HS; auto|]. intros n k Hi. apply (IH n k Hi), (sorted_kid _ _ _ _ HS Hi).
  - apply Forall_forall. intros [c r'] Hi. apply rpr_kids_in in Hi.
    destruct Hi as (n & k & c' & -> & _). reflexivity.
Qed.

Lemma rpr_nosep t : sorted_tree t -> forall c r, In (c, r) (rpr t) -> Forall nosep c.
Proof.
  induction t as [r0 kids IH] using tree_ind'. intros HS c r. rewrite rpr_unfold. simpl. intros [E|Hi].
  - inversion E; subst. constructor.
  - apply rpr_kids_in in Hi. destruct Hi as (n & k & c' & -> & Hi & H).
    destruct (sorted_kid _ _ _ _ HS Hi) as [Hn Hk]. constructor; [exact Hn|]. exact (IH n k Hi Hk c' r H).
Qed.

(* paths below a common prefix cs are strictly ascending in ComparePath order *)
Lemma rpr_paths_sorted cs l :
  StronglySorted clex l ->
  (forall c r, In (c, r) l -> cs ++ c <> [] /\ Forall nosep (cs ++ c)) ->
  StronglySorted path_lt (map (fun cr => joinc (cs ++ fst cr)) l).
Proof.
  intros HS Hok. eapply SS_map; [|exact HS].
  intros [a ra] [b rb] Ha Hb Hab. unfold clex in Hab. simpl in *. unfold path_lt.
  destruct (Hok _ _ Ha), (Hok _ _ Hb).
  rewrite compare_path_joinc by auto. rewrite lex_app_same. exact Hab.
Qed.

Lemma entries_root_sorted t : sorted_tree t -> StronglySorted path_lt (map fst (entries_root t)).
Proof.
  intros HS. rewrite entries_root_rpr, map_map. cbn [fst].
  destruct t as [r kids]. cbn [t_kids].
  apply (rpr_paths_sorted [] (rpr_kids kids)).
  - apply (SS_tl _ _ (rpr_sorted _ HS)).
  - intros c r' Hi. split; [eapply rpr_kids_nonnil; eauto|].
    apply (rpr_nosep _ HS c r'). right. exact Hi.
Qed.

Definition sort_kid (nk : bytes * tree) : bytes * tree := match nk with (n, k) => (n, sort_tree k) end.

Lemma sort_tree_unfold r kids : sort_tree (T r kids) = T r (isort_kids (map sort_kid kids)).
Proof. reflexivity. Qed.

Lemma map_fst_sort_kid kids : map fst (map sort_kid kids) = map fst kids.
Proof. rewrite map_map. apply map_ext. intros [n k]. reflexivity. Qed.

Lemma sort_kids_in kids n k' :
  In (n, k') (isort_kids (map sort_kid kids)) <-> exists k, k' = sort_tree k /\ In (n, k) kids.
Proof.
  rewrite isort_kids_in, in_map_iff. split.
  - intros ([n0 k] & E & Hi). inversion E; subst. eauto.
  - intros (k & -> & Hi). exists (n, k). auto.
Qed.

Lemma sort_kids_forall (P : bytes * tree -> Prop) kids :
  (forall n k, In (n, k) kids -> P (n, sort_tree k)) -> Forall P (isort_kids (map sort_kid kids)).
Proof.
  intros H. apply Forall_forall. intros [n k'] Hi. apply sort_kids_in in Hi. destruct Hi as (k & -> & Hi). auto.
Qed.

Lemma sort_tree_sorted t : wf_tree t -> sorted_tree (sort_tree t).
Proof.
  induction t as [r kids IH] using tree_ind'. intros Hwf. rewrite sort_tree_unfold. constructor.
  - apply isort_kids_sorted. rewrite map_fst_sort_kid. inversion Hwf; auto.
  - apply sort_kids_forall. intros n k Hi. apply wf_name_nosep, (wf_kid _ _ _ _ Hwf Hi).
  - apply sort_kids_forall. intros n k Hi. apply (IH n k Hi), (wf_kid _ _ _ _ Hwf Hi).
Qed.

Lemma sort_tree_wf t : wf_tree t -> wf_tree (sort_tree t).
Proof.
  induction t as [r kids IH] using tree_ind'. intros Hwf.
  inversion Hwf as [? ? Hd _ Hnd _]; subst. rewrite sort_tree_unfold. constructor.
  - intros H. rewrite (Hd H). reflexivity.
  - apply sort_kids_forall. intros n k Hi. apply (wf_kid _ _ _ _ Hwf Hi).
  - eapply Permutation_NoDup; [apply Permutation_sym, Permutation_map, isort_kids_perm|].
    rewrite map_fst_sort_kid. exact Hnd.
  - apply sort_kids_forall. intros n k Hi. apply (IH n k Hi), (wf_kid _ _ _ _ Hwf Hi).
Qed.

Lemma sort_tree_at t : forall cs r, tree_at (sort_tree t) cs r <-> tree_at t cs r.
Proof.
  induction t as [r0 kids IH] using tree_ind'. intros [|n cs] r; rewrite sort_tree_unfold.
  - rewrite !tree_at_nil_inv. reflexivity.
  - rewrite !tree_at_cons_inv. split.
    + intros (k' & Hi & H). apply sort_kids_in in Hi. destruct Hi as (k & -> & Hi).
      exists k. split; auto. apply (IH n k); auto.
    + intros (k & Hi & H). exists (sort_tree k). split; [apply sort_kids_in; eauto|apply (IH n k); auto].
Qed.

Lemma find_kid_some n kids k : find_kid n kids = Some k -> In (n, k) kids.
Proof.
  induction kids as [|[m k'] kids IH]; simpl; intros H; [discriminate|].
  destruct (bytes_eqb n m) eqn:E; auto. apply bytes_eqb_eq in E. inversion H; subst. auto.
Qed.

Lemma find_kid_in n kids k : In (n, k) kids -> exists k', find_kid n kids = Some k'.
Proof.
  induction kids as [|[m k'] kids IH]; simpl; intros H; [contradiction|].
  destruct (bytes_eqb n m) eqn:E; eauto. destruct H as [H|H]; auto.
  inversion H; subst. rewrite bytes_eqb_refl in E. discriminate.
Qed.

(* lookup finds the node at cs, if there is one *)
Lemma lookup_spec cs : forall t, wf_tree t ->
  match lookup t cs with
  | Some k => wf_tree k /\ forall c r, tree_at k c r <-> tree_at t (cs ++ c) r
  | None => forall c r, ~ tree_at t (cs ++ c) r
  end.
Proof.
  induction cs as [|n cs IH]; intros [r0 kids] Hwf; cbn [lookup t_kids app].
  - split; [exact Hwf|reflexivity].
  - destruct (find_kid n kids) as [k1|] eqn:Ef.
    + apply find_kid_some in Ef.
      assert (Hstep : forall c r, tree_at (T r0 kids) (n :: cs ++ c) r <-> tree_at k1 (cs ++ c) r).
      { intros c r. rewrite tree_at_cons_inv. split; [|eauto].
        intros (k & Hi & H). rewrite (wf_kid_fun _ _ _ _ _ Hwf Ef Hi). exact H. }
      specialize (IH k1 (proj2 (wf_kid _ _ _ _ Hwf Ef))). destruct (lookup k1 cs) as [k|].
      * split; [apply IH|]. intros c r. rewrite Hstep. apply IH.
      * intros c r H. apply Hstep in H. exact (IH _ _ H).
    + intros c r H. apply tree_at_cons_inv in H. destruct H as (k & Hi & _).
      apply find_kid_in in Hi. destruct Hi as [k' Hi]. congruence.
Qed.

Lemma lookup_sorted cs : forall t k, sorted_tree t -> lookup t cs = Some k -> sorted_tree k /\ Forall nosep cs.
Proof.
  induction cs as [|n cs IH]; intros [r0 kids] k HS H; cbn [lookup t_kids] in H.
  - inversion H; subst. auto.
  - destruct (find_kid n kids) as [k1|] eqn:Ef; [|discriminate].
    apply find_kid_some in Ef. destruct (sorted_kid _ _ _ _ HS Ef) as [Hn Hk].
    destruct (IH k1 k Hk H). auto.
Qed.

(* the WalkDir sequence of a walk at the component list cs *)
Definition seq_at (t : tree) (cs : list bytes) : list (bytes * lrec) :=
  match cs with
  | [] => entries_root (sort_tree t)
  | _ => match lookup (sort_tree t) cs with Some k => entries_node (joinc cs) k | None => [] end
  end.

Lemma walk_at_scan t target : walk_at t target = scan [] (seq_at t (target_comps target)).
Proof.
  unfold walk_at, seq_at, walk. destruct (target_comps target); [reflexivity|].
  destruct (lookup _ _); reflexivity.
Qed.

(* the nodes of k that a walk at cs reports, k being the node at cs: all of them, but not the
   root of the whole tree *)
Definition below (cs : list bytes) (k : tree) : list (list bytes * lrec) :=
  match cs with [] => tl (rpr k) | _ => rpr k end.

Lemma below_in cs k c r : In (c, r) (below cs k) <-> cs ++ c <> [] /\ tree_at k c r.
Proof.
  rewrite <- rpr_tree_at. destruct cs as [|n cs]; cbn [below app].
  - destruct k as [r0 kids]. rewrite rpr_unfold. cbn [tl In]. split.
    + intros H. split; [eapply rpr_kids_nonnil; eauto|auto].
    + intros (Hne & [E|H]); [inversion E; subst; congruence|exact H].
  - split; [intros H; split; [discriminate|exact H]|intros [_ H]; exact H].
Qed.

Lemma seq_at_rpr t cs k : lookup (sort_tree t) cs = Some k ->
  seq_at t cs = map (fun cr => (joinc (cs ++ fst cr), snd cr)) (below cs k).
Proof.
  destruct cs as [|n cs]; cbn [seq_at below lookup].
  - intros E. inversion E; subst. rewrite entries_root_rpr. destruct (sort_tree t); reflexivity.
  - intros ->. apply entries_node_joinc. discriminate.
Qed.

Lemma seq_at_none t cs : lookup (sort_tree t) cs = None -> seq_at t cs = [].
Proof. destruct cs; [discriminate|]. cbn [seq_at]. intros ->. reflexivity. Qed.

(* exactly the nodes at or below cs, the root excepted *)
Lemma seq_at_in_some t cs k : lookup (sort_tree t) cs = Some k ->
  (forall c r, tree_at k c r <-> tree_at (sort_tree t) (cs ++ c) r) -> forall p r,
  In (p, r) (seq_at t cs) <-> exists c, cs ++ c <> [] /\ p = joinc (cs ++ c) /\ tree_at t (cs ++ c) r.
Proof.
  intros El Hiff p r. rewrite (seq_at_rpr _ _ _ El), in_map_iff. split.
  - intros ([c r'] & E & Hi). inversion E; subst. apply below_in in Hi. destruct Hi as [Hne Hat].
    exists c. repeat split; auto. apply sort_tree_at, Hiff, Hat.
  - intros (c & Hne & -> & Hat). exists (c, r). split; auto.
    apply below_in. split; auto. apply Hiff, sort_tree_at, Hat.
Qed.

Lemma entries_in t p r :
  In (p, r) (entries_root (sort_tree t)) <-> exists cs, cs <> [] /\ p = joinc cs /\ tree_at t cs r.
Proof. apply (seq_at_in_some t [] _ eq_refl). reflexivity. Qed.

Lemma seq_at_in t cs : wf_tree t -> forall p r,
  In (p, r) (seq_at t cs) <-> exists c, cs ++ c <> [] /\ p = joinc (cs ++ c) /\ tree_at t (cs ++ c) r.
Proof.
  intros Hwf p r. pose proof (lookup_spec cs _ (sort_tree_wf t Hwf)) as L.
  destruct (lookup (sort_tree t) cs) as [k|] eqn:El; [apply (seq_at_in_some _ _ _ El), L|].
  rewrite seq_at_none by auto. split; [contradiction|].
  intros (c & _ & _ & Hat). apply sort_tree_at in Hat. exact (L _ _ Hat).
Qed.

Lemma seq_at_sorted t cs : wf_tree t -> StronglySorted path_lt (map fst (seq_at t cs)).
Proof.
  intros Hwf. destruct (lookup (sort_tree t) cs) as [k|] eqn:El; [|rewrite seq_at_none by auto; constructor].
  rewrite (seq_at_rpr _ _ _ El), map_map. cbn [fst].
  destruct (lookup_sorted _ _ _ (sort_tree_sorted t Hwf) El) as [Hsk Hns].
  apply rpr_paths_sorted.
  - destruct cs; cbn [below]; [apply SS_tl|]; apply rpr_sorted, Hsk.
  - intros c r Hi. apply below_in in Hi. destruct Hi as [Hne Hat]. split; [exact Hne|].
    apply Forall_app. split; [exact Hns|]. apply (rpr_nosep _ Hsk c r), rpr_tree_at, Hat.
Qed.

(* the stat of an entry, field by field; only Linkname of a non-symlink non-directory depends on seenFiles *)
Definition hl_name (r : lrec) (seen : list (N * bytes)) : bytes :=
  if N.ltb 1 (l_nlink r) then match ilookup (l_ino r) seen with Some old => old | None => [] end else [].

Lemma mkstat_fields p r seen :
  let st := fst (mkstat p r seen) in
  st_path st = p /\
  st_mode st = N.ldiff (go_mode (l_mode r)) ModeSocket /\
  st_uid st = l_uid r /\ st_gid st = l_gid r /\
  st_size st = (if is_dir r then 0 else l_size r) /\
  st_mtime st = l_mtime r /\
  st_xattrs st = load_xattr (l_xattrs r) /\
  st_devmajor st = (if is_dir r then 0 else
                    if negb (N.eqb (N.land (l_mode r) S_IFBLK) 0) || negb (N.eqb (N.land (l_mode r) S_IFCHR) 0)
                    then major (l_rdev r) else 0) /\
  st_devminor st = (if is_dir r then 0 else
                    if negb (N.eqb (N.land (l_mode r) S_IFBLK) 0) || negb (N.eqb (N.land (l_mode r) S_IFCHR) 0)
                    then minor (l_rdev r) else 0) /\
  st_linkname st = (if is_dir r then [] else if is_symlink r then l_target r else hl_name r seen).
Proof.
  unfold mkstat, set_unix_opt, hl_name.
  destruct (is_dir r); simpl; [repeat split; reflexivity|].
  destruct (N.ltb 1 (l_nlink r)); [destruct (ilookup (l_ino r) seen)|];
    destruct (negb (N.eqb (N.land (l_mode r) S_IFBLK) 0) || negb (N.eqb (N.land (l_mode r) S_IFCHR) 0));
    simpl; destruct (is_symlink r); simpl; repeat split; reflexivity.
Qed.

Lemma mkstat_path p r seen : st_path (fst (mkstat p r seen)) = p.
Proof. apply mkstat_fields. Qed.

Lemma mkstat_mode p r seen : st_mode (fst (mkstat p r seen)) = N.ldiff (go_mode (l_mode r)) ModeSocket.
Proof. apply mkstat_fields. Qed.

Lemma mkstat_linkname p r seen :
  st_linkname (fst (mkstat p r seen)) = if is_dir r then [] else if is_symlink r then l_target r else hl_name r seen.
Proof. apply mkstat_fields. Qed.

Lemma mkstat_seen p r seen :
  snd (mkstat p r seen) =
  if is_dir r then seen
  else if N.ltb 1 (l_nlink r) then
         match ilookup (l_ino r) seen with Some _ => seen | None => iinsert (l_ino r) p seen end
       else iinsert (l_ino r) p seen.
Proof.
  unfold mkstat, set_unix_opt.
  destruct (is_dir r); simpl; [reflexivity|].
  destruct (N.ltb 1 (l_nlink r)); [destruct (ilookup (l_ino r) seen)|]; reflexivity.
Qed.

Lemma scan_paths l : forall seen, map st_path (scan seen l) = map fst l.
Proof.
  induction l as [|[p r] l IH]; intros seen; simpl; auto.
  destruct (mkstat p r seen) as [st seen'] eqn:E. simpl. rewrite IH. f_equal.
  change st with (fst (st, seen')). rewrite <- E. apply mkstat_path.
Qed.

Lemma scan_app pre : forall seen p r post,
  scan seen (pre ++ (p, r) :: post) =
  scan seen pre ++ fst (mkstat p r (seen_after seen pre)) :: scan (seen_after seen (pre ++ [(p, r)])) post.
Proof.
  induction pre as [|[q s] pre IH]; intros seen p r post; simpl.
  - destruct (mkstat p r seen); reflexivity.
  - destruct (mkstat q s seen) as [st seen'] eqn:E. simpl. rewrite IH. reflexivity.
Qed.

Lemma scan_in l : forall seen st, In st (scan seen l) ->
  exists pre p r post, l = pre ++ (p, r) :: post /\ st = fst (mkstat p r (seen_after seen pre)).
Proof.
  induction l as [|[p r] l IH]; intros seen st H; simpl in H; [contradiction|].
  destruct (mkstat p r seen) as [st0 seen'] eqn:E. destruct H as [<-|H].
  - exists [], p, r, l. simpl. rewrite E. auto.
  - destruct (IH _ _ H) as (pre & q & s & post & -> & ->).
    exists ((p, r) :: pre), q, s, post. simpl. rewrite E. auto.
Qed.

(* path of the first non-directory entry of l with inode i *)
Fixpoint first_of (i : N) (l : list (bytes * lrec)) : option bytes :=
  match l with
  | [] => None
  | (p, r) :: l' => if negb (is_dir r) && N.eqb (l_ino r) i then Some p else first_of i l'
  end.

Lemma first_of_app i l1 l2 :
  first_of i (l1 ++ l2) = match first_of i l1 with Some q => Some q | None => first_of i l2 end.
Proof.
  induction l1 as [|[p r] l1 IH]; simpl; auto.
  destruct (negb (is_dir r) && N.eqb (l_ino r) i); auto.
Qed.

Lemma first_of_some i l q :
  first_of i l = Some q ->
  exists pre r post, l = pre ++ (q, r) :: post /\ is_dir r = false /\ l_ino r = i /\ first_of i pre = None.
Proof.
  induction l as [|[p r] l IH]; simpl; intros H; [discriminate|].
  destruct (negb (is_dir r) && N.eqb (l_ino r) i) eqn:E.
  - inversion H; subst. apply andb_true_iff in E. destruct E as [E1 E2].
    apply negb_true_iff in E1. apply N.eqb_eq in E2.
    exists [], r, l. simpl. auto.
  - destruct (IH H) as (pre & r' & post & -> & H1 & H2 & H3).
    exists ((p, r) :: pre), r', post. simpl. rewrite E. auto.
Qed.

Lemma first_of_none i l p r :
  first_of i l = None -> In (p, r) l -> is_dir r = false -> l_ino r <> i.
Proof.
  induction l as [|[q s] l IH]; simpl; intros H Hi Hd; [contradiction|].
  destruct (negb (is_dir s) && N.eqb (l_ino s) i) eqn:E; [discriminate|].
  destruct Hi as [Hi|Hi]; [|eauto].
  inversion Hi; subst. rewrite Hd in E. simpl in E. apply N.eqb_neq in E. exact E.
Qed.

(* nlink consistency of a sequence: an entry that shares its inode with an EARLIER non-directory has nlink > 1 *)
Definition seq_consistent (l : list (bytes * lrec)) : Prop :=
  forall pre p r post, l = pre ++ (p, r) :: post -> is_dir r = false ->
    first_of (l_ino r) pre <> None -> N.ltb 1 (l_nlink r) = true.

Lemma seen_after_snoc pre : forall seen p r,
  seen_after seen (pre ++ [(p, r)]) = snd (mkstat p r (seen_after seen pre)).
Proof.
  induction pre as [|[q s] pre IH]; intros seen p r; simpl; auto.
Qed.

Lemma seen_after_first l : seq_consistent l ->
  forall pre post, l = pre ++ post ->
  forall i, ilookup i (seen_after [] pre) = first_of i pre.
Proof.
  intros Hc pre. induction pre as [|[p r] pre IH] using rev_ind; intros post E i; [reflexivity|].
  rewrite <- app_assoc in E. specialize (IH _ E).
  rewrite seen_after_snoc, mkstat_seen, first_of_app, (IH (l_ino r)). cbn [first_of].
  destruct (is_dir r) eqn:Hd; cbn [negb andb]; [rewrite IH; destruct (first_of i pre); reflexivity|].
  (* a non-directory is entered unless its inode is there already: then nlink > 1, by consistency *)
  destruct (first_of (l_ino r) pre) eqn:Hf.
  - rewrite (Hc _ _ _ _ E Hd) by congruence. rewrite IH.
    destruct (N.eqb_spec (l_ino r) i) as [<-|_]; [rewrite Hf; reflexivity|destruct (first_of i pre); reflexivity].
  - replace (if N.ltb 1 (l_nlink r) then _ else _) with (iinsert (l_ino r) p (seen_after [] pre))
      by (destruct (N.ltb 1 (l_nlink r)); reflexivity).
    cbn [iinsert ilookup]. rewrite N.eqb_sym, IH.
    destruct (N.eqb_spec (l_ino r) i) as [<-|_]; [rewrite Hf; reflexivity|destruct (first_of i pre); reflexivity].
Qed.

(* whatever the link counts say, seenFiles holds paths of earlier entries *)
Lemma seen_after_paths pre : forall i q, ilookup i (seen_after [] pre) = Some q -> In q (map fst pre).
Proof.
  induction pre as [|[p r] pre IH] using rev_ind; intros i q H; [discriminate|].
  rewrite seen_after_snoc, mkstat_seen in H. rewrite map_app, in_app_iff. simpl.
  destruct (is_dir r); [left; eauto|].
  destruct (N.ltb 1 (l_nlink r)); [destruct (ilookup (l_ino r) (seen_after [] pre)) eqn:E; [left; eauto|]|];
    unfold iinsert in H; simpl in H; (destruct (N.eqb i (l_ino r)); [inversion H; subst; auto|left; eauto]).
Qed.

(* Linkname of the entry at a position, in terms of the first holder of its inode in the WHOLE sequence *)
Lemma scan_linkname l : seq_consistent l -> NoDup (map fst l) ->
  forall pre p r post, l = pre ++ (p, r) :: post -> is_dir r = false ->
  exists f, first_of (l_ino r) l = Some f /\
    st_linkname (fst (mkstat p r (seen_after [] pre))) =
      if is_symlink r then l_target r else if bytes_eqb f p then [] else f.
Proof.
  intros Hc Hnd pre p r post E Hd.
  rewrite mkstat_linkname, Hd. unfold hl_name. rewrite (seen_after_first l Hc pre _ E).
  rewrite E, first_of_app. simpl. rewrite Hd, N.eqb_refl. simpl.
  destruct (first_of (l_ino r) pre) as [q|] eqn:Hf.
  - exists q. split; auto. destruct (is_symlink r); auto.
    rewrite (Hc _ _ _ _ E Hd) by congruence.
    destruct (bytes_eqb q p) eqn:Eq; auto. exfalso. apply bytes_eqb_eq in Eq. subst q.
    apply first_of_some in Hf. destruct Hf as (pre1 & r1 & post1 & -> & _).
    rewrite E, map_app in Hnd. apply NoDup_remove_2 in Hnd.
    apply Hnd, in_or_app. left. rewrite map_app. apply in_elt.
  - exists p. split; auto. rewrite bytes_eqb_refl. destruct (is_symlink r); auto.
    destruct (N.ltb 1 (l_nlink r)); reflexivity.
Qed.

(* the first holder is a non-directory entry with that inode, and precedes every other one *)
Lemma first_of_least (R : bytes -> bytes -> Prop) l i f :
  StronglySorted R (map fst l) -> first_of i l = Some f ->
  (exists r, In (f, r) l /\ is_dir r = false /\ l_ino r = i) /\
  (forall q s, In (q, s) l -> is_dir s = false -> l_ino s = i -> q = f \/ R f q).
Proof.
  intros HS Hf. apply first_of_some in Hf. destruct Hf as (pre & r & post & -> & Hd & Hi & Hn). split.
  - exists r. auto using in_elt.
  - intros q s Hin Hds His. apply in_app_or in Hin. destruct Hin as [Hin|[Hin|Hin]].
    + exfalso. eapply first_of_none; eauto.
    + inversion Hin; auto.
    + right. rewrite map_app in HS. apply SS_app in HS. destruct HS as (_ & HS & _).
      inversion HS as [|? ? _ Hpost]; subst. rewrite Forall_forall in Hpost.
      apply Hpost, in_map_iff. exists (q, s). auto.
Qed.

(* nlink consistency of any duplicate-free sequence of nodes of a consistent tree *)
Lemma seq_consistent_of_nodes t l : ino_consistent t ->
  NoDup (map fst l) ->
  (forall p r, In (p, r) l -> exists cs, p = joinc cs /\ tree_at t cs r) ->
  seq_consistent l.
Proof.
  intros Hc Hnd Hnodes pre p r post E Hd Hf.
  destruct (first_of (l_ino r) pre) as [q|] eqn:Hq; [|congruence].
  apply first_of_some in Hq. destruct Hq as (pre1 & r1 & post1 & Epre & Hd1 & Hi1 & _).
  assert (Hneq : q <> p).
  { rewrite E, map_app in Hnd. apply NoDup_remove_2 in Hnd. intros ->. apply Hnd, in_or_app. left.
    rewrite Epre, map_app. apply in_elt. }
  destruct (Hnodes q r1) as (cs1 & -> & A1); [rewrite E, Epre; apply in_or_app; left; apply in_elt|].
  destruct (Hnodes p r) as (cs2 & -> & A2); [rewrite E; apply in_elt|].
  apply (Hc cs2 r cs1 r1); auto. congruence.
Qed.

(* Walks: fs.Walk(ctx, target, fn) reports scan [] (seq_at t cs), cs the components of the cleaned
   target; cs = [] is the walk of the whole tree. *)

Theorem seq_at_paths t cs : wf_tree t ->
  StronglySorted path_lt (map st_path (scan [] (seq_at t cs))) /\
  NoDup (map st_path (scan [] (seq_at t cs))) /\
  forall p, In p (map st_path (scan [] (seq_at t cs))) <->
            exists c r, cs ++ c <> [] /\ p = joinc (cs ++ c) /\ tree_at t (cs ++ c) r.
Proof.
  intros Hwf. rewrite scan_paths. pose proof (seq_at_sorted t cs Hwf) as HS.
  split; [exact HS|]. split; [exact (SS_NoDup _ _ path_lt_irrefl HS)|].
  intros p. rewrite in_map_fst. split.
  - intros (r & Hi). apply seq_at_in in Hi; auto. destruct Hi as (c & Hi). eauto.
  - intros (c & r & Hi). exists r. apply seq_at_in; eauto.
Qed.

Theorem walk_sorted_proof t : wf_tree t -> StronglySorted path_lt (map st_path (walk t)).
Proof. apply (seq_at_paths t []). Qed.

Theorem walk_complete_once_proof t : wf_tree t ->
  (forall p, In p (map st_path (walk t)) <-> exists cs r, cs <> [] /\ p = joinc cs /\ tree_at t cs r)
  /\ NoDup (map st_path (walk t)).
Proof. intros Hwf. destruct (seq_at_paths t [] Hwf) as (_ & H1 & H2). split; assumption. Qed.

(* the stat reported with the path of a node comes from that node's position in the sequence *)
Lemma seq_at_entry_at t cs st c r : wf_tree t -> In st (scan [] (seq_at t cs)) ->
  cs ++ c <> [] -> tree_at t (cs ++ c) r -> st_path st = joinc (cs ++ c) ->
  exists pre post, seq_at t cs = pre ++ (joinc (cs ++ c), r) :: post /\
                   st = fst (mkstat (joinc (cs ++ c)) r (seen_after [] pre)).
Proof.
  intros Hwf Hin Hne Hat Hp. apply scan_in in Hin. destruct Hin as (pre & p & r' & post & E & ->).
  assert (Hi : In (p, r') (seq_at t cs)) by (rewrite E; apply in_elt).
  apply seq_at_in in Hi; auto. destruct Hi as (c' & Hne' & -> & Hat').
  rewrite mkstat_path in Hp. destruct (node_unique t _ r' _ r Hwf Hne' Hne Hat' Hat Hp) as [Ec ->].
  rewrite Ec in *. eauto.
Qed.

Theorem walk_stat_proof t : wf_tree t ->
  forall st, In st (walk t) ->
  forall cs r, cs <> [] -> tree_at t cs r -> st_path st = joinc cs ->
    st_mode st = N.ldiff (go_mode (l_mode r)) ModeSocket /\
    st_uid st = l_uid r /\ st_gid st = l_gid r /\
    st_size st = (if is_dir r then 0 else l_size r) /\
    st_mtime st = l_mtime r /\
    st_xattrs st = load_xattr (l_xattrs r) /\
    st_devmajor st = (if is_dir r then 0 else
                      if negb (N.eqb (N.land (l_mode r) S_IFBLK) 0) || negb (N.eqb (N.land (l_mode r) S_IFCHR) 0)
                      then major (l_rdev r) else 0) /\
    st_devminor st = (if is_dir r then 0 else
                      if negb (N.eqb (N.land (l_mode r) S_IFBLK) 0) || negb (N.eqb (N.land (l_mode r) S_IFCHR) 0)
                      then minor (l_rdev r) else 0) /\
    (is_dir r = true -> st_linkname st = []) /\
    (is_dir r = false -> is_symlink r = true -> st_linkname st = l_target r).
Proof.
  intros Hwf st Hin cs r Hne Hat Hp.
  destruct (seq_at_entry_at t [] st cs r Hwf Hin Hne Hat Hp) as (pre & post & _ & ->). cbn [app].
  destruct (mkstat_fields (joinc cs) r (seen_after [] pre)) as (_ & F1 & F2 & F3 & F4 & F5 & F6 & F7 & F8 & F9).
  repeat (split; [assumption|]). rewrite F9. split.
  - intros ->. reflexivity.
  - intros -> ->. reflexivity.
Qed.

(* Hard links, for a walk at any cs: the entry names the least non-directory AT OR BELOW cs that
   shares its inode (fs.Walk makes one seenFiles map per call). *)
Theorem seq_at_hardlinks t cs : wf_tree t -> one_fs t -> ino_consistent t ->
  forall st, In st (scan [] (seq_at t cs)) ->
  forall c r, cs ++ c <> [] -> tree_at t (cs ++ c) r -> st_path st = joinc (cs ++ c) -> is_dir r = false ->
  exists c0 r0,
    cs ++ c0 <> [] /\ tree_at t (cs ++ c0) r0 /\ is_dir r0 = false /\ l_ino r0 = l_ino r /\ l_dev r0 = l_dev r /\
    (forall c1 r1, cs ++ c1 <> [] -> tree_at t (cs ++ c1) r1 -> is_dir r1 = false -> l_ino r1 = l_ino r ->
                   c1 = c0 \/ path_lt (joinc (cs ++ c0)) (joinc (cs ++ c1))) /\
    st_linkname st = (if is_symlink r then l_target r
                      else if bytes_eqb (joinc (cs ++ c0)) (joinc (cs ++ c)) then [] else joinc (cs ++ c0)).
Proof.
  intros Hwf Hfs Hc st Hin c r Hne Hat Hp Hd.
  destruct (seq_at_entry_at t cs st c r Hwf Hin Hne Hat Hp) as (pre & post & E & ->).
  pose proof (seq_at_in t cs Hwf) as Hmem. pose proof (seq_at_sorted t cs Hwf) as HS.
  pose proof (SS_NoDup _ _ path_lt_irrefl HS) as Hnd.
  assert (Hsc : seq_consistent (seq_at t cs)).
  { apply (seq_consistent_of_nodes t); auto. intros q s Hq. apply Hmem in Hq. destruct Hq as (c1 & _ & Hq). eauto. }
  destruct (scan_linkname _ Hsc Hnd pre _ r post E Hd) as (f & Hf & Hl).
  destruct (first_of_least path_lt _ _ _ HS Hf) as ((r0 & Hi0 & Hd0 & Hino0) & Hleast).
  apply Hmem in Hi0. destruct Hi0 as (c0 & Hne0 & -> & Hat0).
  exists c0, r0. repeat (split; [assumption|]). split; [eapply Hfs; eauto|]. split; [|exact Hl].
  intros c1 r1 Hne1 Hat1 Hd1 Hino1.
  destruct (Hleast (joinc (cs ++ c1)) r1) as [Eq|Hlt]; auto; [apply Hmem; eauto|left].
  apply (app_inv_head cs). eapply node_unique; eauto.
Qed.

Theorem walk_hardlinks_proof t : wf_tree t -> one_fs t -> ino_consistent t ->
  forall st, In st (walk t) ->
  forall cs r, cs <> [] -> tree_at t cs r -> st_path st = joinc cs -> is_dir r = false ->
  exists cs0 r0,
    cs0 <> [] /\ tree_at t cs0 r0 /\ is_dir r0 = false /\ l_ino r0 = l_ino r /\ l_dev r0 = l_dev r /\
    (forall cs1 r1, cs1 <> [] -> tree_at t cs1 r1 -> is_dir r1 = false -> l_ino r1 = l_ino r ->
                    cs1 = cs0 \/ path_lt (joinc cs0) (joinc cs1)) /\
    st_linkname st = (if is_symlink r then l_target r
                      else if bytes_eqb (joinc cs0) (joinc cs) then [] else joinc cs0).
Proof. exact (seq_at_hardlinks t []). Qed.

(* clearing bits does not change a test of other bits *)
Lemma has_bits_ldiff x s m : N.land m s = 0 -> has_bits (N.ldiff x s) m = has_bits x m.
Proof.
  intros H. unfold has_bits. f_equal. f_equal. apply N.bits_inj. intros n.
  rewrite !N.land_spec, N.ldiff_spec.
  assert (Hn : N.testbit m n && N.testbit s n = false) by (rewrite <- N.land_spec, H; apply N.bits_0).
  destruct (N.testbit m n); [|rewrite !andb_false_r; reflexivity].
  destruct (N.testbit s n); [discriminate Hn|]. rewrite andb_true_r. reflexivity.
Qed.

Lemma mode_symlink_nosock x : mode_is_symlink (N.ldiff x ModeSocket) = mode_is_symlink x.
Proof. apply has_bits_ldiff. reflexivity. Qed.

Lemma wf_name_normal n : wf_name n -> normal n.
Proof. intros (H1 & _ & H3 & H4). repeat split; auto. Qed.

Lemma wf_names_okc cs : cs <> [] -> Forall wf_name cs -> okc cs.
Proof.
  intros Hne H. split; auto. split; eapply Forall_impl; try exact H.
  - apply wf_name_normal.
  - apply wf_name_nosep.
Qed.

Lemma join2_wf d cs : wf_name d -> cs <> [] -> Forall wf_name cs -> join2 d (joinc cs) = d ++ sep :: joinc cs.
Proof.
  intros Hd Hne Hcs.
  assert (Hok : okc (d :: cs)) by (apply wf_names_okc; [discriminate|constructor; auto]).
  destruct (okc_clean _ Hok) as [Hcl _]. rewrite joinc_cons in Hcl by auto.
  destruct (okc_first_byte cs (wf_names_okc cs Hne Hcs)) as (a & r & E & _).
  destruct d as [|x d]; [destruct Hd as (Hd & _); congruence|].
  rewrite E in *. exact Hcl.
Qed.

Lemma base_wf_name n : wf_name n -> base n = n.
Proof.
  intros H. apply (base_joinc [] n). apply wf_names_okc; [discriminate|constructor; auto].
Qed.

Lemma mem_bytes_in x l : mem_bytes x l = true <-> In x l.
Proof.
  induction l as [|y l IH]; simpl; [split; [discriminate|contradiction]|].
  rewrite orb_true_iff, IH, bytes_eqb_eq. split; intros [H|H]; auto.
Qed.

(* SubDirFS: the sub-roots in name order *)
Definition sd_ok (d : subdir) : Prop :=
  wf_name (sd_name d) /\ st_is_dir (sd_stat d) = true /\ wf_tree (sd_tree d).

Lemma subdirs_ok_true l : forall seen,
  Forall (fun d => wf_name (sd_name d)) l -> NoDup (map sd_name l) ->
  (forall d, In d l -> ~ In (sd_name d) seen) -> subdirs_ok seen l = true.
Proof.
  induction l as [|d l IH]; intros seen Hw Hnd Hs; [reflexivity|].
  inversion Hw; subst. inversion Hnd; subst. cbn [subdirs_ok].
  rewrite base_wf_name, bytes_eqb_refl by auto.
  destruct (mem_bytes (sd_name d) seen) eqn:Em.
  - apply mem_bytes_in in Em. exfalso. eapply Hs; eauto. simpl; auto.
  - cbn [negb andb]. apply IH; auto. intros d' Hd' [Hin|Hin].
    + apply H3. rewrite Hin. apply in_map. auto.
    + eapply Hs; eauto. simpl; auto.
Qed.

Definition sd_key (d : subdir) : bytes * subdir := (sd_name d, d).
Definition sd_lt (a b : subdir) : Prop := cmp_bytes (sd_name a) (sd_name b) = Lt.

Lemma isort_sd_perm ds : Permutation (isort_sd ds) ds.
Proof.
  unfold isort_sd. eapply perm_trans; [apply Permutation_map, isort_kids_perm|].
  rewrite map_map. simpl. rewrite map_id. apply Permutation_refl.
Qed.

Lemma isort_sd_sorted ds : NoDup (map sd_name ds) -> StronglySorted sd_lt (isort_sd ds).
Proof.
  intros Hnd. unfold isort_sd.
  eapply SS_map; [|apply isort_kids_sorted; rewrite map_map; exact Hnd].
  intros [n1 d1] [n2 d2] H1 H2 Hlt. unfold name_lt in Hlt. simpl in *.
  apply (proj1 (isort_kids_in _ _)) in H1, H2. apply in_map_iff in H1, H2.
  destruct H1 as (? & E1 & _), H2 as (? & E2 & _). inversion E1; inversion E2; subst.
  unfold sd_lt. rewrite <- cmpb_is_cmp_bytes. exact Hlt.
Qed.

(* what sd_wf gives for the sorted list that subDirFS.Walk runs over *)
Lemma sd_wf_sorted ds : sd_wf ds ->
  Forall sd_ok (isort_sd ds) /\ NoDup (map sd_name (isort_sd ds)) /\
  StronglySorted sd_lt (isort_sd ds) /\ subdirs_ok [] (isort_sd ds) = true.
Proof.
  intros [Hok Hnd]. pose proof (isort_sd_perm ds) as Hp.
  assert (Hok' : Forall sd_ok (isort_sd ds)).
  { apply Forall_forall. intros d Hd. rewrite Forall_forall in Hok. apply Hok. eapply Permutation_in; eauto. }
  assert (Hnd' : NoDup (map sd_name (isort_sd ds))).
  { eapply Permutation_NoDup; [apply Permutation_sym, Permutation_map; exact Hp|exact Hnd]. }
  repeat split; auto using isort_sd_sorted. apply subdirs_ok_true; auto.
  eapply Forall_impl; [|exact Hok']. intros d (H & _). exact H.
Qed.

(* The shared view model (Model/Tree.v): walk_root of a view whose sibling lists are strictly
   sorted bytewise by name is strictly ascending in protocol path order. *)

Section NodeInd.
  Variable P : node -> Prop.
  Hypothesis HN : forall name st content kids, Forall P kids -> P (Node name st content kids).
  Fixpoint node_ind' (n : node) : P n :=
    match n with
    | Node a s c kids =>
      HN a s c kids
         ((fix go (l : list node) : Forall P l :=
             match l with
             | [] => Forall_nil _
             | k :: l' => Forall_cons k (node_ind' k) (go l')
             end) kids)
    end.
End NodeInd.

Definition vname_lt (a b : node) : Prop := cmp_bytes (node_name a) (node_name b) = Lt.

(* names non-empty and without separator, siblings strictly ascending bytewise (what MemFS /
   os.ReadDir order is) *)
Inductive wf_vnode : node -> Prop :=
| wf_vn name st c kids :
    name <> [] -> ~ In sep name -> StronglySorted vname_lt kids -> Forall wf_vnode kids ->
    wf_vnode (Node name st c kids).
Definition wf_view (roots : list node) : Prop := StronglySorted vname_lt roots /\ Forall wf_vnode roots.

Definition dummy_rec : lrec :=
  {| l_mode := 0; l_uid := 0; l_gid := 0; l_size := 0; l_mtime := 0; l_rdev := 0; l_ino := 0; l_nlink := 0;
     l_target := []; l_xattrs := []; l_dev := 0 |}.
(* a view as a tree of the walk model: the same names in the same order, records immaterial *)
Fixpoint ttree (n : node) : tree :=
  match n with Node _ _ _ kids => T dummy_rec (map (fun k => (node_name k, ttree k)) kids) end.
Definition tkids (l : list node) : list (bytes * tree) := map (fun k => (node_name k, ttree k)) l.

Lemma walk_node_unfold dir name st c kids :
  walk_node dir (Node name st c kids) =
  (set_path st (child_path dir name), c) :: walk_forest (child_path dir name) kids.
Proof.
  cbn [walk_node]. f_equal. induction kids as [|k kids IH]; [reflexivity|]. cbn [walk_forest]. rewrite <- IH. reflexivity.
Qed.

Definition entry_path (e : entry) : bytes := st_path (fst e).

Lemma child_path_nonempty dir name : name <> [] -> child_path dir name <> [].
Proof. unfold child_path. destruct dir; auto. discriminate. Qed.

Lemma view_node_paths n : wf_vnode n -> forall dir,
  map entry_path (walk_node dir n) = map fst (entries_node (child_path dir (node_name n)) (ttree n)).
Proof.
  induction n as [name st c kids IH] using node_ind'. intros Hwf dir.
  inversion Hwf as [? ? ? ? Hne _ _ Hk]; subst.
  rewrite walk_node_unfold. cbn [ttree node_name entries_node map fst]. f_equal.
  pose proof (child_path_nonempty dir name Hne) as Hp. remember (child_path dir name) as p. clear Heqp Hwf.
  induction kids as [|k kids IHk]; [reflexivity|].
  inversion IH as [|? ? IH1 IH2]; subst. inversion Hk as [|? ? Hk1 Hk2]; subst.
  cbn [walk_forest map flat_map]. rewrite !map_app, (IHk IH2 Hk2), (IH1 Hk1 p).
  unfold child_path. destruct p; [congruence|reflexivity].
Qed.

Lemma view_forest_paths roots : Forall wf_vnode roots ->
  map entry_path (walk_root roots) = map fst (entries_root (T dummy_rec (tkids roots))).
Proof.
  unfold walk_root, entries_root. cbn [t_kids].
  induction roots as [|k roots IH]; intros H; [reflexivity|]. inversion H; subst.
  cbn [walk_forest tkids map flat_map]. rewrite !map_app, view_node_paths by auto.
  f_equal. apply IH; auto.
Qed.

Lemma tkids_sorted l : StronglySorted vname_lt l -> Forall wf_vnode l ->
  (forall k, In k l -> sorted_tree (ttree k)) -> sorted_tree (T dummy_rec (tkids l)).
Proof.
  intros HS Hwf Hk. rewrite Forall_forall in Hwf. constructor.
  - eapply SS_map; [|exact HS]. intros a b _ _ Hab. unfold name_lt. cbn [fst].
    rewrite cmpb_is_cmp_bytes. exact Hab.
  - apply Forall_map, Forall_forall. intros k Hi. destruct (Hwf _ Hi); assumption.
  - apply Forall_map, Forall_forall. exact Hk.
Qed.

Lemma ttree_sorted n : wf_vnode n -> sorted_tree (ttree n).
Proof.
  induction n as [name st c kids IH] using node_ind'. intros Hwf.
  inversion Hwf as [? ? ? ? _ _ HS Hk]; subst. apply tkids_sorted; auto.
  rewrite Forall_forall in *. auto.
Qed.

Theorem view_walk_sorted_proof roots : wf_view roots ->
  StronglySorted path_lt (map (fun e => st_path (fst e)) (walk_root roots))
  /\ NoDup (map (fun e => st_path (fst e)) (walk_root roots)).
Proof.
  intros [HS Hk].
  assert (H : StronglySorted path_lt (map entry_path (walk_root roots))).
  { rewrite view_forest_paths by auto. apply entries_root_sorted, tkids_sorted; auto.
    rewrite Forall_forall in Hk. auto using ttree_sorted. }
  split; [exact H|exact (SS_NoDup _ _ path_lt_irrefl H)].
Qed.

(* the executable sortedness check is the predicate of walk_sorted *)
Lemma all_lt_spec p l : all_lt p l = true <-> Forall (path_lt p) l.
Proof.
  induction l as [|q l IH]; simpl; [split; auto|].
  rewrite andb_true_iff, IH. unfold path_ltb, path_lt. split.
  - intros [H1 H2]. constructor; auto. destruct (compare_path p q); auto; discriminate.
  - intros H. inversion H; subst. split; auto. rewrite H2. reflexivity.
Qed.

Lemma sorted_b_spec l : sorted_b l = true <-> StronglySorted path_lt l.
Proof.
  induction l as [|p l IH]; simpl; [split; auto; constructor|].
  rewrite andb_true_iff, IH, all_lt_spec. split.
  - intros [H1 H2]. constructor; auto.
  - intros H. inversion H; subst. auto.
Qed.

Lemma mem_N_in x l : mem_N x l = true <-> In x l.
Proof.
  induction l as [|y l IH]; simpl; [split; [discriminate|contradiction]|].
  rewrite orb_true_iff, IH, N.eqb_eq. split; intros [H|H]; auto.
Qed.

Lemma wf_name_b_sound n : wf_name_b n = true -> wf_name n.
Proof.
  unfold wf_name_b. rewrite !andb_true_iff, !negb_true_iff. intros (((H1 & H2) & H3) & H4).
  apply bytes_eqb_neq in H1, H3, H4. repeat split; auto.
  intro Hin. apply mem_N_in in Hin. congruence.
Qed.

Lemma nodup_b_sound l : nodup_b l = true -> NoDup l.
Proof.
  induction l as [|x l IH]; simpl; intros H; constructor; apply andb_true_iff in H; destruct H as [H1 H2]; auto.
  intro Hin. apply mem_bytes_in in Hin. rewrite Hin in H1. discriminate.
Qed.

Lemma wf_tree_b_sound t : wf_tree_b t = true -> wf_tree t.
Proof.
  induction t as [r kids IH] using tree_ind'. cbn [wf_tree_b].
  rewrite !andb_true_iff. intros (((H1 & H2) & H3) & H4). constructor.
  - intros Hd. rewrite Hd in H1. destruct kids; [reflexivity|discriminate].
  - rewrite forallb_forall in H2. apply Forall_forall. intros nk Hi. apply wf_name_b_sound. auto.
  - apply nodup_b_sound. exact H3.
  - rewrite forallb_forall in H4. apply Forall_forall. intros [n k] Hi. apply (IH n k Hi), (H4 (n, k) Hi).
Qed.

(* The witness against the hard-link rule across devices (C09.walk_hardlinks_cross_device_refuted).
   Two devices below one root (e.g. two mounts), on each a regular file "f" with a second link "g":
   both inodes carry number 2, as two fresh file systems do.  seenFiles is keyed by st_ino alone. *)
Definition xrec (mode ino nlink dev : N) : lrec :=
  {| l_mode := mode; l_uid := 0; l_gid := 0; l_size := 8; l_mtime := 1; l_rdev := 0;
     l_ino := ino; l_nlink := nlink; l_target := []; l_xattrs := []; l_dev := dev |}.
Definition t_xdev : tree :=
  T (xrec 16877 1 4 38)
    [ ([109; 49], T (xrec 17407 1 2 39) [ ([102], T (xrec 33188 2 2 39) []); ([103], T (xrec 33188 2 2 39) []) ]);
      ([109; 50], T (xrec 17407 1 2 40) [ ([102], T (xrec 33188 2 2 40) []); ([103], T (xrec 33188 2 2 40) []) ]) ].
