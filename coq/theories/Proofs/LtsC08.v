(* C08 on the goroutine LTS: what a run that ends in success has requested and completed
   is a function of the parameters alone (the ids whose content the diff needs), whatever
   the interleaving. *)
From Coq Require Import List Arith Bool PeanoNat Lia Permutation.
From FS Require Import Model.Lts Model.LtsExplore Proofs.ListAux Proofs.LtsInv Proofs.LtsSafe.
Import ListNotations.

Lemma memb_true_iff : forall x l, memb x l = true <-> In x l.
Proof.
  intros. unfold memb. rewrite existsb_exists. split.
  - intros (y & A & B). apply Nat.eqb_eq in B. subst. auto.
  - intro. exists x. split; auto. apply Nat.eqb_refl.
Qed.
Lemma memb_remb : forall x y l, memb x (remb y l) = true -> memb x l = true.
Proof.
  intros x y l H. apply memb_true_iff in H. apply memb_true_iff.
  unfold remb in H. apply filter_In in H. tauto.
Qed.
Lemma memb_cons_true : forall x y l, memb x (y :: l) = true -> x = y \/ memb x l = true.
Proof.
  intros x y l H. rewrite memb_cons in H. apply orb_prop in H. destruct H; auto.
  left. apply Nat.eqb_eq. auto.
Qed.

Definition inv7a (p : params) (st : state) : Prop :=
  forall j w, nth_error (wrs st) j = Some w -> kind_of p (wr_id w) = ENeed.

Lemma inv7a_step : forall p st l st', inv7a p st -> step p st l = Some st' -> inv7a p st'.
Proof.
  intros p st l st' I H. unfold inv7a.
  apply (forall_writers_step (fun _ w => kind_of p (wr_id w) = ENeed) _ _ _ _ H); auto.
Qed.

Definition inv7b (st : state) : Prop :=
  (forall id, memb id (pipes st) = true -> has_writer (wrs st) id) /\
  (forall id, memb id (completed st) = true -> has_writer (wrs st) id) /\
  (forall id, memb id (reqs st) = true -> has_writer (wrs st) id) /\
  (match rl_pc st with RL_Write id | RL_CloseP id => has_writer (wrs st) id | _ => True end).

Lemma has_writer_self : forall l j w, nth_error l j = Some w -> has_writer l (wr_id w).
Proof. intros. exists j, w. auto. Qed.

Lemma inv7b_step : forall p st l st', inv7b st -> step p st l = Some st' -> inv7b st'.
Proof.
  intros p st l st' I H.
  assert (M: forall id, has_writer (wrs st) id -> has_writer (wrs st') id)
    by (intros; eapply has_writer_step; eauto).
  unfold inv7b in I. destruct I as (I1 & I2 & I3 & I4).
  step_cases H l; unfold inv7b; frame; cbn in M |- *; rw_eqs; auto.
  all: try (destruct (rl_pc st); auto; fail).
  (* an id that enters a set is the one the receive loop holds or that of the writer that moves *)
  all: intros id' Hm; apply M; try apply memb_remb in Hm; try (apply memb_cons_true in Hm as [->|Hm]); auto.
  all: eapply has_writer_self; eassumption.
Qed.

Lemma inv7b_init : forall p, inv7b (init p).
Proof. intro p. unfold inv7b; cbn. repeat split; intros; discriminate. Qed.

(* A writer past SendMsg(REQ) has its id in the request set. *)
Definition wr_req_ok (st : state) (w : writer) : Prop :=
  match wr_pc w with
  | WR_Wait | WR_Notify => memb (wr_id w) (reqs st) = true
  | WR_Done => eg_err st = true \/ memb (wr_id w) (reqs st) = true
  | _ => True
  end.
Definition inv7c (st : state) : Prop :=
  forall j w, nth_error (wrs st) j = Some w -> wr_req_ok st w.

Lemma inv7c_step : forall p st l st', inv7c st -> step p st l = Some st' -> inv7c st'.
Proof.
  intros p st l st' I H. destruct (sets_grow _ _ _ _ H) as (G & _ & R).
  unfold inv7c. apply (forall_writers_step wr_req_ok _ _ _ _ H); auto.
  - intros w. unfold wr_req_ok. destruct (wr_pc w); intuition.
  - intros id pc pc' Ok X. unfold wr_req_ok in *. destruct pc'; cbn in *; auto.
    + destruct X as [_ X]. rewrite X, memb_cons, Nat.eqb_refl. reflexivity.
    + destruct X as (-> & _). auto.
    + destruct X as (_ & [X| ->]); auto.
  - intros; exact Logic.I.
Qed.

Record inv7 (p : params) (st : state) : Prop := { i_7a : inv7a p st; i_7b : inv7b st; i_7c : inv7c st }.

Lemma inv7_reachable : forall p st, reachable p st -> inv7 p st.
Proof.
  induction 1.
  - constructor.
    + intros j w H. destruct j; discriminate H.
    + apply inv7b_init.
    + intros j w H. destruct j; discriminate H.
  - destruct IHreachable. constructor.
    + eapply inv7a_step; eauto.
    + eapply inv7b_step; eauto.
    + eapply inv7c_step; eauto.
Qed.

Lemma need_ids_from_spec : forall l i id,
  In id (need_ids_from i l) <->
  exists k e, nth_error l k = Some e /\ id = i + k /\ e_kind e = ENeed.
Proof.
  induction l; intros i id; cbn [need_ids_from].
  - split; [intros [] | intros ([|k] & e & A & _); discriminate A].
  - assert (R: (exists k e, nth_error (a :: l) k = Some e /\ id = i + k /\ e_kind e = ENeed) <->
               (id = i /\ e_kind a = ENeed) \/ In id (need_ids_from (S i) l)).
    { rewrite IHl. split.
      - intros ([|k] & e & A & B & C).
        + injection A as <-. left. split; [lia | exact C].
        + right. exists k, e. repeat split; auto; lia.
      - intros [[B C]|(k & e & A & B & C)].
        + exists 0, a. repeat split; auto; lia.
        + exists (S k), e. repeat split; auto; lia. }
    rewrite R. destruct (e_kind a); cbn [In]; intuition (discriminate || auto).
Qed.

Lemma need_ids_spec : forall p id, In id (need_ids p) <-> kind_of p id = ENeed.
Proof.
  intros p id. unfold need_ids. rewrite need_ids_from_spec. unfold kind_of, entry_at. split.
  - intros (k & e & A & B & C). cbn in B. subst. rewrite A. exact C.
  - intro H. destruct (nth_error (p_entries p) id) as [e|] eqn:E; try discriminate.
    exists id, e. auto.
Qed.

Lemma kind_need_lt : forall p id, kind_of p id = ENeed -> id < nentries p.
Proof.
  intros p id H. unfold kind_of, entry_at in H. unfold nentries.
  destruct (nth_error (p_entries p) id) eqn:E; try discriminate.
  eapply nth_error_some_lt; eauto.
Qed.

(* In every reachable state in which Receive has returned nil -- whatever the interleaving,
   the capacities, the number of workers, and whatever faults happened on the way -- the set
   of completed files and the set of requests are exactly the ids the diff needs. *)
Lemma success_outcome_proof : forall p st, reachable p st -> recv_ret st = Some true ->
  forall id, (memb id (completed st) = true <-> In id (need_ids p)) /\
             (memb id (reqs st) = true <-> In id (need_ids p)).
Proof.
  intros p st R Ok id.
  destruct (no_false_success_proof _ _ R) as [NF _]. specialize (NF Ok).
  destruct NF as (_ & Hc & (Dl & De & Di) & Frs).
  destruct (inv7_reachable _ _ R) as [Ia (_ & Ib2 & Ib3 & _) Ic].
  destruct (inv_reachable _ _ R) as [_ _ _ J3 _ J5 _].
  destruct J3 as (_ & _ & _ & B4 & _). destruct (B4 Frs) as (_ & _ & Ee & Wd).
  rewrite need_ids_spec. repeat split.
  - intro M. destruct (Ib2 _ M) as (j & w & A & B). subst id. eapply Ia; eauto.
  - intro K. apply Hc; auto. apply kind_need_lt; auto.
  - intro M. destruct (Ib3 _ M) as (j & w & A & B). subst id. eapply Ia; eauto.
  - intro K. pose proof (kind_need_lt _ _ K) as Lt. rewrite <- Di in Lt.
    destruct (J5 De id Lt K) as [X|(j & w & A & B)]; [congruence|].
    pose proof (Ic _ _ A) as Q. pose proof (forallb_nth _ _ _ _ _ Wd A) as Dn.
    unfold wr_req_ok in Q. unfold wr_done in Dn. destruct (wr_pc w); try discriminate.
    subst id. destruct Q; [congruence | auto].
Qed.

Lemma outcome_deterministic_partial_proof : forall p st1 st2,
  reachable p st1 -> reachable p st2 -> recv_ret st1 = Some true -> recv_ret st2 = Some true ->
  (forall id, memb id (completed st1) = memb id (completed st2)) /\
  (forall id, memb id (reqs st1) = memb id (reqs st2)).
Proof.
  intros p st1 st2 R1 R2 O1 O2. split; intro id;
  destruct (success_outcome_proof _ _ R1 O1 id) as [A1 B1];
  destruct (success_outcome_proof _ _ R2 O2 id) as [A2 B2];
  apply eq_true_iff_eq; [rewrite A1, A2 | rewrite B1, B2]; reflexivity.
Qed.

Definition dl_bound (st : state) : nat := match dl_pc st with DL_Handle i => i | _ => dl_i st end.
Definition wr_ids (st : state) : list nat := map wr_id (wrs st).

(* Writers have distinct ids, all of entries the diff loop has handled. *)
Definition inv9a (st : state) : Prop :=
  (match dl_pc st with DL_Handle i => dl_i st = S i | _ => True end) /\
  (forall id, In id (wr_ids st) -> id < dl_bound st) /\
  NoDup (wr_ids st).

Lemma map_set_nth_same : forall (l : list writer) j w x,
  nth_error l j = Some w -> wr_id x = wr_id w -> map wr_id (set_nth j x l) = map wr_id l.
Proof.
  induction l; destruct j; intros w x H E; try discriminate H.
  - unfold nth_error in H. injection H as H. subst. change (set_nth 0 x (w :: l)) with (x :: l). cbn. congruence.
  - change (nth_error l j = Some w) in H. change (set_nth (S j) x (a :: l)) with (a :: set_nth j x l).
    cbn. f_equal. eapply IHl; eauto.
Qed.

Lemma wr_ids_step : forall p st l st', step p st l = Some st' ->
  wr_ids st' = wr_ids st \/
  (exists i, dl_pc st = DL_Handle i /\ kind_of p i = ENeed /\ wr_ids st' = wr_ids st ++ [i] /\
             dl_pc st' = DL_Next /\ dl_i st' = dl_i st).
Proof.
  intros p st l st' H. unfold wr_ids.
  destruct (writers_step _ _ _ _ H) as
    [(E & _)|[(j & id & pc & pc' & N & E & _)|(i & D & K & E & _ & _ & _ & D' & I')]]; rewrite E.
  - auto.
  - left. eapply map_set_nth_same; eauto.
  - right. exists i. rewrite map_app. auto.
Qed.

Lemma inv9a_step : forall p st l st', inv9a st -> step p st l = Some st' -> inv9a st'.
Proof.
  intros p st l st' (I1 & I2 & I3) H.
  destruct (wr_ids_step _ _ _ _ H) as [E|(i & D & K & E & B1 & B2)].
  - unfold inv9a. rewrite E.
    assert (B: (match dl_pc st' with DL_Handle i => dl_i st' = S i | _ => True end) /\ dl_bound st <= dl_bound st').
    { unfold dl_bound in *. clear E I2 I3.
      step_cases H l; try (split; [exact I1 | apply le_n]); cbn in *; rw_eqs; auto; lia. }
    destruct B as [B1 B2]. repeat split; auto. intros id Hin. apply I2 in Hin. lia.
  - unfold inv9a. rewrite E. rewrite D in I1.
    unfold dl_bound in *. rewrite B1, B2. rewrite D in I2. repeat split; auto.
    + intros id Hin. apply in_app_or in Hin. destruct Hin as [Hin|[Hin|[]]].
      * apply I2 in Hin. lia.
      * subst. lia.
    + apply NoDup_snoc; auto. intro Hin. apply I2 in Hin. lia.
Qed.

Lemma inv9a_reachable : forall p st, reachable p st -> inv9a st.
Proof.
  induction 1.
  - unfold inv9a, wr_ids, dl_bound; cbn. repeat split; auto. intros id []. constructor.
  - eapply inv9a_step; eauto.
Qed.

Definition pre_send (pc : wrpc) : bool := match pc with WR_Start | WR_Lock | WR_Send => true | _ => false end.

Lemma wr_ids_inj : forall st j j' w w',
  NoDup (wr_ids st) -> nth_error (wrs st) j = Some w -> nth_error (wrs st) j' = Some w' ->
  wr_id w = wr_id w' -> j = j'.
Proof.
  intros st j j' w w' N A B E. unfold wr_ids in N.
  apply (proj1 (NoDup_nth_error _) N j j').
  - rewrite map_length. eapply nth_error_some_lt; eauto.
  - rewrite (map_nth_error wr_id _ _ A), (map_nth_error wr_id _ _ B). congruence.
Qed.

Definition inv9b (st : state) : Prop :=
  NoDup (reqs st) /\
  (forall j w, nth_error (wrs st) j = Some w -> pre_send (wr_pc w) = true -> ~ In (wr_id w) (reqs st)).

(* a writer's move adds its id to the requests exactly when it completes SendMsg(REQ) *)
Lemma wr_next_reqs : forall st st' id pc pc', wr_next st st' id pc pc' ->
  (reqs st' = reqs st /\ (pre_send pc' = true -> pre_send pc = true)) \/
  (pc = WR_Send /\ pc' = WR_Wait /\ reqs st' = id :: reqs st).
Proof. intros st st' id pc pc'. destruct pc'; cbn; intuition (subst; try discriminate; auto). Qed.

Lemma inv9b_step : forall p st l st',
  inv7b st -> inv9a st -> inv9b st -> step p st l = Some st' -> inv9b st'.
Proof.
  intros p st l st' (_ & _ & B3 & _) (A1 & A2 & A3) (I1 & I2) H.
  destruct (writers_step _ _ _ _ H) as
    [(E1 & E2 & _)|[(j & id & pc & pc' & N & E1 & _ & _ & X)|(i & D & _ & E1 & E2 & _)]];
  unfold inv9b; rewrite E1.
  - rewrite E2. split; auto.
  - destruct (wr_next_reqs _ _ _ _ _ X) as [(E2 & M)|(-> & -> & E2)]; rewrite E2.
    + split; auto. intros j' w' Hn P.
      destruct (nth_error_set_nth_inv _ _ _ _ _ _ _ N Hn) as [->|Hn']; [|eapply I2; eauto].
      apply (I2 _ _ N). auto.
    + assert (Nid: ~ In id (reqs st)) by (apply (I2 _ _ N); reflexivity).
      split. constructor; auto.
      intros j' w' Hn P. rewrite (nth_error_set_nth _ _ _ j' _ _ N) in Hn. destruct (Nat.eqb_spec j j').
      * inv_some. subst. discriminate P.
      * intros [Y|Y]; [apply n; eapply wr_ids_inj; eauto; cbn; auto | eapply I2; eauto].
  - rewrite E2. split; auto. intros j' w' Hn P.
    destruct (nth_error_snoc_inv _ _ _ _ _ Hn) as [->|Hn']; [|eapply I2; eauto]. cbn.
    intro Y. apply memb_true_iff in Y. apply B3 in Y. destruct Y as (j0 & w0 & Y1 & Y2).
    assert (In i (wr_ids st)). { unfold wr_ids. subst i. apply in_map. eapply nth_error_In; eauto. }
    apply A2 in H0. unfold dl_bound in H0. rewrite D in H0. lia.
Qed.

Lemma inv9b_reachable : forall p st, reachable p st -> inv9b st.
Proof.
  induction 1.
  - unfold inv9b; cbn. split. constructor. intros j w X. destruct j; discriminate X.
  - eapply inv9b_step; eauto.
    + apply (inv7_reachable _ _ H).
    + eapply inv9a_reachable; eauto.
Qed.

(* No file is requested twice. *)
Lemma reqs_nodup_proof : forall p st, reachable p st -> NoDup (reqs st).
Proof. intros p st R. apply (inv9b_reachable _ _ R). Qed.

Lemma need_ids_from_nodup : forall l i, NoDup (need_ids_from i l).
Proof.
  induction l; intro i; cbn [need_ids_from].
  - constructor.
  - destruct (e_kind a); try apply IHl. constructor; [|apply IHl].
    intro X. apply need_ids_from_spec in X. destruct X as (k & e & _ & B & _). lia.
Qed.

(* a duplicate-free list with the members of [need_ids p] is a permutation of it *)
Lemma need_ids_permutation : forall p l, NoDup l ->
  (forall id, memb id l = true <-> In id (need_ids p)) -> Permutation l (need_ids p).
Proof.
  intros p l N H. apply NoDup_Permutation; [exact N | apply need_ids_from_nodup |].
  intro id. rewrite <- H. symmetry. apply memb_true_iff.
Qed.

Lemma success_requests_permutation_proof : forall p st, reachable p st -> recv_ret st = Some true ->
  Permutation (reqs st) (need_ids p).
Proof.
  intros p st R Ok. apply need_ids_permutation; [exact (reqs_nodup_proof p st R)|].
  intro id. apply (success_outcome_proof _ _ R Ok id).
Qed.
