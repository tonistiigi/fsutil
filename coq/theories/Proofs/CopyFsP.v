(* C14 — the copier's target-side steps (Model/CopyFs.v) keep the containment invariant. *)
From Coq Require Import List NArith Lia Bool ZifyN ZifyNat ZifyBool.
From FS Require Import Sx Model.Path Model.Fs Model.RootPath Model.CopyFs Model.CopyFsSpec
  Proofs.Lex Proofs.PathP Proofs.FsP Proofs.RootPathStrP Proofs.FsCopyFrameP Proofs.FsCopyInvP
  Proofs.FsCopySafeP Proofs.FsCopyLinksP Proofs.FsCopySysP.
Import ListNotations.
Open Scope N_scope.
Open Scope bool_scope.

Lemma sys_run op s : sys op s =
  ({| s_fs := fst (op (s_fs s)); s_links := s_links s; s_parents := s_parents s; s_reads := s_reads s |}, inl (snd (op (s_fs s)))).
Proof. unfold sys. destruct (op (s_fs s)); reflexivity. Qed.

Lemma bind_run {A B} (m : M A) (k : A -> M B) s :
  bind m k s = match m s with (s', inl a) => k a s' | (s', inr e) => (s', inr e) end.
Proof. reflexivity. Qed.

Lemma expect_ok_run r s : expect_ok r s = (s, match r with ROk | RFd _ => inl tt | _ => inr E_SYS end).
Proof. destruct r; reflexivity. Qed.

Definition mk (s : cst) (f : fs) : cst := {| s_fs := f; s_links := s_links s; s_parents := s_parents s; s_reads := s_reads s |}.

Lemma sys_bind {B} op (k : result -> M B) s : bind (sys op) k s = k (snd (op (s_fs s))) (mk s (fst (op (s_fs s)))).
Proof. rewrite bind_run, sys_run. reflexivity. Qed.

Lemma is_dir_kind f i n : get f i = Some n -> is_dir f i = kind_is_dir n.
Proof. intros E. unfold is_dir, dir_of, kind_is_dir. rewrite E. destruct n as [[] ?]; reflexivity. Qed.

Lemma is_dir_get f i : is_dir f i = true -> exists n, get f i = Some n /\ kind_is_dir n = true.
Proof.
  intros H. destruct (get f i) as [n|] eqn:E; [rewrite (is_dir_kind _ _ _ E) in H; eauto|].
  unfold is_dir, dir_of in H. rewrite E in H. discriminate.
Qed.

Section Copy.
  Variables (c : ctx) (f0 : fs) (dr : N) (dcs : list bytes).
  Notation Ctx := (Ctx c f0 dr dcs).
  Notation tpath := (tpath dcs).
  Notation SS := (SS f0 dr).
  Notation Tgt := (Tgt c f0 dr dcs).
  Notation names_ss := (names_ss f0 dr).
  Notation meta_post := (meta_post c f0 dr dcs).
  Notation links_ok := (links_ok f0 dr dcs).
  Notation link_ok := (link_ok f0 dr dcs).
  Notation outcome := FsCopySysP.outcome.
  Let b := f_next f0.
  Notation keeps_new := (keeps_new dr (f_next f0)).

  Definition lok (s : cst) : Prop := links_ok (s_fs s) (s_links s).
  (* no recorded path lies at or below p *)
  Definition forgotten (s : cst) (p : bytes) : Prop := forall e, In e (s_links s) -> forget_path p (snd e) = false.

  (* a step that stays at or below directory d *)
  Definition stays (d : N) (s s' : cst) : Prop :=
    Ctx (s_fs s') /\ above d (s_fs s) (s_fs s') /\ (lok s -> lok s') /\ keeps_new (s_fs s) (s_fs s') /\
    s_parents s' = s_parents s.

  Lemma stays_refl d s : Ctx (s_fs s) -> stays d s s.
  Proof. intros C. split; auto. split; [apply above_refl|]. split; [auto|]. split; [apply keeps_new_refl|reflexivity]. Qed.

  Lemma stays_trans d s1 s2 s3 : is_dir (s_fs s1) d = true -> stays d s1 s2 -> stays d s2 s3 -> stays d s1 s3.
  Proof.
    intros Hd (C2 & A2 & L2 & K2 & P2) (C3 & A3 & L3 & K3 & P3). split; auto. split; [eapply above_trans; eauto|].
    split; [auto|]. split; [eapply keeps_new_trans; eauto|congruence].
  Qed.

  Lemma stays_same d s s' : Ctx (s_fs s) -> s_fs s' = s_fs s -> s_links s' = s_links s -> s_parents s' = s_parents s ->
    stays d s s'.
  Proof.
    intros C E1 E2 E3. split; [rewrite E1; auto|]. split; [rewrite E1; apply above_refl|].
    split; [unfold lok; rewrite E1, E2; auto|]. split; [rewrite E1; apply keeps_new_refl|exact E3].
  Qed.

  Lemma stays_grows d s f : Ctx f -> above d (s_fs s) f -> grows (s_fs s) f -> keeps_new (s_fs s) f -> stays d s (mk s f).
  Proof.
    intros C A G K. split; auto. split; auto. split; [|split; auto]. unfold lok. simpl. intros H. eapply links_ok_grows; eauto.
  Qed.

  Lemma stays_meta d s f : meta_post (s_fs s) f -> stays d s (mk s f).
  Proof. intros M. pose proof (k_meta c f0 dr dcs _ _ M) as K. destruct M as (C & A & _ & _ & _ & _ & _ & G). apply stays_grows; auto. Qed.

  Lemma stays_shrinks s f cs d x : Tgt (s_fs s) cs d x -> Ctx f -> above d (s_fs s) f -> shrinks (s_fs s) f d x ->
    keeps_new (s_fs s) f -> forgotten s (tpath cs x) -> stays d s (mk s f).
  Proof.
    intros T C A S K Hf. split; auto. split; auto. split; [|split; auto]. unfold lok. simpl. intros H e He.
    eapply (link_ok_shrinks c f0 dr dcs (s_fs s) f cs d x); eauto; try apply T.
  Qed.

  Lemma stays_below d d1 q s s' : chain (s_fs s) d q d1 -> stays d1 s s' -> stays d s s'.
  Proof. intros Hq (C & A & L & K & P). split; auto. split; auto. eapply above_mono; eauto. Qed.

  Lemma tgt_stays s s' cs d x : Tgt (s_fs s) cs d x -> stays d s s' -> Tgt (s_fs s') cs d x.
  Proof. intros T (C & A & _). eapply tgt_step; eauto. Qed.

  Lemma forgotten_mk s f p : forgotten s p -> forgotten (mk s f) p.
  Proof. intros H e He. apply H. exact He. Qed.

  (* os.Lstat / os.Stat as the copier reads their result; nd: ENOTDIR counts as "not there" *)
  Definition opt_stat (nd : bool) (r : result) : option (N * inode) + N :=
    match r with
    | RStat i n => inl (Some (i, n))
    | RErr ENOENT => inl None
    | RErr ENOTDIR => if nd then inl None else inr E_SYS
    | _ => inr E_SYS
    end.

  Lemma lstat_opt_run p s : lstat_opt c p s = (mk s (s_fs s), opt_stat false (snd (sys_lstat c (s_fs s) p))).
  Proof.
    unfold lstat_opt. rewrite bind_run, sys_run, sys_lstat_fs. cbn [fst snd].
    destruct (snd (sys_lstat c (s_fs s) p)) as [|[]| | | |]; reflexivity.
  Qed.
  Lemma lstat_opt_nd_run p s : lstat_opt_nd c p s = (mk s (s_fs s), opt_stat true (snd (sys_lstat c (s_fs s) p))).
  Proof.
    unfold lstat_opt_nd. rewrite bind_run, sys_run, sys_lstat_fs. cbn [fst snd].
    destruct (snd (sys_lstat c (s_fs s) p)) as [|[]| | | |]; reflexivity.
  Qed.
  Lemma stat_opt_run p s : stat_opt c p s = (mk s (s_fs s), opt_stat false (snd (sys_stat c (s_fs s) p))).
  Proof.
    unfold stat_opt. rewrite bind_run, sys_run, sys_stat_fs. cbn [fst snd].
    destruct (snd (sys_stat c (s_fs s) p)) as [|[]| | | |]; reflexivity.
  Qed.

  Lemma lstat_opt_spec s s' r cs d x : Tgt (s_fs s) cs d x -> lstat_opt c (tpath cs x) s = (s', r) ->
    s_fs s' = s_fs s /\ s_links s' = s_links s /\ s_parents s' = s_parents s /\
    match r with
    | inl (Some (i, n)) => blookup x (dents (s_fs s) d) = Some i /\ get (s_fs s) i = Some n
    | inl None => absent (s_fs s) d x
    | inr _ => True
    end.
  Proof.
    intros T H. rewrite lstat_opt_run in H. injection H as <- <-. do 3 (split; [reflexivity|]).
    pose proof (t_lstat c f0 dr dcs (s_fs s) cs d x T) as Hl.
    destruct (snd (sys_lstat c (s_fs s) (tpath cs x))) as [|[]| | | |]; simpl; auto.
  Qed.

  Lemma lstat_opt_nd_pure p s s' r : lstat_opt_nd c p s = (s', r) ->
    s_fs s' = s_fs s /\ s_links s' = s_links s /\ s_parents s' = s_parents s.
  Proof. rewrite lstat_opt_nd_run. intros [= <- _]. auto. Qed.

  Lemma lstat_opt_nd_parents p s s' r : lstat_opt_nd c p s = (s', r) -> s_parents s' = s_parents s.
  Proof. apply lstat_opt_nd_pure. Qed.

  (* a lookup of a target path cannot report ENOTDIR: there the two wrappers of Lstat agree *)
  Lemma lstat_opt_nd_tgt s cs d x : Tgt (s_fs s) cs d x -> lstat_opt_nd c (tpath cs x) s = lstat_opt c (tpath cs x) s.
  Proof.
    intros T. rewrite lstat_opt_nd_run, lstat_opt_run. f_equal.
    assert (Hnd : snd (sys_lstat c (s_fs s) (tpath cs x)) <> RErr ENOTDIR).
    { unfold sys_lstat, resolve_ino. destruct (resolve c (s_fs s) (tpath cs x) false) as [r0|e] eqn:E.
      - destruct (l_ino r0) as [i|]; [destruct (get (s_fs s) i)|]; simpl; discriminate.
      - destruct (resolve_tpath_err c f0 dr dcs (s_fs s) cs d x false e) as [->|[G _]]; try apply T; auto;
          simpl; discriminate. }
    destruct (snd (sys_lstat c (s_fs s) (tpath cs x))) as [|[]| | | |]; try reflexivity. congruence.
  Qed.

  Lemma os_remove_spec s s' r cs d x : Tgt (s_fs s) cs d x -> forgotten s (tpath cs x) ->
    os_remove c (tpath cs x) s = (s', r) ->
    stays d s s' /\ s_links s' = s_links s /\ (r = inl tt -> blookup x (dents (s_fs s') d) = None).
  Proof.
    intros T Hf H. unfold os_remove in H. rewrite sys_bind in H.
    destruct (sys_unlink c (s_fs s) (tpath cs x)) as [f1 r1] eqn:E1. cbn [fst snd] in H.
    destruct (t_unlink c f0 dr dcs _ cs d x f1 r1 T E1) as ((C1 & A1 & [[e ->]|[-> P1]]) & K1 & Sh1).
    - pose proof (stays_shrinks s f1 cs d x T C1 A1 Sh1 K1 Hf) as S1.
      rewrite sys_bind in H.
      destruct (sys_rmdir c (s_fs (mk s f1)) (tpath cs x)) as [f2 r2] eqn:E2. cbn [fst snd] in H.
      assert (T1 : Tgt (s_fs (mk s f1)) cs d x) by (eapply tgt_stays; eauto).
      destruct (t_rmdir c f0 dr dcs _ cs d x f2 r2 T1 E2) as ((C2 & A2 & O2) & K2 & Sh2).
      pose proof (stays_shrinks (mk s f1) f2 cs d x T1 C2 A2 Sh2 K2 (forgotten_mk _ _ _ Hf)) as S2.
      destruct O2 as [[e2 ->]|[-> P2]]; rewrite expect_ok_run in H; injection H as <- <-.
      + split; [|split; [reflexivity|discriminate]]. eapply stays_trans; eauto. eapply tgt_dir; eauto.
      + split; [|split; [reflexivity|intros _; exact P2]]. eapply stays_trans; eauto. eapply tgt_dir; eauto.
    - injection H as <- <-. split; [apply (stays_shrinks s f1 cs d x T C1 A1 Sh1 K1 Hf)|].
      split; [reflexivity|]. intros _. exact P1.
  Qed.

  Lemma absent_none f d x : blookup x (dents f d) = None -> absent f d x.
  Proof. intros H. unfold absent. rewrite H. exact I. Qed.

  Lemma absent_not_some f d x i n : absent f d x -> blookup x (dents f d) = Some i -> get f i = Some n -> False.
  Proof. unfold absent. intros H Hb Hg. rewrite Hb in H. congruence. Qed.

  Lemma ensure_empty_spec s s' r cs d x : Tgt (s_fs s) cs d x -> forgotten s (tpath cs x) ->
    ensure_empty_file_target c (tpath cs x) s = (s', r) ->
    stays d s s' /\ s_links s' = s_links s /\ (r = inl tt -> absent (s_fs s') d x).
  Proof.
    intros T Hpre H. unfold ensure_empty_file_target in H. rewrite bind_run in H.
    destruct (lstat_opt c (tpath cs x) s) as [s1 r1] eqn:E1.
    destruct (lstat_opt_spec s s1 _ cs d x T E1) as (F1 & L1 & Q1 & P1).
    assert (S1 : stays d s s1) by (apply stays_same; auto; apply T).
    destruct r1 as [[[i n]|]|e]; [| |injection H as <- <-; split; auto; split; auto; discriminate].
    - destruct P1 as [Pb Pg]. destruct (kind_is_dir n).
      + injection H as <- <-. split; auto. split; auto. discriminate.
      + assert (T1 : Tgt (s_fs s1) cs d x) by (rewrite F1; auto).
        assert (Hf1 : forgotten s1 (tpath cs x)) by (intros e He; apply Hpre; rewrite <- L1; auto).
        destruct (os_remove_spec s1 s' r cs d x T1 Hf1 H) as (S2 & L2 & P2).
        split; [eapply stays_trans; eauto; eapply tgt_dir; eauto|]. split; [congruence|].
        intros Hr. apply absent_none. auto.
    - injection H as <- <-. split; auto. split; auto. intros _. rewrite F1. exact P1.
  Qed.

  Lemma forget_links_run p s : forget_links p s =
    ({| s_fs := s_fs s; s_links := filter (fun e => negb (forget_path p (snd e))) (s_links s); s_parents := s_parents s; s_reads := s_reads s |}, inl tt).
  Proof. reflexivity. Qed.

  Lemma forget_links_spec p s d : Ctx (s_fs s) ->
    let s' := fst (forget_links p s) in
    stays d s s' /\ forgotten s' p /\ s_fs s' = s_fs s.
  Proof.
    intros C s'. unfold s'. rewrite forget_links_run. cbn [fst]. split; [|split; [|reflexivity]].
    - split; [exact C|]. split; [apply above_refl|]. split; [|split; [apply keeps_new_refl|reflexivity]]. unfold lok. simpl. intros H e He.
      apply filter_In in He. apply H. apply He.
    - intros e He. simpl in He. apply filter_In in He. destruct He as [_ He]. apply negb_true_iff in He. exact He.
  Qed.

  Lemma remove_target_spec s s' r cs d x o fi tfi : Tgt (s_fs s) cs d x ->
    remove_target_if_needed c o (tpath cs x) fi tfi s = (s', r) ->
    stays d s s' /\ (forall p, forgotten s p -> forgotten s' p).
  Proof.
    intros T H. unfold remove_target_if_needed in H.
    destruct (negb (o_always_replace o)); [injection H as <- <-; split; auto; apply stays_refl; apply T|].
    destruct tfi as [[ti tn]|]; [|injection H as <- <-; split; auto; apply stays_refl; apply T].
    destruct (kind_is_dir fi && kind_is_dir tn); [injection H as <- <-; split; auto; apply stays_refl; apply T|].
    rewrite bind_run, forget_links_run in H.
    destruct (forget_links_spec (tpath cs x) s d (tg_ctx _ _ _ _ _ _ _ _ T)) as (S0 & F0 & E0).
    rewrite forget_links_run in S0, F0, E0. cbn [fst] in S0, F0, E0.
    set (s0 := {| s_fs := s_fs s; s_links := _; s_parents := _; s_reads := s_reads s |}) in *.
    rewrite sys_bind in H. change (s_fs s0) with (s_fs s) in H.
    destruct (sys_remove_all c (s_fs s) (tpath cs x)) as [f1 r1] eqn:E1. cbn [fst snd] in H.
    destruct (t_remove_all c f0 dr dcs _ cs d x f1 r1 T E1) as ((C1 & A1 & _) & K1 & Sh1).
    rewrite expect_ok_run in H. injection H as <- <-.
    assert (T0 : Tgt (s_fs s0) cs d x) by exact T.
    split.
    - eapply stays_trans; [eapply tgt_dir; eauto|exact S0|]. apply (stays_shrinks s0 f1 cs d x T0 C1 A1 Sh1 K1 F0).
    - intros p Hp e He. simpl in He. apply filter_In in He. apply Hp. apply He.
  Qed.

  (* a step that only changes metadata (copyFileTimestamp / copyFileInfo / copyXAttrs) *)
  Definition mstep (s s' : cst) : Prop := meta_post (s_fs s) (s_fs s') /\ s_links s' = s_links s /\ s_parents s' = s_parents s.

  Lemma mstep_refl s : Ctx (s_fs s) -> mstep s s.
  Proof. intros C. split; auto. apply meta_post_refl; auto. Qed.
  Lemma mstep_same s s' : Ctx (s_fs s) -> s_fs s' = s_fs s -> s_links s' = s_links s -> s_parents s' = s_parents s -> mstep s s'.
  Proof. intros C E1 E2 E3. split; auto. rewrite E1. apply meta_post_refl; auto. Qed.
  Lemma mstep_trans s1 s2 s3 : mstep s1 s2 -> mstep s2 s3 -> mstep s1 s3.
  Proof. intros (A1 & B1 & P1) (A2 & B2 & P2). split; [eapply meta_post_trans; eauto|split; congruence]. Qed.
  Lemma mstep_mk s f : meta_post (s_fs s) f -> mstep s (mk s f).
  Proof. intros H. split; auto. Qed.

  Lemma mstep_stays d s s' : mstep s s' -> stays d s s'.
  Proof.
    intros (M & E & Ep). pose proof (k_meta c f0 dr dcs _ _ M) as K.
    destruct M as (C & A & _ & _ & _ & _ & _ & G). split; auto. split; auto. split; [|split; auto].
    unfold lok. rewrite E. intros H. eapply links_ok_grows; eauto.
  Qed.

  Lemma mstep_tgt s s' cs d x : Tgt (s_fs s) cs d x -> mstep s s' -> Tgt (s_fs s') cs d x.
  Proof. intros T M. eapply tgt_stays; eauto. eapply mstep_stays; eauto. Qed.

  Lemma mstep_names s s' d x i : names_ss (s_fs s) d x i -> mstep s s' -> names_ss (s_fs s') d x i.
  Proof. intros H (M & _). eapply names_ss_meta; eauto. Qed.

  Lemma mstep_link s s' i : mstep s s' -> FsP.is_link (s_fs s') i = FsP.is_link (s_fs s) i.
  Proof. intros ((_ & _ & _ & _ & L & _) & _). apply L. Qed.

  Lemma log_read_run i s : log_read i s = ({| s_fs := s_fs s; s_links := s_links s; s_parents := s_parents s; s_reads := i :: s_reads s |}, inl tt).
  Proof. reflexivity. Qed.

  (* [MS L cs d x i m]: m is made of reads and of metadata calls on the path of the name x of d,
     which stands for the SS inode i; L holds when one of the calls follows a final symlink *)
  Definition MS {A} (L : Prop) (cs : list bytes) (d : N) (x : bytes) (i : N) (m : M A) : Prop := forall s s' r,
    Tgt (s_fs s) cs d x -> names_ss (s_fs s) d x i -> (L -> FsP.is_link (s_fs s) i = false) -> m s = (s', r) -> mstep s s'.

  Lemma MS_ret {A} L cs d x i (a : A) : MS L cs d x i (ret a).
  Proof. intros s s' r T _ _ H. injection H as <- _. apply mstep_refl, T. Qed.
  Lemma MS_fail {A} L cs d x i e : MS L cs d x i (@fail A e).
  Proof. intros s s' r T _ _ H. injection H as <- _. apply mstep_refl, T. Qed.
  Lemma MS_expect_ok L cs d x i r : MS L cs d x i (expect_ok r).
  Proof. destruct r; first [apply MS_ret|apply MS_fail]. Qed.
  Lemma MS_log_read L cs d x i j : MS L cs d x i (log_read j).
  Proof. intros s s' r T _ _ H. injection H as <- _. apply mstep_same; auto. apply T. Qed.
  Lemma MS_read L cs d x i (op : fs -> fs * result) : (forall f, fst (op f) = f) -> MS L cs d x i (sys op).
  Proof. intros Hop s s' r T _ _ H. rewrite sys_run, Hop in H. injection H as <- _. apply mstep_same; auto. apply T. Qed.
  Lemma MS_sys (L : Prop) fl cs d x i (op : fs -> fs * result) :
    (forall f f' res, op f = (f', res) -> meta_update c f (tpath cs x) fl f' res) -> (fl = true -> L) ->
    MS L cs d x i (sys op).
  Proof.
    intros Hop HL s s' r T Hn Hl H. rewrite sys_run in H. injection H as <- _. apply mstep_mk.
    apply (t_meta_update c f0 dr dcs _ cs d x i fl _ (snd (op (s_fs s))) T Hn); [auto|apply Hop, surjective_pairing].
  Qed.
  Lemma MS_bind {A B} L cs d x i (m : M A) (k : A -> M B) :
    MS L cs d x i m -> (forall a, MS L cs d x i (k a)) -> MS L cs d x i (bind m k).
  Proof.
    intros Hm Hk s s' r T Hn Hl H. rewrite bind_run in H.
    destruct (m s) as [s1 [a|e]] eqn:E; pose proof (Hm _ _ _ T Hn Hl E) as M1; [|injection H as <- <-; exact M1].
    eapply mstep_trans; [exact M1|].
    apply (Hk a s1 s' r); [eapply mstep_tgt|eapply mstep_names|rewrite (mstep_link _ _ _ M1)|]; eauto.
  Qed.
  Lemma MS_weaken {A} (L L' : Prop) cs d x i (m : M A) : (L -> L') -> MS L cs d x i m -> MS L' cs d x i m.
  Proof. intros HL Hm s s' r T Hn Hl. apply Hm; auto. Qed.

  Lemma copy_file_timestamp_spec cs d x i o fi : MS False cs d x i (copy_file_timestamp c o fi (tpath cs x)).
  Proof.
    unfold copy_file_timestamp. cbv zeta. apply MS_bind; [|intros r; apply MS_expect_ok].
    apply (MS_sys _ false); [intros f f' res; apply sys_utimens_inv|discriminate].
  Qed.

  Lemma copy_file_info_spec cs d x i o fi : MS (kind_is_link fi = false) cs d x i (copy_file_info c o fi (tpath cs x)).
  Proof.
    unfold copy_file_info. destruct (match o_chown o with Some ug => ug | None => _ end) as [u g]. cbv zeta.
    apply MS_bind; [apply (MS_sys _ false); [intros f f' res; apply sys_lchown_inv|discriminate]|intros r1].
    apply MS_bind; [apply MS_expect_ok|intros _].
    apply MS_bind; [|intros _; apply (MS_weaken False); [tauto|apply copy_file_timestamp_spec]].
    destruct (kind_is_link fi); [apply MS_ret|].
    apply MS_bind; [apply (MS_sys _ true); [intros f f' res; apply sys_chmod_inv|reflexivity]|intros r2; apply MS_expect_ok].
  Qed.

  Lemma set_xattrs_spec cs d x i xs : MS False cs d x i (set_xattrs c (tpath cs x) xs).
  Proof.
    induction xs as [|[k v] xs IH]; cbn [set_xattrs]; [apply MS_ret|].
    apply MS_bind; [apply (MS_sys _ false); [intros f f' res; apply sys_lsetxattr_inv|discriminate]|intros r1].
    apply MS_bind; [apply MS_expect_ok|intros _; exact IH].
  Qed.

  Lemma copy_xattrs_spec cs d x i src : MS False cs d x i (copy_xattrs c (tpath cs x) src).
  Proof.
    unfold copy_xattrs. apply MS_bind; [apply MS_read; intros f; apply sys_lstat_fs|intros r].
    destruct r; try apply MS_fail. apply MS_bind; [apply MS_log_read|intros _; apply set_xattrs_spec].
  Qed.

  Lemma finish_meta_spec cs d x i o fi src : MS (kind_is_link fi = false) cs d x i (finish_meta c o fi src (tpath cs x)).
  Proof.
    apply MS_bind; [apply copy_file_info_spec|intros _; apply (MS_weaken False); [tauto|apply copy_xattrs_spec]].
  Qed.

  Lemma copy_directory_only_spec s s' r cs d x fi ow : Tgt (s_fs s) cs d x ->
    copy_directory_only c (tpath cs x) fi ow s = (s', r) ->
    stays d s s' /\ s_links s' = s_links s /\
    (forall created, r = inl created ->
       exists d1, blookup x (dents (s_fs s') d) = Some d1 /\ is_dir (s_fs s') d1 = true).
  Proof.
    intros T H. unfold copy_directory_only in H. rewrite bind_run in H.
    destruct (lstat_opt c (tpath cs x) s) as [s1 r1] eqn:E1.
    destruct (lstat_opt_spec s s1 _ cs d x T E1) as (F1 & L1 & Q1 & P1).
    assert (S1 : stays d s s1) by (apply stays_same; auto; apply T).
    destruct r1 as [o|e]; [|injection H as <- <-; split; auto; split; auto; discriminate].
    assert (T1 : Tgt (s_fs s1) cs d x) by (rewrite F1; auto).
    assert (Hd : is_dir (s_fs s) d = true) by (eapply tgt_dir; eauto).
    destruct o as [[i n]|].
    - destruct P1 as [Pb Pg]. destruct (kind_is_dir n) eqn:Ek; simpl in H.
      + assert (Hi : is_dir (s_fs s1) i = true).
        { rewrite F1, (is_dir_kind _ _ _ Pg). exact Ek. }
        destruct ow.
        * assert (Hss : names_ss (s_fs s1) d x i).
          { split; [rewrite F1; auto|]. eapply (SS_closed f0 dr (s_fs s1) d x i); eauto.
            - eapply tgt_inv; eauto. - eapply tgt_SS; eauto. - rewrite F1; auto. }
          assert (M : mstep s1 s').
          { refine (MS_bind True cs d x i _ _ _ _ s1 s' r T1 Hss (fun _ => dir_not_link _ _ Hi) H).
            - apply (MS_sys _ true); [intros f f' res; apply sys_chmod_inv|auto].
            - intros r2. apply MS_bind; [apply MS_expect_ok|intros _; apply MS_ret]. }
          split; [eapply stays_trans; [exact Hd|exact S1|apply mstep_stays, M]|]. split; [rewrite <- L1; apply M|].
          intros created _. exists i. destruct M as ((_ & _ & D2 & I2 & _) & _). rewrite D2, I2. rewrite F1 in *. auto.
        * injection H as <- <-. split; auto. split; auto. intros created _. exists i. rewrite F1 in *. auto.
      + injection H as <- <-. split; auto. split; auto. discriminate.
    - rewrite sys_bind in H.
      destruct (sys_mkdir c (s_fs s1) (tpath cs x) (m_mode (i_meta fi))) as [f2 r2] eqn:E2. cbn [fst snd] in H.
      destruct (t_mkdir c f0 dr dcs _ cs d x _ f2 r2 T1 E2) as ((C2 & A2 & [[e ->]|[-> [Hc Hi]]]) & G2 & K2);
        rewrite bind_run, expect_ok_run in H; injection H as <- <-.
      + split; [|split; [simpl; auto|discriminate]]. eapply stays_trans; eauto. apply stays_grows; auto.
      + split; [eapply stays_trans; eauto; apply stays_grows; auto|]. split; [simpl; auto|].
        intros created _. exists (f_next (s_fs s1)). simpl. split; auto. apply Hc.
  Qed.

  Definition made (s' : cst) (d : N) (x : bytes) : Prop :=
    exists i, names_ss (s_fs s') d x i /\ b <= i /\ FsP.is_link (s_fs s') i = false.

  Lemma isfile_not_link f i : isfile f i -> FsP.is_link f i = false.
  Proof. intros (data & m & H). unfold FsP.is_link. rewrite H. reflexivity. Qed.

  (* copyFile: os.Create follows a final symlink, but the name is absent *)
  Lemma copy_file_spec s s' r cs d x src : Tgt (s_fs s) cs d x -> absent (s_fs s) d x ->
    copy_file c src (tpath cs x) s = (s', r) ->
    stays d s s' /\ s_links s' = s_links s /\ grows (s_fs s) (s_fs s') /\
    (r = inl tt -> exists i, names_ss (s_fs s') d x i /\ b <= i /\ isfile (s_fs s') i).
  Proof.
    intros T Hab H. unfold copy_file in H. rewrite bind_run in H. unfold get_fs at 1 in H.
    destruct (resolve_ino c (s_fs s) src true) as [j|e];
      [|unfold fail in H; injection H as <- <-; split; [apply stays_refl; apply T|split; auto; split; [apply grows_refl|discriminate]]].
    destruct (get (s_fs s) j) as [[[p0 es|data|t|ty rd] m]|];
      try (unfold fail in H; injection H as <- <-; split; [apply stays_refl; apply T|split; auto; split; [apply grows_refl|discriminate]]).
    rewrite bind_run, log_read_run in H.
    set (s1 := {| s_fs := s_fs s; s_links := s_links s; s_parents := s_parents s; s_reads := j :: s_reads s |}) in *.
    assert (S1 : stays d s s1) by (apply stays_same; auto; apply T).
    rewrite sys_bind in H. change (s_fs s1) with (s_fs s) in H.
    destruct (sys_open_wronly c (s_fs s) (tpath cs x) true 438) as [f2 r2] eqn:E2. cbn [fst snd] in H.
    destruct (t_open c f0 dr dcs _ cs d x _ f2 r2 T Hab E2) as ((C2 & A2 & P2) & G2 & K2).
    assert (S2 : stays d s1 (mk s1 f2)) by (apply stays_grows; auto).
    assert (Hd : is_dir (s_fs s) d = true) by (eapply tgt_dir; eauto).
    assert (Hbad : stays d s (mk s1 f2) /\ s_links (mk s1 f2) = s_links s /\ grows (s_fs s) f2).
    { split; [eapply stays_trans; [exact Hd|exact S1|exact S2]|split; [reflexivity|exact G2]]. }
    destruct r2 as [|e2|i1 n1|b1|l1|i];
      try (unfold fail in H; injection H as <- <-; destruct Hbad as (B1 & B2 & B3);
           split; [exact B1|split; [exact B2|split; [exact B3|discriminate]]]).
    destruct (P2 i eq_refl) as (Ei & Hc & Hnl & (m2 & Hg2)).
    assert (Hbi : b <= i) by apply Hc.
    rewrite sys_bind in H. cbn [fst snd] in H.
    pose proof (t_fd_truncate c f0 dr dcs (s_fs (mk s1 f2)) i C2 Hbi) as M3.
    set (s3 := mk (mk s1 f2) (fd_truncate _ i)) in H.
    assert (S3 : mstep (mk s1 f2) s3) by (split; auto).
    rewrite sys_bind in H.
    destruct (fd_pwrite (s_fs s3) i 0 data) as [f4 r4] eqn:E4. cbn [fst snd] in H.
    assert (C3 : Ctx (s_fs s3)) by apply M3.
    pose proof (t_fd_pwrite c f0 dr dcs (s_fs s3) i 0%nat data f4 r4 C3 Hbi E4) as M4.
    assert (S4 : mstep s3 (mk s3 f4)) by (apply mstep_mk; auto).
    rewrite expect_ok_run in H. injection H as <- <-.
    assert (M24 : mstep (mk s1 f2) (mk s3 f4)) by (eapply mstep_trans; eauto).
    split; [eapply stays_trans; [exact Hd|exact S1|]; eapply stays_trans; [exact Hd|exact S2|]; apply mstep_stays; auto|].
    assert (G24 : grows f2 f4) by (destruct M24 as [(_ & _ & _ & _ & _ & _ & _ & G) _]; exact G).
    split; [reflexivity|]. split; [eapply grows_trans; eauto|]. intros _. exists i. split; [|split; auto].
    - eapply (mstep_names (mk s1 f2)); eauto. split; [apply Hc|right; auto].
    - apply G24. exists [], m2. exact Hg2.
  Qed.

  Definition ok_res {A} (r : A + N) : Prop := exists a, r = inl a.
  (* like [stays], but the link map is only claimed to be sound when the step succeeded *)
  Definition stays_ok {A} (d : N) (s s' : cst) (r : A + N) : Prop :=
    Ctx (s_fs s') /\ above d (s_fs s) (s_fs s') /\ (ok_res r -> lok s -> lok s') /\ keeps_new (s_fs s) (s_fs s').

  Lemma stays_stays_ok {A} d s s' (r : A + N) : stays d s s' -> stays_ok d s s' r.
  Proof. intros (C & A0 & L & K & _). split; auto. Qed.

  Lemma link_ok_tgt f p : Ctx f -> link_ok f p -> exists cs x d i, p = tpath cs x /\ Tgt f cs d x /\
    blookup x (dents f d) = Some i /\ b <= i /\ isfile f i.
  Proof.
    intros C (cs & x & d & i & E & H1 & H2 & H3 & H4 & Hc & Hb & Hi & Hf).
    exists cs, x, d, i. split; auto. split; [constructor; auto|auto].
  Qed.

  Lemma assoc_N_In {A} k (l : list (N * A)) v : assoc_N k l = Some v -> In (k, v) l.
  Proof.
    induction l as [|[k' v'] l IH]; simpl; [discriminate|].
    destruct (N.eqb_spec k k') as [->|]; intros H; [inversion H; auto|auto].
  Qed.

  (* copy.go: getLinkSource, then os.Link or copyFile *)
  Lemma copy_regular_spec s s' r cs d x src ino multi : Tgt (s_fs s) cs d x -> absent (s_fs s) d x -> lok s ->
    copy_regular c src (tpath cs x) ino multi s = (s', r) ->
    stays_ok d s s' r /\ s_parents s' = s_parents s /\ (r = inl tt -> made s' d x).
  Proof.
    intros T Hab L H. unfold copy_regular in H.
    assert (Hplain : forall s0 s1 r1, s_fs s0 = s_fs s -> (lok s -> lok s0) -> s_links s0 = s_links s -> s_parents s0 = s_parents s ->
              copy_file c src (tpath cs x) s0 = (s1, r1) -> stays_ok d s s1 r1 /\ s_parents s1 = s_parents s /\ (r1 = inl tt -> made s1 d x)).
    { intros s0 s1 r1 E0 L0 EL EP H1.
      assert (T0 : Tgt (s_fs s0) cs d x) by (rewrite E0; auto).
      assert (Hab0 : absent (s_fs s0) d x) by (rewrite E0; auto).
      destruct (copy_file_spec s0 s1 r1 cs d x src T0 Hab0 H1) as ((C1 & A1 & L1 & K1 & Q1) & EL1 & _ & P1).
      split; [split; auto; split; [rewrite <- E0; auto|split; [auto|rewrite <- E0; auto]]|]. split; [congruence|].
      intros Hr. destruct (P1 Hr) as (i & Hn & Hbi & Hf). exists i. split; auto. split; auto. apply isfile_not_link; auto. }
    destruct multi; [|eapply Hplain; eauto].
    rewrite bind_run in H. unfold get_links at 1 in H.
    destruct (assoc_N ino (s_links s)) as [first|] eqn:Ea.
    - (* os.Link(first, target) *)
      pose proof (L _ (assoc_N_In _ _ _ Ea)) as Lf. simpl in Lf.
      destruct (link_ok_tgt _ _ (tg_ctx _ _ _ _ _ _ _ _ T) Lf) as (cs1 & x1 & d1 & i1 & -> & T1 & Hb1 & Hi1 & Hf1).
      rewrite sys_bind in H.
      destruct (sys_link c (s_fs s) (tpath cs1 x1) (tpath cs x)) as [f2 r2] eqn:E2. cbn [fst snd] in H.
      destruct (t_link c f0 dr dcs _ cs d x _ f2 r2 T E2) as ((C2 & A2 & P2) & G2 & K2).
      assert (Hnew : forall i, resolve_ino c (s_fs s) (tpath cs1 x1) false = inl i -> b <= i).
      { intros i Ei. rewrite (tgt_ino_nf c f0 dr dcs _ cs1 d1 x1 i T1 Ei) in Hb1. inversion Hb1; subst. exact Hi1. }
      specialize (K2 Hnew).
      assert (S2 : stays d s (mk s f2)) by (apply stays_grows; auto).
      rewrite expect_ok_run in H.
      destruct P2 as [[e ->]|[-> (i & Ei & Hbi & _)]]; injection H as <- <-.
      + split; [apply stays_stays_ok; auto|split; [reflexivity|discriminate]].
      + split; [apply stays_stays_ok; auto|]. split; [reflexivity|]. intros _.
        rewrite (tgt_ino_nf c f0 dr dcs _ cs1 d1 x1 i T1 Ei) in Hb1. inversion Hb1; subst i1.
        exists i. split; [split; [exact Hbi|right; auto]|]. split; auto.
        apply isfile_not_link. apply G2. exact Hf1.
    - (* record the target, copy *)
      rewrite bind_run in H. unfold add_link at 1 in H.
      set (s0 := {| s_fs := s_fs s; s_links := (ino, tpath cs x) :: s_links s; s_parents := s_parents s; s_reads := s_reads s |}) in H.
      assert (T0 : Tgt (s_fs s0) cs d x) by exact T.
      destruct (copy_file_spec s0 s' r cs d x src T0 Hab H) as ((C1 & A1 & L1 & K1 & Q1) & EL1 & G1 & P1).
      split; [|split; [exact Q1|]].
      + split; auto. split; auto. split; [|exact K1]. intros [a ->] L0.
        destruct a. destruct (P1 eq_refl) as (i & [Hb Hs] & Hbi & Hf).
        intros e He. rewrite EL1 in He. simpl in He. destruct He as [<-|He].
        * simpl. assert (T' : Tgt (s_fs s') cs d x) by (eapply tgt_step; eauto).
          exists cs, x, d, i. split; [reflexivity|]. do 4 (split; [apply T'|]). split; [apply T'|]. auto.
        * (* the older entries: the file system only grew *)
          eapply link_ok_grows; [exact G1|]. apply L0. exact He.
      + intros Hr. destruct (P1 Hr) as (i & Hn & Hbi & Hf). exists i. split; auto. split; auto. apply isfile_not_link; auto.
  Qed.

  Lemma copy_device_spec s s' r cs d x fi : Tgt (s_fs s) cs d x ->
    copy_device c (tpath cs x) fi s = (s', r) ->
    stays d s s' /\ s_links s' = s_links s /\ (r = inl tt -> made s' d x).
  Proof.
    intros T H. unfold copy_device in H.
    destruct (i_kind fi) as [p0 es|dd|t|typ rdev];
      try (unfold fail in H; injection H as <- <-; split; [apply stays_refl; apply T|split; auto; discriminate]).
    (* either flavour of mknod makes a new inode at the name, and no symlink *)
    assert (Hop : forall f1 r1, grown c f0 dr dcs d (s_fs s) f1
                (outcome r1 (created f0 (s_fs s) f1 d x (f_next (s_fs s)) /\ FsP.is_link f1 (f_next (s_fs s)) = false)) ->
              expect_ok r1 (mk s f1) = (s', r) ->
              stays d s s' /\ s_links s' = s_links s /\ (r = inl tt -> made s' d x)).
    { intros f1 r1 ((C1 & A1 & P1) & G1 & K1) E. rewrite expect_ok_run in E.
      destruct P1 as [[e ->]|[-> [Hc Hl]]]; injection E as <- <-; (split; [apply stays_grows; auto|split; [reflexivity|]]);
        [discriminate|].
      intros _. exists (f_next (s_fs s)). split; [split; [apply Hc|right; apply Hc]|]. split; [apply Hc|exact Hl]. }
    destruct (N.eqb typ S_IFSOCK); rewrite sys_bind in H.
    - destruct (sys_mknod_reg c (s_fs s) (tpath cs x) _) as [f1 r1] eqn:E1.
      eapply Hop; [eapply t_mknod_reg|]; eauto.
    - destruct (sys_mknod c (s_fs s) (tpath cs x) typ _ rdev) as [f1 r1] eqn:E1.
      eapply Hop; [eapply t_mknod|]; eauto.
  Qed.

  Lemma tpath_join cs x n : Forall nm dcs -> Forall nm cs -> nm x -> nm n -> join2 (tpath cs x) n = tpath (cs ++ [x]) n.
  Proof.
    intros Hd Hcs Hx Hn. unfold FsCopySafeP.tpath. rewrite join2_names, <- !app_assoc; auto.
    repeat (apply Forall_app; split; auto).
  Qed.

  Lemma insert_sorted_forall {A} (P : bytes -> Prop) k (v : A) l :
    P k -> Forall P (map fst l) -> Forall P (map fst (insert_sorted k v l)).
  Proof.
    intros Hk. induction l as [|[k' v'] l IH]; simpl; intros H; [constructor; auto|].
    inversion H; subst. destruct (cmp_bytes k k'); simpl; constructor; auto.
  Qed.

  Lemma sorted_names_forall (P : bytes -> Prop) l : Forall P l -> Forall P (sorted_names l).
  Proof.
    unfold sorted_names, sort_ents. induction 1 as [|a l Ha Hl IH]; simpl; [constructor|].
    apply insert_sorted_forall; auto.
  Qed.

  Lemma readdir_names f p names : Inv f0 dr f -> snd (sys_readdir c f p) = RNames names -> Forall okn names.
  Proof.
    intros I H. unfold sys_readdir in H. destruct (resolve_ino c f p true) as [i|e]; [|discriminate].
    destruct (dir_of f i) as [[pp es]|] eqn:Ed; [|discriminate]. simpl in H. inversion H; subst.
    pose proof (inv_names f0 dr f I i) as Hn. unfold dents in Hn. rewrite Ed in Hn. exact Hn.
  Qed.

  Lemma stays_ok_pre {A} d s1 s2 s3 (r : A + N) : is_dir (s_fs s1) d = true ->
    stays d s1 s2 -> stays_ok d s2 s3 r -> stays_ok d s1 s3 r.
  Proof.
    intros Hd (C2 & A2 & L2 & K2 & _) (C3 & A3 & L3 & K3). split; auto. split; [eapply above_trans; eauto|].
    split; [auto|eapply keeps_new_trans; eauto].
  Qed.

  Lemma stays_ok_seq {A B} d s1 s2 s3 (a : A) (r : B + N) : is_dir (s_fs s1) d = true ->
    stays_ok d s1 s2 (@inl A N a) -> stays_ok d s2 s3 r -> stays_ok d s1 s3 r.
  Proof.
    intros Hd (C2 & A2 & L2 & K2) (C3 & A3 & L3 & K3). split; auto. split; [eapply above_trans; eauto|].
    split; [|eapply keeps_new_trans; eauto].
    intros Hr L1. apply L3; auto. apply L2; auto. exists a. reflexivity.
  Qed.

  Lemma stays_ok_fail {A B} d s s' (r : A + N) (e : N) : stays_ok d s s' r -> stays_ok d s s' (@inr B N e).
  Proof. intros (C & A0 & _ & K). split; auto. split; auto. split; auto. intros [a Ha]. discriminate. Qed.

  Lemma stays_ok_below {A} d d1 q s s' (r : A + N) : chain (s_fs s) d q d1 -> stays_ok d1 s s' r -> stays_ok d s s' r.
  Proof. intros Hq (C & A0 & L & K). split; auto. split; auto. eapply above_mono; eauto. Qed.

  Lemma stays_ok_chain {A} d s s' (r : A + N) a p : stays_ok d s s' r -> chain (s_fs s) a p d -> chain (s_fs s') a p d.
  Proof. intros (_ & A0 & _) H. apply (A0 a p d []); [exact H|]. constructor. eapply chain_end_dir; eauto. Qed.
End Copy.
