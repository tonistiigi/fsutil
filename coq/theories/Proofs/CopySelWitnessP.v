(* Witnesses for the refutations of C16 (evaluated by vm_compute): K1 (late shadow) and the
   unsafe star literal, both on the copier; and the tree and destinations of the closed examples. *)
From Coq Require Import List NArith Bool String Ascii.
From FS Require Import Sx Model.Path Model.Stat Model.Tree Model.Pattern Model.FilterWalk Model.CopierSel
  Proofs.Lex Proofs.PathP Proofs.PatternP Proofs.WitnessP.
Import ListNotations.
Open Scope bool_scope.

Definition lpaths (l : list litem) : list (list N) := map l_path l.

(* K1: include [d, !d/c, d], tree d/{c,e}: the copier does not copy d/c *)
Lemma k1_copy :
  exists fs' log, copy_sel pm_lit k1_cfg false (SrcDir st_dir k1_view) empty_dst = (fs', log, None)
    /\ lpaths log = map bs ["d"; "d/e"]%string
    /\ lpaths (flat_items (keep_naive pm_lit k1_cfg) k1_view) = map bs ["d"; "d/c"; "d/e"]%string
    /\ log <> flat_items (keep_naive pm_lit k1_cfg) k1_view.
Proof.
  eexists. eexists. split; [vm_compute; reflexivity|]. split; [vm_compute; reflexivity|].
  split; [vm_compute; reflexivity|]. intros H. vm_compute in H. discriminate.
Qed.

Lemma k1_wf : wf_tree k1_view = true /\ wf_strict k1_view = true /\ all_paths (nls_path pm_lit k1_cfg) k1_view = false.
Proof. vm_compute. auto. Qed.

(* unsafe star literal: include [a{2}/*], tree aa/x: the copier copies aa, aa/x; the walk
   (as the code runs it, pruning by byte prefix) reports nothing *)
Lemma k5_copy :
  exists fs' log, copy_sel pm_k5 k5_cfg false (SrcDir st_dir k5_view) empty_dst = (fs', log, None)
    /\ lpaths log = map bs ["aa"; "aa/x"]%string
    /\ filter_walk pm_k5 id_map k5_cfg k5_view = []
    /\ map l_st log <> filter_walk pm_k5 id_map k5_cfg k5_view.
Proof.
  eexists. eexists. split; [vm_compute; reflexivity|]. split; [vm_compute; reflexivity|].
  split; [vm_compute; reflexivity|]. intros H. vm_compute in H. discriminate.
Qed.

Lemma k5_wf : wf_tree k5_view = true.
Proof. vm_compute. reflexivity. Qed.

Lemma copy_ne_naive_refuted_proof :
  exists pmatch c rootst view fs0 fs' log,
    prefix_semantics pmatch /\ wf_tree view = true /\ wf_strict view = true /\
    all_paths (nls_path pmatch c) view = false /\
    copy_sel pmatch c false (SrcDir rootst view) fs0 = (fs', log, None) /\
    log <> flat_items (keep_naive pmatch c) view.
Proof.
  destruct k1_copy as (fs' & log & H & _ & _ & Hne). destruct k1_wf as (W1 & W2 & W3).
  exists pm_lit, k1_cfg, st_dir, k1_view, empty_dst, fs', log.
  exact (conj (lit_pmatch_prefix_semantics _) (conj W1 (conj W2 (conj W3 (conj H Hne))))).
Qed.

Lemma copy_ne_filter_walk_refuted_proof :
  exists pmatch c rootst view fs0 fs' log,
    prefix_semantics pmatch /\ wf_tree view = true /\ cfg_star_safe c = false /\
    copy_sel pmatch c false (SrcDir rootst view) fs0 = (fs', log, None) /\
    map l_st log <> filter_walk pmatch id_map c view.
Proof.
  destruct k5_copy as (fs' & log & H & _ & _ & Hne).
  exists pm_k5, k5_cfg, st_dir, k5_view, empty_dst, fs', log.
  exact (conj pm_k5_semantics (conj k5_wf (conj k5_not_safe (conj H Hne)))).
Qed.

(* the tree of filter_test.go with distinctive directory metadata (corpus/C16/examples.case
   runs the same inputs against the real copy.Copy) *)
Definition mk_stat (mode uid gid : N) (x : list (list N * list N)) : stat :=
  {| st_path := []; st_mode := mode; st_uid := uid; st_gid := gid; st_size := 0%N; st_mtime := 0%N;
     st_linkname := []; st_devmajor := 0%N; st_devminor := 0%N; st_xattrs := x |}.
Definition Dm (name : string) (mode uid gid : N) (x : list (list N * list N)) (kids : list node) : node :=
  Node (bs name) (mk_stat (ModeDir + mode) uid gid x) [] kids.
Definition Fx (name : string) : node := Node (bs name) (mk_stat 420 0 0 []) [120%N] [].

Definition c16_view : list node :=
  [ Dm "a" 457 0 7 [(bs "user.kb", [118%N])]
      [ Dm "b" (ModeSticky + 511) 5 0 []
          [ Dm "bar" 448 1000 5 [(bs "user.ka", [1%N; 2%N])] [Fx "foo"; Fx "fop"]; Dm "baz" 493 0 0 [] [] ] ];
    Dm "bar" 493 0 0 [] [Fx "foo"];
    Dm "baz" 493 0 0 [] [];
    Dm "foo" 493 0 0 [] [ Dm "bar" 493 0 0 [] [Fx "bee"] ];
    Fx "foo2" ].

Definition meta (o : option Tree.entry) : option (N * N * N * list (list N * list N)) :=
  option_map (fun e : Tree.entry => (st_mode (fst e), st_uid (fst e), st_gid (fst e), st_xattrs (fst e))) o.

Definition run_ex (pm : list N -> list N -> bool) (c : cfg) (fs0 : dfs) (look : list string) :=
  let '(fs', log, e) := copy_sel pm c false (SrcDir st_dir c16_view) fs0 in
  (e, map (fun it => (l_path it, l_sel it)) log, map (fun p => meta (fs' (bs p))) look).

Definition cfg_deep : cfg := {| c_inc := Some [ip "a/b/bar/fop"]; c_exc := None; c_prune := true |}.
Definition dst_with_a : dfs :=
  fun q => if bytes_eqb q [] then Some (blank_dir [])
           else if bytes_eqb q (bs "a") then Some (mk_stat (ModeDir + 320) 9 0 [(bs "user.old", [9%N])], [])
           else None.
Definition dst_file_a : dfs :=
  fun q => if bytes_eqb q [] then Some (blank_dir [])
           else if bytes_eqb q (bs "a") then Some (mk_stat 420 0 0 [], [102%N])
           else None.

Definition log_of (pm : list N -> list N -> bool) (c : cfg) (view : list node) (fs0 : dfs) : list litem :=
  let '(_, log, _) := copy_sel pm c false (SrcDir st_dir view) fs0 in log.
Definition err_of (pm : list N -> list N -> bool) (c : cfg) (view : list node) (fs0 : dfs) : option cerr :=
  let '(_, _, e) := copy_sel pm c false (SrcDir st_dir view) fs0 in e.
