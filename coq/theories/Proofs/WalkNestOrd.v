(* C09 — order of SubDirFS / nested-composite walks of ANY target: the listing of every target walk
   of a SubDirFS, and of every target walk of a nested composite, is strictly ascending in protocol
   path order (hence duplicate-free and parents first), and every callback path is the sub-root
   name followed by well-formed components.  The statements about the whole walk (target "") are
   instances. *)
From Coq Require Import List NArith Bool Lia Sorting.Permutation Sorting.Sorted.
From FS Require Import Sx Model.Path Model.Stat Model.Tree Model.Walk
  Proofs.Lex Proofs.PathP Proofs.ListAux Proofs.WalkP Proofs.WalkSD Proofs.WalkNest.
Import ListNotations.
Open Scope N_scope.
Open Scope bool_scope.

Theorem walk_at_sorted_proof t target : wf_tree t ->
  StronglySorted path_lt (map st_path (walk_at t target)).
Proof. intros Hwf. rewrite walk_at_scan. apply seq_at_paths, Hwf. Qed.

Lemma wf_path_nosep p : wf_path p -> exists cs, cs <> [] /\ Forall nosep cs /\ p = joinc cs.
Proof.
  intros (cs & Hne & Hw & ->). exists cs. split; [exact Hne|]. split; [|reflexivity].
  eapply Forall_impl; [|exact Hw]. apply wf_name_nosep.
Qed.

(* a name, then an ascending listing with that name in front of every path *)
Lemma prefix_sorted o P : nosep o ->
  (forall p, In p P -> exists cs, cs <> [] /\ Forall nosep cs /\ p = joinc cs) ->
  StronglySorted path_lt P -> StronglySorted path_lt (o :: map (fun p => o ++ sep :: p) P).
Proof.
  intros Ho Hsh HS. constructor.
  - eapply SS_map; [|exact HS]. intros a b Ha Hb Hab.
    destruct (Hsh _ Ha) as (ca & Hna & Hsa & ->), (Hsh _ Hb) as (cb & Hnb & Hsb & ->).
    rewrite <- !joinc_cons by auto. unfold path_lt in *.
    rewrite compare_path_joinc in Hab by auto.
    rewrite compare_path_joinc by (auto; discriminate). rewrite lex_cons_same. exact Hab.
  - apply Forall_forall. intros q Hq. apply in_map_iff in Hq. destruct Hq as (p & <- & Hp).
    destruct (Hsh _ Hp) as (cs & Hne & Hs & ->). rewrite <- joinc_cons by auto.
    apply (path_lt_below [o] cs); [discriminate|exact Hne|constructor; assumption].
Qed.

Lemma block_at_paths d rest :
  map fst (sd_block_at d rest) = sd_name d :: map (fun p => sd_name d ++ sep :: p) (map st_path (walk_at (sd_tree d) rest)).
Proof. unfold sd_block_at. cbn [map fst]. rewrite !map_map. reflexivity. Qed.

Lemma block_at_sorted d rest : sd_ok d -> StronglySorted path_lt (map fst (sd_block_at d rest)).
Proof.
  intros (Hn & _ & Hw). rewrite block_at_paths. apply prefix_sorted.
  - apply wf_name_nosep. exact Hn.
  - intros p Hp. apply in_map_iff in Hp. destruct Hp as (st & <- & Hst).
    apply wf_path_nosep. apply (walk_at_shape _ _ _ Hw Hst).
  - apply walk_at_sorted_proof. exact Hw.
Qed.

Lemma block_at_shape d rest a : sd_ok d -> In a (map fst (sd_block_at d rest)) ->
  exists c, a = joinc (sd_name d :: c) /\ Forall nosep (sd_name d :: c).
Proof.
  intros (Hn & _ & Hw) Hi. rewrite block_at_paths in Hi. destruct Hi as [<-|Hi].
  - exists []. split; [reflexivity|]. constructor; [apply wf_name_nosep; exact Hn|constructor].
  - apply in_map_iff in Hi. destruct Hi as (p & <- & Hp). apply in_map_iff in Hp. destruct Hp as (st & <- & Hst).
    destruct (wf_path_nosep _ (proj1 (walk_at_shape _ _ _ Hw Hst))) as (cs & Hne & Hns & ->).
    exists cs. split; [rewrite <- joinc_cons by exact Hne; reflexivity|].
    constructor; [apply wf_name_nosep; exact Hn|exact Hns].
Qed.

(* any selection of blocks of sub-roots in name order *)
Lemma selected_blocks_sorted (f : subdir -> bool) rest l : StronglySorted sd_lt l -> Forall sd_ok l ->
  StronglySorted path_lt (map fst (flat_map (fun d => if f d then sd_block_at d rest else []) l)).
Proof.
  intros HS Hok. rewrite map_flat_map. rewrite Forall_forall in Hok. apply (SS_flat_map sd_lt); auto.
  - intros d Hd. destruct (f d); [apply block_at_sorted, Hok, Hd|constructor].
  - intros d d2 a b Hd Hd2 Hlt Ha Hb. destruct (f d); [|destruct Ha]. destruct (f d2); [|destruct Hb].
    destruct (block_at_shape _ _ _ (Hok _ Hd) Ha) as (ca & -> & Hna),
             (block_at_shape _ _ _ (Hok _ Hd2) Hb) as (cb & -> & Hnb).
    unfold path_lt. rewrite compare_path_joinc by (auto; discriminate).
    rewrite lex_cons. unfold sd_lt in Hlt. rewrite cmpb_is_cmp_bytes, Hlt. reflexivity.
Qed.

Lemma select_sorted first rest ds : sd_wf ds ->
  StronglySorted path_lt (map fst (flat_map (sd_select first rest) (isort_sd ds))).
Proof.
  intros Hsd. destruct (sd_wf_sorted ds Hsd) as (Hok & _ & HS & _).
  exact (selected_blocks_sorted (fun d => bytes_eqb first [] || bytes_eqb first (sd_name d)) rest _ HS Hok).
Qed.

Lemma select_paths_shape first rest l p : Forall sd_ok l ->
  In p (map fst (flat_map (sd_select first rest) l)) ->
  exists cs, cs <> [] /\ Forall nosep cs /\ p = joinc cs.
Proof.
  intros Hok Hp. rewrite map_flat_map in Hp. apply in_flat_map in Hp. destruct Hp as (d & Hd & Hp).
  unfold sd_select in Hp. destruct (bytes_eqb first [] || bytes_eqb first (sd_name d)); [|destruct Hp].
  rewrite Forall_forall in Hok. destruct (block_at_shape _ _ _ (Hok _ Hd) Hp) as (c & -> & Hns).
  exists (sd_name d :: c). split; [discriminate|]. split; [exact Hns|reflexivity].
Qed.

Theorem nested_walk_any_sorted_proof ost inner target :
  sd_wf inner -> no_linkname inner -> wf_name (st_path ost) -> st_is_dir ost = true ->
  walk_nested ost inner target = Some (nested_listing ost inner target, false)
  /\ StronglySorted path_lt (map fst (nested_listing ost inner target)).
Proof.
  intros Hsd Hnl Ho Hd. split; [apply nested_walk_any_proof; assumption|].
  unfold nested_listing.
  destruct (bytes_eqb (fst (cut_sep target)) [] || bytes_eqb (fst (cut_sep target)) (st_path ost)); [|constructor].
  cbn [map fst]. rewrite map_map. unfold nest_rewrite. cbn [fst].
  rewrite <- (map_map fst (fun p => st_path ost ++ sep :: p)).
  apply prefix_sorted.
  - apply wf_name_nosep. exact Ho.
  - intros p. apply select_paths_shape, (sd_wf_sorted inner Hsd).
  - apply select_sorted, Hsd.
Qed.

Lemma nested_path_in ost inner d c r : sd_wf inner -> In d inner -> tree_at (sd_tree d) c r ->
  In (joinc (st_path ost :: sd_name d :: c))
     (map fst ((st_path ost, ost) :: map (nest_rewrite (st_path ost)) (flat_map sd_block (isort_sd inner)))).
Proof.
  intros Hsd Hd Hat. right. rewrite !map_map. cbn [nest_rewrite fst].
  rewrite <- (map_map fst (fun p => st_path ost ++ sep :: p)), joinc_cons by discriminate.
  apply (in_map (fun p => st_path ost ++ sep :: p)). rewrite map_flat_map. apply in_flat_map. exists d.
  split; [eapply Permutation_in; [apply Permutation_sym, isort_sd_perm|exact Hd]|].
  destruct Hsd as [Hok _]. rewrite Forall_forall in Hok. destruct (Hok _ Hd) as (_ & _ & Hwf).
  unfold sd_block. cbn [map fst]. destruct c as [|x c]; [left; reflexivity|right].
  rewrite map_map. cbn [fst]. rewrite <- (map_map st_path (fun p => sd_name d ++ sep :: p)), joinc_cons by discriminate.
  apply (in_map (fun p => sd_name d ++ sep :: p)), (walk_complete_once_proof _ Hwf). exists (x :: c), r. repeat split; [discriminate|exact Hat].
Qed.
