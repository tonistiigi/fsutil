(* The hard-link rule inside SubDirFS (walk_subdirs), for any target.

   subDirFS.Walk calls the inner FS.Walk once per selected sub-root — one seenFiles map per call, so
   the rule of WalkP.seq_at_hardlinks holds within the walked part of that one sub-root — and puts
   the sub-root's name in front of the link names. *)
From Coq Require Import List NArith Bool Lia Sorting.Permutation Sorting.Sorted.
From FS Require Import Sx Model.Path Model.Stat Model.Tree Model.Walk Proofs.Lex Proofs.PathP Proofs.ListAux Proofs.WalkP Proofs.WalkSD.
Import ListNotations.
Open Scope N_scope.
Open Scope bool_scope.

Lemma app_sep_inj (a b x y : bytes) :
  ~ In sep a -> ~ In sep b -> a ++ sep :: x = b ++ sep :: y -> a = b /\ x = y.
Proof.
  intros Ha Hb E. apply (f_equal cut_sep) in E. rewrite !cut_sep_app in E by assumption.
  inversion E. auto.
Qed.

(* the callback "name/p" comes from the inner walk of the sub-root called name *)
Lemma select_cb_inv ds first rest d p st : sd_wf ds -> In d ds ->
  In (sd_name d ++ sep :: p, st) (flat_map (sd_select first rest) (isort_sd ds)) ->
  exists st0, In st0 (walk_at (sd_tree d) rest) /\ st_path st0 = p /\ st = prefix_stat (sd_name d) st0.
Proof.
  intros [Hok Hnd] Hd Hin. rewrite Forall_forall in Hok.
  apply in_flat_map in Hin. destruct Hin as (d' & Hd' & Hin).
  apply (Permutation_in _ (isort_sd_perm ds)) in Hd'.
  destruct (Hok _ Hd) as ((_ & Hns & _) & _), (Hok _ Hd') as ((_ & Hns' & _) & _).
  unfold sd_select in Hin. destruct (_ || _); [|contradiction]. destruct Hin as [E|Hin].
  - exfalso. inversion E as [[E1 E2]]. apply Hns'. rewrite E1. apply in_elt.
  - apply in_map_iff in Hin. destruct Hin as (st0 & E & Hin0). inversion E as [[E1 E2]].
    apply app_sep_inj in E1; auto. destruct E1 as [En Ep].
    rewrite (NoDup_map_inj sd_name _ _ _ Hnd Hd' Hd En) in *. eauto.
Qed.

(* prefix_stat on an entry whose Linkname follows the hard-link rule with first holder f *)
Lemma prefix_stat_hardlink d st r f p : f <> [] ->
  mode_is_symlink (st_mode st) = is_symlink r ->
  st_linkname st = (if is_symlink r then l_target r else if bytes_eqb f p then [] else f) ->
  st_linkname (prefix_stat d st) =
    (if is_symlink r then (if is_abs (l_target r) then clean (sep :: d ++ sep :: l_target r) else l_target r)
     else if bytes_eqb f p then [] else d ++ sep :: f).
Proof.
  intros Hf Hsym Hl. unfold prefix_stat. rewrite Hsym, Hl. destruct (is_symlink r).
  - destruct (l_target r) as [|a ln]; [exact Hl|].
    destruct (is_abs (a :: ln)); cbn [st_linkname set_path set_linkname]; [reflexivity|exact Hl].
  - destruct (bytes_eqb f p); [exact Hl|]. destruct f; [contradiction|reflexivity].
Qed.

Theorem select_hardlinks ds first rest tc : sd_wf ds -> tc = target_comps rest ->
  forall d, In d ds -> one_fs (sd_tree d) -> ino_consistent (sd_tree d) ->
  forall st c r, In (sd_name d ++ sep :: joinc (tc ++ c), st) (flat_map (sd_select first rest) (isort_sd ds)) ->
    tc ++ c <> [] -> tree_at (sd_tree d) (tc ++ c) r -> is_dir r = false ->
  st_path st = sd_name d ++ sep :: joinc (tc ++ c) /\
  exists c0 r0,
    tc ++ c0 <> [] /\ tree_at (sd_tree d) (tc ++ c0) r0 /\ is_dir r0 = false /\
    l_ino r0 = l_ino r /\ l_dev r0 = l_dev r /\
    (forall c1 r1, tc ++ c1 <> [] -> tree_at (sd_tree d) (tc ++ c1) r1 -> is_dir r1 = false -> l_ino r1 = l_ino r ->
                   c1 = c0 \/ path_lt (joinc (tc ++ c0)) (joinc (tc ++ c1))) /\
    st_linkname st =
      (if is_symlink r then
         (if is_abs (l_target r) then clean (sep :: sd_name d ++ sep :: l_target r) else l_target r)
       else if bytes_eqb (joinc (tc ++ c0)) (joinc (tc ++ c)) then [] else sd_name d ++ sep :: joinc (tc ++ c0)).
Proof.
  intros Hsd -> d Hd Hfs Hc st c r Hin Hne Hat Hdir.
  destruct (select_cb_inv _ _ _ _ _ _ Hsd Hd Hin) as (st0 & Hin0 & Ep & ->).
  split; [rewrite prefix_stat_path, Ep; reflexivity|].
  destruct Hsd as [Hok _]. rewrite Forall_forall in Hok. destruct (Hok _ Hd) as (_ & _ & Hwf).
  rewrite walk_at_scan in Hin0.
  destruct (seq_at_hardlinks _ _ Hwf Hfs Hc st0 Hin0 c r Hne Hat Ep Hdir)
    as (c0 & r0 & Hne0 & Hat0 & Hd0 & Hi0 & Hdev0 & Hleast & Hl).
  exists c0, r0. repeat (split; [assumption|]). apply prefix_stat_hardlink; [| |exact Hl].
  - destruct (okc_first_byte _ (wf_names_okc _ Hne0 (tree_at_names _ Hwf _ _ Hat0))) as (a & q & -> & _).
    discriminate.
  - destruct (seq_at_entry_at _ _ _ _ _ Hwf Hin0 Hne Hat Ep) as (pre & post & _ & ->).
    rewrite mkstat_mode. apply mode_symlink_nosock.
Qed.
