(* In a state that satisfies [scal] and the per-id equations, the id of a starting writer and of the packet
   at the head of a stream is registered where the guard of the step looks for it (the proto_ lemmas).
   [inv_fin], the FIN bookkeeping, holds in every reachable state. *)
From Coq Require Import List Arith Bool PeanoNat Lia ZifyBool.
From FS Require Import Model.Lts Model.LtsExplore Proofs.LtsInv Proofs.LtsSafe Proofs.LtsTerm Proofs.LtsC08 Proofs.LtsTok Proofs.LtsContent Proofs.LtsContent3.
From FS Require Import Proofs.LtsClean1 Proofs.LtsClean2.
Import ListNotations.

Definition wf_params (p : params) : Prop := forall i, kind_of p i = ENeed -> is_file p i = true.

Lemma cnt_pos_memb : forall id l, 1 <= cnt id l -> memb id l = true.
Proof.
  intros id l H. unfold cnt in H. induction l; cbn in H; [lia|].
  rewrite memb_cons. destruct (Nat.eqb id a); cbn in *; auto.
Qed.

Lemma wsum_pos_exists : forall c id l, 1 <= sumf (wsel c id) l ->
  exists j w, nth_error l j = Some w /\ wr_id w = id.
Proof.
  induction l; intro H; [unfold sumf in H; cbn in H; lia|].
  unfold sumf in H; cbn [fold_right] in H.
  destruct (wsel c id a) eqn:E.
  - destruct IHl as (j & w & A & B); [exact H|]. exists (S j), w. auto.
  - exists 0, a. split; auto. unfold wsel in E. destruct (Nat.eqb_spec id (wr_id a)); auto. discriminate.
Qed.

(* a writer's id lies below what the receive loop has counted, and the walker has registered it *)
Lemma writer_id_bounds : forall p st id,
  scal st -> inv3 st -> inv9a st -> inv_rs st -> inv7a p st ->
  (exists j w, nth_error (wrs st) j = Some w /\ wr_id w = id) ->
  kind_of p id = ENeed /\ id < rl_i st /\ id < sw_bound st.
Proof.
  intros p st id K J3 (I91 & I92 & _) Irs I7 (j & w & E & Eid).
  destruct K. destruct J3 as (_ & _ & _ & _ & _ & _ & _ & B8).
  assert (In id (wr_ids st)) by (unfold wr_ids; subst id; apply in_map; eapply nth_error_In; eauto).
  apply I92 in H. split; [subst id; eapply I7; eauto|].
  assert (dl_bound st <= dl_i st).
  { clear - I91. unfold dl_bound. destruct (dl_pc st); try apply Nat.le_refl. rewrite I91. apply Nat.le_succ_diag_r. }
  assert (rl_i st = rl_holds st + walk_n st + fl_holds st + c2_n st + dl_i st).
  { apply B8; auto; try (destruct (fl_pc st) as [| |[]|[]|]; auto). }
  unfold inv_rs in Irs. unfold sw_bound. clear - H H0 H1 Irs. destruct (sw_pc st); lia.
Qed.

Section Protocol.
  Variables (p : params) (st : state).
  Hypothesis WF : wf_params p.
  Hypothesis K : scal st.
  Hypothesis J3 : inv3 st.
  Hypothesis I9 : inv9a st.
  Hypothesis Irs : inv_rs st.
  Hypothesis I7 : inv7a p st.
  Hypothesis TK : tokinv st.
  Hypothesis WQ : forall id, wq p id st.
  Hypothesis CI : forall id, cinv p id st.
  Hypothesis NI : forall id, kind_of p id <> ENeed -> ninv id st.

  Lemma proto_start : forall j w, nth_error (wrs st) j = Some w -> wr_pc w = WR_Start ->
    memb (wr_id w) (rfiles st) = true.
  Proof.
    intros j w E S. set (id := wr_id w). destruct (WQ id) as [Wu _ _ _ WR _ _ _].
    destruct (writer_id_bounds p st id K J3 I9 Irs I7) as (Kd & Lt & _); [eauto|].
    pose proof (sumf_ge_nth _ (wsel cS id) _ _ _ E) as Y.
    assert (V: wsel cS id w = 1) by (unfold wsel, id; rewrite S, Nat.eqb_refl; reflexivity).
    rewrite V in Y.
    unfold wsum in *. rewrite wsum_split in Wu. apply cnt_pos_memb.
    rewrite (WF _ Kd) in WR. apply Nat.ltb_lt in Lt. rewrite Lt in WR. cbn in WR. lia.
  Qed.

  Lemma proto_req : forall id l, buf_rs st = PReq id :: l -> memb id (sfiles st) = true.
  Proof.
    intros id l E. destruct (WQ id) as [Wu _ WS WQ' _ _ _ _]. unfold wsum in *.
    rewrite wsum_split in Wu. rewrite E, cntQ_cons in WQ'. cbn in WQ'. rewrite Nat.eqb_refl in WQ'. cbn in WQ'.
    assert (X: 1 <= sumf (wsel cAll id) (wrs st)) by (rewrite wsum_split; lia).
    destruct (writer_id_bounds p st id K J3 I9 Irs I7 (wsum_pos_exists _ _ _ X)) as (Kd & _ & Lt).
    rewrite (WF _ Kd) in WS. apply Nat.ltb_lt in Lt. rewrite Lt in WS. cbn in WS.
    apply cnt_pos_memb. unfold tok, down in *. lia.
  Qed.

  Lemma proto_dataend : forall id l, buf_sr st = PDataEnd id :: l -> memb id (pipes st) = true.
  Proof.
    intros id l E. destruct (WQ id) as [_ _ _ WQ' _ WP WC _]. destruct TK as [_ T2]. specialize (T2 id).
    unfold wsum, tok, down in *. rewrite E, cntE_cons in *. cbn in *. rewrite Nat.eqb_refl in *. cbn in *.
    apply cnt_pos_memb. lia.
  Qed.

  Lemma proto_data : forall id l, buf_sr st = PData id :: l -> memb id (pipes st) = true.
  Proof.
    intros id l E. destruct (kind_of p id) eqn:Kd.
    1,2: (exfalso; assert (N: kind_of p id <> ENeed) by congruence; destruct (NI id N) as [Nw _];
          unfold Wc, Fc in Nw; rewrite E, cntD_cons in Nw; cbn in Nw; rewrite Nat.eqb_refl in Nw; cbn in Nw; lia).
    destruct (WQ id) as [_ _ WS WQ' _ WP WC _]. destruct TK as [_ T2]. specialize (T2 id).
    destruct (CI id) as [Za _ _ _ Ne _].
    unfold wsum, tok, down, Wc, Fc, early, latec in *. rewrite E, cntD_cons in *. cbn in *. rewrite Nat.eqb_refl in *. cbn in *.
    rewrite (WF _ Kd) in WS. cbn in WS.
    apply cnt_pos_memb. destruct (Nat.ltb_spec id (sw_bound st)); change b2n with Nat.b2n in *; lia.
  Qed.
End Protocol.


Definition inv_fin (st : state) : Prop :=
  (sr_closed st = true -> send_ret st <> None) /\
  (g_fin_sr st = true -> has_fin (buf_sr st) = true \/ g_got_fin_r st = true).

Lemma inv_fin_step : forall p st l st', inv1 st -> inv_fin st -> step p st l = Some st' -> inv_fin st'.
Proof.
  intros p st l st' J1 (A & B) H.
  destruct J1 as (_ & _ & _ & _ & _ & _ & _ & _ & J9 & _).
  step_cases H l; split; try assumption; cbn;
  unfold has_fin in *; rewrite ?existsb_app in *; cbn in *; rewrite ?orb_false_r, ?orb_true_r in *;
  intros; auto; try congruence; intuition congruence.
Qed.

Lemma inv_fin_reachable : forall p st, reachable p st -> inv_fin st.
Proof.
  induction 1.
  - split; cbn; intro X; discriminate X.
  - eapply inv_fin_step; eauto. apply (inv_reachable _ _ H).
Qed.
