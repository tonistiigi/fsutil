(* C03 — frame lemmas, part 1: the primitive mutations of the inode table (metadata / content
   update, allocation, rewriting one directory's entry list) are steps in the sense of
   FsReachP.v. *)
From Coq Require Import List Arith NArith Bool Lia ZifyN ZifyNat ZifyBool.
From FS Require Import Sx Model.Path Model.Fs Proofs.Lex Proofs.PathP Proofs.ListAux Proofs.FsP Proofs.FsReachP.
Import ListNotations.
Open Scope N_scope.
Open Scope bool_scope.

Section Frame.
Variable D : N.
Notation reach := (reach D).
Notation wf := (wf D).
Notation step := (step D).

Lemma reach_same_ents f f' : (forall j, ents f' j = ents f j) -> forall i, reach f' i -> reach f i.
Proof.
  intros H i R. induction R as [|j n i Hj IH Hin]; [constructor|].
  apply (reach_step D f j n i); auto. rewrite <- H. exact Hin.
Qed.

(* a change that keeps every entry list, the kind of every inode there was and D's record, and
   writes only inodes the running operation made or directories inside *)
Lemma step_same_ents T b f f' :
  wf f -> b <= f_next f -> f_next f <= f_next f' ->
  (forall i, f_next f' <= i -> get f' i = None) ->
  (forall j, ents f' j = ents f j) ->
  (forall i, i < f_next f -> itag (get f' i) = itag (get f i)) ->
  (forall i, i < b -> get f' i = get f i \/ (reach f i /\ is_dir f i = true)) ->
  get f' D = get f D ->
  step T b f f'.
Proof.
  intros W Hb Hn Hal He Ht Hfr HD.
  assert (Hr := reach_same_ents f f' He).
  assert (Hisd : forall i, i < f_next f -> is_dir f' i = is_dir f i) by (intros i Hi; apply is_dir_same_tag, Ht, Hi).
  constructor; auto.
  - intros i Hi Hlt. destruct (Hfr i Hlt) as [|[]]; tauto.
  - intros i Hlt Hd. destruct (Hfr i Hlt) as [|[_ ?]]; [auto|congruence].
  - intros j n _ _. rewrite He. reflexivity.
  - intros j n Hj _. rewrite He, (ents_beyond D f j W Hj). reflexivity.
  - destruct (dir_kept_refl D f W) as (p & es & es' & m & m' & G1 & G2 & G3).
    exists p, es, es', m, m'. rewrite HD. auto.
  - constructor; auto.
    + rewrite Hisd; [apply W|apply (reach_lt D f D W), reach_refl].
    + intros j Hj. rewrite He. apply (wf_names D f W j (Hr j Hj)).
    + intros j n i Hj Hin. rewrite He in Hin. pose proof (wf_target D f W j n i (Hr j Hj) Hin). lia.
    + intros j n Hj. rewrite He. apply (wf_notD D f W j n (Hr j Hj)).
    + intros j1 j2 n1 n2 i R1 R2 I1 I2 Hd. rewrite He in I1, I2.
      rewrite Hisd in Hd by (apply (wf_target D f W j1 n1 i (Hr j1 R1) I1)).
      apply (wf_single D f W j1 j2 n1 n2 i); auto.
Qed.

(* the record of one inode, not D itself, keeping its kind and (if a directory) its entries: an
   inode the running operation made (reachable or not — a descriptor outlives the name), or a
   directory inside *)
Lemma step_put_keep T b f i n n' :
  wf f -> b <= f_next f -> i < f_next f -> i <> D -> get f i = Some n ->
  (b <= i \/ (reach f i /\ is_dir f i = true)) ->
  ktag (i_kind n') = ktag (i_kind n) ->
  (forall p es, i_kind n = KDir p es -> exists p', i_kind n' = KDir p' es) ->
  step T b f (put f i n').
Proof.
  intros W Hb Hlt HD Hg Hbi Ht Hk.
  apply step_same_ents; auto; try apply get_put_other; auto.
  - apply N.le_refl.
  - intros j Hj. rewrite get_put_other by (simpl in Hj; lia). apply (wf_alloc D f W j Hj).
  - intros j. unfold ents, dir_of. destruct (N.eq_dec j i) as [->|Hne]; [|rewrite get_put_other; auto].
    rewrite get_put_same, Hg. destruct n as [k m], n' as [k' m']. simpl in *.
    destruct k; [destruct (Hk _ _ eq_refl) as [p' ->]; reflexivity|destruct k'; try discriminate; reflexivity..].
  - intros j _. destruct (N.eq_dec j i) as [->|Hne]; [|rewrite get_put_other; auto].
    rewrite get_put_same, Hg. simpl. rewrite Ht. reflexivity.
  - intros j Hj. destruct (N.eq_dec j i) as [->|Hne]; [right; destruct Hbi; [lia|auto]|left; apply get_put_other, Hne].
Qed.

(* the parent pointer of a directory inside (not D) *)
Lemma step_set_parent T b f i newpar :
  wf f -> b <= f_next f -> reach f i -> i <> D -> step T b f (set_parent f i newpar).
Proof.
  intros W Hb Hr HD. unfold set_parent.
  destruct (get f i) as [[[p es| | |] m]|] eqn:Hg; try (apply step_refl; auto).
  apply (step_put_keep T b f i {| i_kind := KDir p es; i_meta := m |}); auto.
  - apply (reach_lt D f i W Hr).
  - right. split; auto. unfold is_dir, dir_of. rewrite Hg. reflexivity.
  - intros p' es' [= <- <-]. exists newpar. reflexivity.
Qed.

Definition leaf (k : ikind) : Prop := match k with KDir _ es => es = [] | _ => True end.

Lemma ents_alloc f n : wf f -> leaf (i_kind n) -> forall j, ents (fst (alloc f n)) j = ents f j.
Proof.
  intros W Hl j. destruct (N.eq_dec j (f_next f)) as [->|Hne].
  - rewrite (ents_beyond D f _ W (N.le_refl _)). unfold ents, dir_of.
    rewrite <- (alloc_snd f n) at 1. rewrite get_alloc_new. destruct n as [[] m]; try reflexivity. exact Hl.
  - unfold ents, dir_of. rewrite get_alloc_other by exact Hne. reflexivity.
Qed.

Lemma step_alloc T b f n : wf f -> b <= f_next f -> leaf (i_kind n) -> step T b f (fst (alloc f n)).
Proof.
  intros W Hb Hl. apply step_same_ents; auto.
  - simpl. lia.
  - intros i Hi. simpl in Hi. rewrite get_alloc_other by lia. apply (wf_alloc D f W). lia.
  - apply (ents_alloc f n W Hl).
  - intros i Hi. rewrite get_alloc_other by lia. reflexivity.
  - intros i Hi. left. apply get_alloc_other. lia.
  - apply get_alloc_other. pose proof (reach_lt D f D W (reach_refl D f)). lia.
Qed.

(* newcomers: inodes the running operation allocated and that nothing refers to yet *)
Definition newcomer (b : N) (f : fs) (x : N) : Prop := b <= x /\ ~ reach f x /\ ents f x = [].

(* every entry of the new list [es'] is one of the old list, or is new: then its name is fit, a
   directory it names is named by no other entry, and it names an inode that was named in this
   directory before, a non-directory inside, or a newcomer *)
Lemma step_set_ents (T : N -> bytes -> Prop) b f dd es' :
  wf f -> b <= f_next f -> reach f dd -> is_dir f dd = true ->
  (forall n, ~ T dd n -> blookup n es' = blookup n (ents f dd)) ->
  NoDup (map fst es') ->
  (forall n x, In (n, x) es' -> In (n, x) (ents f dd) \/
     (okname n /\ (is_dir f x = true -> forall n', In (n', x) es' -> n' = n) /\
      ((exists n0, In (n0, x) (ents f dd)) \/ (reach f x /\ is_dir f x = false) \/ (newcomer b f x /\ x < f_next f)))) ->
  step T b f (set_ents f dd es').
Proof.
  intros W Hb Hdd Hdir HT Hnd Hin.
  set (f' := set_ents f dd es').
  assert (Heo : forall j, j <> dd -> ents f' j = ents f j) by (intros j; apply ents_set_ents_other).
  assert (Hes : ents f' dd = es') by (apply ents_set_ents_same, Hdir).
  assert (Hisd : forall i, is_dir f' i = is_dir f i) by (intros i; apply is_dir_same_tag, itag_set_ents).
  (* what the new list names *)
  assert (Htg : forall n x, In (n, x) es' -> x < f_next f /\ x <> D /\
            ((exists n0, In (n0, x) (ents f dd)) \/ (reach f x /\ is_dir f x = false) \/ newcomer b f x)).
  { assert (Hold : forall n x, In (n, x) (ents f dd) -> x < f_next f /\ x <> D).
    { intros n x H. split; [exact (wf_target D f W dd n x Hdd H)|].
      intros ->. exact (wf_notD D f W dd n Hdd H). }
    intros n x H. destruct (Hin n x H) as [H0|(_ & _ & [(n0 & H0)|[[Rx Hx]|[Hx Hlt]]])].
    - destruct (Hold n x H0). eauto.
    - destruct (Hold n0 x H0). eauto.
    - split; [exact (reach_lt D f x W Rx)|]. split; auto. pose proof (wf_dir D f W). congruence.
    - split; auto. split; auto. intros ->. apply Hx, reach_refl. }
  assert (Hsg : forall n1 n2 x, In (n1, x) es' -> In (n2, x) es' -> is_dir f x = true -> n1 = n2).
  { intros n1 n2 x I1 I2 Hx. destruct (Hin n1 x I1) as [O1|(_ & U & _)]; [|symmetry; auto].
    destruct (Hin n2 x I2) as [O2|(_ & U & _)]; [|auto].
    apply (wf_single D f W dd dd n1 n2 x); auto. }
  (* who is inside afterwards, and which entries they hold *)
  assert (Hent : forall y, reach f' y -> reach f y \/ newcomer b f y).
  { intros y R. induction R as [|j n y Hj IH Hy]; [left; constructor|].
    destruct IH as [IH|(Hbj & Hnj & Hej)].
    - destruct (N.eq_dec j dd) as [->|Hne].
      + rewrite Hes in Hy. destruct (Htg n y Hy) as (_ & _ & [(n0 & H0)|[(H0 & _)|H0]]); auto.
        left. apply (reach_step D f dd n0 y); auto.
      + rewrite Heo in Hy by auto. left. apply (reach_step D f j n y); auto.
    - exfalso. rewrite Heo, Hej in Hy by (intros ->; auto). exact Hy. }
  assert (Hcase : forall j n y, reach f' j -> In (n, y) (ents f' j) ->
            (j = dd /\ In (n, y) es') \/ (j <> dd /\ reach f j /\ In (n, y) (ents f j))).
  { intros j n y Hj Hy. destruct (N.eq_dec j dd) as [->|Hne]; [left; rewrite <- Hes; auto|right].
    rewrite Heo in Hy by auto. destruct (Hent j Hj) as [H|(_ & _ & He)]; auto.
    rewrite He in Hy. destruct Hy. }
  constructor; auto.
  - unfold f'. rewrite next_set_ents. apply N.le_refl.
  - intros i Hi _. apply get_set_ents_other. intros ->. auto.
  - intros i _ Hdi. apply get_set_ents_other. congruence.
  - intros i Hi. destruct (Hent i Hi) as [H|(H & _)]; auto.
  - intros i _. apply itag_set_ents.
  - intros j n Hj HTn. destruct (N.eq_dec j dd) as [->|Hne]; [rewrite Hes; auto|rewrite Heo; auto].
  - intros j n Hj _. rewrite Heo, (ents_beyond D f j W Hj); [reflexivity|].
    pose proof (reach_lt D f dd W Hdd). lia.
  - destruct (dir_kept_refl D f W) as (p0 & es0 & es0' & m0 & m0' & G1 & G2 & G3).
    destruct (N.eq_dec dd D) as [->|Hne].
    + exists p0, es0, es', m0, (with_mtime m0 now_mark).
      split; auto. split; [|repeat split]. unfold f'. rewrite (set_ents_get f D p0 es0 m0 es' G1). apply get_put_same.
    + exists p0, es0, es0', m0, m0'. split; auto. split; auto.
      unfold f'. rewrite get_set_ents_other by auto. exact G2.
  - constructor.
    + intros i Hi. unfold f' in *. rewrite next_set_ents in Hi.
      rewrite get_set_ents_other; [apply (wf_alloc D f W i Hi)|]. pose proof (reach_lt D f dd W Hdd). lia.
    + rewrite Hisd. apply W.
    + intros j Hj. destruct (N.eq_dec j dd) as [->|Hne].
      * rewrite Hes. split; auto. apply Forall_forall. intros n Hn.
        apply in_map_iff in Hn. destruct Hn as ([n' x] & <- & Hn).
        destruct (Hin n' x Hn) as [H|[H _]]; [exact (wf_okname D f dd n' x W Hdd H)|exact H].
      * rewrite Heo by auto. destruct (Hent j Hj) as [H|(_ & _ & He)].
        -- apply (wf_names D f W j H).
        -- rewrite He. split; constructor.
    + intros j n i Hj Hi. unfold f'. rewrite next_set_ents.
      destruct (Hcase j n i Hj Hi) as [[_ H]|(_ & Rj & H)]; [apply (Htg n i H)|apply (wf_target D f W j n i Rj H)].
    + intros j n Hj Hi.
      destruct (Hcase j n D Hj Hi) as [[_ H]|(_ & Rj & H)]; [|apply (wf_notD D f W j n Rj H)].
      destruct (Htg n D H) as (_ & HD & _). congruence.
    + intros j1 j2 n1 n2 i R1 R2 I1 I2 Hdi. rewrite Hisd in Hdi.
      (* an entry elsewhere and an entry of the new list do not name one directory *)
      assert (Hcross : forall ja na nb, ja <> dd -> reach f ja -> In (na, i) (ents f ja) -> In (nb, i) es' -> False).
      { intros ja na nb Hja Rja Ia Ib.
        destruct (Htg nb i Ib) as (_ & _ & [(n0 & H0)|[(_ & H0)|(_ & H0 & _)]]).
        - destruct (wf_single D f W ja dd na n0 i Rja Hdd Ia H0 Hdi). auto.
        - congruence.
        - apply H0. apply (reach_step D f ja na i); auto. }
      destruct (Hcase j1 n1 i R1 I1) as [[-> H1]|(N1 & Q1 & H1)], (Hcase j2 n2 i R2 I2) as [[-> H2]|(N2 & Q2 & H2)].
      * split; auto. apply (Hsg n1 n2 i); auto.
      * destruct (Hcross j2 n2 n1); auto.
      * destruct (Hcross j1 n1 n2); auto.
      * apply (wf_single D f W j1 j2 n1 n2 i); auto.
Qed.

Lemma step_add_ent (T : N -> bytes -> Prop) b f dd n x :
  wf f -> b <= f_next f -> reach f dd -> is_dir f dd = true -> okname n ->
  blookup n (ents f dd) = None -> T dd n ->
  (reach f x /\ is_dir f x = false) \/ (newcomer b f x /\ x < f_next f) ->
  step T b f (add_ent f dd n x) /\ blookup n (ents (add_ent f dd n x) dd) = Some x.
Proof.
  intros W Hb Rdd Hd Hn Hb0 HT Hx. rewrite add_ent_set_ents. split.
  - apply step_set_ents; auto.
    + intros m Hm. rewrite blookup_app. destruct (blookup m (ents f dd)); auto.
      simpl. rewrite (proj2 (bytes_eqb_neq _ _)); auto. intros ->. auto.
    + rewrite map_app. apply NoDup_snoc; [apply (wf_names D f W dd Rdd)|apply blookup_None_notin, Hb0].
    + intros m y Hin. apply in_app_or in Hin. destruct Hin as [Hin|[[= <- <-]|[]]]; [left; exact Hin|right].
      split; auto. split; [|tauto].
      intros Hdx n' Hin. apply in_app_or in Hin. destruct Hin as [Hin|[[= <-]|[]]]; auto.
      destruct Hx as [[_ Hx]|[(_ & Hx & _) _]]; [congruence|].
      destruct Hx. apply (reach_step D f dd n' x); auto.
  - rewrite ents_set_ents_same, blookup_app, Hb0 by exact Hd. simpl. rewrite bytes_eqb_refl. reflexivity.
Qed.

Lemma step_del_ent (T : N -> bytes -> Prop) b f dd n :
  wf f -> b <= f_next f -> reach f dd -> is_dir f dd = true -> T dd n ->
  step T b f (del_ent f dd n) /\ blookup n (ents (del_ent f dd n) dd) = None.
Proof.
  intros W Hb Rdd Hd HT. destruct (wf_names D f W dd Rdd) as [Hnd _]. rewrite del_ent_set_ents. split.
  - apply step_set_ents; auto.
    + intros m Hm. apply blookup_bremove_other. intros ->. auto.
    + apply bremove_nodup, Hnd.
    + intros m y Hin. left. exact (bremove_In _ _ _ Hin).
  - rewrite ents_set_ents_same by exact Hd. apply blookup_bremove_same, Hnd.
Qed.

End Frame.
