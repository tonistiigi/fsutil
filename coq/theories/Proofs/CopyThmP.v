(* C15 over [copy_top] / [overlay_all]: from [top_ok] (CopyTopP.v) to view_matches / keys_sound, errors,
   conflicts, wf_fs preserved; the predicates wf_src, links_consistent, no_link_groups, keys_sound. *)
From Coq Require Import List NArith Bool Lia ZifyN ZifyNat ZifyBool.
From FS Require Import Sx Model.Path Model.SymMode Model.Copier Model.CopySpec Proofs.Lex Proofs.ListAux
  Proofs.CopierP Proofs.CopyOpsP Proofs.CopyDentP Proofs.CopyLinkP Proofs.CopyNodeP Proofs.CopyMkdirP Proofs.CopyConflictP
  Proofs.CopyTopP.
Import ListNotations.
Open Scope N_scope.
Open Scope bool_scope.

Definition sel_all (p : list (list N)) : bool := true.

(* sources without multiply-linked files *)
Definition no_link_groups (sroot : snode) : Prop := forall i, multi_of sroot i = false.
Definition wf_src (sroot : snode) : Prop := wf_s sroot /\ is_dir (sdent sroot) = true.
(* all names of a multiply-linked regular file carry one dentry (as the names of one inode do) *)
Definition links_consistent (sroot : snode) : Prop := exists sdof, cons_s (multi_of sroot) sdof sroot.

Lemma cons_s_nolinks multi sdof : (forall i, multi i = false) -> forall n, cons_s multi sdof n.
Proof.
  intros Hn. induction n as [nm ino d kids IH] using snode_ind2. apply cons_s_unfold. split; auto.
  intros _ H. rewrite Hn in H. discriminate.
Qed.
Lemma links_consistent_nolinks sroot : no_link_groups sroot -> links_consistent sroot.
Proof. intro H. exists (fun _ => sdent sroot). apply cons_s_nolinks. auto. Qed.

(* CopySpec.xattrs_eqb has the text of Stat.xattrs_eqb *)
Lemma xattrs_eqb_refl a : xattrs_eqb a a = true.
Proof. exact (Lex.xattrs_eqb_refl a). Qed.
Lemma xattrs_eqb_eq a b : xattrs_eqb a b = true -> a = b.
Proof. apply (Lex.xattrs_eqb_eq a b). Qed.

(* a dentry is its eight fields: [dm] with the time known is equality *)
Lemma dent_ext (a b : dent) :
  d_mode a = d_mode b -> d_uid a = d_uid b -> d_gid a = d_gid b -> d_mtime a = d_mtime b -> d_rdev a = d_rdev b ->
  d_target a = d_target b -> d_xattrs a = d_xattrs b -> d_content a = d_content b -> a = b.
Proof. destruct a, b; simpl; congruence. Qed.

Lemma dm_eq o d e : dm o d e -> d_mtime d = d_mtime (x_d e) -> d = x_d e.
Proof. intros (A1 & A2 & A3 & _ & A5 & A6 & A7 & A8) A4. apply dent_ext; assumption. Qed.

Lemma dent_match_of_dm o d e : dm o d e -> (x_known e = true -> d_mtime d = d_mtime (x_d e)) ->
  dent_match d e = true.
Proof.
  intros (A1 & A2 & A3 & _ & A5 & A6 & A7 & A8) Hk. unfold dent_match.
  rewrite A1, A2, A3, A5, A6, A7, A8, !N.eqb_refl, !bytes_eqb_refl, xattrs_eqb_refl. cbn [andb].
  destruct (x_known e); cbn [negb orb]; auto. rewrite (Hk eq_refl), N.eqb_refl. auto.
Qed.

Lemma dent_match_eq d e : dent_match d e = true -> x_known e = true -> d = x_d e.
Proof.
  unfold dent_match. intros H K. rewrite K in H. repeat (apply andb_true_iff in H as [H ?]).
  apply dent_ext; first [apply N.eqb_eq | apply bytes_eqb_eq | apply xattrs_eqb_eq]; assumption.
Qed.

(* what is kept of the inode partition in every mode: two non-directories that share an inode
   carry the same key (a copy is never linked to a file of another group or to a foreign file) *)
Definition keys_sound (V : view) (X : xview) : Prop :=
  forall p q i d1 d2 e1 e2, V p = Some (i, d1) -> V q = Some (i, d2) -> X p = Some e1 -> X q = Some e2 ->
    is_dir d1 = false -> ikey_eqb (x_key e1) (x_key e2) = true.

Lemma match_of_inv o fs X : Inv o fs X -> strict fs X -> forall p, match_at (view_of_fs fs) X p = true.
Proof.
  intros I S p. unfold match_at, view_of_fs. destruct (names fs p) as [i|] eqn:E.
  - destruct (i_some _ _ _ I _ _ E) as (e & E1 & E2 & _). rewrite E1. eapply dent_match_of_dm; eauto.
  - rewrite (i_none _ _ _ I _ E). auto.
Qed.

Lemma keys_sound_of_inv o ms multi sdof SS fs X im :
  Inv o fs X -> Lk o ms multi sdof SS fs X im -> keys_sound (view_of_fs fs) X.
Proof.
  intros I L p q i d1 d2 e1 e2 Hp Hq H1 H2 Hd. unfold view_of_fs in Hp, Hq.
  destruct (names fs p) as [i1|] eqn:Ep; [|discriminate]. destruct (names fs q) as [i2|] eqn:Eq; [|discriminate].
  inversion Hp; subst. inversion Hq; subst.
  destruct (inv_at _ _ _ _ _ _ I Ep H1) as (_ & A3). destruct (inv_at _ _ _ _ _ _ I Eq H2) as (_ & B3).
  destruct (x_key e1) as [a|p1|s1] eqn:K1; simpl in A3.
  - subst a. destruct (x_key e2) as [b|q1|s2] eqn:K2; simpl in B3; simpl.
    + subst. apply N.eqb_refl.
    + destruct B3 as [-> B3]. apply B3 in Ep. subst. congruence.
    + destruct (lk_grp _ _ _ _ _ _ _ _ L _ _ _ H2 K2) as (_ & _ & _ & _ & G5).
      destruct (G5 _ _ Eq Ep) as (e' & C1 & C2). rewrite H1 in C1. inversion C1; subst. congruence.
  - destruct A3 as [-> A3]. apply A3 in Eq. subst q. rewrite H1 in H2. inversion H2; subst. rewrite K1. simpl. apply path_eqb_refl.
  - destruct (lk_grp _ _ _ _ _ _ _ _ L _ _ _ H1 K1) as (_ & _ & _ & _ & G5).
    destruct (G5 _ _ Ep Eq) as (e' & C1 & C2). rewrite H2 in C1. inversion C1; subst. rewrite C2. simpl. apply N.eqb_refl.
Qed.

(* ... and in the exact-partition mode the converse: a key names one inode *)
Lemma keys_complete_of_inv o ms multi sdof fs X im : Inv o fs X -> Lk o ms multi sdof True fs X im ->
  forall p q i j e1 e2, names fs p = Some i -> names fs q = Some j -> X p = Some e1 -> X q = Some e2 ->
    ikey_eqb (x_key e1) (x_key e2) = true -> i = j.
Proof.
  intros I L p q i j e1 e2 Ep Eq H1 H2 Hk.
  destruct (inv_at _ _ _ _ _ _ I Ep H1) as (_ & A3). destruct (inv_at _ _ _ _ _ _ I Eq H2) as (_ & B3).
  destruct (x_key e1) as [a|p1|s1] eqn:K1, (x_key e2) as [b|q1|s2] eqn:K2; try discriminate; simpl in A3, B3, Hk.
  - apply N.eqb_eq in Hk. congruence.
  - apply path_eqb_eq in Hk. destruct A3 as [-> _], B3 as [-> _]. congruence.
  - apply N.eqb_eq in Hk. subst s2.
    destruct (lk_src _ _ _ _ _ _ _ _ L Logic.I _ _ _ H1 K1) as (l1 & i1 & R1 & R2).
    destruct (lk_src _ _ _ _ _ _ _ _ L Logic.I _ _ _ H2 K2) as (l2 & i2 & R3 & R4). congruence.
Qed.

Lemma view_matches_of_inv o ms multi sdof fs X im :
  Inv o fs X -> Lk o ms multi sdof True fs X im -> strict fs X -> view_matches (view_of_fs fs) X.
Proof.
  intros I L S. split; [apply (match_of_inv o); auto|].
  intros p q. unfold keys_at. destruct (view_of_fs fs p) as [[i d1]|] eqn:Vp; auto.
  destruct (view_of_fs fs q) as [[j d2]|] eqn:Vq; auto.
  destruct (X p) as [e1|] eqn:H1; auto. destruct (X q) as [e2|] eqn:H2; auto.
  destruct (is_dir d1) eqn:Hd; auto. destruct (is_dir d2); auto. cbn [orb].
  destruct (N.eqb i j) eqn:E.
  - apply N.eqb_eq in E. subst j. rewrite (keys_sound_of_inv _ _ _ _ _ _ _ _ I L p q i d1 d2 e1 e2); auto.
  - destruct (ikey_eqb (x_key e1) (x_key e2)) eqn:Ek; auto. apply N.eqb_neq in E. destruct E.
    unfold view_of_fs in Vp, Vq. destruct (names fs p) eqn:Ep; [|discriminate]. destruct (names fs q) eqn:Eq; [|discriminate].
    inversion Vp; inversion Vq; subst. eapply keys_complete_of_inv; eauto.
Qed.

(* what errors the specification can report *)
Lemma spec_resolve_err V p x : spec_resolve V p = inr x -> x = XScope \/ x = XOther 4.
Proof.
  rewrite spec_resolve_fold. revert x.
  apply (fold_left_inv (sr_step V) (fun acc => forall x, acc = inr x -> x = XScope \/ x = XOther 4)); [|discriminate].
  intros [stk|x2] c Hacc x1; [|apply Hacc]. cbn [sr_step]. cbv zeta.
  destruct (lex_step stk c); [discriminate|].
  destruct (V (parent (l :: l0))) as [pe|]; [|discriminate].
  destruct (is_dir (x_d pe)).
  - destruct (match V (l :: l0) with Some e => is_lnk (x_d e) | None => false end); [|discriminate].
    intro H; inversion H; auto.
  - destruct (is_lnk (x_d pe)); intro H; inversion H; auto.
Qed.

Lemma make_dirs_err o r : forall pre V x, make_dirs o pre r V = inr x -> x = XScope \/ x = XOther 4.
Proof.
  induction r as [|c r IH]; intros pre V x.
  - rewrite make_dirs_nil. destruct (V pre) as [e|]; [|intro H; inversion H; auto].
    destruct (negb (is_dir (x_d e))); [|discriminate]. destruct (is_lnk (x_d e)); intro H; inversion H; auto.
  - rewrite make_dirs_cons. destruct (V pre) as [e|]; [|intro H; inversion H; auto].
    destruct (negb (is_dir (x_d e))); [destruct (is_lnk (x_d e)); intro H; inversion H; auto|].
    destruct (V (pre ++ [c])); apply IH.
Qed.

(* where a conflict comes from: a directory meeting a non-directory, without always-replace *)
Definition conflict_shape (o : copts) (cls : N) (bef : option xdent) : Prop :=
  o_replace o = false /\
  exists e, bef = Some e /\ ((cls = 1 /\ is_dir (x_d e) = false) \/ (cls = 2 /\ is_dir (x_d e) = true)).

Lemma overlay_one_conflict o ms multi sn src dst V cls p bef :
  overlay_one o ms multi sn src dst V = inr (XConflict cls p bef) -> conflict_shape o cls bef.
Proof.
  unfold overlay_one. destruct (spec_resolve V (clean dst)) as [D|x] eqn:E1.
  2:{ intro H; inversion H; subst. destruct (spec_resolve_err _ _ _ E1); discriminate. }
  destruct (make_dirs o [] _ V) as [V1|x] eqn:E2.
  2:{ intro H; inversion H; subst. destruct (make_dirs_err _ _ _ _ _ E2); discriminate. }
  destruct (o_replace o) eqn:Er; [discriminate|].
  destruct (first_conflict V1 _ sn) as [c|] eqn:E3; [|discriminate].
  destruct (first_conflict_shape _ _ _ _ E3) as (cls' & q & e & -> & _ & B).
  intro H; inversion H; subst. split; eauto.
Qed.

Lemma overlay_srcs_conflict o sroot ms dst : forall srcs V cls p bef,
  overlay_srcs o sroot ms dst srcs V = inr (XConflict cls p bef) -> conflict_shape o cls bef.
Proof.
  induction srcs as [|s r IH]; intros V cls p bef; cbn [overlay_srcs]; [discriminate|].
  destruct (s_resolve sroot (rooted s)) as [sn|[]]; try discriminate.
  destruct (overlay_one o ms (multi_of sroot) sn s dst V) as [r1|x] eqn:E1.
  - destruct (overlay_srcs o sroot ms dst r (xr_view r1)) as [r2|x] eqn:E2; [discriminate|].
    intro H; inversion H; subst. eapply IH; eauto.
  - intro H; inversion H; subst. eapply overlay_one_conflict; eauto.
Qed.

Lemma overlay_all_conflict o sroot V0 src dst cls p bef :
  overlay_all o sroot V0 src dst = inr (XConflict cls p bef) -> conflict_shape o cls bef.
Proof.
  unfold overlay_all.
  destruct (match ensure_arg dst with [] => _ | _ => _ end) as [[X1 eps]|x] eqn:E0.
  - destruct (match o_modestr o with [] => _ | _ => _ end) as [ms|]; [|discriminate].
    destruct (if o_wild o then _ else _) as [[|s0 srcs]|[]]; try discriminate.
    destruct (overlay_srcs o sroot ms dst (s0 :: srcs) X1) as [r|x] eqn:E3; [discriminate|].
    intro H; inversion H; subst. eapply overlay_srcs_conflict; eauto.
  - intro H; inversion H; subst x. exfalso. destruct (ensure_arg dst); [discriminate|].
    destruct (spec_resolve _ _) eqn:E1.
    + destruct (make_dirs _ _ _ _) eqn:E2; [discriminate|]. inversion E0; subst.
      destruct (make_dirs_err _ _ _ _ _ E2); discriminate.
    + inversion E0; subst. destruct (spec_resolve_err _ _ _ E1); discriminate.
Qed.

Section Thm.
  Variable o : copts.
  Variable sroot : snode.
  Hypothesis Hsrc : wf_src sroot.
  Hypothesis Hlc : links_consistent sroot.
  (* link groups are handled for one literal source; several (wildcard) sources only without them *)
  Hypothesis Hmode : no_link_groups sroot \/ o_wild o = false.

  Lemma sel_all_true : forall p, sel_all p = true. Proof. reflexivity. Qed.

  Lemma top fs src dst : wf_fs fs ->
    exists sdof, top_ok o sroot sdof True (overlay_all o sroot (view_of_fs fs) src dst) (copy_top o sel_all sroot fs src dst).
  Proof. destruct Hsrc. destruct Hlc as (sdof & Hc). exists sdof. apply copy_top_ok; auto. Qed.

  (* every source, wildcards together with link groups included (no exact partition) *)
  Lemma topg fs src dst : wf_fs fs ->
    exists sdof, top_ok o sroot sdof False (overlay_all o sroot (view_of_fs fs) src dst) (copy_top o sel_all sroot fs src dst).
  Proof. clear Hmode. destruct Hsrc. destruct Hlc as (sdof & Hc). exists sdof. apply copy_top_ok; auto; intros []. Qed.

  (* C15, all sources: dentry by dentry the result is the overlay, and no two names share an
     inode unless the specification puts them into one group *)
  Theorem copy_overlay_links_proof fs src dst r :
    wf_fs fs -> overlay_all o sroot (view_of_fs fs) src dst = inl r ->
    exists st', copy_top o sel_all sroot fs src dst = (st', None) /\
                (forall p, match_at (view_of_fs (c_fs st')) (xr_view r) p = true) /\
                keys_sound (view_of_fs (c_fs st')) (xr_view r) /\
                rev (c_notifs st') = xr_notifs r.
  Proof.
    intros Hfs E. destruct (topg fs src dst Hfs) as (sdof & H). rewrite E in H.
    destruct H as (st' & H1 & H2 & H3 & H4 & _ & _ & _ & H9). exists st'. split; auto. split; [|split; auto].
    - apply (match_of_inv o); auto.
    - eapply keys_sound_of_inv; eauto.
  Qed.

  (* C15: the result of a successful Copy is the overlay of the source(s) over the destination *)
  Theorem copy_overlay_partial_proof fs src dst r :
    wf_fs fs -> overlay_all o sroot (view_of_fs fs) src dst = inl r ->
    exists st', copy_top o sel_all sroot fs src dst = (st', None) /\
                view_matches (view_of_fs (c_fs st')) (xr_view r) /\
                rev (c_notifs st') = xr_notifs r.
  Proof.
    intros Hfs E. destruct (top fs src dst Hfs) as (sdof & H). rewrite E in H.
    destruct H as (st' & H1 & H2 & H3 & H4 & _ & _ & _ & H9). exists st'. split; auto. split; auto.
    eapply view_matches_of_inv; eauto.
  Qed.

  (* every error the specification predicts is the error Copy reports (by class) *)
  Theorem copy_error_partial_proof fs src dst xe :
    wf_fs fs -> overlay_all o sroot (view_of_fs fs) src dst = inr xe ->
    exists st' e, copy_top o sel_all sroot fs src dst = (st', Some e) /\ err_cls e = xerr_cls xe.
  Proof.
    intros Hfs E. destruct (topg fs src dst Hfs) as (sdof & H). rewrite E in H.
    destruct H as (st' & e & H1 & H2 & _). eauto.
  Qed.

  (* C15: a directory meeting a non-directory (either way) without always-replace is an error
     of the matching class, and the obstacle is still there: same dentry, same inode *)
  Theorem conflict_is_error_and_keeps_obstacle_partial_proof fs src dst cls p bef :
    wf_fs fs -> overlay_all o sroot (view_of_fs fs) src dst = inr (XConflict cls p bef) ->
    o_replace o = false /\
    exists st' e be i,
      copy_top o sel_all sroot fs src dst = (st', Some e) /\ err_cls e = cls /\
      bef = Some be /\
      ((cls = 1 /\ is_dir (x_d be) = false) \/ (cls = 2 /\ is_dir (x_d be) = true)) /\
      names (c_fs st') p = Some i /\ dent_match (inodes (c_fs st') i) be = true /\
      (forall j, x_key be = KDst j -> i = j).
  Proof.
    intros Hfs E. destruct (topg fs src dst Hfs) as (sdof & H). rewrite E in H.
    destruct (overlay_all_conflict _ _ _ _ _ _ _ _ E) as (Hr & be & Hb & Hcls). split; auto.
    destruct H as (st' & e & H1 & H2 & (X' & I' & S' & HX & _)).
    rewrite Hb in HX. destruct (inv_x_some _ _ _ _ _ I' HX) as (i & Hi & Hm & Hk).
    exists st', e, be, i. repeat split; auto.
    - eapply dent_match_of_dm; eauto.
    - intros j Hj. rewrite Hj in Hk. simpl in Hk. auto.
  Qed.

  (* C15: with always-replace no clash is ever reported *)
  Theorem always_replace_never_conflicts_proof V0 src dst cls p bef :
    o_replace o = true -> overlay_all o sroot V0 src dst <> inr (XConflict cls p bef).
  Proof. intros Hr E. destruct (overlay_all_conflict _ _ _ _ _ _ _ _ E) as (H & _). congruence. Qed.
End Thm.

Lemma count_N_notin i l : ~ In i l -> count_N i l = O.
Proof.
  induction l as [|j r IH]; simpl; auto. intro H. destruct (N.eqb i j) eqn:E.
  - apply N.eqb_eq in E. subst. exfalso. apply H. left; auto.
  - apply IH. intro Hin. apply H. right; auto.
Qed.
Lemma no_link_groups_of_nodup sroot : NoDup (s_inos sroot) -> no_link_groups sroot.
Proof.
  intros H i. unfold multi_of. induction H as [|j l Hni Hnd IH]; simpl; auto.
  destruct (N.eqb i j) eqn:E.
  - apply N.eqb_eq in E. subst. rewrite (count_N_notin _ _ Hni). auto.
  - exact IH.
Qed.

Section Wf.
  Variable o : copts.
  Variable sroot : snode.
  Hypothesis Hsrc : wf_src sroot.
  Hypothesis Hlc : links_consistent sroot.

  (* a successful Copy leaves a well-formed file system (so it can be copied onto again) *)
  Theorem copy_preserves_wf_proof fs src dst st' :
    wf_fs fs -> copy_top o sel_all sroot fs src dst = (st', None) -> wf_fs (c_fs st').
  Proof.
    intros Hfs E. destruct (topg o sroot Hsrc Hlc fs src dst Hfs) as (sdof & H).
    destruct (overlay_all o sroot (view_of_fs fs) src dst) as [r|xe].
    - destruct H as (st'' & E1 & I & _ & _ & _ & _ & Hroot & _). rewrite E in E1. inversion E1; subst st''.
      split; [apply (i_lt _ _ _ I)|]. split; [apply (i_par _ _ _ I)|]. split; [apply (i_diru _ _ _ I)|].
      eapply inv_x_isdir; eauto.
    - destruct H as (st'' & e & E1 & _). rewrite E in E1. discriminate.
  Qed.
End Wf.
