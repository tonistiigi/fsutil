(* C13 / C15 — the kernel operations of the copier model preserve the invariant [Inv]
   (CopierP.v), each with the change it makes to the expected view; the metadata phase
   (copyFileInfo + copyXAttrs) as one inode update; xattr merging; well-formed sources. *)
From Coq Require Import List NArith Bool Lia ZifyN ZifyNat ZifyBool.
From FS Require Import Sx Model.Path Model.SymMode Model.Copier Model.CopySpec Proofs.Lex Proofs.CopierP.
Import ListNotations.
Open Scope N_scope.
Open Scope bool_scope.

Fixpoint xsorted (l : list (list N * list N)) : Prop :=
  match l with
  | [] => True
  | a :: r => Forall (fun b => cmp_bytes (fst a) (fst b) = Lt) r /\ xsorted r
  end.

Lemma xattr_set_last k v acc : Forall (fun a => cmp_bytes (fst a) k = Lt) acc ->
  xattr_set k v acc = acc ++ [(k, v)].
Proof.
  induction acc as [|[k' v'] r IH]; intro H; [reflexivity|].
  inversion H as [|? ? Hk Hr]; subst. simpl in Hk. simpl xattr_set.
  rewrite cmp_bytes_opp, Hk. simpl. rewrite IH; auto.
Qed.

Lemma merge_sorted l : forall acc,
  xsorted l -> (forall b, In b l -> Forall (fun a => cmp_bytes (fst a) (fst b) = Lt) acc) ->
  merge_xattrs l acc = acc ++ l.
Proof.
  unfold merge_xattrs.
  induction l as [|[k v] r IH]; intros acc Hs Hacc; simpl; [rewrite app_nil_r; auto|].
  destruct Hs as [Hh Hs].
  rewrite xattr_set_last by (apply (Hacc (k, v)); left; auto).
  rewrite IH; auto.
  - rewrite <- app_assoc. reflexivity.
  - intros b Hb. apply Forall_app. split; [apply Hacc; right; auto|].
    constructor; [|constructor]. simpl. rewrite Forall_forall in Hh. apply Hh; auto.
Qed.

Lemma merge_nil l : xsorted l -> merge_xattrs l [] = l.
Proof. intro H. rewrite merge_sorted; auto. Qed.

Definition xfound (k v : list N) (R : list (list N * list N)) : Prop :=
  exists P Q, R = P ++ (k, v) :: Q /\ Forall (fun a => cmp_bytes (fst a) k = Lt) P.

Lemma xattr_set_past k v P Q : Forall (fun a => cmp_bytes (fst a) k = Lt) P ->
  xattr_set k v (P ++ Q) = P ++ xattr_set k v Q.
Proof.
  induction P as [|[k' v'] P IH]; intro H; auto. inversion H as [|? ? Hk Hr]; subst. simpl in Hk.
  simpl. rewrite cmp_bytes_opp, Hk. simpl. rewrite IH; auto.
Qed.

Lemma xfound_set k v R : xfound k v (xattr_set k v R).
Proof.
  induction R as [|[k' v'] R IH]; simpl.
  - exists [], []. split; auto.
  - destruct (cmp_bytes k k') eqn:E.
    + exists [], R. split; auto.
    + exists [], ((k', v') :: R). split; auto.
    + destruct IH as (P & Q & E1 & E2). exists ((k', v') :: P), Q. rewrite E1. split; auto.
      constructor; auto. simpl. rewrite cmp_bytes_opp, E. auto.
Qed.

Lemma xfound_keep k v k' v' R : xfound k v R -> cmp_bytes k k' = Lt -> xfound k v (xattr_set k' v' R).
Proof.
  intros (P & Q & -> & HP) Hlt. exists P, (xattr_set k' v' Q). split; auto.
  rewrite xattr_set_past.
  - simpl. rewrite cmp_bytes_opp, Hlt. auto.
  - eapply Forall_impl; [|exact HP]. intros a Ha. simpl in Ha. apply (cmp_bytes_trans _ k _); auto.
Qed.

Lemma xfound_fix k v R : xfound k v R -> xattr_set k v R = R.
Proof.
  intros (P & Q & -> & HP). rewrite xattr_set_past by auto. simpl.
  rewrite cmp_bytes_refl. auto.
Qed.

Lemma fold_keep k v l : Forall (fun b => cmp_bytes k (fst b) = Lt) l ->
  forall R, xfound k v R -> xfound k v (fold_left (fun l0 kv => xattr_set (fst kv) (snd kv) l0) l R).
Proof.
  induction l as [|[k2 v2] l IH]; intros H R HR; simpl; auto.
  inversion H as [|? ? H1 H2]; subst. simpl in H1. apply IH; auto. apply xfound_keep; auto.
Qed.

Lemma merge_found l : forall R, xsorted l -> (forall kv, In kv l -> xfound (fst kv) (snd kv) (merge_xattrs l R)).
Proof.
  unfold merge_xattrs. induction l as [|[k v] l IH]; intros R Hs kv Hin; [destruct Hin|].
  destruct Hs as [Hh Hs]. simpl fold_left. destruct Hin as [<-|Hin].
  - simpl. apply fold_keep; auto. apply xfound_set.
  - apply IH; auto.
Qed.

Lemma merge_fix l R : (forall kv, In kv l -> xfound (fst kv) (snd kv) R) -> merge_xattrs l R = R.
Proof.
  unfold merge_xattrs. induction l as [|[k v] l IH]; intro H; simpl; auto.
  rewrite (xfound_fix k v R) by (apply (H (k, v)); left; auto). apply IH. intros kv Hin. apply H. right; auto.
Qed.

Lemma merge_idem l R : xsorted l -> merge_xattrs l (merge_xattrs l R) = merge_xattrs l R.
Proof. intro Hs. apply merge_fix. apply merge_found; auto. Qed.
Lemma merge_self l : xsorted l -> merge_xattrs l l = l.
Proof. intro Hs. rewrite <- (merge_nil l Hs) at 2 3. apply merge_idem; auto. Qed.

Definition wf_dent (d : dent) : Prop :=
  ftype d <> 0 /\ (is_lnk d = true -> perm12 d = 511) /\ (is_lnk d = false -> d_target d = []) /\
  xsorted (d_xattrs d).

Fixpoint wf_s (n : snode) {struct n} : Prop :=
  match n with
  | SNode _ _ d kids =>
    wf_dent d /\ (is_dir d = false -> kids = []) /\ NoDup (map sname kids) /\
    (fix all (l : list snode) : Prop := match l with [] => True | k :: r => wf_s k /\ all r end) kids
  end.

Lemma all_Forall (P : snode -> Prop) l :
  (fix all (l : list snode) : Prop := match l with [] => True | k :: r => P k /\ all r end) l <-> Forall P l.
Proof.
  induction l as [|k r IH]; split; intro H; auto.
  - destruct H. constructor; auto. apply IH; auto.
  - inversion H; subst. split; auto. apply IH; auto.
Qed.

Lemma wf_s_unfold nm ino d kids :
  wf_s (SNode nm ino d kids) <->
  wf_dent d /\ (is_dir d = false -> kids = []) /\ NoDup (map sname kids) /\ Forall wf_s kids.
Proof. simpl. rewrite (all_Forall wf_s). tauto. Qed.

Lemma snode_ind2 (P : snode -> Prop) :
  (forall nm ino d kids, Forall P kids -> P (SNode nm ino d kids)) -> forall n, P n.
Proof.
  intros H. fix IH 1. intros [nm ino d kids]. apply H.
  induction kids as [|k r IHr]; constructor; [apply IH|exact IHr].
Qed.

Lemma find_kid_name a l k : find_kid a l = Some k -> sname k = a.
Proof.
  induction l as [|x r IH]; simpl; [discriminate|].
  destruct (bytes_eqb (sname x) a) eqn:E; auto. intro H. inversion H; subst. apply bytes_eqb_eq; auto.
Qed.
Lemma find_kid_in a l k : find_kid a l = Some k -> In k l.
Proof.
  induction l as [|x r IH]; simpl; [discriminate|].
  destruct (bytes_eqb (sname x) a); auto. intro H. inversion H; auto.
Qed.
Lemma find_kid_none a l : ~ In a (map sname l) -> find_kid a l = None.
Proof.
  induction l as [|x r IH]; simpl; auto. intro H.
  destruct (bytes_eqb (sname x) a) eqn:E; [apply bytes_eqb_eq in E; tauto|]. apply IH. tauto.
Qed.
Lemma find_kid_head k r : find_kid (sname k) (k :: r) = Some k.
Proof. simpl. rewrite bytes_eqb_refl. auto. Qed.

Lemma find_kid_in_nodup l : NoDup (map sname l) -> forall k, In k l -> find_kid (sname k) l = Some k.
Proof.
  induction l as [|x r IH]; intros Hnd k Hin; [destruct Hin|]. simpl in Hnd. inversion Hnd as [|? ? Hni Hnd']; subst.
  simpl. destruct Hin as [->|Hin]; [rewrite bytes_eqb_refl; auto|].
  destruct (bytes_eqb (sname x) (sname k)) eqn:E; [|auto].
  apply bytes_eqb_eq in E. exfalso. apply Hni. rewrite E. apply in_map. auto.
Qed.

(* what a node hands down to its children holds at every node reached from it *)
Lemma s_lookup_kids (P : snode -> Prop) : (forall n k, P n -> In k (skids n) -> P k) ->
  forall p n s, P n -> s_lookup n p = Some s -> P s.
Proof.
  intro Hk. induction p as [|a p IH]; intros n s Hn; simpl.
  - intro H; inversion H; subst; auto.
  - destruct (find_kid a (skids n)) as [k|] eqn:E; [|discriminate]. apply IH, (Hk n), (find_kid_in _ _ _ E). exact Hn.
Qed.
(* rootPath on the source goes down like [s_lookup], through directories only *)
Lemma s_resolve_lookup : forall p n sn, s_resolve n p = inl sn -> s_lookup n p = Some sn.
Proof.
  induction p as [|a p IH]; intros n sn; simpl.
  - intro H; inversion H; auto.
  - destruct (is_dir (sdent n)); [|discriminate]. destruct (find_kid a (skids n)); [apply IH|discriminate].
Qed.

Lemma wf_s_kid n k : wf_s n -> In k (skids n) -> wf_s k.
Proof. destruct n. intro H. apply wf_s_unfold in H. destruct H as (_ & _ & _ & Hall). rewrite Forall_forall in Hall. apply Hall. Qed.
Lemma wf_s_dent s : wf_s s -> wf_dent (sdent s).
Proof. destruct s. intro H. apply wf_s_unfold in H. cbn [sdent]. tauto. Qed.
Lemma s_lookup_wf rel n s : wf_s n -> s_lookup n rel = Some s -> wf_s s.
Proof. apply (s_lookup_kids wf_s wf_s_kid). Qed.
Lemma s_resolve_wf p n sn : wf_s n -> s_resolve n p = inl sn -> wf_s sn.
Proof. intros Hwf H. exact (s_lookup_wf _ _ _ Hwf (s_resolve_lookup _ _ _ H)). Qed.

Section Ops.
  Variable o : copts.
  Notation Inv := (Inv o).
  Notation touch := (touch o).

  Definition new_dent (umask : N) (pd : dent) (typ m12 rdev : N) (tg ct : list N) : dent :=
    let m := andnot (N.land m12 allBits) umask in
    let m' := if N.eqb typ S_IFDIR && has_sgid pd then N.lor m S_ISGID else m in
    {| d_mode := N.lor typ m'; d_uid := 0; d_gid := if has_sgid pd then d_gid pd else 0;
       d_mtime := NOW; d_rdev := rdev; d_target := tg; d_xattrs := []; d_content := ct |}.

  Lemma k_new_unfold umask p typ m12 rdev tg ct fs : p <> [] ->
    k_new umask p typ m12 rdev tg ct fs =
    match names fs p, lstat fs (parent p) with
    | None, Some pd => if is_dir pd then Some (touch_parent p (bind_new p (new_dent umask pd typ m12 rdev tg ct) fs)) else None
    | _, _ => None
    end.
  Proof. destruct p; [congruence|reflexivity]. Qed.

  Lemma touch_xupd_comm P T v X q : P <> T -> touch P (xupd T v X) q = xupd T v (touch P X) q.
  Proof.
    intro Hne. destruct (path_dec q P) as [->|H1].
    - rewrite touch_same, !xupd_other, touch_same; auto.
    - rewrite touch_other by auto. destruct (path_dec q T) as [->|H2].
      + rewrite !xupd_same; auto.
      + rewrite !xupd_other, touch_other; auto.
  Qed.

  Lemma upd_inode_eqv i f a b : fs_eqv a b -> fs_eqv (upd_inode i f a) (upd_inode i f b).
  Proof. intros [A B C]. split; simpl; auto. intro j. rewrite !B. auto. Qed.

  Lemma inv_k_new fs X P a umask typ m12 rdev tg ct :
    Inv fs X -> X (P ++ [a]) = None -> x_isdir (X P) = true ->
    exists fs' j,
      k_new umask (P ++ [a]) typ m12 rdev tg ct fs = Some fs' /\
      names fs P = Some j /\ is_dir (inodes fs j) = true /\
      names fs' (P ++ [a]) = Some (next fs) /\
      inodes fs' (next fs) = new_dent umask (inodes fs j) typ m12 rdev tg ct /\
      (forall q, names fs' q = Some (next fs) -> q = P ++ [a]) /\
      (forall q, q <> P ++ [a] -> names fs' q = names fs q) /\
      (forall e, dm o (new_dent umask (inodes fs j) typ m12 rdev tg ct) e ->
                 (x_key e = KNew (P ++ [a]) \/ exists s, x_key e = KSrc s) ->
                 Inv fs' (xupd (P ++ [a]) (Some e) (touch P X))).
  Proof.
    intros I HT HP. set (T := P ++ [a]).
    destruct (inv_x_isdir _ _ _ _ I HP) as (j & Hj & Hd).
    assert (HnT : names fs T = None) by (eapply inv_x_none; eauto).
    assert (HPT : P <> T) by apply self_ne_snoc.
    assert (Hfr : forall p, names fs p <> Some (next fs)).
    { intros p Hp. apply (i_lt _ _ _ I) in Hp. lia. }
    assert (Hjn : j <> next fs) by (intro; subst; destruct (Hfr _ Hj)).
    set (d := new_dent umask (inodes fs j) typ m12 rdev tg ct).
    exists (upd_inode j (set_mtime NOW) (bind_new T d fs)), j.
    assert (HnP : names (bind_new T d fs) P = Some j).
    { simpl. apply path_eqb_neq in HPT. rewrite HPT. auto. }
    split.
    { rewrite k_new_unfold by apply snoc_ne_nil. fold T. rewrite HnT. unfold lstat. unfold T at 1.
      rewrite parent_snoc, Hj, Hd. fold T d. unfold T at 1. rewrite touch_parent_snoc. fold T. rewrite HnP. auto. }
    split; auto. split; auto.
    split. { simpl. rewrite path_eqb_refl. auto. }
    split. { simpl. rewrite N.eqb_refl. assert (N.eqb (next fs) j = false) as -> by (apply N.eqb_neq; lia). auto. }
    split. { simpl. intros q. destruct (path_eqb q T) eqn:E; [intros _; apply path_eqb_eq; auto|].
             intro H. destruct (Hfr _ H). }
    split. { simpl. intros q Hq. apply path_eqb_neq in Hq. rewrite Hq. auto. }
    intros e Hm Hk.
    assert (I1 : Inv (bind_new T d fs) (xupd T (Some e) X)).
    { apply (inv_add o fs _ X P a j (next fs) e I HnT Hj Hd); simpl; auto; try lia.
      - intros p k Hp. destruct (N.eqb_spec k (next fs)); auto. subst. destruct (Hfr _ Hp).
      - intros p Hp. destruct (Hfr _ Hp).
      - rewrite N.eqb_refl. auto.
      - destruct Hk; auto. }
    eapply Inv_ext; [|apply (inv_touch o _ _ P j I1 HnP)].
    - intro q. symmetry. apply touch_xupd_comm; auto.
    - simpl. assert (N.eqb j (next fs) = false) as -> by (apply N.eqb_neq; lia). auto.
  Qed.

  Lemma is_prefix_snoc_self P a : is_prefix (P ++ [a]) P = false.
  Proof. rewrite is_prefix_strip, strip_snoc_self. auto. Qed.

  Lemma xrm_touch_comm P a X q : touch P (xrm (P ++ [a]) X) q = xrm (P ++ [a]) (touch P X) q.
  Proof.
    destruct (path_dec q P) as [->|H].
    - rewrite touch_same. unfold xrm. rewrite is_prefix_snoc_self, touch_same. auto.
    - rewrite touch_other by auto. unfold xrm. rewrite touch_other by auto. auto.
  Qed.

  (* unlink(2) of a non-directory and RemoveAll both leave: everything at and below T gone, parent touched *)
  Lemma inv_k_unlink fs X P a e :
    Inv fs X -> X (P ++ [a]) = Some e -> is_dir (x_d e) = false -> x_isdir (X P) = true ->
    exists fs', k_unlink (P ++ [a]) fs = Some fs' /\ Inv fs' (touch P (xrm (P ++ [a]) X)) /\
                (forall q, names fs' q = if is_prefix (P ++ [a]) q then None else names fs q).
  Proof.
    intros I HT Hnd HP.
    destruct (inv_x_isdir _ _ _ _ I HP) as (j & Hj & Hd).
    destruct (inv_x_some _ _ _ _ _ I HT) as (i & Hi & Hm & _).
    assert (Hdi : is_dir (inodes fs i) = false) by (rewrite (dm_is_dir _ _ _ Hm); auto).
    assert (HPT : path_eqb P (P ++ [a]) = false).
    { apply path_eqb_neq, self_ne_snoc. }
    exists (upd_inode j (set_mtime NOW) (set_name (P ++ [a]) None fs)). split.
    - unfold k_unlink, lstat. rewrite Hi, Hdi. rewrite touch_parent_snoc. simpl names.
      rewrite HPT, Hj. auto.
    - split.
      + eapply Inv_fs_ext; [apply fs_eqv_sym, upd_inode_eqv; eapply set_name_none_eqv; eauto|].
        eapply inv_touch; [apply inv_unbind; eauto| |]; simpl.
        * rewrite is_prefix_snoc_self. auto.
        * auto.
      + intro q. simpl names. apply (fe_names _ _ (set_name_none_eqv o _ _ _ _ I Hi Hdi)).
  Qed.

  Lemma inv_k_remove_all fs X P a e :
    Inv fs X -> X (P ++ [a]) = Some e -> x_isdir (X P) = true ->
    Inv (k_remove_all (P ++ [a]) fs) (touch P (xrm (P ++ [a]) X)).
  Proof.
    intros I HT HP.
    destruct (inv_x_isdir _ _ _ _ I HP) as (j & Hj & Hd).
    destruct (inv_x_some _ _ _ _ _ I HT) as (i & Hi & _).
    unfold k_remove_all. rewrite Hi.
    change {| names := fun q => if is_prefix (P ++ [a]) q then None else names fs q; inodes := inodes fs; next := next fs; dom := dom fs |}
      with (unbind (P ++ [a]) fs (dom fs)).
    rewrite touch_parent_snoc. simpl names. rewrite is_prefix_snoc_self, Hj.
    eapply inv_touch; [apply inv_unbind; eauto| |]; simpl; auto.
    rewrite is_prefix_snoc_self. auto.
  Qed.

  Lemma k_remove_all_names fs T q : names fs T <> None ->
    names (k_remove_all T fs) q = if is_prefix T q then None else names fs q.
  Proof.
    intro H. unfold k_remove_all. destruct (names fs T) eqn:E; [|congruence].
    assert (Htp : forall fs1 p, names (touch_parent p fs1) q = names fs1 q).
    { intros fs1 p. unfold touch_parent. destruct p; auto. destruct (names fs1 (parent (l :: p))); auto. }
    rewrite Htp. reflexivity.
  Qed.

  (* link(2): a second name for a non-directory inode none of whose names carries a per-path key *)
  Lemma inv_k_link fs X P a l id e :
    Inv fs X -> X (P ++ [a]) = None -> x_isdir (X P) = true ->
    names fs l = Some id -> is_dir (inodes fs id) = false -> dm o (inodes fs id) e ->
    (exists s, x_key e = KSrc s) ->
    (forall p e0, names fs p = Some id -> X p = Some e0 -> exists s, x_key e0 = KSrc s) ->
    exists fs', k_link l (P ++ [a]) fs = Some fs' /\
      (forall q, names fs' q = if path_eqb q (P ++ [a]) then Some id else names fs q) /\
      Inv fs' (xupd (P ++ [a]) (Some e) (touch P X)).
  Proof.
    intros I HT HP Hl Hnd Hm (s0 & Hk) Hsrc. set (T := P ++ [a]) in *.
    destruct (inv_x_isdir _ _ _ _ I HP) as (j & Hj & Hd).
    assert (HnT : names fs T = None) by (eapply inv_x_none; eauto).
    assert (HPT : path_eqb P T = false).
    { apply path_eqb_neq, self_ne_snoc. }
    exists (upd_inode j (set_mtime NOW) (set_name T (Some id) fs)).
    split.
    { unfold k_link. destruct T as [|t0 T0] eqn:ET; [exfalso; eapply snoc_ne_nil; eauto|]. rewrite <- ET in *.
      rewrite Hl, HnT. unfold lstat. unfold T at 1. rewrite parent_snoc, Hj, Hd, Hnd. cbn [andb negb].
      unfold T at 1. rewrite touch_parent_snoc. simpl names. rewrite HPT, Hj. rewrite ET. auto. }
    split; [intro q; reflexivity|].
    assert (I1 : Inv (set_name T (Some id) fs) (xupd T (Some e) X)).
    { apply (inv_add o fs _ X P a j id e I HnT Hj Hd); simpl; eauto; try lia.
      eapply (i_lt _ _ _ I); eauto. }
    eapply Inv_ext; [|apply (inv_touch o _ _ P j I1); [simpl; rewrite HPT; auto|exact Hd]].
    intro q. symmetry. apply touch_xupd_comm. apply path_eqb_neq; auto.
  Qed.

  Variable ms : option (list bitcmd).

  Definition finfo (sd d : dent) : dent :=
    let d1 := set_owner (fst (info_owner o sd)) (snd (info_owner o sd)) d in
    let d2 := if is_lnk sd then d1 else set_perm (info_mode o ms sd) d1 in
    let d3 := set_mtime (info_time o sd) d2 in
    set_xattrs (merge_xattrs (d_xattrs sd) (d_xattrs d3)) d3.

  Lemma ftype_finfo sd d : ftype (finfo sd d) = ftype d.
  Proof.
    unfold finfo. rewrite ftype_set_xattrs, ftype_set_mtime. destruct (is_lnk sd); auto.
    rewrite ftype_set_perm. auto.
  Qed.

  Lemma upd_path_some fs p i f : names fs p = Some i -> upd_path p f fs = Some (upd_inode i f fs).
  Proof. unfold upd_path. intros ->. auto. Qed.

  Lemma meta_phase sd T st i :
    names (c_fs st) T = Some i ->
    exists fs', (s5 <~ copy_file_info o ms sd T st ;; copy_xattrs sd T s5) = (with_fs st fs', None) /\
                fs_eqv fs' (upd_inode i (finfo sd) (c_fs st)).
  Proof.
    intros H. unfold copy_file_info, copy_xattrs, copy_file_timestamp.
    destruct (info_owner o sd) as [u g] eqn:Eo.
    rewrite (upd_path_some _ _ _ _ H). cbn [sys bind ok with_fs c_fs].
    destruct (is_lnk sd) eqn:El; cbn [bind ok c_fs with_fs];
      repeat (rewrite (upd_path_some _ _ i) by (simpl; auto); cbn [sys bind ok with_fs c_fs]);
      (eexists; split; [reflexivity|]; split; simpl; auto);
      intro j; unfold finfo; rewrite El, Eo; simpl fst; simpl snd; destruct (N.eqb j i); auto.
  Qed.

  Lemma time_phase sd T st i :
    names (c_fs st) T = Some i ->
    copy_file_timestamp o sd T st = (with_fs st (upd_inode i (set_mtime (info_time o sd)) (c_fs st)), None).
  Proof. intros H. unfold copy_file_timestamp. rewrite (upd_path_some _ _ _ _ H). reflexivity. Qed.
End Ops.
