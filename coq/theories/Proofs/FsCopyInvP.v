(* C14 — the invariant behind copy_contained.

   Fixed: the initial file system f0, the destination root directory dr, b = f_next f0.
   S0 = the directories at or below dr in f0; SS = S0 plus every inode allocated since.
   [Inv f]: every older inode outside S0 still has its f0 record; kinds of old inodes never change;
   every directory entry that leads to a directory is an f0 entry between old inodes or leads to
   a new inode (and from a new directory only to a newer one); names in SS directories are unique.
   Consequences: SS is closed under real-directory entries ([chain_SS]); the directory graph
   stays acyclic ([inv_acyclic]). *)
From Coq Require Import List NArith Lia Bool ZifyN ZifyNat ZifyBool.
From FS Require Import Sx Model.Path Model.Fs Model.RootPath Model.CopyFs Model.CopyFsSpec
  Proofs.Lex Proofs.PathP Proofs.ListAux Proofs.FsP Proofs.RootPathStrP Proofs.FsCopyFrameP.
Import ListNotations.
Open Scope N_scope.
Open Scope bool_scope.

Lemma is_dir_exists f i : is_dir f i = true -> get f i <> None.
Proof. unfold is_dir, dir_of. destruct (get f i); discriminate. Qed.

Lemma exists_lt_next f i : alloc_ok f -> get f i <> None -> i < f_next f.
Proof. intros Ha Hg. destruct (N.lt_ge_cases i (f_next f)) as [|H]; auto. apply Ha in H. congruence. Qed.

Lemma dents_some_dir f j name child : blookup name (dents f j) = Some child -> is_dir f j = true.
Proof. intros H. destruct (is_dir f j) eqn:E; auto. rewrite (dents_nil_not_dir _ _ E) in H. discriminate. Qed.

Lemma chain_start_dir f a cs e : chain f a cs e -> is_dir f a = true.
Proof. intros [d Hd|d x i cs' e' Hb _ _]; eauto using dents_some_dir. Qed.

Lemma chain_end_dir f a cs e : chain f a cs e -> is_dir f e = true.
Proof. induction 1; auto. Qed.

Lemma chain_fun f a cs e : chain f a cs e -> forall e', chain f a cs e' -> e = e'.
Proof.
  induction 1 as [d Hd|d x i cs e Hb Hi Hc IH]; intros e' H'.
  - inversion H'; subst; auto.
  - inversion H' as [|d' x' i' cs' e'' Hb' Hi' Hc']; subst.
    rewrite Hb in Hb'. inversion Hb'; subst. auto.
Qed.

Lemma chain_app f a p m s e : chain f a p m -> chain f m s e -> chain f a (p ++ s) e.
Proof. induction 1; intros H2; simpl; auto. econstructor; eauto. Qed.

Lemma chain_split f p : forall a s e, chain f a (p ++ s) e -> exists m, chain f a p m /\ chain f m s e.
Proof.
  induction p as [|x p IH]; intros a s e H.
  - exists a. split; auto. constructor. eapply chain_start_dir; eauto.
  - simpl in H. inversion H as [|d x' i cs' e' Hb Hi Hc]; subst.
    destruct (IH _ _ _ Hc) as (m & G1 & G2).
    exists m. split; auto. econstructor; eauto.
Qed.

Lemma chain_rest f a p m s e : chain f a (p ++ s) e -> chain f a p m -> chain f m s e.
Proof. intros H P. destruct (chain_split f p a s e H) as (m' & P' & Q). rewrite (chain_fun _ _ _ _ P _ P'). exact Q. Qed.

Lemma chain_snoc f a cs d x i : chain f a cs d -> blookup x (dents f d) = Some i -> is_dir f i = true ->
  chain f a (cs ++ [x]) i.
Proof.
  intros H Hb Hi. eapply chain_app; eauto. econstructor; eauto. constructor; auto.
Qed.

Lemma chain_steps f f' :
  (forall j, is_dir f j = true -> is_dir f' j = true) ->
  forall a cs e, chain f a cs e ->
  (forall p m n s i, cs = p ++ n :: s -> chain f a p m ->
     blookup n (dents f m) = Some i -> blookup n (dents f' m) = Some i) ->
  chain f' a cs e.
Proof.
  intros Hdir. induction 1 as [d Hd|d x i cs e Hb Hi Hc IH]; intros Hst.
  - constructor; auto.
  - apply (chain_cons f' d x i cs e); auto.
    + apply (Hst [] d x cs i); auto. constructor. eapply dents_some_dir; eauto.
    + apply IH. intros p m n s j E Hp. apply (Hst (x :: p) m n s j); [rewrite E; reflexivity|].
      econstructor; eauto.
Qed.

Lemma chain_stable f f' (Q : N -> Prop) :
  (forall j, ~ Q j -> dents f' j = dents f j) ->
  (forall j, is_dir f j = true -> is_dir f' j = true) ->
  forall a cs e, chain f a cs e ->
  (forall p s m, cs = p ++ s -> s <> [] -> chain f a p m -> ~ Q m) ->
  chain f' a cs e.
Proof.
  intros Hsame Hdir a cs e Hc HQ. apply (chain_steps f f' Hdir a cs e Hc).
  intros p m n s i E Hp. rewrite Hsame; auto. apply (HQ p (n :: s) m); auto. discriminate.
Qed.

(* in an acyclic file system a change below the end of a chain cannot touch the chain *)
Lemma chain_stable_below f f' d' :
  acyclic f ->
  (forall j, j <> d' -> dents f' j = dents f j) ->
  (forall j, is_dir f j = true -> is_dir f' j = true) ->
  forall a cs e more, chain f a cs e -> chain f e more d' -> chain f' a cs e.
Proof.
  intros Hac Hsame Hdir a cs e more Hc Hmore.
  apply (chain_stable f f' (fun j => j = d') Hsame Hdir a cs e Hc).
  intros p s m E Hs Hp Hm. subst m cs.
  destruct (chain_split f p a s e Hc) as (m & Hp' & Hs').
  rewrite (chain_fun _ _ _ _ Hp _ Hp') in *.
  apply (Hac m (s ++ more)); [destruct s; [congruence|discriminate]|].
  eapply chain_app; eauto.
Qed.

Definition okn (n : bytes) : Prop := nm n /\ nonul n.

Lemma blookup_bremove_sub {A} k n (v : A) l : NoDup (map fst l) -> blookup n (bremove k l) = Some v -> blookup n l = Some v.
Proof.
  intros Hn H. destruct (bytes_eqb n k) eqn:E.
  - apply bytes_eqb_eq in E. subst. rewrite blookup_bremove_same in H; auto. discriminate.
  - rewrite blookup_bremove_other in H; auto. apply bytes_eqb_neq; auto.
Qed.

Lemma alloc_ok_same_tag f f' : alloc_ok f -> f_next f' = f_next f ->
  (forall j, itag (get f' j) = itag (get f j)) -> alloc_ok f'.
Proof.
  intros Ha Hn Ht j Hj. rewrite Hn in Hj. specialize (Ht j). rewrite (Ha j Hj) in Ht.
  destruct (get f' j); [discriminate|reflexivity].
Qed.

Section Inv.
  Variables (f0 : fs) (dr : N).
  Let b := f_next f0.
  Definition S0 (i : N) : Prop := inside_dir f0 dr i.
  Definition SS (i : N) : Prop := S0 i \/ b <= i.

  Record Inv (f : fs) : Prop := {
    inv_frame : forall i, i < b -> ~ S0 i -> get f i = get f0 i;
    inv_next : b <= f_next f;
    inv_fresh : alloc_ok f;
    inv_tag : forall i, i < b -> itag (get f i) = itag (get f0 i);
    inv_dent : forall j name child, blookup name (dents f j) = Some child -> is_dir f child = true ->
      (b <= child /\ (b <= j -> j < child)) \/
      (j < b /\ child < b /\ blookup name (dents f0 j) = Some child);
    inv_nodup : forall j, SS j -> NoDup (map fst (dents f j));
    inv_names : forall j, Forall okn (map fst (dents f j));
    (* every entry leads to an allocated number; a directory has one parent entry *)
    inv_target : forall j name child, blookup name (dents f j) = Some child -> child < f_next f;
    inv_single : forall j1 j2 n1 n2 i, blookup n1 (dents f j1) = Some i -> blookup n2 (dents f j2) = Some i ->
                 is_dir f i = true -> j1 = j2 /\ n1 = n2
  }.

  Lemma inv_init : alloc_ok f0 -> (forall j, SS j -> NoDup (map fst (dents f0 j))) ->
    (forall j, Forall okn (map fst (dents f0 j))) ->
    (forall j name child, blookup name (dents f0 j) = Some child -> child < f_next f0) ->
    (forall j1 j2 n1 n2 i, blookup n1 (dents f0 j1) = Some i -> blookup n2 (dents f0 j2) = Some i ->
       is_dir f0 i = true -> j1 = j2 /\ n1 = n2) -> Inv f0.
  Proof.
    intros Ha Hn Hnames Htg Hsg. constructor; auto; try (unfold b; lia).
    intros j name child Hb Hd. right.
    pose proof (exists_lt_next f0 child Ha (is_dir_exists _ _ Hd)).
    pose proof (exists_lt_next f0 j Ha (is_dir_exists _ _ (dents_some_dir _ _ _ _ Hb))).
    auto.
  Qed.

  Lemma is_dir_old f i : Inv f -> i < b -> is_dir f i = is_dir f0 i.
  Proof. intros I Hi. apply is_dir_same_tag, (inv_tag f I i Hi). Qed.

  Lemma dr_SS : is_dir f0 dr = true -> SS dr.
  Proof. intros H. left. exists []. constructor; auto. Qed.

  Lemma SS_closed f d x i : Inv f -> SS d -> blookup x (dents f d) = Some i -> is_dir f i = true -> SS i.
  Proof.
    intros I Hd Hb Hi. destruct (inv_dent f I d x i Hb Hi) as [[H _]|(Hj & Hc & Hb0)]; [right; auto|].
    destruct Hd as [(cs & Hcs)|Hd]; [|unfold b in *; lia].
    left. exists (cs ++ [x]). eapply chain_snoc; eauto. rewrite <- (is_dir_old f i I Hc). exact Hi.
  Qed.

  Lemma chain_SS f a cs e : Inv f -> chain f a cs e -> SS a -> SS e.
  Proof. intros I. induction 1; auto. intros Ha. apply IHchain. eapply SS_closed; eauto. Qed.

  Lemma chain_up f a cs e : Inv f -> chain f a cs e -> b <= a -> cs <> [] -> a < e.
  Proof.
    intros I. induction 1 as [d Hd|d x i cs e Hb Hi Hc IH]; intros Ha Hne; [congruence|].
    destruct (inv_dent f I d x i Hb Hi) as [[H1 H2]|(Hj & _)]; [|unfold b in *; lia].
    specialize (H2 Ha). destruct cs as [|y cs].
    - inversion Hc; subst. exact H2.
    - assert (i < e) by (apply IH; [lia|discriminate]). lia.
  Qed.

  Lemma chain_old f a cs e : Inv f -> chain f a cs e -> e < b -> a < b /\ chain f0 a cs e.
  Proof.
    intros I. induction 1 as [d Hd|d x i cs e Hb Hi Hc IH]; intros He.
    - split; auto. constructor. rewrite <- (is_dir_old f d I He). exact Hd.
    - destruct (IH He) as [Hib Hc0].
      destruct (inv_dent f I d x i Hb Hi) as [[H1 _]|(Hj & _ & Hb0)]; [lia|].
      split; auto. econstructor; eauto. rewrite <- (is_dir_old f i I Hib). exact Hi.
  Qed.

  Lemma inv_acyclic f : Inv f -> acyclic f0 -> acyclic f.
  Proof.
    intros I Hac i cs Hne Hc.
    destruct (N.lt_ge_cases i b) as [Hlt|Hge].
    - destruct (chain_old f i cs i I Hc Hlt) as [_ Hc0]. apply (Hac i cs Hne Hc0).
    - pose proof (chain_up f i cs i I Hc Hge Hne). lia.
  Qed.

  Lemma chain_outside f a cs e : alloc_ok f0 -> Inv f -> chain f0 a cs e -> ~ S0 e -> chain f a cs e.
  Proof.
    intros Ha0 I Hc Hout.
    assert (Hnode : forall p s m, cs = p ++ s -> chain f0 a p m -> m < b /\ ~ S0 m).
    { intros p s m E Hp. split.
      - apply (exists_lt_next f0 m Ha0), is_dir_exists. eapply chain_end_dir; eauto.
      - intros (q & Hq). apply Hout. subst cs. exists (q ++ s). eapply chain_app; [exact Hq|eapply chain_rest; eauto]. }
    apply (chain_stable f0 f SS); auto.
    - intros j Hj. unfold dents, dir_of. rewrite (inv_frame f I j); auto.
      + destruct (N.lt_ge_cases j b); auto. exfalso. apply Hj. right. auto.
      + intros Hs. apply Hj. left. auto.
    - intros j Hj. rewrite (is_dir_old f j I); auto. apply (exists_lt_next f0 j Ha0), is_dir_exists, Hj.
    - intros p s m E Hs Hp [Hm|Hm]; destruct (Hnode p s m E Hp) as [G1 G2]; [auto|unfold b in *; lia].
  Qed.

  (* One step of the copier: records outside SS and the kind constructors of existing inodes
     stay, allocation only grows, and every entry of f' is an entry of f except possibly one,
     (d, x, i): in an existing directory, under a proper name, leading to a non-directory or to an
     inode that f did not have. *)
  Lemma inv_step f f' d x i : Inv f ->
    (forall j, j < b -> ~ S0 j -> get f' j = get f j) ->
    f_next f <= f_next f' -> alloc_ok f' ->
    (forall j, j < f_next f -> itag (get f' j) = itag (get f j)) ->
    (forall j n c, blookup n (dents f' j) = Some c ->
       blookup n (dents f j) = Some c \/
       j = d /\ n = x /\ c = i /\ is_dir f d = true /\ okn x /\ i < f_next f' /\
       (is_dir f' i = true -> f_next f <= i)) ->
    (forall j, SS j -> NoDup (map fst (dents f' j))) ->
    Inv f'.
  Proof.
    intros I Hframe Hnext Ha' Htag Hent Hnodup. pose proof (inv_next f I) as Hb.
    assert (Hdir : forall n j c, blookup n (dents f j) = Some c -> is_dir f' c = is_dir f c).
    { intros n j c H. apply is_dir_same_tag, Htag, (inv_target f I j n c H). }
    constructor; auto.
    - intros j Hj Hout. rewrite Hframe; auto. apply (inv_frame f I); auto.
    - lia.
    - intros j Hj. rewrite Htag by lia. apply (inv_tag f I); auto.
    - intros j n c H Hc. destruct (Hent j n c H) as [Hold|(-> & _ & -> & Hd & _ & _ & Hnew)].
      + rewrite (Hdir _ _ _ Hold) in Hc. apply (inv_dent f I j n c); auto.
      + specialize (Hnew Hc). pose proof (exists_lt_next f d (inv_fresh f I) (is_dir_exists _ _ Hd)).
        left. lia.
    - intros j. apply Forall_forall. intros n Hin.
      destruct (blookup n (dents f' j)) as [c|] eqn:E; [|destruct (blookup_None_notin _ _ E Hin)].
      destruct (Hent j n c E) as [Hold|(_ & -> & _ & _ & Hx & _)]; auto.
      apply (proj1 (Forall_forall _ _) (inv_names f I j)). apply (in_map fst _ _ (blookup_In _ _ _ Hold)).
    - intros j n c H. destruct (Hent j n c H) as [Hold|(_ & _ & -> & _ & _ & Hi & _)]; auto.
      pose proof (inv_target f I j n c Hold). lia.
    - intros j1 j2 n1 n2 c H1 H2 Hc.
      destruct (Hent _ _ _ H1) as [O1|(-> & -> & -> & _ & _ & _ & N1)];
        destruct (Hent _ _ _ H2) as [O2|(-> & -> & E2 & _ & _ & _ & N2)]; auto.
      + rewrite (Hdir _ _ _ O1) in Hc. apply (inv_single f I j1 j2 n1 n2 c); auto.
      + subst c. pose proof (inv_target f I _ _ _ O1). specialize (N2 Hc). lia.
      + pose proof (inv_target f I _ _ _ O2). specialize (N1 Hc). lia.
  Qed.

  Lemma inv_step_sub f f' : Inv f ->
    (forall j, j < b -> ~ S0 j -> get f' j = get f j) ->
    f_next f' = f_next f ->
    (forall j, itag (get f' j) = itag (get f j)) ->
    (forall j n c, blookup n (dents f' j) = Some c -> blookup n (dents f j) = Some c) ->
    (forall j, SS j -> NoDup (map fst (dents f' j))) ->
    Inv f'.
  Proof.
    intros I Hframe Hnext Htag Hent Hnodup. apply (inv_step f f' 0 [] 0); auto.
    - lia.
    - apply (alloc_ok_same_tag f); auto. apply (inv_fresh f I).
  Qed.

  Lemma SS_not_outside i : SS i -> i < b -> ~ S0 i -> False.
  Proof. intros [H|H] Hi Hn; [auto|lia]. Qed.

  Lemma inv_create_at f r isdir k mode :
    Inv f -> SS (l_dir r) -> is_dir f (l_dir r) = true ->
    blookup (l_name r) (dents f (l_dir r)) = None -> leaf_kind k -> okn (l_name r) ->
    Inv (fst (create_at f r isdir k mode)).
  Proof.
    intros I Hs Hd Hnone Hleaf Hokn. pose proof (inv_fresh f I) as Ha. pose proof (inv_next f I) as Hn.
    pose proof (dir_lt_next f r Ha Hd) as Hlt.
    pose proof (create_at_next f r isdir k mode) as Hnext.
    assert (Hdents := fun j => create_at_dents f r isdir k mode Ha Hd j Hleaf).
    apply (inv_step f _ (l_dir r) (l_name r) (f_next f)); auto.
    - intros j Hj Hout. apply create_at_other; [|lia]. intros ->. eapply SS_not_outside; eauto.
    - lia.
    - intros j Hj. rewrite create_at_other by lia. apply Ha. lia.
    - intros j Hj. apply create_at_tag. lia.
    - intros j n c H. rewrite Hdents in H. destruct (N.eqb_spec j (l_dir r)) as [->|]; auto.
      destruct (blookup_snoc _ _ _ _ _ H) as [|(_ & -> & ->)]; auto.
      right. repeat (split; [assumption || reflexivity|]). split; [lia|intros _; lia].
    - intros j Hj. rewrite Hdents. destruct (N.eqb_spec j (l_dir r)) as [->|]; [|apply (inv_nodup f I); auto].
      rewrite map_app. apply NoDup_snoc; [apply (inv_nodup f I); auto|].
      apply blookup_None_notin. exact Hnone.
  Qed.

  Lemma inv_del_ent f d name : Inv f -> SS d -> Inv (del_ent f d name).
  Proof.
    intros I Hs. destruct (is_dir f d) eqn:Hd; [|rewrite del_ent_nondir; auto].
    assert (Hdents := fun j => del_ent_dents f d name j Hd).
    apply (inv_step_sub f); auto using del_ent_next, del_ent_tag.
    - intros j Hj Hout. apply del_ent_other. intros ->. eapply SS_not_outside; eauto.
    - intros j n c H. rewrite Hdents in H. destruct (N.eqb_spec j d) as [->|]; auto.
      eapply blookup_bremove_sub; eauto. apply (inv_nodup f I); auto.
    - intros j Hj. rewrite Hdents. destruct (N.eqb_spec j d) as [->|]; [|apply (inv_nodup f I); auto].
      apply bremove_nodup. apply (inv_nodup f I); auto.
  Qed.

  Lemma inv_add_ent f d name i :
    Inv f -> SS d -> is_dir f d = true -> is_dir f i = false -> blookup name (dents f d) = None -> okn name ->
    i < f_next f ->
    Inv (add_ent f d name i).
  Proof.
    intros I Hs Hd Hi Hnone Hokn Hilt.
    assert (Hdents := fun j => add_ent_dents f d name i j Hd).
    pose proof (add_ent_next f d name i) as Hnext.
    apply (inv_step f _ d name i); auto using add_ent_tag.
    - intros j Hj Hout. apply add_ent_other. intros ->. eapply SS_not_outside; eauto.
    - lia.
    - apply (alloc_ok_same_tag f); auto using add_ent_tag. apply (inv_fresh f I).
    - intros j n c H. rewrite Hdents in H. destruct (N.eqb_spec j d) as [->|]; auto.
      destruct (blookup_snoc _ _ _ _ _ H) as [|(_ & -> & ->)]; auto. right. repeat (split; [assumption || reflexivity|]). split; [lia|].
      rewrite is_dir_add_ent. congruence.
    - intros j Hj. rewrite Hdents. destruct (N.eqb_spec j d) as [->|]; [|apply (inv_nodup f I); auto].
      rewrite map_app. apply NoDup_snoc; [apply (inv_nodup f I); auto|].
      apply blookup_None_notin. exact Hnone.
  Qed.

  Lemma inv_put f i n n' : Inv f -> SS i -> get f i = Some n -> same_shape n n' -> Inv (put f i n').
  Proof.
    intros I Hs Hg Hsh. pose proof (put_shape_dents f i n n' Hg Hsh) as Hdents.
    apply (inv_step_sub f); auto using next_put, (put_shape_tag f i n n').
    - intros j Hj Hout. apply get_put_other. intros ->. eapply SS_not_outside; eauto.
    - intros j nm0 c. rewrite Hdents. auto.
    - intros j Hj. rewrite Hdents. apply (inv_nodup f I); auto.
  Qed.

  Lemma chain_unique f : Inv f -> acyclic f -> forall a cs1 e, chain f a cs1 e -> forall cs2, chain f a cs2 e -> cs1 = cs2.
  Proof.
    intros I Hac a cs1. induction cs1 as [|x cs1 IH] using rev_ind; intros e H1 cs2 H2.
    - inversion H1; subst. destruct cs2 as [|y cs2]; auto. exfalso. apply (Hac e (y :: cs2)); [discriminate|auto].
    - destruct cs2 as [|y cs2 _] using rev_ind.
      + inversion H2; subst. exfalso. apply (Hac e (cs1 ++ [x])); [destruct cs1; discriminate|auto].
      + destruct (chain_split f cs1 a [x] e H1) as (m1 & P1 & Q1).
        destruct (chain_split f cs2 a [y] e H2) as (m2 & P2 & Q2).
        inversion Q1 as [|? ? i1 ? ? B1 D1 R1]; subst. inversion R1; subst.
        inversion Q2 as [|? ? i2 ? ? B2 D2 R2]; subst. inversion R2; subst.
        destruct (inv_single f I m1 m2 x y e B1 B2 D1) as [-> ->].
        rewrite (IH m2 P1 cs2 P2). reflexivity.
  Qed.
End Inv.
