(* C01 — the executable convergence oracle of Model/Converge.v ([converged_o], what the harness
   evaluates on the snapshot of the real destination through [obs_of_raw]) is EQUIVALENT to the
   declarative relation of the property statement ([approx], [approx_merge]). *)
From Coq Require Import List NArith Bool.
From FS Require Import Sx Model.Path Model.Stat Model.Tree Model.Converge Proofs.Lex Proofs.DiffSpecP.
Import ListNotations.
Open Scope N_scope.
Open Scope bool_scope.

Lemma find_obs_some p l d : find_obs p l = Some d -> In d l /\ o_path d = p.
Proof.
  induction l as [|x l IH]; simpl; [discriminate|].
  destruct (bytes_eqb p (o_path x)) eqn:E.
  - intros H. inversion H; subst. apply bytes_eqb_eq in E. split; [left; reflexivity|congruence].
  - intros H. destruct (IH H). split; [right|]; assumption.
Qed.

Lemma find_obs_in l d : In d l -> exists d', find_obs (o_path d) l = Some d'.
Proof.
  induction l as [|x l IH]; simpl; [intros []|].
  intros [->|Hd].
  - rewrite bytes_eqb_refl. eauto.
  - destruct (bytes_eqb (o_path d) (o_path x)); eauto.
Qed.

Lemma find_entry_some p l e : find_entry p l = Some e -> In e l /\ st_path (fst e) = p.
Proof.
  induction l as [|x l IH]; simpl; [discriminate|].
  destruct (bytes_eqb p (st_path (fst x))) eqn:E.
  - intros H. inversion H; subst. apply bytes_eqb_eq in E. split; [left; reflexivity|congruence].
  - intros H. destruct (IH H). split; [right|]; assumption.
Qed.

Lemma find_entry_none p l : find_entry p l = None -> forall e, In e l -> st_path (fst e) <> p.
Proof.
  induction l as [|x l IH]; simpl; [intros _ e []|].
  destruct (bytes_eqb p (st_path (fst x))) eqn:E; [discriminate|].
  intros H e [<-|He].
  - apply bytes_eqb_neq in E. congruence.
  - apply IH; auto.
Qed.

Lemma find_entry_in l e : In e l -> exists e', find_entry (st_path (fst e)) l = Some e'.
Proof.
  intros He. destruct (find_entry (st_path (fst e)) l) eqn:E; eauto.
  exfalso. eapply find_entry_none; eauto.
Qed.

Lemma if_eqb_true_iff (a b : N) (X Y : bool) :
  (if N.eqb a b then X else Y) = true <-> (a <> b -> Y = true) /\ (a = b -> X = true).
Proof.
  destruct (N.eqb_spec a b); split; intuition.
Qed.

Lemma if_true_iff (b X : bool) : (if b then X else true) = true <-> (b = true -> X = true).
Proof. destruct b; intuition. Qed.

Lemma eq_comm {X} (x y : X) : x = y <-> y = x.
Proof. split; congruence. Qed.

Lemma entry_matches_o_iff created s c d :
  entry_matches_o created s c d = true <-> entry_ok created s c d.
Proof.
  unfold entry_matches_o, entry_ok. cbv zeta.
  set (ty := unix_type_of_gomode (st_mode s)).
  (* every test as the proposition it decides, every equation with the source's field first *)
  rewrite !andb_true_iff, if_eqb_true_iff, !if_true_iff, !andb_true_iff, !orb_true_iff, negb_true_iff,
    <- not_true_iff_false, !N.eqb_eq, !bytes_eqb_eq, xattrs_eqb_eq.
  rewrite (eq_comm (o_path d)), (eq_comm (o_type d)), (eq_comm (o_perm d)), (eq_comm (o_uid d)),
    (eq_comm (o_gid d)), !(eq_comm (o_mtime d)), (eq_comm (o_content d)), (eq_comm (o_target d)),
    (eq_comm (o_major d)), (eq_comm (o_minor d)), (eq_comm (o_xattrs d)), !and_assoc.
  (* now the same conjunction on both sides, clause by clause *)
  repeat apply Morphisms_Prop.and_iff_morphism; try tauto.
  - destruct (N.eq_dec ty S_IFLNK); tauto.
  - destruct (bool_dec created true); tauto.
Qed.

Lemma prior_unchanged_o_iff ps c d : prior_unchanged_o ps c d = true <-> prior_ok ps c d.
Proof.
  unfold prior_unchanged_o, prior_ok. cbv zeta.
  set (ty := unix_type_of_gomode (st_mode ps)).
  rewrite !andb_true_iff, !if_true_iff, !andb_true_iff, orb_true_iff, !N.eqb_eq, !bytes_eqb_eq.
  rewrite (eq_comm (o_type d)), (eq_comm (o_perm d)), (eq_comm (o_uid d)), (eq_comm (o_gid d)),
    (eq_comm (o_mtime d)), (eq_comm (o_content d)), (eq_comm (o_target d)), !and_assoc.
  repeat apply Morphisms_Prop.and_iff_morphism; try tauto.
  destruct (N.eq_dec ty S_IFLNK); tauto.
Qed.

(* the first clause of [converged_o] *)
Lemma entries_o_iff prior src dest :
  forallb (fun e => match find_obs (st_path (fst e)) dest with
                    | Some d => entry_matches_o (inode_created prior src (fst e)) (fst e) (snd e) d
                    | None => false end) src = true <->
  (forall s c, In (s, c) src ->
     exists d, find_obs (st_path s) dest = Some d /\ entry_ok (inode_created prior src s) s c d).
Proof.
  rewrite forallb_forall. split.
  - intros H s c Hin. specialize (H _ Hin). simpl in H.
    destruct (find_obs (st_path s) dest) as [d|]; [|discriminate]. exists d. split; auto.
    apply entry_matches_o_iff; auto.
  - intros H [s c] Hin. destruct (H s c Hin) as (d & Hd & Hok). simpl. rewrite Hd.
    apply entry_matches_o_iff; auto.
Qed.

Lemma links_ok_o_iff (P : stat -> bytes -> obs -> Prop) src dest :
  (forall s c, In (s, c) src -> exists d, find_obs (st_path s) dest = Some d /\ P s c d) ->
  (links_ok_o src dest = true <-> link_partition src dest).
Proof.
  intros Hall. unfold links_ok_o, link_partition. rewrite forallb_forall. split.
  - intros H e1 e2 d1 d2 H1 H2 R1 R2 F1 F2.
    assert (I1 : In e1 (filter (fun e => is_linkable (fst e)) src)) by (apply filter_In; auto).
    assert (I2 : In e2 (filter (fun e => is_linkable (fst e)) src)) by (apply filter_In; auto).
    specialize (H _ I1). rewrite forallb_forall in H. specialize (H _ I2). rewrite F1, F2 in H.
    apply eqb_prop in H. split; intros E.
    + apply bytes_eqb_eq. rewrite H. apply N.eqb_eq; auto.
    + apply N.eqb_eq. rewrite <- H. apply bytes_eqb_eq; auto.
  - intros H [s1 c1] I1. rewrite forallb_forall. intros [s2 c2] I2.
    apply filter_In in I1, I2. destruct I1 as [H1 R1], I2 as [H2 R2].
    destruct (Hall _ _ H1) as (d1 & F1 & _), (Hall _ _ H2) as (d2 & F2 & _). simpl fst. rewrite F1, F2.
    specialize (H _ _ d1 d2 H1 H2 R1 R2 F1 F2). simpl fst in H.
    destruct (bytes_eqb (group_rep s1) (group_rep s2)) eqn:Eg.
    + apply bytes_eqb_eq in Eg. apply H in Eg. rewrite Eg, N.eqb_refl. reflexivity.
    + destruct (N.eqb_spec (o_ino d1) (o_ino d2)) as [Ei|Ei]; [|reflexivity].
      apply H in Ei. apply bytes_eqb_eq in Ei. congruence.
Qed.

(* fresh / dirty mode: oracle = specification *)
Theorem oracle_iff_proof prior src dest :
  converged_o false prior src dest = true <-> approx prior src dest.
Proof.
  unfold converged_o, approx. simpl negb. simpl orb.
  rewrite !andb_true_iff, entries_o_iff, forallb_forall. split.
  - intros [[[Hent H2] _] H3]. split; [|split; [exact Hent|apply (links_ok_o_iff _ _ _ Hent), H3]].
    intros p. split.
    + intros [d Hd]. apply find_obs_some in Hd. destruct Hd as [Hd Ep]. specialize (H2 _ Hd).
      rewrite Ep in H2. destruct (find_entry p src) as [e|] eqn:Ee; [|discriminate].
      apply find_entry_some in Ee. exists e. auto.
    + intros ([s c] & He & <-). destruct (Hent s c He) as (d & Hd & _). eauto.
  - intros (Hp & Hent & Hl).
    split; [split; [split; [exact Hent|]|reflexivity]|apply (links_ok_o_iff _ _ _ Hent), Hl].
    intros d Hd. destruct (find_obs_in _ _ Hd) as [d' Hd'].
    destruct (proj1 (Hp (o_path d)) (ex_intro _ d' Hd')) as (e & He & Ep).
    destruct (find_entry_in _ _ He) as [e' He']. rewrite Ep in He'. rewrite He'. reflexivity.
Qed.

(* merge mode: oracle = specification *)
Theorem oracle_merge_iff_proof prior src dest :
  converged_o true prior src dest = true <-> approx_merge prior src dest.
Proof.
  unfold converged_o, approx_merge. simpl negb. simpl orb.
  rewrite !andb_true_iff, entries_o_iff, !forallb_forall. split.
  - intros [[[Hent H2] H3] H4]. split; [exact Hent|]. split; [|split; [|apply (links_ok_o_iff _ _ _ Hent), H4]].
    + intros d Hd. specialize (H2 _ Hd). destruct (find_entry (o_path d) src) as [e|] eqn:Ee.
      * left. apply find_entry_some in Ee. exists e. auto.
      * right. simpl in H2. apply andb_true_iff in H2. destruct H2 as [Hk Hpr]. split; auto.
        destruct (find_entry (o_path d) prior) as [[ps c]|]; [|discriminate].
        exists ps, c. split; auto. apply prior_unchanged_o_iff; auto.
    + intros e He Hk. specialize (H3 _ He). rewrite Hk in H3. simpl in H3.
      destruct (find_obs (st_path (fst e)) dest) as [d|]; [eauto|discriminate].
  - intros (Hent & H2 & H3 & Hl).
    split; [split; [split; [exact Hent|]|]|apply (links_ok_o_iff _ _ _ Hent), Hl].
    + intros d Hd. destruct (find_entry (o_path d) src) as [e|] eqn:Ee; auto.
      destruct (H2 _ Hd) as [(e & He & Ep)|(Hk & ps & c & Hf & Hok)].
      * exfalso. eapply find_entry_none; eauto.
      * simpl. rewrite Hk, Hf. simpl. apply prior_unchanged_o_iff; auto.
    + intros e He. destruct (kept_in_merge src (st_path (fst e))) eqn:Hk; auto. simpl.
      destruct (H3 _ He Hk) as [d Hd]. rewrite Hd. reflexivity.
Qed.

Lemma converged_is_converged_o merge prior src dest :
  converged merge prior src dest = converged_o merge prior src (map obs_of_raw dest).
Proof. reflexivity. Qed.

Lemma unix_type_dir m : unix_type_of_gomode m = S_IFDIR <-> mode_is_dir m = true.
Proof.
  unfold unix_type_of_gomode, mode_is_dir.
  destruct (has_bits m ModeDir); [tauto|].
  destruct (has_bits m ModeSymlink); [split; discriminate|].
  destruct (has_bits m ModeNamedPipe); [split; discriminate|].
  destruct (has_bits m ModeSocket); [split; discriminate|].
  destruct (has_bits m ModeDevice); [destruct (has_bits m ModeCharDevice); split; discriminate|].
  split; discriminate.
Qed.

Lemma unix_type_reg m : unix_type_of_gomode m = S_IFREG ->
  has_bits m ModeDir = false /\ has_bits m ModeSymlink = false /\ has_bits m ModeNamedPipe = false
  /\ has_bits m ModeDevice = false.
Proof.
  unfold unix_type_of_gomode.
  destruct (has_bits m ModeDir); [discriminate|].
  destruct (has_bits m ModeSymlink); [discriminate|].
  destruct (has_bits m ModeNamedPipe); [discriminate|].
  destruct (has_bits m ModeSocket); [discriminate|].
  destruct (has_bits m ModeDevice); [destruct (has_bits m ModeCharDevice); discriminate|].
  auto.
Qed.
