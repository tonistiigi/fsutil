(* Refinement LTS (receiver side) -> receiver acceptor: the LTS side.  Which ids the
   receiver holds registered and which requests are open, read off the state, and what the
   invariants of C04/C08 (Proofs/Lts*.v, imported only) say of them in a reachable fault-free state. *)
From Coq Require Import List NArith Bool Arith PeanoNat Lia ZifyBool.
From FS Require Import Model.Lts Proofs.LtsInv Proofs.LtsSafe Proofs.LtsTerm Proofs.LtsC08 Proofs.LtsTok
     Proofs.LtsContent Proofs.LtsContent3 Proofs.LtsClean1 Proofs.LtsClean3 Proofs.LtsClean5.
Import ListNotations.
Local Open Scope nat_scope.

Lemma wsel_eq : forall c i id pc, wsel c i {| wr_id := id; wr_pc := pc |} = b2n (Nat.eqb i id && c pc).
Proof. reflexivity. Qed.

Lemma wsum_at : forall c l j id pc, nth_error l j = Some {| wr_id := id; wr_pc := pc |} -> c pc = true ->
  1 <= sumf (wsel c id) l.
Proof.
  intros c l j id pc E Hc. pose proof (sumf_ge_nth _ (wsel c id) _ _ _ E) as H.
  rewrite wsel_eq, Nat.eqb_refl, Hc in H. exact H.
Qed.

Lemma wsum_compl : forall c i l,
  sumf (wsel c i) l + sumf (wsel (fun pc => negb (c pc)) i) l = sumf (wsel cAll i) l.
Proof.
  induction l as [|[id pc] l IH]; [reflexivity|]. unfold sumf in *; cbn [fold_right]. rewrite <- IH, !wsel_eq.
  destruct (Nat.eqb i id), (c pc); cbn; lia.
Qed.

Lemma wsum_mono : forall c c' i st, (forall pc, c pc = true -> c' pc = true) -> wsum c i st <= wsum c' i st.
Proof.
  intros c c' i st Hc. unfold wsum. induction (wrs st) as [|[id pc] l IH]; [apply Nat.le_refl|].
  unfold sumf in *; cbn [fold_right]. rewrite !wsel_eq. specialize (Hc pc).
  destruct (c pc); [rewrite (Hc eq_refl)|destruct (c' pc)]; destruct (Nat.eqb i id); cbn; lia.
Qed.

(* the writer of an id is unique: every class sum is read off its program counter *)
Lemma writer_unique : forall st j id pc, wsum cAll id st <= 1 ->
  nth_error (wrs st) j = Some {| wr_id := id; wr_pc := pc |} -> forall c, wsum c id st = b2n (c pc).
Proof.
  intros st j id pc U E c. unfold wsum in *. rewrite <- (wsum_compl c) in U.
  destruct (c pc) eqn:Ec.
  - pose proof (wsum_at c _ _ _ _ E Ec). cbn. lia.
  - pose proof (wsum_at (fun pc => negb (c pc)) _ _ _ _ E (f_equal negb Ec)). cbn. lia.
Qed.

(* writer j moves from pc to pc' *)
Lemma wsum_moved : forall st st' j id pc pc',
  nth_error (wrs st) j = Some {| wr_id := id; wr_pc := pc |} ->
  wrs st' = set_nth j {| wr_id := id; wr_pc := pc' |} (wrs st) ->
  forall c i, wsum c i st' + b2n (Nat.eqb i id && c pc) = wsum c i st + b2n (Nat.eqb i id && c pc').
Proof. intros st st' j id pc pc' E Ew c i. unfold wsum. rewrite Ew, <- !wsel_eq. apply sumf_set_nth. exact E. Qed.

Lemma wsum_stays : forall st st' j id pc pc' c,
  nth_error (wrs st) j = Some {| wr_id := id; wr_pc := pc |} ->
  wrs st' = set_nth j {| wr_id := id; wr_pc := pc' |} (wrs st) ->
  c pc = c pc' -> forall i, wsum c i st' = wsum c i st.
Proof. intros st st' j id pc pc' c E Ew Ec i. pose proof (wsum_moved _ _ _ _ _ _ E Ew c i) as M. rewrite Ec in M. lia. Qed.

(* the diff loop starts a writer *)
Lemma wsum_new_writer : forall c i l i0, c WR_Start = false ->
  sumf (wsel c i) (l ++ [{| wr_id := i0; wr_pc := WR_Start |}]) = sumf (wsel c i) l.
Proof. intros c i l i0 Hc. rewrite sumf_snoc, wsel_eq, Hc, andb_false_r. cbn. lia. Qed.

(* writers whose REQ has been handed to SendMsg (the REQ event is placed at the lock step) *)
Definition cReq (pc : wrpc) : bool := match pc with WR_Start | WR_Lock => false | _ => true end.

(* a regular entry has been announced and its REQ has not been sent *)
Definition announced (p : params) (st : state) (i : nat) : Prop :=
  is_file p i = true /\ i < rl_i st /\ wsum cReq i st = 0.
(* its REQ has been sent and its terminator has not been received *)
Definition open_req (st : state) (i : nat) : Prop := 1 <= wsum cReq i st /\ latec i st = 0.

Lemma announced_same : forall p st st', rl_i st' = rl_i st -> (forall i, wsum cReq i st' = wsum cReq i st) ->
  forall i, announced p st i <-> announced p st' i.
Proof. intros p st st' E1 E2 i. unfold announced. rewrite E1, E2. tauto. Qed.

Lemma open_same : forall st st', (forall i, wsum cReq i st' = wsum cReq i st) ->
  (forall i, latec i st' = latec i st) -> forall i, open_req st i <-> open_req st' i.
Proof. intros st st' E1 E2 i. unfold open_req. rewrite E1, E2. tauto. Qed.

(* writer j hands REQ id to SendMsg *)
Lemma req_sent : forall p st st' j id,
  nth_error (wrs st) j = Some {| wr_id := id; wr_pc := WR_Lock |} ->
  wrs st' = set_nth j {| wr_id := id; wr_pc := WR_Send |} (wrs st) ->
  rl_i st' = rl_i st -> (forall i, latec i st' = latec i st) -> wsum cReq id st = 0 -> latec id st = 0 ->
  (forall i, announced p st' i <-> announced p st i /\ i <> id) /\
  (forall i, open_req st' i <-> open_req st i \/ i = id).
Proof.
  intros p st st' j id E Ew Ei El Z L. split; intros i; unfold announced, open_req; rewrite ?Ei, ?El;
    pose proof (wsum_moved _ _ _ _ _ _ E Ew cReq i) as M; cbn in M;
    (destruct (Nat.eqb_spec i id); [subst i|]); cbn in M; lia.
Qed.

(* the terminator of id is received *)
Lemma terminated : forall st st' id, wrs st' = wrs st -> completed st' = completed st ->
  rl_pc st = RL_Recv -> rl_pc st' = RL_CloseP id -> forall i, open_req st' i <-> open_req st i /\ i <> id.
Proof.
  intros st st' id E1 E2 E3 E4 i. unfold open_req, latec, wsum. rewrite E1, E2, E3, E4. cbn.
  destruct (Nat.eqb_spec i id); cbn; lia.
Qed.

(* at most one end marker is ever in flight or received *)
Definition cntEnd (l : list packet) : nat := length (filter is_end l).
Lemma cntEnd_cons : forall x l, cntEnd (x :: l) = b2n (is_end x) + cntEnd l.
Proof. intros. unfold cntEnd. cbn. destruct (is_end x); reflexivity. Qed.
Lemma cntEnd_app : forall l x, cntEnd (l ++ [x]) = cntEnd l + b2n (is_end x).
Proof. intros. unfold cntEnd. rewrite filter_app, app_length. cbn. destruct (is_end x); reflexivity. Qed.
Arguments cntEnd : simpl never.

Definition inv_end (st : state) : Prop :=
  cntEnd (buf_sr st) + b2n (g_got_end_r st) <= b2n (g_end_sr st).

Lemma inv_end_step : forall p st l st', inv2 p st -> inv_end st -> step p st l = Some st' -> inv_end st'.
Proof.
  intros p st l st' (_ & _ & I3 & _) I H. unfold inv_end in *.
  step_cases H l; cbn; try assumption.
  (* a packet is appended to the stream, or the head E of the stream is taken off *)
  all: rewrite ?cntEnd_app; try match goal with E : buf_sr _ = _ |- _ => rewrite ?E; rewrite ?E, ?cntEnd_cons in I end.
  all: cbn [is_end b2n] in I |- *; try (clear - I; lia).
  (* the walker sends the end marker: it has not sent one before *)
  destruct (g_end_sr st); [destruct I3 as [_ X]; [reflexivity|discriminate X]|cbn in I; lia].
Qed.

Lemma inv_end_reachable : forall p st, reachable p st -> inv_end st.
Proof.
  induction 1.
  - unfold inv_end, cntEnd. cbn. lia.
  - eapply inv_end_step; eauto. apply (inv_reachable _ _ H).
Qed.

(* what a clean (reachable, no error flag, accounting equations) state guarantees *)
Section Facts.
  Variable p : params.
  Hypothesis WF : wf_params p.
  Variable st : state.
  Hypothesis R : reachable p st.
  Hypothesis K : scal st.
  Hypothesis W : forall id, wq p id st.

  (* Receive has not returned while one of its goroutines can move *)
  Lemma not_returned : rl_pc st <> RL_Done \/ do_pc st <> DO_Done -> recv_ret st = None.
  Proof.
    intros H. destruct (inv_reachable _ _ R) as [_ (_ & _ & _ & _ & _ & _ & _ & _ & _ & I10 & _) _ _ _ _ _].
    destruct (recv_ret st); [|reflexivity]. destruct I10 as [A B]; [discriminate|]. tauto.
  Qed.

  Lemma writer_below : forall c i, 1 <= wsum c i st -> kind_of p i = ENeed /\ i < rl_i st.
  Proof.
    intros c i H. destruct (inv_reachable _ _ R) as [_ _ _ I3 _ _ _].
    destruct (writer_id_bounds p st i K I3 (inv9a_reachable _ _ R) (inv_rs_reachable _ _ R)
                (i_7a _ _ (inv7_reachable _ _ R)) (wsum_pos_exists _ _ _ H)) as (A & B & _).
    split; assumption.
  Qed.

  (* a STAT is received: entry rl_i is announced *)
  Lemma announced_stat : forall st', rl_i st' = S (rl_i st) -> wrs st' = wrs st ->
    forall i, announced p st' i <-> announced p st i \/ (is_file p i = true /\ i = rl_i st).
  Proof.
    intros st' Ei Ew i. unfold announced, wsum. rewrite Ei, Ew. fold (wsum cReq i st).
    destruct (Nat.le_gt_cases 1 (wsum cReq i st)) as [X|X]; [apply writer_below in X|]; lia.
  Qed.

  (* something of id is between the REQ and its terminator, and the terminator has not been received *)
  Lemma down_open : forall id, 1 <= down id st -> latec id st = 0 -> open_req st id.
  Proof.
    intros id D L. split; [|exact L].
    apply (Nat.le_trans _ (wsum cW id st)); [|apply wsum_mono; intros []; (discriminate || reflexivity)].
    destruct (W id) as [_ _ _ WQ _ _ WC _]. unfold latec in L.
    destruct (Nat.le_gt_cases 1 (wsum cN id st + wsum cD id st)) as [X|X]; [apply WC in X|]; lia.
  Qed.

  Lemma data_open : forall id r, buf_sr st = PData id :: r -> open_req st id.
  Proof.
    intros id r B.
    assert (F : 1 <= Fc id st) by (unfold Fc; rewrite B, cntD_cons; cbn; rewrite Nat.eqb_refl; cbn; lia).
    assert (E : kind_of p id = ENeed).
    { destruct (kind_of p id) eqn:E; try reflexivity;
        (assert (N : kind_of p id <> ENeed) by congruence; destruct (ninv_reachable p id st N R); lia). }
    destruct (cinv_reachable p id st R) as [Cza _ _ _ Cne _]. destruct (W id) as [_ _ WS _ _ _ _ _].
    assert (Z : ~ (early id st >= 1 \/ sw_bound st <= id)) by (intro X; apply Cza in X; lia).
    assert (L0 : latec id st = 0) by (destruct (latec id st) eqn:L; [reflexivity|]; destruct Cne as [X _]; lia).
    assert (Hb : (id <? sw_bound st) = true) by (apply Nat.ltb_lt; lia).
    rewrite (WF id E), Hb in WS. apply down_open; [|exact L0].
    unfold tok in WS. unfold early in Z. unfold down. unfold latec in L0. cbn in WS. lia.
  Qed.

  Lemma dataend_open : forall id r, buf_sr st = PDataEnd id :: r -> open_req st id.
  Proof.
    intros id r B.
    assert (F : 1 <= cntE id (buf_sr st)) by (rewrite B, cntE_cons; cbn; rewrite Nat.eqb_refl; cbn; lia).
    destruct (tokinv_reachable p st R) as [_ T1]. specialize (T1 id). unfold tok in T1.
    apply down_open; [unfold down|unfold latec]; lia.
  Qed.

  Lemma stat_before_end : forall r, buf_sr st = PStat :: r -> g_got_end_r st = false /\ rl_i st < nentries p.
  Proof.
    intros r B. destruct (inv_reachable _ _ R) as [_ _ (_ & (Y & _) & _ & _ & I5 & _) _ _ _ _].
    pose proof (inv_rs_reachable p st R) as X. unfold inv_rs in X.
    rewrite B, count_stat_cons in *. cbn in *. split; [|lia].
    destruct (g_got_end_r st); [|reflexivity]. destruct (I5 eq_refl) as (_ & Z & _). lia.
  Qed.

  Lemma end_once : forall r, buf_sr st = PEnd :: r -> g_got_end_r st = false.
  Proof.
    intros r B. pose proof (inv_end_reachable p st R) as I. unfold inv_end in I.
    rewrite B, cntEnd_cons in I. cbn in I. destruct (g_got_end_r st), (g_end_sr st); cbn in I; try reflexivity; lia.
  Qed.

  Lemma done_writer : forall j id pc, forallb wr_done (wrs st) = true ->
    nth_error (wrs st) j = Some {| wr_id := id; wr_pc := pc |} -> pc = WR_Done.
  Proof. intros j id pc D E. pose proof (forallb_nth _ _ _ _ _ D E) as X. destruct pc; (discriminate || reflexivity). Qed.

  (* a writer is about to send its REQ *)
  Lemma req_ready : forall j id, nth_error (wrs st) j = Some {| wr_id := id; wr_pc := WR_Lock |} ->
    recv_ret st = None /\ kind_of p id = ENeed /\ announced p st id /\ latec id st = 0.
  Proof.
    intros j id E. destruct (W id) as [WU _ _ WQ _ _ _ _].
    pose proof (writer_unique st j id _ WU E) as U. pose proof (U cReq) as U0. cbn in U0.
    destruct (writer_below cAll id) as [N Lt]; [rewrite U; apply Nat.le_refl|].
    split; [|split; [exact N|split; [split; [exact (WF id N)|split; assumption]|]]].
    - apply not_returned. right. intros D. destruct (inv_reachable _ _ R) as [_ _ _ (_ & _ & I33 & _) _ _ _].
      rewrite D in I33. destruct (I33 (k_re st K)) as [_ X]. discriminate (done_writer _ _ _ X E).
    - rewrite (U cW), (U cN), (U cD) in WQ. unfold down in WQ. unfold latec. cbn in WQ. lia.
  Qed.

  (* receiver.run is about to send FIN: the end marker has been received, no request is open,
     and every needed file has been requested *)
  Lemma fin_ready : do_pc st = DO_LockFin ->
    g_got_end_r st = true /\ (forall i, ~ open_req st i) /\ (forall i, announced p st i -> kind_of p i <> ENeed).
  Proof.
    intros D. destruct (inv_reachable _ _ R) as [_ _ I2 I3 _ I5 _].
    destruct I2 as (_ & _ & _ & _ & _ & I26 & I27 & _).
    destruct I3 as (I31 & I32 & I33 & _ & I35 & _ & I37 & I38).
    rewrite D in I31, I32, I33. destruct I31 as [Fl Dl]. destruct I33 as [_ Wd].
    rewrite Fl in I35. destruct (I35 I32) as [Wc0 Wn0].
    assert (G : g_got_end_r st = true) by auto.
    (* all writers have finished *)
    assert (Dn : forall i, has_writer (wrs st) i -> 1 <= wsum cD i st).
    { intros i (j & [id pc] & E & Hid). cbn in Hid. subst id.
      rewrite (done_writer _ _ _ Wd E) in E. exact (wsum_at cD _ _ _ _ E eq_refl). }
    split; [exact G|]. split.
    - intros i [X L]. apply wsum_pos_exists, Dn in X. destruct (W i) as [_ _ _ _ _ _ WC _].
      unfold latec in L. clear - X L WC. lia.
    - intros i (_ & Lt & Z) E.
      assert (Hr : rl_holds st = 0).
      { unfold rl_holds. destruct (rl_pc st); try reflexivity; rewrite G in I26; discriminate. }
      assert (Hi : rl_i st = dl_i st).
      { rewrite I38; [| apply (k_re st K) | exact I32 | rewrite Fl; exact Logic.I].
        destruct (I37 Dl I32) as [_ C0]. unfold fl_holds. rewrite Fl. clear - Hr Wn0 C0. lia. }
      destruct (I5 I32 i) as [X|X]; [rewrite <- Hi; exact Lt|exact E|congruence|]. apply Dn in X.
      assert (Y : wsum cD i st <= wsum cReq i st) by (apply wsum_mono; intros []; (discriminate || reflexivity)).
      clear - X Y Z. lia.
  Qed.
End Facts.
