(* len arithmetic, varint put/get round trip, the base-256 digits of a uint32 (be32; le32 in
   ListingP), SizeOfVarint's closed formula.  Redefines Zify.zify_post_hook globally. *)
From Coq Require Import List NArith ZArith Bool Lia ZifyN ZifyNat ZifyBool.
From FS Require Import Sx Model.Varint.
Import ListNotations.
Open Scope N_scope.

Ltac Zify.zify_post_hook ::= Z.div_mod_to_equations.

Lemma len_length l : len l = N.of_nat (length l).
Proof. induction l; cbn [len length]; [reflexivity|]. rewrite IHl. lia. Qed.

Lemma len_app a b : len (a ++ b) = len a + len b.
Proof. rewrite !len_length, app_length. lia. Qed.

Lemma len_cons x l : len (x :: l) = 1 + len l.
Proof. cbn [len]. lia. Qed.

Lemma len_nil : len [] = 0. Proof. reflexivity. Qed.

Lemma len_zero l : len l = 0 -> l = [].
Proof. destruct l; [auto|]. rewrite len_cons. lia. Qed.

(* number of base-128 digits at most f+1 *)
Fixpoint digits_le (f : nat) (n : N) : Prop :=
  match f with
  | O => n < two7
  | S f' => digits_le f' (n / two7)
  end.

Lemma digits_le_64 n : n < two64 -> digits_le 9 n.
Proof.
  unfold two64. intros H. cbn [digits_le]. unfold two7.
  repeat rewrite N.div_div by lia.
  apply N.div_lt_upper_bound; [lia|]. cbn. lia.
Qed.

Lemma get_raw_digit g n rest : n < two7 -> get_varint_raw (S g) (n :: rest) = Some (n, rest).
Proof. intros H. cbn [get_varint_raw]. apply N.ltb_lt in H. rewrite H. reflexivity. Qed.

Lemma get_raw_put f : forall n g rest,
  digits_le f n -> (f < g)%nat ->
  get_varint_raw g (put_varint_f f n ++ rest) = Some (n, rest).
Proof.
  induction f; intros n [|g] rest Hd Hg; try lia; cbn [digits_le put_varint_f] in *.
  - apply get_raw_digit, Hd.
  - destruct (N.ltb_spec n two7) as [Hn|Hn]; [apply get_raw_digit, Hn|].
    cbn [app get_varint_raw].
    destruct (N.ltb_spec (n mod two7 + two7) two7) as [H1|H1]; [unfold two7 in *; lia|].
    rewrite (IHf (n / two7) g rest Hd) by lia.
    f_equal. f_equal. unfold two7 in *. lia.
Qed.

Theorem get_put_varint n rest :
  n < two64 -> get_varint (put_varint n ++ rest) = Some (n, rest).
Proof.
  intros H. unfold get_varint, put_varint.
  rewrite (get_raw_put 9 n 10 rest (digits_le_64 n H)) by lia.
  rewrite N.mod_small by exact H. reflexivity.
Qed.

Lemma put_varint_f_len f : forall n, len (put_varint_f f n) = size_varint_f f n.
Proof.
  induction f; intros n; cbn [put_varint_f size_varint_f]; [reflexivity|].
  destruct (n <? two7); [reflexivity|]. rewrite len_cons, IHf. lia.
Qed.
Lemma put_varint_len n : len (put_varint n) = size_varint n.
Proof. apply put_varint_f_len. Qed.

Lemma size_varint_f_pos f n : 1 <= size_varint_f f n.
Proof. destruct f; cbn [size_varint_f]; [lia|]. destruct (n <? two7); lia. Qed.
Lemma size_varint_pos n : 1 <= size_varint n.
Proof. apply size_varint_f_pos. Qed.

Lemma get_raw_consumes f : forall l v r,
  get_varint_raw f l = Some (v, r) -> exists p, p <> [] /\ l = p ++ r.
Proof.
  induction f; intros l v r H; cbn [get_varint_raw] in H; [discriminate|].
  destruct l as [|b l']; [discriminate|].
  destruct (b <? two7).
  - injection H as _ <-. exists [b]. split; [discriminate|reflexivity].
  - destruct (get_varint_raw f l') as [[v' r']|] eqn:E; [|discriminate].
    injection H as _ <-. destruct (IHf _ _ _ E) as (p & _ & ->).
    exists (b :: p). split; [discriminate|reflexivity].
Qed.

Lemma get_varint_inv l v r :
  get_varint l = Some (v, r) -> exists v', get_varint_raw 10 l = Some (v', r) /\ v = v' mod two64.
Proof.
  unfold get_varint. destruct (get_varint_raw 10 l) as [[v' r']|]; [|discriminate].
  intros [= <- <-]. eauto.
Qed.
Lemma get_varint_consumes l v r : get_varint l = Some (v, r) -> exists p, p <> [] /\ l = p ++ r.
Proof. intros H. destruct (get_varint_inv _ _ _ H) as (v' & E & _). exact (get_raw_consumes _ _ _ _ E). Qed.
Lemma get_varint_lt l v r : get_varint l = Some (v, r) -> v < two64.
Proof. intros H. destruct (get_varint_inv _ _ _ H) as (v' & _ & ->). apply N.mod_lt. discriminate. Qed.

Lemma split256 n : n mod 256 + 256 * (n / 256) = n.
Proof. rewrite N.add_comm. symmetry. apply N.div_mod. discriminate. Qed.

Lemma base256_4 n : n < two32 ->
  n mod 256 + 256 * ((n / 256) mod 256 + 256 * ((n / 65536) mod 256 + 256 * ((n / 16777216) mod 256))) = n.
Proof.
  intros H. rewrite (N.mod_small (n / 16777216)) by (apply N.div_lt_upper_bound; [discriminate|exact H]).
  change 16777216 with (256 * 256 * 256). change 65536 with (256 * 256).
  rewrite <- !N.div_div by discriminate. rewrite !split256. reflexivity.
Qed.

Lemma be32_roundtrip n : n < two32 -> be32_dec (be32 n) = n.
Proof. intros H. etransitivity; [|exact (base256_4 n H)]. unfold be32, be32_dec. ring. Qed.
Lemma be32_length n : length (be32 n) = 4%nat.
Proof. reflexivity. Qed.

Lemma size_lor1 v : N.size (N.lor v 1) = N.succ (N.log2 (N.lor v 1)).
Proof. destruct (N.lor v 1) eqn:E; [|apply N.size_log2; discriminate].
  exfalso. assert (N.testbit (N.lor v 1) 0 = true) by (rewrite N.lor_spec; cbn; apply orb_true_r).
  rewrite E in H. discriminate. Qed.

Lemma log2_lor1 v : N.log2 (N.lor v 1) = N.log2 v.
Proof. rewrite N.log2_lor. change (N.log2 1) with 0. lia. Qed.

Lemma sov_log2 v : sov v = 1 + N.log2 v / 7.
Proof.
  unfold sov. rewrite size_lor1, log2_lor1.
  replace (N.succ (N.log2 v) + 6) with (N.log2 v + 1 * 7) by lia.
  rewrite N.div_add by lia. lia.
Qed.

Lemma log2_small v : v < two7 -> N.log2 v / 7 = 0.
Proof.
  unfold two7. intros H. apply N.div_small.
  destruct (N.eq_dec v 0) as [->|Hz]; [cbn; lia|].
  apply N.log2_lt_pow2; [lia|]. change (2 ^ 7) with 128. exact H.
Qed.

Lemma log2_div128 v : two7 <= v -> N.log2 v / 7 = 1 + N.log2 (v / two7) / 7.
Proof.
  unfold two7. intros H.
  change 128 with (2 ^ 7). rewrite <- N.shiftr_div_pow2, N.log2_shiftr.
  assert (7 <= N.log2 v) by (apply N.log2_le_pow2; [lia|exact H]).
  replace (N.log2 v) with ((N.log2 v - 7) + 1 * 7) at 1 by lia.
  rewrite N.div_add by lia. lia.
Qed.

Lemma size_varint_f_log2 f : forall v, digits_le f v -> size_varint_f f v = 1 + N.log2 v / 7.
Proof.
  induction f; intros v Hd; cbn [size_varint_f digits_le] in *.
  - rewrite log2_small by exact Hd. reflexivity.
  - destruct (N.ltb_spec v two7) as [H|H].
    + rewrite log2_small by exact H. reflexivity.
    + rewrite (IHf _ Hd), (log2_div128 v H). lia.
Qed.

(* protohelpers.SizeOfVarint's closed formula is the number of bytes EncodeVarint writes *)
Theorem sov_is_size_varint v : v < two64 -> sov v = size_varint v.
Proof.
  intros H. unfold size_varint. rewrite (size_varint_f_log2 9 v (digits_le_64 v H)). apply sov_log2.
Qed.
