(* C13 / C15 — Copy (prepareTargetDir, MkdirAll, copier.copy per source, wildcards,
   fixCreatedParentDirs) against [overlay_all]. *)
From Coq Require Import List NArith Bool Lia ZifyN ZifyNat ZifyBool.
From FS Require Import Sx Model.Path Model.SymMode Model.Copier Model.CopySpec Proofs.Lex
  Proofs.CopierP Proofs.CopyOpsP Proofs.CopyDentP Proofs.CopyLinkP Proofs.CopyNodeP Proofs.CopyMkdirP Proofs.CopyConflictP.
Import ListNotations.
Open Scope N_scope.
Open Scope bool_scope.

Definition xerr_cls (x : xerr) : N :=
  match x with XConflict c _ _ => c | XOther c => c | XScope => 99 end.

Lemma xerr_of_cls e : e = EScope \/ e = EOther -> xerr_cls (xerr_of e) = err_cls e.
Proof. intros [->| ->]; reflexivity. Qed.

Lemma s_resolve_err : forall p n e, s_resolve n p = inr e -> e = EScope \/ e = EOther.
Proof.
  induction p as [|a p IH]; intros [nm ino d kids] e; simpl; [discriminate|].
  destruct (is_dir d).
  - destruct (find_kid a kids); [apply IH|]. intro H; inversion H; auto.
  - destruct (is_lnk d); intro H; inversion H; auto.
Qed.

Lemma s_resolve_cons multi sdof p n sn : cons_s multi sdof n -> s_resolve n p = inl sn -> cons_s multi sdof sn.
Proof. intros Hc H. exact (s_lookup_kids _ (cons_s_kid multi sdof) _ _ _ Hc (s_resolve_lookup _ _ _ H)). Qed.

Lemma first_conflict_shape V : forall n p c, first_conflict V p n = Some c ->
  exists cls q e, c = XConflict cls q (Some e) /\ V q = Some e /\
    ((cls = 1 /\ is_dir (x_d e) = false) \/ (cls = 2 /\ is_dir (x_d e) = true)).
Proof.
  induction n as [nm ino sd kids IH] using snode_ind2. intros p c. cbn [first_conflict].
  destruct (V p) as [e|] eqn:E; [|discriminate].
  destruct (is_dir sd && negb (is_dir (x_d e))) eqn:E1.
  { intro H; inversion H. exists 1, p, e. apply andb_true_iff in E1 as [_ E1]. apply negb_true_iff in E1. auto. }
  destruct (negb (is_dir sd) && is_dir (x_d e)) eqn:E2.
  { intro H; inversion H. exists 2, p, e. apply andb_true_iff in E2 as [_ E2]. auto. }
  destruct (is_dir sd); [|discriminate].
  induction kids as [|k r IHr]; [discriminate|]. inversion IH as [|? ? Hk Hr]; subst.
  destruct (first_conflict V (p ++ [sname k]) k) eqn:Ek; auto. intro H; inversion H; subst. eapply Hk; eauto.
Qed.

Lemma landing_nil o sroot src sn D X :
  is_dir (sdent sroot) = true -> s_resolve sroot (rooted src) = inl sn -> x_isdir (X []) = true ->
  landing o sn src D X = [] -> is_dir (sdent sn) = true.
Proof.
  intros Hd Hres Hroot. unfold landing.
  destruct ((negb (o_dircontents o) && is_dir (sdent sn) && x_exists (X D)) || (negb (is_dir (sdent sn)) && x_isdir (X D))) eqn:Ec.
  - destruct (rev (rooted src)) as [|b t] eqn:Er; [|intro E; destruct (snoc_ne_nil _ _ E)].
    apply (f_equal (@rev _)) in Er. rewrite rev_involutive in Er. rewrite Er in Hres. inversion Hres; subst. auto.
  - intros ->. rewrite Hroot in Ec. destruct (is_dir (sdent sn)); auto.
    rewrite orb_false_iff in Ec. destruct Ec as [_ Ec]. discriminate.
Qed.

Section Top.
  Variable o : copts.
  Variable selected : list (list N) -> bool.
  Hypothesis Hsel : forall p, selected p = true.
  Variable sroot : snode.
  Hypothesis Hwf : wf_s sroot.
  Hypothesis Hrootdir : is_dir (sdent sroot) = true.
  Variable sdof : N -> dent.
  Hypothesis Hcons : cons_s (multi_of sroot) sdof sroot.
  Variable S : Prop.     (* exact-partition mode (CopyLinkP.v) *)
  Notation Inv := (Inv o).
  Notation touch := (touch o).
  Notation G := (G o).
  Notation multi := (multi_of sroot).

  Lemma res_root_dir ms sn L tp X : x_isdir (X []) = true -> (L = [] -> is_dir (sdent sn) = true) ->
    x_isdir (res o ms multi sn L tp X []) = true.
  Proof.
    intros HX HL. destruct (path_snoc_cases L) as [->|(P & a & ->)].
    - unfold res. rewrite (HL eq_refl), HX. cbn [andb]. rewrite ov_at_T. unfold copied.
      unfold x_isdir in HX. destruct (X []) as [e|]; [|discriminate]. rewrite (HL eq_refl), HX. cbn [andb].
      destruct tp; unfold x_isdir; cbn [x_d]; auto.
      rewrite <- HX. apply is_dir_ftype. rewrite ftype_set_xattrs, ftype_set_mtime, ftype_set_perm. auto.
    - unfold res. rewrite parent_snoc.
      assert (Hu : strip_prefix (P ++ [a]) [] = None).
      { apply strip_prefix_none. intros r E. symmetry in E. apply app_eq_nil in E as [E _]. revert E. apply snoc_ne_nil. }
      destruct (_ && _); [|rewrite touch_isdir]; rewrite ov_unrel; auto.
  Qed.

  Definition PCall (im : list (N * (list (list N) * N))) : Prop := forall T, PC T im.

  Definition one_ok (ms : option (list bitcmd)) (st : cstate) (cr0 : list (list (list N))) (res : xres + xerr)
             (out : cstate * option err * list (list (list N))) : Prop :=
    match res with
    | inl r => exists st' cr, out = (st', None, cr) /\ Inv (c_fs st') (xr_view r) /\ x_isdir (xr_view r []) = true /\
                 G (xr_view r) (cr0 ++ cr) /\ c_notifs st' = rev (xr_notifs r) ++ c_notifs st /\
                 Lk o ms multi sdof S (c_fs st') (xr_view r) (c_imap st')
    | inr xe =>
      exists st' e cr, out = (st', Some e, cr) /\ err_cls e = xerr_cls xe /\
        match xe with
        | XConflict _ p bef => exists X', Inv (c_fs st') X' /\ X' p = bef /\ bef <> None /\ G X' (cr0 ++ cr) /\
                                          Lk o ms multi sdof S (c_fs st') X' (c_imap st')
        | _ => True
        end
    end.

  (* errors other than clashes: only the class is claimed *)
  Lemma one_ok_err ms st cr0 st' e cr : e = EScope \/ e = EOther -> one_ok ms st cr0 (inr (xerr_of e)) (st', Some e, cr).
  Proof.
    intros He. exists st', e, cr. split; auto. split; [symmetry; apply xerr_of_cls; auto|].
    destruct He as [-> | ->]; exact Logic.I.
  Qed.

  Lemma copy_one_spec ms dst src st X cr0 sn :
    Inv (c_fs st) X -> Lk o ms multi sdof S (c_fs st) X (c_imap st) -> (S -> PCall (c_imap st)) ->
    x_isdir (X []) = true -> G X cr0 -> s_resolve sroot (rooted src) = inl sn ->
    one_ok ms st cr0 (overlay_one o ms multi sn src dst X) (copy_one o selected sroot ms dst src st).
  Proof.
    intros I L0 Hpc Hroot Hg Hres. unfold copy_one, overlay_one. rewrite Hres.
    rewrite (root_path_spec o _ _ (clean dst) I).
    destruct (root_path (c_fs st) (clean dst)) as [D|e] eqn:ERP; cbn [map_res].
    2:{ apply one_ok_err. eapply root_path_err; eauto. }
    pose proof (root_path_not_lnk o _ _ _ _ I Hroot ERP) as Hnl. unfold notlnk in Hnl.
    pose proof (inv_lstat _ _ _ D I) as HL.
    assert (Hwfn : wf_s sn) by (eapply s_resolve_wf; eauto).
    assert (Hcsn : cons_s multi sdof sn) by (eapply s_resolve_cons; eauto).
    assert (Elnk : match lstat (c_fs st) D with Some d => is_lnk d | None => false end = false).
    { destruct (lstat (c_fs st) D); auto. }
    rewrite Elnk.
    set (L := landing o sn src D X).
    assert (EL : (if (negb (o_dircontents o) && is_dir (sdent sn) && match lstat (c_fs st) D with Some _ => true | None => false end)
                     || (negb (is_dir (sdent sn)) && match lstat (c_fs st) D with Some d => is_dir d | None => false end)
                  then join_base D src else D) = L).
    { unfold L, landing, join_base, x_exists, x_isdir.
      destruct (lstat (c_fs st) D) as [d|], (X D) as [e|]; try contradiction; auto.
      rewrite (dm_is_dir _ _ _ HL). auto. }
    rewrite EL.
    assert (Eex : match lstat (c_fs st) D with Some _ => true | None => false end = x_exists (X D)).
    { unfold x_exists. destruct (lstat (c_fs st) D), (X D); try contradiction; auto. }
    rewrite Eex.
    set (target := if o_dircontents o && is_dir (sdent sn) && negb (x_exists (X D)) then L else parent L).
    pose proof (mkdir_all_spec o ms multi sdof S target st X I L0 Hroot) as HM.
    destruct (make_dirs o [] target X) as [X1|xe] eqn:EMD.
    2:{ destruct HM as (st1 & e & E1 & E2 & E3 & _). rewrite E1. subst xe. apply one_ok_err; auto. }
    destruct HM as (st1 & cr & E1 & I1 & R1 & N1 & L1). rewrite E1.
    pose proof (make_dirs_final_dir o target [] X X1 EMD) as Hfd. simpl in Hfd.
    pose proof (make_dirs_mono o _ _ _ _ EMD [] Hroot) as Hroot1.
    pose proof (N1 _ Hg) as Hg1.
    destruct R1 as (R1a & R1b & R1c).
    (* the landing path is usable *)
    pose proof (landing_nil o sroot src sn D X Hrootdir Hres Hroot : L = [] -> _) as HLdir.
    assert (Htok : tok X1 L (sdent sn)).
    { destruct (path_snoc_cases L) as [HL0|(P & a & HLs)].
      - left. rewrite HL0 in *. auto.
      - right. exists P, a. split; auto. unfold target in Hfd. rewrite HLs in Hfd.
        destruct (o_dircontents o && is_dir (sdent sn) && negb (x_exists (X D))).
        + apply (all_prefix_dirs o _ _ [a] P I1); [discriminate|].
          unfold x_isdir in Hfd. destruct (X1 (P ++ [a])); discriminate.
        + rewrite parent_snoc in Hfd. auto. }
    assert (Hpc1 : S -> PC L (c_imap st1)) by (intro HS; rewrite R1a; apply Hpc; auto).
    destruct (if o_replace o then None else first_conflict X1 L sn) as [c|] eqn:EC.
    - (* conflict *)
      destruct (o_replace o) eqn:Er; [discriminate|].
      destruct (first_conflict_shape _ _ _ _ EC) as (cls & q & be & -> & _).
      destruct (copy_node_conflict o ms multi selected Hsel sdof S sn Hwfn Hcsn [] L false st1 X1 cls q (Some be) I1 L1 Hpc1 Htok Er EC)
        as (st' & e & X' & F1 & F2 & F3 & F4 & F5 & F6 & F7).
      rewrite F1. unfold one_ok.
      exists st', e, cr. split; [reflexivity|]. split; [auto|]. exists X'. split; [auto|]. split; [auto|]. split; auto.
    - (* success *)
      destruct (copy_node_ok o ms multi selected Hsel sdof S sn Hwfn Hcsn [] L false st1 X1 I1 L1 Hpc1 Htok)
        as (st' & F1 & F2 & FL & FM & F3).
      { intros Er. rewrite Er in EC. auto. }
      rewrite F1. unfold one_ok. cbn [negb xr_view xr_notifs] in *.
      assert (Eview : forall p, match L with
                                | [] => overlay_at o ms multi sn L X1
                                | _ :: _ => if is_dir (sdent sn) && x_isdir (X1 L) then overlay_at o ms multi sn L X1
                                            else touch (parent L) (overlay_at o ms multi sn L X1)
                                end p = res o ms multi sn L true X1 p).
      { intro p. unfold res. destruct L eqn:EL0; auto. rewrite (HLdir eq_refl), Hroot1. auto. }
      exists st', cr. split; [reflexivity|]. split; [eapply Inv_ext; eauto|]. split; [|split; [|split]].
      + rewrite Eview. apply res_root_dir; auto.
      + eapply G_ext; [exact Eview|]. apply G_res; auto.
      + rewrite F3. congruence.
      + eapply Lk_ext; [exact Eview|exact FL].
  Qed.
  (* in mode S several sources are handled only for sources without link groups: then nothing
     is ever recorded in copier.inodes *)
  Lemma PCall_nil : PCall [].
  Proof. intros T s l i H. discriminate. Qed.
  Lemma PCall_nolinks ms fs X im : (forall i, multi i = false) -> Lk o ms multi sdof S fs X im -> PCall im.
  Proof.
    intros Hn L T s l i H. destruct (lk_rec _ _ _ _ _ _ _ _ L _ _ _ H) as (_ & Hm & _). rewrite Hn in Hm. discriminate.
  Qed.

  Lemma copy_srcs_spec ms dst : forall srcs st X cr0,
    (S -> (forall i, multi i = false) \/ (length srcs <= 1)%nat) ->
    Inv (c_fs st) X -> Lk o ms multi sdof S (c_fs st) X (c_imap st) -> (S -> srcs = [] \/ PCall (c_imap st)) ->
    x_isdir (X []) = true -> G X cr0 ->
    one_ok ms st cr0 (overlay_srcs o sroot ms dst srcs X) (copy_srcs o selected sroot ms dst srcs st).
  Proof.
    induction srcs as [|s r IH]; intros st X cr0 Hmode I L0 Hpc Hroot Hg.
    - simpl. exists st, []. rewrite app_nil_r. spl; auto.
    - cbn [overlay_srcs copy_srcs].
      assert (Hpc0 : S -> PCall (c_imap st)) by (intro HS; destruct (Hpc HS); [discriminate|auto]).
      destruct (s_resolve sroot (rooted s)) as [sn|e] eqn:Eres.
      + pose proof (copy_one_spec ms dst s st X cr0 sn I L0 Hpc0 Hroot Hg Eres) as H1.
        destruct (overlay_one o ms multi sn s dst X) as [r1|xe].
        * destruct H1 as (st1 & cr1 & E1 & I1 & Hr1 & G1 & N1 & L1). rewrite E1.
          (* with a link group there is no further source; without, nothing was recorded *)
          assert (Hrest : S -> r = [] \/ PCall (c_imap st1)).
          { intro HS. destruct (Hmode HS) as [Hn|Hlen]; [right; eapply PCall_nolinks; eauto|].
            left. destruct r; auto. simpl in Hlen. lia. }
          assert (Hmode' : S -> (forall i, multi i = false) \/ (length r <= 1)%nat).
          { intro HS. destruct (Hmode HS) as [Hn|Hlen]; auto. simpl in Hlen. right. lia. }
          specialize (IH st1 (xr_view r1) (cr0 ++ cr1) Hmode' I1 L1 Hrest Hr1 G1).
          destruct (overlay_srcs o sroot ms dst r (xr_view r1)) as [r2|xe].
          -- destruct IH as (st2 & cr2 & E2 & I2 & Hr2 & G2 & N2 & L2). rewrite E2.
             exists st2, (cr1 ++ cr2). cbn [xr_view xr_notifs]. rewrite app_assoc.
             split; auto. split; auto. split; auto. split; auto.
             split; [rewrite N2, N1, rev_app_distr, app_assoc; auto|auto].
          -- destruct IH as (st2 & e & cr2 & E2 & C2 & K2). rewrite E2.
             exists st2, e, (cr1 ++ cr2). split; auto. split; auto.
             destruct xe; auto. rewrite app_assoc. auto.
        * destruct H1 as (st1 & e & cr1 & E1 & C1 & K1). rewrite E1. exists st1, e, cr1. auto.
      + unfold copy_one. rewrite Eres. destruct (s_resolve_err _ _ _ Eres) as [-> | ->]; apply (one_ok_err ms); auto.
  Qed.

  (* what fixCreatedParentDirs establishes (fix_created_ok): every time the view claims is in place,
     also on the directories made above the target, whose time [Inv] left open ([eff_known]) *)
  Definition strict (fs : fsys) (X : xview) : Prop :=
    forall q i e, names fs q = Some i -> X q = Some e -> x_known e = true -> d_mtime (inodes fs i) = d_mtime (x_d e).

  Definition mk_timed (fs : fsys) (X : xview) : Prop :=
    forall q i e t, names fs q = Some i -> X q = Some e -> x_mk e = true -> o_utime o = Some t -> d_mtime (inodes fs i) = t.

  (* one created directory is re-stamped: every name of its inode expects the requested time *)
  Lemma restamp_ok ms cr fs X im t d i : o_utime o = Some t ->
    Inv fs X -> Lk o ms multi sdof S fs X im -> G X cr -> In d cr -> names fs d = Some i ->
    Inv (upd_inode i (set_mtime t) fs) X.
  Proof.
    intros Eu I0 L1 Hg Hin En. destruct (i_some _ _ _ I0 _ _ En) as (e & E1 & E2 & E3).
    pose proof (Hg d) as Hgd. unfold Gp in Hgd. rewrite E1 in Hgd. destruct Hgd as [_ Hgd].
    destruct (Hgd Hin) as [K1 K2].
    assert (Hall : forall p ep, names fs p = Some i -> X p = Some ep -> d_mtime (x_d ep) = t).
    { intros p ep Hp Hep. destruct K1 as [K1|(s0 & K1)].
      - rewrite K1 in E3. destruct E3 as [_ Hu]. apply Hu in Hp. subst p. rewrite E1 in Hep. inversion Hep; subst.
        apply (proj1 K2). auto.
      - destruct (lk_grp _ _ _ _ _ _ _ _ L1 _ _ _ E1 K1) as (_ & B3 & _ & _ & B5).
        destruct (B5 _ _ En Hp) as (e1 & A1 & A2). rewrite Hep in A1. inversion A1; subst e1.
        destruct (lk_grp _ _ _ _ _ _ _ _ L1 _ _ _ Hep A2) as (_ & A3 & _).
        rewrite A3, <- B3. apply (proj1 K2). auto. }
    eapply (inv_upd o _ X X i (set_mtime t) I0); auto.
    intros p ep Hp Hep. exists ep. split; auto. split; auto.
    destruct (inv_at _ _ _ _ _ _ I0 Hp Hep) as (F2 & _).
    destruct F2 as (B1 & B2 & B3 & B4 & B5 & B6 & B7 & B8).
    unfold dm. cbn [set_mtime d_mode d_uid d_gid d_mtime d_rdev d_target d_xattrs d_content].
    repeat split; auto. intros _. symmetry. eapply Hall; eauto.
  Qed.

  (* ... all of them: the paths in [P] have the time already, those in [todo] get it *)
  Lemma restamp_all ms cr X t : o_utime o = Some t -> G X cr ->
    forall todo st0 (P : list (list N) -> Prop), incl todo cr ->
    Inv (c_fs st0) X -> Lk o ms multi sdof S (c_fs st0) X (c_imap st0) ->
    (forall q i, P q -> names (c_fs st0) q = Some i -> d_mtime (inodes (c_fs st0) i) = t) ->
    let st' := fold_left (fun s d => match upd_path d (set_mtime t) (c_fs s) with Some f => with_fs s f | None => s end) todo st0 in
    Inv (c_fs st') X /\ Lk o ms multi sdof S (c_fs st') X (c_imap st') /\ same_rest st' st0 /\
    (forall q i, P q \/ In q todo -> names (c_fs st') q = Some i -> d_mtime (inodes (c_fs st') i) = t).
  Proof.
    intros Eu Hg. induction todo as [|d todo IH]; intros st0 P Hsub I0 L1 HP; cbn [fold_left].
    - split; auto. split; auto. split; [apply same_rest_refl|]. intros q i [Hq|[]]. apply HP; auto.
    - set (st1 := match upd_path d (set_mtime t) (c_fs st0) with Some f => with_fs st0 f | None => st0 end).
      assert (H1 : Inv (c_fs st1) X /\ Lk o ms multi sdof S (c_fs st1) X (c_imap st1) /\ same_rest st1 st0 /\
                   forall q i, P q \/ q = d -> names (c_fs st1) q = Some i -> d_mtime (inodes (c_fs st1) i) = t).
      { unfold st1, upd_path. destruct (names (c_fs st0) d) as [i|] eqn:En.
        - split; [eapply restamp_ok; eauto; apply Hsub; left; auto|]. split; [eapply Lk_names_ext; [|exact L1]; reflexivity|].
          split; [apply same_rest_with_fs|]. intros q i' Hq. cbn [with_fs c_fs upd_inode names inodes]. intro Hn.
          destruct (N.eqb i' i) eqn:Ei; [reflexivity|]. destruct Hq as [Hq| ->]; [eapply HP; eauto|].
          rewrite En in Hn. inversion Hn; subst. rewrite N.eqb_refl in Ei. discriminate.
        - split; auto. split; auto. split; [apply same_rest_refl|]. intros q i [Hq| ->]; [apply HP; auto|congruence]. }
      destruct H1 as (I1 & L2 & R1 & HP1).
      destruct (IH st1 (fun q => P q \/ q = d) (fun q Hq => Hsub q (or_intror Hq)) I1 L2 HP1) as (J1 & J4 & J3 & J2).
      split; auto. split; auto. split; [eapply same_rest_trans; eauto|].
      intros q i Hq. apply J2. destruct Hq as [Hq|[<-|Hq]]; auto.
  Qed.

  Lemma fix_created_ok ms cr st X : Inv (c_fs st) X -> Lk o ms multi sdof S (c_fs st) X (c_imap st) -> G X cr ->
    Inv (c_fs (fix_created o cr st)) X /\ strict (c_fs (fix_created o cr st)) X /\ same_rest (fix_created o cr st) st /\
    mk_timed (c_fs (fix_created o cr st)) X /\
    Lk o ms multi sdof S (c_fs (fix_created o cr st)) X (c_imap (fix_created o cr st)).
  Proof.
    intros I L0 Hg. unfold fix_created. destruct (o_utime o) as [t|] eqn:Eu.
    - destruct (restamp_all ms cr X t Eu Hg cr st (fun _ => False) (incl_refl _) I L0) as (J1 & J4 & J3 & J2); [intros q i []|].
      split; auto. split; [|split; auto].
      2:{ split; auto. intros q i e t' Hn HX Hm Hu. rewrite Eu in Hu. inversion Hu; subst t'.
          pose proof (Hg q) as Hgq. unfold Gp in Hgq. rewrite HX in Hgq. destruct Hgq as [G1 _].
          apply (J2 q i); auto. }
      intros q i e Hn HX Hk. destruct (inv_at _ _ _ _ _ _ J1 Hn HX) as (E2 & _).
      destruct (eff_known o e) eqn:Ee.
      + apply E2; auto.
      + unfold eff_known in Ee. rewrite Hk in Ee. cbn [andb] in Ee. apply negb_false_iff in Ee.
        apply andb_true_iff in Ee as [Em _].
        pose proof (Hg q) as Hgq. unfold Gp in Hgq. rewrite HX in Hgq. destruct Hgq as [G1 G2].
        destruct (G2 (G1 Em)) as [_ K2]. rewrite (proj1 K2 t Eu). apply (J2 q i); auto.
    - split; auto. split; [|split; [apply same_rest_refl|split; [intros q i e t' _ _ _ Hu; congruence|auto]]].
      intros q i e Hn HX Hk. destruct (inv_at _ _ _ _ _ _ I Hn HX) as (E2 & _).
      apply E2. unfold eff_known, utset. rewrite Eu, Hk, andb_false_r. auto.
  Qed.

  Definition wf_fs (fs : fsys) : Prop :=
    (forall p i, names fs p = Some i -> i < next fs) /\
    (forall p a i, names fs (p ++ [a]) = Some i -> exists j, names fs p = Some j /\ is_dir (inodes fs j) = true) /\
    (forall p q i, names fs p = Some i -> names fs q = Some i -> is_dir (inodes fs i) = true -> p = q) /\
    (exists i, names fs [] = Some i /\ is_dir (inodes fs i) = true).

  Lemma lk_init ms fs : Lk o ms multi sdof S fs (xview_of (view_of_fs fs)) [].
  Proof.
    assert (Hk : forall p e s, xview_of (view_of_fs fs) p = Some e -> x_key e = KSrc s -> False).
    { intros p e s H1 H2. unfold xview_of, view_of_fs in H1. destruct (names fs p); [|discriminate].
      inversion H1; subst. discriminate. }
    split.
    - constructor.
    - intros s l i H. discriminate.
    - intros s l i p H. discriminate.
    - intros p e s H1 H2. exfalso. eapply Hk; eauto.
    - intros _ p e s H1 H2. exfalso. eapply Hk; eauto.
  Qed.

  Lemma inv_init fs : wf_fs fs -> Inv fs (xview_of (view_of_fs fs)) /\ x_isdir (xview_of (view_of_fs fs) []) = true /\
                                  G (xview_of (view_of_fs fs)) [].
  Proof.
    intros (A & B & C & (r & Hr & Hrd)). split; [|split].
    - split; auto.
      + intros p H. unfold xview_of, view_of_fs. rewrite H. auto.
      + intros p i H. unfold xview_of, view_of_fs. rewrite H. eexists. split; [reflexivity|].
        split; [|reflexivity]. unfold dm. cbn [x_d]. repeat split; auto.
    - unfold x_isdir, xview_of, view_of_fs. rewrite Hr. auto.
    - intro q. unfold Gp, xview_of, view_of_fs. destruct (names fs q); auto. cbn [x_mk]. split; [discriminate|intros []].
  Qed.

  Lemma resolve_wild_err src e : resolve_wild sroot src = inr e -> e = EScope \/ e = EOther.
  Proof.
    unfold resolve_wild.
    destruct (split_wild_e _) as [p1 p2]. destruct (existsb has_unsupported_e _); [intro H; inversion H; auto|].
    destruct p2; [discriminate|]. destruct (s_resolve sroot _) eqn:E; [discriminate|].
    intro H; inversion H; subst. eapply s_resolve_err; eauto.
  Qed.

  Definition the_ms : option (list bitcmd) :=
    match (match o_modestr o with [] => Some None | s => option_map Some (parse_mode s) end) with
    | Some ms => ms | None => None end.

  Definition top_ok (res : xres + xerr) (out : R) : Prop :=
    match res with
    | inl r => exists st', out = (st', None) /\ Inv (c_fs st') (xr_view r) /\ strict (c_fs st') (xr_view r) /\
                           rev (c_notifs st') = xr_notifs r /\
                           mk_timed (c_fs st') (xr_view r) /\ (exists cr, G (xr_view r) cr) /\
                           x_isdir (xr_view r []) = true /\
                           Lk o the_ms multi sdof S (c_fs st') (xr_view r) (c_imap st')
    | inr xe => exists st' e, out = (st', Some e) /\ err_cls e = xerr_cls xe /\
        match xe with
        | XConflict _ p bef => exists X', Inv (c_fs st') X' /\ strict (c_fs st') X' /\ X' p = bef /\ bef <> None
        | _ => True
        end
    end.

  Lemma top_ok_err st e : e = EScope \/ e = EOther -> top_ok (inr (xerr_of e)) (st, Some e).
  Proof. intros [-> | ->]; exists st; eexists; repeat split. Qed.

  Theorem copy_top_ok fs src dst : wf_fs fs -> (S -> (forall i, multi i = false) \/ o_wild o = false) ->
    top_ok (overlay_all o sroot (view_of_fs fs) src dst) (copy_top o selected sroot fs src dst).
  Proof.
    intros Hfs Hmode. destruct (inv_init fs Hfs) as (I0 & Hroot0 & G0).
    pose proof (lk_init the_ms fs) as L00.
    unfold copy_top, overlay_all. fold (ensure_arg dst).
    set (X0 := xview_of (view_of_fs fs)) in *.
    set (st0 := {| c_fs := fs; c_imap := []; c_notifs := []; c_split := false |}).
    (* ensureDstPath *)
    match goal with |- top_ok match ?sp with _ => _ end _ => set (SP := sp) end.
    match goal with |- top_ok _ (match ?en with _ => _ end) => set (EN := en) end.
    assert (Ens : match SP with
                  | inl (X1, _) => exists st1 cr1,
                      EN = (st1, None, cr1) /\ Inv (c_fs st1) X1 /\ x_isdir (X1 []) = true /\ G X1 cr1 /\ same_rest st1 st0 /\
                      Lk o the_ms multi sdof S (c_fs st1) X1 (c_imap st1)
                  | inr xe => exists st1 e, EN = (st1, Some e, []) /\ xe = xerr_of e /\ (e = EScope \/ e = EOther)
                  end).
    { unfold SP, EN. clear SP EN. destruct (ensure_arg dst) as [|c0 e0] eqn:Een.
      - exists st0, []. spl; auto; apply same_rest_refl.
      - rewrite <- Een. rewrite (root_path_spec o fs X0 (ensure_arg dst) I0).
        destruct (root_path fs (ensure_arg dst)) as [ep|e] eqn:ERP; cbn [map_res].
        + pose proof (mkdir_all_spec o the_ms multi sdof S ep st0 X0 I0 L00 Hroot0) as HM.
          destruct (make_dirs o [] ep X0) as [X1|xe] eqn:EMD.
          * destruct HM as (st1 & cr1 & E1 & I1 & R1 & N1 & L1). exists st1, cr1.
            split; auto. split; auto. split; [eapply make_dirs_mono; eauto|]. split; [|split; auto].
            apply (N1 [] G0).
          * destruct HM as (st1 & e & E1 & E2 & E3 & _). exists st1, e. auto.
        + exists st0, e. eauto using root_path_err. }
    clearbody SP EN. destruct SP as [[X1 eps]|xe].
    2:{ destruct Ens as (st1 & e & E1 & -> & He). rewrite E1. apply top_ok_err, He. }
    destruct Ens as (st1 & cr1 & E1 & I1 & Hroot1 & G1 & (M1 & N1 & _) & L1). rewrite E1.
    (* ModeStr *)
    destruct (match o_modestr o with [] => Some None | s :: l => option_map Some (parse_mode (s :: l)) end) as [ms|] eqn:Ems'.
    2:{ apply (top_ok_err _ EOther). auto. }
    (* wildcards *)
    destruct (if o_wild o then resolve_wild sroot src else inl [src]) as [srcs|e] eqn:Ew.
    2:{ assert (He : e = EScope \/ e = EOther).
        { destruct (o_wild o); [eapply resolve_wild_err; eauto|discriminate]. }
        destruct He as [-> | ->]; [apply (top_ok_err _ EScope)|apply (top_ok_err _ EOther)]; auto. }
    destruct srcs as [|s0 srcs].
    { unfold top_ok. eexists; eexists. split; [reflexivity|]. split; [reflexivity|]. auto. }
    assert (Hms : the_ms = ms) by (unfold the_ms; rewrite Ems'; auto).
    rewrite Hms in *.
    assert (Hmode2 : S -> (forall i, multi i = false) \/ (length (s0 :: srcs) <= 1)%nat).
    { intro HS. destruct (Hmode HS) as [Hn|Hw]; auto. right. rewrite Hw in Ew. inversion Ew; subst. simpl. auto. }
    assert (Hpc1 : S -> s0 :: srcs = [] \/ PCall (c_imap st1)) by (intros _; right; rewrite M1; apply PCall_nil).
    pose proof (copy_srcs_spec ms dst (s0 :: srcs) st1 X1 cr1 Hmode2 I1 L1 Hpc1 Hroot1 G1) as HS.
    destruct (overlay_srcs o sroot ms dst (s0 :: srcs) X1) as [r|xe].
    - destruct HS as (st2 & cr2 & E2 & I2 & Hr2 & G2 & N2 & L2). rewrite E2.
      destruct (fix_created_ok ms (cr1 ++ cr2) st2 (xr_view r) I2 L2 G2) as (J1 & J2 & (J3 & J4 & J5) & J6 & J7).
      unfold top_ok. rewrite Hms. cbn [xr_view xr_notifs]. eexists. split; [reflexivity|]. split; auto. split; auto.
      split; [rewrite J4, N2, N1; unfold st0; cbn [c_notifs]; rewrite app_nil_r, rev_involutive; reflexivity|].
      split; [auto|]. split; [eauto|]. split; auto.
    - destruct HS as (st2 & e & cr2 & E2 & C2 & K2). rewrite E2.
      unfold top_ok. eexists; eexists. split; [reflexivity|]. split; auto.
      destruct xe as [cls p bef| |]; auto.
      destruct K2 as (X' & K1 & K3 & K4 & K5 & K6).
      destruct (fix_created_ok ms (cr1 ++ cr2) st2 X' K1 K6 K5) as (J1 & J2 & (J3 & J4 & J5) & _).
      exists X'. auto.
  Qed.
End Top.
