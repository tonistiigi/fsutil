(* Every file id is served at most once: a counting ("token") invariant over the places
   where an id can be between its registration by the walker and its completion by the
   receive loop.  Used for C08 (no file is completed twice). *)
From Coq Require Import List Arith Bool PeanoNat Lia Permutation.
From FS Require Import Model.Lts Model.LtsExplore Proofs.LtsInv Proofs.LtsSafe Proofs.LtsTerm Proofs.LtsC08.
Import ListNotations.

Definition cnt (id : nat) (l : list nat) : nat := length (filter (Nat.eqb id) l).
Definition is_dend (id : nat) (pk : packet) : bool :=
  match pk with PDataEnd x => Nat.eqb id x | _ => false end.
Definition cntE (id : nat) (l : list packet) : nat := length (filter (is_dend id) l).
Definition held (id : nat) (w : wkpc) : nat :=
  match w with
  | WK_Ctx h | WK_Open h | WK_Read h _ | WK_Lock h _ | WK_Send h _ | WK_LockFin h | WK_SendFin h =>
      b2n (Nat.eqb id h)
  | _ => 0
  end.
Definition rq_h (id : nat) (pc : rqpc) : nat := match pc with RQ_Push x => b2n (Nat.eqb id x) | _ => 0 end.
Definition rl_h (id : nat) (pc : rlpc) : nat := match pc with RL_CloseP x => b2n (Nat.eqb id x) | _ => 0 end.

Definition tok (id : nat) (st : state) : nat :=
  cnt id (sfiles st) + rq_h id (rq_pc st) + cnt id (pipe st) + sumf (held id) (wks st)
  + cntE id (buf_sr st) + rl_h id (rl_pc st) + cnt id (completed st).

Definition sw_bound (st : state) : nat := match sw_pc st with SW_Next => sw_i st | _ => S (sw_i st) end.

Lemma cnt_cons : forall id x l, cnt id (x :: l) = b2n (Nat.eqb id x) + cnt id l.
Proof. intros. unfold cnt. cbn. destruct (Nat.eqb id x); reflexivity. Qed.
Lemma cnt_app : forall id l x, cnt id (l ++ [x]) = cnt id l + b2n (Nat.eqb id x).
Proof. intros. unfold cnt. rewrite filter_app, app_length. cbn. destruct (Nat.eqb id x); reflexivity. Qed.
Lemma cnt_remb_same : forall id l, cnt id (remb id l) = 0.
Proof.
  intros. unfold cnt, remb. induction l; cbn; auto.
  destruct (Nat.eqb_spec id a); cbn; auto. destruct (Nat.eqb_spec id a); try contradiction. cbn. auto.
Qed.
Lemma cnt_remb_other : forall id x l, id <> x -> cnt id (remb x l) = cnt id l.
Proof.
  intros id x l N. unfold cnt, remb. induction l; cbn; auto.
  destruct (Nat.eqb_spec x a); cbn.
  - subst. destruct (Nat.eqb_spec id a); try contradiction. auto.
  - destruct (Nat.eqb id a); cbn; auto.
Qed.
Lemma cnt_memb : forall id l, memb id l = true -> 1 <= cnt id l.
Proof.
  intros id l H. unfold cnt. induction l.
  - discriminate.
  - rewrite memb_cons in H. cbn. destruct (Nat.eqb id a); cbn; [lia|]. apply IHl. exact H.
Qed.
Lemma cntE_cons : forall id x l, cntE id (x :: l) = b2n (is_dend id x) + cntE id l.
Proof. intros. unfold cntE. cbn. destruct (is_dend id x); reflexivity. Qed.
Lemma cntE_app : forall id l x, cntE id (l ++ [x]) = cntE id l + b2n (is_dend id x).
Proof. intros. unfold cntE. rewrite filter_app, app_length. cbn. destruct (is_dend id x); reflexivity. Qed.

Arguments cnt : simpl never.
Arguments cntE : simpl never.

Lemma tok_step : forall id p st l st', step p st l = Some st' ->
  sw_bound st <= sw_bound st' /\
  (tok id st' <= tok id st \/
   (sw_pc st = SW_Next /\ id = sw_i st /\ tok id st' = S (tok id st) /\ sw_bound st' = S (sw_i st))).
Proof.
  intros id p st l st' H.
  (* most steps leave every summand of [tok] as it was, up to conversion *)
  step_cases H l; try (split; [apply le_n | left; apply le_n]).
  all: unfold tok, sw_bound, setw; cbn; rw_eqs; cbv iota.
  all: sumf_moved.
  all: rewrite ?cnt_cons, ?cnt_app, ?cntE_cons, ?cntE_app; cbn [is_dend b2n held rq_h rl_h] in *.
  (* a request takes its id out of the registered files, where it was *)
  all: try match goal with M : memb ?x (sfiles _) = true |- _ =>
         destruct (Nat.eqb_spec id x);
         [ subst; rewrite cnt_remb_same; pose proof (cnt_memb _ _ M)
         | rewrite cnt_remb_other by auto ] end.
  all: clear_non_nat.
  (* as in torn_step, the summands the step leaves alone are cancelled before lia *)
  all: cbn [b2n];
    try (split; [apply le_n || lia | left; repeat apply Nat.add_le_mono_r; try apply Nat.add_le_mono_l; lia]).
  (* the walker registers file [sw_i st] *)
  split; [lia|]. destruct (Nat.eqb_spec id (sw_i st)); cbn [b2n]; [right; repeat split; auto; lia | left; lia].
Qed.

Definition tokinv (st : state) : Prop :=
  (forall id, sw_bound st <= id -> tok id st = 0) /\ (forall id, tok id st <= 1).

Lemma sumf_repeat_idle : forall id n, sumf (held id) (repeat WK_Idle n) = 0.
Proof. induction n; cbn; auto. Qed.

Lemma tokinv_init : forall p, tokinv (init p).
Proof.
  intro p. assert (Z: forall id, tok id (init p) = 0).
  { intro id. unfold tok. cbn. rewrite sumf_repeat_idle. reflexivity. }
  split; intros; rewrite Z; lia.
Qed.

Lemma tokinv_step : forall p st l st', tokinv st -> step p st l = Some st' -> tokinv st'.
Proof.
  intros p st l st' (I1 & I2) H. split; intros id.
  - intro B. destruct (tok_step id _ _ _ _ H) as (Bd & [Le|(Pc & Eq & _ & Bs)]).
    + assert (tok id st = 0) by (apply I1; lia). lia.
    + exfalso. subst id. rewrite Bs in B. lia.
  - destruct (tok_step id _ _ _ _ H) as (_ & [Le|(Pc & Eq & E & _)]).
    + specialize (I2 id). lia.
    + assert (tok id st = 0). { apply I1. unfold sw_bound. rewrite Pc. lia. } lia.
Qed.

Lemma tokinv_reachable : forall p st, reachable p st -> tokinv st.
Proof. induction 1. apply tokinv_init. eapply tokinv_step; eauto. Qed.

Lemma cnt_le1_nodup : forall l, (forall id, cnt id l <= 1) -> NoDup l.
Proof.
  induction l; intro H.
  - constructor.
  - constructor.
    + intro X. specialize (H a). rewrite cnt_cons, Nat.eqb_refl in H. cbn in H.
      assert (1 <= cnt a l) by (apply cnt_memb; apply memb_true_iff; auto). lia.
    + apply IHl. intro id. specialize (H id). rewrite cnt_cons in H. lia.
Qed.

(* no file is completed twice *)
Lemma completed_nodup_proof : forall p st, reachable p st -> NoDup (completed st).
Proof.
  intros p st R. destruct (tokinv_reachable _ _ R) as [_ I2].
  apply cnt_le1_nodup. intro id. specialize (I2 id). unfold tok in I2. lia.
Qed.

Lemma success_completed_permutation_proof : forall p st, reachable p st -> recv_ret st = Some true ->
  Permutation (completed st) (need_ids p).
Proof.
  intros p st R Ok. apply need_ids_permutation; [exact (completed_nodup_proof p st R)|].
  intro id. apply (success_outcome_proof _ _ R Ok id).
Qed.
