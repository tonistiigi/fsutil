(* Closure of the FollowLinks result w.r.t. the independent resolver: what the two closure
   theorems share, and the wildcard-free case (result_closed_partial_proof).  The argument
   needs no temporal reasoning: it reads the FINAL ghost state (Walked, ExpOk), runs the
   independent resolver in its single-outcome form [cres1] on literal items, and shows that
   resolving from a real directory refines resolving the cleaned path from the root. *)
From Coq Require Import List NArith Bool Lia Arith.
From FS Require Import Sx Model.Path Model.Stat Model.Tree Model.FollowLinks Proofs.Lex Proofs.PathP
     Proofs.FollowLinksP.
Import ListNotations.
Open Scope N_scope.
Open Scope bool_scope.

Notation item := (bytes * bool)%type (only parsing).

Lemma comps_eqb_eq a b : comps_eqb a b = true <-> a = b.
Proof.
  revert b; induction a as [|x a IH]; intros [|y b]; simpl; split; intros H; try discriminate; auto.
  - apply andb_true_iff in H. destruct H as [H1 H2]. apply bytes_eqb_eq in H1. apply IH in H2. congruence.
  - inversion H; subst. rewrite bytes_eqb_refl. apply IH. reflexivity.
Qed.

Lemma gent_eqb_eq (a b : gent) : gent_eqb a b = true <-> a = b.
Proof.
  destruct a as [[d1 c1] r1], b as [[d2 c2] r2]. simpl. rewrite !andb_true_iff, !comps_eqb_eq, bytes_eqb_eq.
  split; [intros [[-> ->] ->]; reflexivity|intros H; inversion H; auto].
Qed.

Lemma mem_exp_In e l : mem_exp e l = true -> In e l.
Proof.
  induction l as [|e' l IH]; simpl; [discriminate|]. intros H. apply orb_true_iff in H.
  destruct H as [H|H]; [left; symmetry; apply gent_eqb_eq; auto|right; auto].
Qed.

Section Exec.
Variable gmatch : bytes -> bytes -> bool.
Variable view : list node.

Definition ext (a b : fstate) : Prop :=
  sub (resolved a) (resolved b) /\ incl (g_calls a) (g_calls b) /\
  incl (g_expanded a) (g_expanded b) /\ incl (g_revisit a) (g_revisit b).

Lemma ext_refl a : ext a a.
Proof. repeat split; try apply incl_refl. apply sub_refl. Qed.
Lemma ext_trans a b c : ext a b -> ext b c -> ext a c.
Proof.
  intros (A1 & A2 & A3 & A4) (B1 & B2 & B3 & B4). repeat split.
  - eapply sub_trans; eauto.
  - eapply incl_tran; eauto.
  - eapply incl_tran; eauto.
  - eapply incl_tran; eauto.
Qed.

(* every expansion has called append on each of its targets joined with its remainder *)
Definition ExpOk (st : fstate) (e : gent) : Prop :=
  match e with
  | (cur, c, rest) =>
    forall t, In t (read_symlink gmatch view cur c) -> In (norm_clamp (t ++ rest)) (g_calls st)
  end.

Fixpoint walk_ok (st : fstate) (cur p : list bytes) : Prop :=
  match p with
  | [] => True
  | c :: rest =>
    if negb (is_nil (read_symlink gmatch view cur c)) then
      mem (key (cur ++ [c])) (resolved st) = true /\
      (In (cur, c, rest) (g_expanded st) \/ In (cur, c, rest) (g_revisit st))
    else if is_nil rest then mem (key (cur ++ [c])) (resolved st) = true
    else walk_ok st (cur ++ [c]) rest
  end.

(* Every p that append was entered with ends up "walked": going through its components from the
   root, the first symlink met is in [resolved] and was expanded with exactly the remaining
   components (or the revisit was recorded), or no symlink is met and p itself is in [resolved]. *)
Definition Walked (st : fstate) (p : list bytes) : Prop :=
  match p with
  | [] => mem s_dot (resolved st) = true
  | _ => walk_ok st [] p
  end.

Lemma walk_ok_ext a b cur p : ext a b -> walk_ok a cur p -> walk_ok b cur p.
Proof.
  intros (E1 & E2 & E3 & E4). revert cur. induction p as [|c rest IH]; intros cur H; [exact I|].
  cbn [walk_ok] in *. destruct (negb (is_nil (read_symlink gmatch view cur c))).
  - destruct H as [H1 [H2|H2]]; split; auto.
  - destruct (is_nil rest); auto.
Qed.

Lemma Walked_ext a b p : ext a b -> Walked a p -> Walked b p.
Proof.
  intros E. destruct p as [|c r]; [destruct E as [E1 _]; apply E1|]. apply walk_ok_ext; auto.
Qed.

Lemma ExpOk_ext a b e : ext a b -> ExpOk a e -> ExpOk b e.
Proof. intros (_ & E2 & _) H. destruct e as [[cur c] rest]. intros t Ht. apply E2. apply H. exact Ht. Qed.

(* what state [b] has beyond state [a] is accounted for in [b] *)
Definition newly {A} (sel : fstate -> list A) (Q : fstate -> A -> Prop) (a b : fstate) : Prop :=
  forall x, In x (sel b) -> In x (sel a) \/ Q b x.

Lemma newly_same {A} (sel : fstate -> list A) (Q : fstate -> A -> Prop) a b : sel b = sel a -> newly sel Q a b.
Proof. intros E x Hx. left. rewrite <- E. exact Hx. Qed.
Lemma newly_trans {A} (sel : fstate -> list A) (Q : fstate -> A -> Prop) a b c :
  (forall x, Q b x -> Q c x) -> newly sel Q a b -> newly sel Q b c -> newly sel Q a c.
Proof.
  intros HQ H1 H2 x Hx. destruct (H2 x Hx) as [Hb|Hw]; [|right; exact Hw].
  destruct (H1 x Hb) as [Ha|Hw]; [left; exact Ha|right; apply HQ; exact Hw].
Qed.

Definition runs (a b : fstate) : Prop :=
  ext a b /\ newly g_calls Walked a b /\ newly g_expanded ExpOk a b.

Lemma runs_same a b : ext a b -> g_calls b = g_calls a -> g_expanded b = g_expanded a -> runs a b.
Proof. intros E Hc He. split; [exact E|]. split; apply newly_same; assumption. Qed.
Lemma runs_refl a : runs a a.
Proof. apply runs_same; [apply ext_refl|reflexivity..]. Qed.
Lemma runs_trans a b c : runs a b -> runs b c -> runs a c.
Proof.
  intros (E1 & C1 & X1) (E2 & C2 & X2). split; [eapply ext_trans; eauto|].
  split; [apply (newly_trans _ _ a b c (fun x => Walked_ext b c x E2) C1 C2)
        |apply (newly_trans _ _ a b c (fun x => ExpOk_ext b c x E2) X1 X2)].
Qed.

Lemma ext_add_resolved k st : ext st (add_resolved k st).
Proof. repeat split; try apply incl_refl. apply sub_cons. Qed.
Lemma ext_add_call p st : ext st (add_call p st).
Proof. repeat split; try apply incl_refl; [apply sub_refl|apply incl_tl, incl_refl]. Qed.
Lemma ext_add_expanded e st : ext st (add_expanded e st).
Proof. repeat split; try apply incl_refl; [apply sub_refl|apply incl_tl, incl_refl]. Qed.
Lemma ext_note_revisit h e st : ext st (note_revisit h e st).
Proof.
  unfold note_revisit. destruct (h && _); [|apply ext_refl].
  repeat split; try apply incl_refl; [apply sub_refl|apply incl_tl, incl_refl].
Qed.

Lemma note_revisit_calls h e st : g_calls (note_revisit h e st) = g_calls st.
Proof. unfold note_revisit. destruct (h && _); reflexivity. Qed.
Lemma note_revisit_exps h e st : g_expanded (note_revisit h e st) = g_expanded st.
Proof. unfold note_revisit. destruct (h && _); reflexivity. Qed.

Lemma mem_add_resolved k st : mem k (resolved (add_resolved k st)) = true.
Proof. simpl. rewrite bytes_eqb_refl. reflexivity. Qed.

(* a call, or an expansion, entered in [a] and accounted for in [b] *)
Lemma runs_called p a b : runs (add_call p a) b -> Walked b p -> runs a b.
Proof.
  intros (E & C & X) Hw. split; [eapply ext_trans; [apply ext_add_call|exact E]|]. split; [|exact X].
  intros q Hq. destruct (C q Hq) as [[<-|Hq1]|Hq1]; auto.
Qed.
Lemma runs_expanded e k a b : runs (add_expanded e (add_resolved k a)) b -> ExpOk b e -> runs a b.
Proof.
  intros (E & C & X) Hw. split; [|split; [exact C|]].
  - eapply ext_trans; [eapply ext_trans; [apply ext_add_resolved|apply ext_add_expanded]|exact E].
  - intros q Hq. destruct (X q Hq) as [[<-|Hq1]|Hq1]; auto.
Qed.

Definition spec_rec (rec : rec_t) : Prop :=
  forall st p st', rec st p = Ok st' -> runs st st' /\ In p (g_calls st').

Lemma each_target_spec rec rest ts : spec_rec rec -> forall st st',
  each_target rec rest ts st = Ok st' ->
  runs st st' /\ forall t, In t ts -> In (norm_clamp (t ++ rest)) (g_calls st').
Proof.
  intros Hrec. induction ts as [|t ts IH]; intros st st' H; simpl in H.
  - inversion H; subst. split; [apply runs_refl|intros ? []].
  - destruct (rec st (norm_clamp (t ++ rest))) as [st1|] eqn:E; [|discriminate].
    destruct (Hrec _ _ _ E) as [X1 X2]. destruct (IH _ _ H) as [Y1 Y2].
    split; [eapply runs_trans; eauto|]. intros t0 [<-|Ht0]; [|apply Y2; exact Ht0].
    destruct Y1 as ((_ & Yc & _) & _). apply Yc. exact X2.
Qed.

Lemma loop_spec rec : spec_rec rec -> forall p cur st st',
  loop gmatch view rec cur p st = Ok st' -> runs st st' /\ walk_ok st' cur p.
Proof.
  intros Hrec. induction p as [|c rest IH]; intros cur st st' H.
  - inversion H; subst. split; [apply runs_refl|exact I].
  - rewrite loop_cons in H. cbv zeta in H. cbn [walk_ok].
    destruct (read_symlink gmatch view cur c) as [|t ts] eqn:Ets; cbn [is_nil negb].
    + destruct rest; [|exact (IH _ _ _ H)]. inversion H; subst. cbn [is_nil].
      destruct (mem _ (resolved st)) eqn:Em; [split; [apply runs_refl|exact Em]|].
      split; [apply runs_same; [apply ext_add_resolved|reflexivity..]|apply mem_add_resolved].
    + destruct (mem _ (resolved st)) eqn:Em.
      * inversion H; subst. split.
        { apply runs_same; [apply ext_note_revisit|apply note_revisit_calls|apply note_revisit_exps]. }
        split; [rewrite resolved_note_revisit; exact Em|]. unfold note_revisit. cbn [andb].
        destruct (mem_exp (cur, c, rest) (g_expanded st)) eqn:Ee; cbn [negb];
          [left; apply mem_exp_In; exact Ee|right; left; reflexivity].
      * destruct (each_target_spec rec rest _ Hrec _ _ H) as [Y1 Y2]. rewrite <- Ets in Y2.
        split; [apply (runs_expanded _ _ _ _ Y1 Y2)|]. destruct Y1 as ((Yr & _ & Ye & _) & _).
        split; [apply Yr; apply mem_add_resolved|left; apply Ye; left; reflexivity].
Qed.

Lemma append_spec fuel : spec_rec (append gmatch view fuel).
Proof.
  induction fuel as [|f IH]; intros st p st' H; [discriminate|].
  cbn [append] in H. destruct p as [|c r].
  - inversion H; subst. clear H. change (resolved (add_call [] st)) with (resolved st).
    destruct (mem s_dot (resolved st)) eqn:Em.
    + split; [|left; reflexivity]. apply (runs_called []); [apply runs_refl|exact Em].
    + split; [|left; reflexivity].
      apply (runs_called []); [apply runs_same; [apply ext_add_resolved|reflexivity..]|apply mem_add_resolved].
  - destruct (loop_spec _ IH _ _ _ _ H) as [Y1 Y2]. split; [exact (runs_called _ _ _ Y1 Y2)|].
    destruct Y1 as ((_ & Yc & _) & _). apply Yc. left. reflexivity.
Qed.

(* the final state *)
Lemma final_state_facts fuel reqs st :
  follow_state gmatch view fuel reqs = Ok st ->
  (forall r, In r reqs -> In (norm_clamp (comps r)) (g_calls st)) /\
  (forall q, In q (g_calls st) -> Walked st q) /\
  (forall e, In e (g_expanded st) -> ExpOk st e).
Proof.
  unfold follow_state. rewrite follow_reqs_each_target. intros H.
  destruct (each_target_spec _ [] _ (append_spec fuel) _ _ H) as ((_ & Y3 & Y4) & Y2). split.
  - intros r Hr. rewrite <- (app_nil_r (comps r)). apply Y2, in_map, Hr.
  - split; intros x Hx; [destruct (Y3 x Hx) as [[]|Hw]|destruct (Y4 x Hx) as [[]|Hw]]; exact Hw.
Qed.

End Exec.

(* [cres1] = cresolve on wildcard-free todo lists, with a single outcome *)
Section Phys.
Variable gmatch : bytes -> bytes -> bool.
Variable view : list node.

Definition mkc (t : list (list bytes)) (o : outcome) : cres := {| traversed := t; final := o |}.

Fixpoint cres1 (follows : nat) (here todo : list bytes) (trav : list (list bytes)) {struct follows} : cres :=
  (fix walk (here todo : list bytes) {struct todo} : cres :=
     match todo with
     | [] => mkc trav (Reached here)
     | c :: rest =>
       match dir_at view here with
       | None => mkc trav Failed
       | Some kids =>
         if is_triv c then walk here rest
         else if is_dotdot c then walk (removelast here) rest
         else match find_kid c kids with
              | None => mkc trav Failed
              | Some n =>
                let p := here ++ [node_name n] in
                if node_is_symlink n then
                  match follows with
                  | O => mkc (p :: trav) Failed
                  | S f =>
                    let l := node_link n in
                    if is_nil l then mkc (p :: trav) Failed
                    else cres1 f (if is_abs l then [] else here) (comps l ++ rest) (p :: trav)
                  end
                else walk p rest
              end
       end
     end) here todo.

Lemma cres1_eq f here todo trav :
  cres1 f here todo trav =
  match todo with
  | [] => mkc trav (Reached here)
  | c :: rest =>
    match dir_at view here with
    | None => mkc trav Failed
    | Some kids =>
      if is_triv c then cres1 f here rest trav
      else if is_dotdot c then cres1 f (removelast here) rest trav
      else match find_kid c kids with
           | None => mkc trav Failed
           | Some n =>
             let p := here ++ [node_name n] in
             if node_is_symlink n then
               match f with
               | O => mkc (p :: trav) Failed
               | S f' =>
                 let l := node_link n in
                 if is_nil l then mkc (p :: trav) Failed
                 else cres1 f' (if is_abs l then [] else here) (comps l ++ rest) (p :: trav)
               end
             else cres1 f p rest trav
           end
    end
  end.
Proof. destruct f; destruct todo; reflexivity. Qed.

Definition enter (f : nat) (here : list bytes) (rest : list item) (trav : list (list bytes)) (n : node)
  : list cres :=
  let p := here ++ [node_name n] in
  if node_is_symlink n then
    match f with
    | O => [mkc (p :: trav) Failed]
    | S f' =>
      let l := node_link n in
      if is_nil l then [mkc (p :: trav) Failed]
      else cresolve gmatch view f' (if is_abs l then [] else here) (lit (comps l) ++ rest) (p :: trav)
    end
  else cresolve gmatch view f p rest trav.

Lemma cresolve_eq f here todo trav :
  cresolve gmatch view f here todo trav =
  match todo with
  | [] => [mkc trav (Reached here)]
  | (c, g) :: rest =>
    match dir_at view here with
    | None => [mkc trav Failed]
    | Some kids =>
      if is_triv c then cresolve gmatch view f here rest trav
      else if is_dotdot c then cresolve gmatch view f (removelast here) rest trav
      else if g && contains_wildcards c then
        flat_map (fun n => if gmatch c (node_name n) then enter f here rest trav n else []) kids
      else match find_kid c kids with
           | None => [mkc trav Failed]
           | Some n => enter f here rest trav n
           end
    end
  end.
Proof. destruct f; destruct todo as [|[c g] rest]; reflexivity. Qed.

Lemma cresolve_nodir f here todo trav : dir_at view here = None ->
  cresolve gmatch view f here todo trav =
  [mkc trav (match todo with [] => Reached here | _ => Failed end)].
Proof. intros H. rewrite cresolve_eq. destruct todo as [|[c g] rest]; [reflexivity|]. rewrite H. reflexivity. Qed.

(* one step of the resolver, read backwards: an outcome of (c, g) :: rest is the failure, or comes
   from skipping c, from stepping up, or from entering an entry that c names or matches *)
Lemma cresolve_step f here c g rest trav o :
  In o (cresolve gmatch view f here ((c, g) :: rest) trav) ->
  o = mkc trav Failed \/
  exists kids, dir_at view here = Some kids /\
    if is_triv c then In o (cresolve gmatch view f here rest trav)
    else if is_dotdot c then In o (cresolve gmatch view f (removelast here) rest trav)
    else exists n, In n kids /\ In o (enter f here rest trav n) /\
           if g && contains_wildcards c then gmatch c (node_name n) = true else node_name n = c.
Proof.
  intros Ho. rewrite cresolve_eq in Ho.
  destruct (dir_at view here) as [kids|]; [|left; destruct Ho as [<-|[]]; reflexivity].
  destruct (is_triv c); [eauto|]. destruct (is_dotdot c); [eauto|]. destruct (g && contains_wildcards c).
  - apply in_flat_map in Ho. destruct Ho as (n & Hn & Hon).
    destruct (gmatch c (node_name n)) eqn:Egm; [|destruct Hon]. right. exists kids. split; [reflexivity|]. exists n. auto.
  - destruct (find_kid c kids) as [n|] eqn:Ek; [|left; destruct Ho as [<-|[]]; reflexivity].
    destruct (find_kid_In _ _ _ Ek) as [Hin Hname]. right. exists kids. split; [reflexivity|]. exists n. auto.
Qed.

Lemma enter_inv f here rest trav n o : In o (enter f here rest trav n) ->
  if node_is_symlink n then
    o = mkc ((here ++ [node_name n]) :: trav) Failed \/
    exists f', f = S f' /\
      In o (cresolve gmatch view f' (if is_abs (node_link n) then [] else here)
                     (lit (comps (node_link n)) ++ rest) ((here ++ [node_name n]) :: trav))
  else In o (cresolve gmatch view f (here ++ [node_name n]) rest trav).
Proof.
  unfold enter. cbv zeta. destruct (node_is_symlink n); [|auto].
  destruct f as [|f']; [intros [<-|[]]; left; reflexivity|].
  destruct (is_nil (node_link n)); [intros [<-|[]]; left; reflexivity|right; eauto].
Qed.

Lemma map_fst_lit cs : map fst (lit cs) = cs.
Proof. unfold lit. rewrite map_map. cbn [fst]. apply map_id. Qed.

(* a todo list whose flagged components are not patterns resolves like its literal reading *)
Definition flags_ok (todo : list (bytes * bool)) : Prop :=
  Forall (fun cg => snd cg = true -> contains_wildcards (fst cg) = false) todo.

Lemma flags_ok_lit cs : flags_ok (lit cs).
Proof. unfold flags_ok, lit. apply Forall_forall. intros x Hx. apply in_map_iff in Hx. destruct Hx as (c & <- & _). simpl. discriminate. Qed.

Lemma cresolve_literal : forall f todo here trav, flags_ok todo ->
  cresolve gmatch view f here todo trav = [cres1 f here (map fst todo) trav].
Proof.
  induction f as [f IHf] using lt_wf_ind. induction todo as [|[c g] rest IH]; intros here trav Hok.
  - rewrite cresolve_eq, cres1_eq. reflexivity.
  - rewrite cresolve_eq, cres1_eq. cbn [map fst]. inversion Hok as [|? ? Hc Hrest]; subst. simpl in Hc.
    destruct (dir_at view here) as [kids|]; [|reflexivity].
    destruct (is_triv c); [apply IH; auto|]. destruct (is_dotdot c); [apply IH; auto|].
    assert (Eg : g && contains_wildcards c = false).
    { destruct g; [rewrite Hc by reflexivity|]; reflexivity. }
    rewrite Eg. destruct (find_kid c kids) as [n|]; [|reflexivity]. unfold enter. cbv zeta.
    destruct (node_is_symlink n); [|apply IH; auto].
    destruct f as [|f']; [reflexivity|]. destruct (is_nil (node_link n)); [reflexivity|].
    rewrite (IHf f'); [|lia|apply Forall_app; split; [apply flags_ok_lit|exact Hrest]].
    rewrite map_app, map_fst_lit. reflexivity.
Qed.

Definition refines (a b : cres) : Prop :=
  incl (traversed a) (traversed b) /\ (final a = Failed \/ final a = final b).
Lemma refines_refl a : refines a a.
Proof. split; [apply incl_refl|right; reflexivity]. Qed.
Lemma refines_trans a b c : refines a b -> refines b c -> refines a c.
Proof.
  intros [A1 A2] [B1 B2]. split; [eapply incl_tran; eauto|].
  destruct A2 as [A2|A2]; [left; auto|]. rewrite A2. exact B2.
Qed.

Inductive droptI : list item -> list item -> Prop :=
| droptI_nil : droptI [] []
| droptI_keep x a b : droptI a b -> droptI (x :: a) (x :: b)
| droptI_drop x a b : is_triv (fst x) = true -> droptI a b -> droptI (x :: a) b.

Lemma droptI_refl a : droptI a a.
Proof. induction a; constructor; auto. Qed.
Lemma droptI_app_l x a b : droptI a b -> droptI (x ++ a) (x ++ b).
Proof. induction x; simpl; [auto|constructor; auto]. Qed.
Lemma droptI_app_r a b x : droptI a b -> droptI (a ++ x) (b ++ x).
Proof. induction 1; simpl; [apply droptI_refl|constructor; auto|apply droptI_drop; auto]. Qed.
Lemma droptI_filter a : droptI a (filter (fun it : item => negb (is_triv (fst it))) a).
Proof.
  induction a as [|x a IH]; simpl; [constructor|].
  destruct (is_triv (fst x)) eqn:E; simpl; [apply droptI_drop; auto|constructor; auto].
Qed.

Lemma refined_refl (A : list cres) : forall o, In o A -> exists o', In o' A /\ refines o o'.
Proof. intros o Ho. exists o. split; [exact Ho|apply refines_refl]. Qed.

(* every outcome with the items is refined by one without them *)
Lemma cresolve_dropt : forall f a b, droptI a b -> forall here trav o,
  In o (cresolve gmatch view f here a trav) ->
  exists o', In o' (cresolve gmatch view f here b trav) /\ refines o o'.
Proof.
  induction f as [f IHf] using lt_wf_ind. induction 1 as [|[c g] a b Hab IH|[c g] a b Hc Hab IH]; intros here trav.
  - apply refined_refl.
  - rewrite (cresolve_eq f here ((c, g) :: a)), (cresolve_eq f here ((c, g) :: b)).
    destruct (dir_at view here) as [kids|]; [|apply refined_refl].
    assert (Henter : forall n o, In o (enter f here a trav n) -> exists o', In o' (enter f here b trav n) /\ refines o o').
    { intros n. unfold enter. destruct (node_is_symlink n); [|apply IH].
      destruct f as [|f']; [apply refined_refl|]. destruct (is_nil (node_link n)); [apply refined_refl|].
      apply IHf; [lia|]. apply droptI_app_l. exact Hab. }
    destruct (is_triv c); [apply IH|]. destruct (is_dotdot c); [apply IH|].
    destruct (g && contains_wildcards c).
    + intros o Ho. apply in_flat_map in Ho. destruct Ho as (n & Hn & Hon).
      destruct (gmatch c (node_name n)) eqn:Eg; [|destruct Hon].
      destruct (Henter n o Hon) as (o' & Ho' & R). exists o'. split; [|exact R].
      apply in_flat_map. exists n. split; [exact Hn|]. rewrite Eg. exact Ho'.
    + destruct (find_kid c kids) as [n|]; [apply Henter|apply refined_refl].
  - cbn [fst] in Hc. rewrite (cresolve_eq f here ((c, g) :: a)).
    destruct (dir_at view here) as [kids|] eqn:Ed.
    + rewrite Hc. apply IH.
    + rewrite (cresolve_nodir f here b trav Ed). intros o [<-|[]].
      eexists. split; [left; reflexivity|]. split; [apply incl_refl|left; reflexivity].
Qed.


Lemma dir_at_app kids a b :
  dir_at kids (a ++ b) = match dir_at kids a with Some k => dir_at k b | None => None end.
Proof.
  revert kids; induction a as [|c a IH]; intros kids; [reflexivity|]. simpl.
  destruct (find_kid c kids) as [n|]; [|reflexivity]. destruct (node_is_dir n); [apply IH|reflexivity].
Qed.

(* what a walk of cur/c reports is the entry found in the directory cur *)
Lemma lookup_dir_at kids cur c ks :
  dir_at kids cur = Some ks -> lookup kids (cur ++ [c]) = find_kid c ks.
Proof.
  revert kids; induction cur as [|d cur IH]; intros kids H.
  - simpl in H. inversion H; subst. simpl. destruct (find_kid c ks); reflexivity.
  - simpl in H. cbn [app lookup]. destruct (find_kid d kids) as [n|]; [|discriminate].
    destruct (node_is_dir n); [|discriminate]. rewrite (IH _ H).
    destruct (cur ++ [c]) eqn:E; [destruct cur; discriminate|reflexivity].
Qed.

End Phys.

Lemma normal_iff c : normal c <-> is_triv c = false /\ is_dotdot c = false.
Proof.
  unfold normal, is_triv, is_dotdot. rewrite orb_false_iff, !bytes_eqb_neq. tauto.
Qed.

Lemma wf_node_eq n :
  wf_node n = name_ok (node_name n) && (node_is_dir n || is_nil (node_kids n)) &&
              negb (node_is_dir n && node_is_symlink n) && names_distinct (map node_name (node_kids n)) &&
              forallb wf_node (node_kids n).
Proof. destruct n as [a s c kids]. reflexivity. Qed.

Lemma wf_find_kid c kids n : forallb wf_node kids = true -> find_kid c kids = Some n -> wf_node n = true.
Proof.
  intros H E. apply find_kid_In in E. destruct E as [Hin _]. rewrite forallb_forall in H. auto.
Qed.

(* what well-formedness says of an entry found by name *)
Lemma wf_find_kid_inv c kids n : forallb wf_node kids = true -> find_kid c kids = Some n ->
  name_ok c = true /\ names_distinct (map node_name (node_kids n)) = true /\ forallb wf_node (node_kids n) = true.
Proof.
  intros Hw E. pose proof (wf_find_kid _ _ _ Hw E) as Hn. apply find_kid_In in E. destruct E as [_ <-].
  rewrite wf_node_eq, !andb_true_iff in Hn. tauto.
Qed.

Lemma wf_dir_at kids h ks : forallb wf_node kids = true -> dir_at kids h = Some ks -> forallb wf_node ks = true.
Proof.
  revert kids; induction h as [|c h IH]; intros kids Hw H; simpl in H; [inversion H; subst; auto|].
  destruct (find_kid c kids) as [n|] eqn:E; [|discriminate]. destruct (node_is_dir n); [|discriminate].
  apply (IH (node_kids n)); auto. apply (wf_find_kid_inv c kids n Hw E).
Qed.

Lemma wf_dir_not_symlink n : wf_node n = true -> node_is_dir n = true -> node_is_symlink n = false.
Proof.
  intros Hw Hd. rewrite wf_node_eq in Hw. rewrite !andb_true_iff in Hw. destruct Hw as [[[_ H] _] _].
  rewrite Hd in H. simpl in H. destruct (node_is_symlink n); [discriminate|reflexivity].
Qed.

Lemma wf_view_forallb view : wf_view view = true -> forallb wf_node view = true.
Proof. unfold wf_view. intros H. apply andb_true_iff in H. tauto. Qed.

Section LexicalG.
Variable gmatch : bytes -> bytes -> bool.
Variable view : list node.
Hypothesis Hwf : forallb wf_node view = true.

Lemma norm_clamp_app_base base cs :
  Forall normal base -> norm_clamp (base ++ cs) = rev (fold_left (cstep true) cs (rev base)).
Proof.
  intros H. unfold norm_clamp. rewrite fold_left_app, (fold_cstep_normal true base [] H), app_nil_r. reflexivity.
Qed.

Lemma norm_clamp_normal_id cs : Forall normal cs -> norm_clamp cs = cs.
Proof.
  intros H. unfold norm_clamp. rewrite (fold_cstep_normal true cs [] H), app_nil_r. apply rev_involutive.
Qed.

Lemma cstep_triv r stk c : is_triv c = true -> cstep r stk c = stk.
Proof. intros H. unfold cstep. unfold is_triv in H. rewrite H. reflexivity. Qed.

Lemma removelast_rev (base : list bytes) : rev (removelast base) = tl (rev base).
Proof.
  destruct base as [|x base] using rev_ind; [reflexivity|].
  rewrite removelast_last, rev_app_distr. reflexivity.
Qed.

Lemma cstep_dotdot_eq (stk : list bytes) :
  cstep true stk s_dotdot =
  match stk with [] => [] | t :: r => if bytes_eqb t s_dotdot then s_dotdot :: stk else r end.
Proof. destruct stk; reflexivity. Qed.

Lemma cstep_dotdot base c :
  Forall normal base -> is_dotdot c = true -> cstep true (rev base) c = rev (removelast base).
Proof.
  intros Hn Hc. unfold is_dotdot in Hc. apply bytes_eqb_eq in Hc. subst c.
  rewrite removelast_rev, cstep_dotdot_eq.
  destruct (rev base) as [|t r] eqn:E; [reflexivity|].
  assert (Ht : normal t).
  { rewrite Forall_forall in Hn. apply Hn. apply in_rev. rewrite E. left; reflexivity. }
  destruct Ht as (_ & _ & Ht). apply bytes_eqb_neq in Ht. rewrite Ht. reflexivity.
Qed.

Lemma fold_cstep_nodotdot l stk :
  no_dotdot l = true ->
  fold_left (cstep true) l stk = rev (filter (fun c => negb (is_triv c)) l) ++ stk.
Proof.
  revert stk; induction l as [|c l IH]; intros stk H; [reflexivity|].
  simpl in H. apply andb_true_iff in H. destruct H as [Hc Hl]. apply negb_true_iff in Hc.
  cbn [fold_left filter]. destruct (is_triv c) eqn:Et; cbn [negb].
  - rewrite cstep_triv by auto. apply IH; auto.
  - rewrite cstep_normal by (apply normal_iff; auto). rewrite IH by auto.
    cbn [rev]. rewrite <- app_assoc. reflexivity.
Qed.

Lemma forall_removelast {A} (P : A -> Prop) (l : list A) : Forall P l -> Forall P (removelast l).
Proof.
  intros H. destruct l as [|x l] using rev_ind; [constructor|].
  rewrite removelast_last. apply Forall_app in H. tauto.
Qed.

Lemma dir_at_removelast base ks : dir_at view base = Some ks -> exists ks', dir_at view (removelast base) = Some ks'.
Proof.
  destruct base as [|x base] using rev_ind; [eauto|]. rewrite removelast_last, dir_at_app.
  destruct (dir_at view base) as [k|]; [eauto|discriminate].
Qed.

(* walking again from the root through real directories *)
Lemma cresolve_rewalk : forall b h X f trav ks,
  dir_at view (h ++ b) = Some ks -> Forall normal b ->
  cresolve gmatch view f h (lit b ++ X) trav = cresolve gmatch view f (h ++ b) X trav.
Proof.
  induction b as [|c b IH]; intros h X f trav ks Hd Hn; [rewrite app_nil_r; reflexivity|].
  inversion Hn as [|? ? Hc Hb]; subst. apply normal_iff in Hc. destruct Hc as [Ht Hdd].
  cbn [lit map app]. rewrite cresolve_eq. rewrite dir_at_app in Hd.
  destruct (dir_at view h) as [kids0|] eqn:Eh; [|discriminate]. simpl in Hd.
  destruct (find_kid c kids0) as [n|] eqn:Ek; [|discriminate].
  destruct (node_is_dir n) eqn:Edir; [|discriminate].
  rewrite Ht, Hdd. cbn [andb]. unfold enter.
  assert (Hns : node_is_symlink n = false).
  { apply wf_dir_not_symlink; auto.
    apply (wf_find_kid c kids0 n); [apply (wf_dir_at view h kids0 Hwf Eh)|exact Ek]. }
  rewrite Hns. destruct (find_kid_In _ _ _ Ek) as [_ Hname]. rewrite Hname.
  replace (h ++ c :: b) with ((h ++ [c]) ++ b) by (rewrite <- app_assoc; reflexivity).
  apply (IH (h ++ [c]) X f trav ks); auto.
  rewrite <- app_assoc. cbn [app]. rewrite dir_at_app, Eh. simpl. rewrite Ek, Edir. exact Hd.
Qed.

(* the cleaned todo list, flags kept *)
Fixpoint normI (base : list bytes) (cs : list item) : list item :=
  match cs with
  | [] => lit base
  | x :: cs' =>
    if is_dotdot (fst x) then normI (removelast base) cs'
    else if is_triv (fst x) then normI base cs'
    else lit base ++ filter (fun it : item => negb (is_triv (fst it))) cs
  end.

Lemma normI_fst : forall cs base, Forall normal base -> leading_dotdot_only (map fst cs) = true ->
  map fst (normI base cs) = norm_clamp (base ++ map fst cs).
Proof.
  induction cs as [|[c g] cs IH]; intros base Hn Hl.
  - cbn [normI map]. rewrite app_nil_r, map_fst_lit. symmetry. apply norm_clamp_normal_id. exact Hn.
  - cbn [map fst leading_dotdot_only] in Hl. cbn [normI fst map].
    destruct (is_dotdot c) eqn:Edd; [|destruct (is_triv c) eqn:Et]; cbn [orb] in Hl.
    + rewrite IH by (auto; apply forall_removelast; auto).
      rewrite !norm_clamp_app_base by (auto; apply forall_removelast; auto).
      cbn [fold_left]. rewrite cstep_dotdot by auto. reflexivity.
    + rewrite IH by auto. rewrite !norm_clamp_app_base by auto. cbn [fold_left].
      rewrite cstep_triv by auto. reflexivity.
    + assert (Hnd : no_dotdot (c :: map fst cs) = true) by (cbn [no_dotdot]; rewrite Edd; exact Hl).
      rewrite norm_clamp_app_base by auto. rewrite fold_cstep_nodotdot by auto.
      rewrite rev_app_distr, !rev_involutive. rewrite map_app, map_fst_lit. f_equal.
      change (c :: map fst cs) with (map fst ((c, g) :: cs)).
      generalize ((c, g) :: cs). intros l. induction l as [|[c1 g1] l IHl]; [reflexivity|].
      cbn [map fst filter]. destruct (is_triv c1); cbn [negb map fst]; rewrite IHl; reflexivity.
Qed.

(* Link targets and requests whose ".." form a leading run: every outcome of resolving cs from
   the real directory [base] is refined by one of resolving the cleaned path from the root. *)
Lemma cresolve_lexical : forall cs base f rest trav ks,
  dir_at view base = Some ks -> Forall normal base -> leading_dotdot_only (map fst cs) = true ->
  forall o, In o (cresolve gmatch view f base (cs ++ rest) trav) ->
  exists o', In o' (cresolve gmatch view f [] (normI base cs ++ rest) trav) /\ refines o o'.
Proof.
  induction cs as [|[c g] cs IH]; intros base f rest trav ks Hd Hn Hl.
  - cbn [normI]. rewrite (cresolve_rewalk base [] rest f trav ks) by auto. apply refined_refl.
  - cbn [map fst leading_dotdot_only] in Hl. cbn [normI fst].
    destruct (is_dotdot c) eqn:Edd; [|destruct (is_triv c) eqn:Et]; cbn [orb] in Hl.
    + assert (Et : is_triv c = false).
      { unfold is_dotdot in Edd. apply bytes_eqb_eq in Edd. subst c. reflexivity. }
      cbn [app]. rewrite (cresolve_eq gmatch view f base ((c, g) :: cs ++ rest)), Hd, Et, Edd.
      destruct (dir_at_removelast base ks Hd) as [ks' Hd'].
      apply (IH (removelast base) f rest trav ks'); auto. apply forall_removelast; auto.
    + cbn [app]. rewrite (cresolve_eq gmatch view f base ((c, g) :: cs ++ rest)), Hd, Et.
      apply (IH base f rest trav ks); auto.
    + rewrite <- app_assoc. rewrite (cresolve_rewalk base [] _ f trav ks) by auto. cbn [app].
      apply cresolve_dropt. apply (droptI_app_r ((c, g) :: cs) _ rest). apply droptI_filter.
Qed.


Lemma normI_forall (Qb : bytes -> Prop) (Q : item -> Prop) : (forall c, Qb c -> Q (c, false)) ->
  forall cs base, Forall Qb base -> Forall Q cs -> Forall Q (normI base cs).
Proof.
  intros HQ. assert (Hlit : forall b, Forall Qb b -> Forall Q (lit b)).
  { intros b Hb. unfold lit. apply Forall_forall. intros x Hx. apply in_map_iff in Hx.
    destruct Hx as (c & <- & Hc). rewrite Forall_forall in Hb. auto. }
  induction cs as [|x cs IH]; intros base Hb Hc; [apply Hlit; exact Hb|].
  cbn [normI]. inversion Hc; subst.
  destruct (is_dotdot (fst x)); [apply IH; auto; apply forall_removelast; exact Hb|].
  destruct (is_triv (fst x)); [apply IH; auto|].
  apply Forall_app. split; [apply Hlit; exact Hb|]. rewrite Forall_forall in *. intros y Hy. apply filter_In in Hy. apply Hc. tauto.
Qed.

End LexicalG.

Section Lexical.
Variable view : list node.
Hypothesis Hwf : forallb wf_node view = true.

(* the single-outcome resolver is [cresolve] on literal items, whatever the matcher *)
Lemma cres1_lexical : forall cs base f rest trav ks,
  dir_at view base = Some ks -> Forall normal base -> leading_dotdot_only cs = true ->
  refines (cres1 view f base (cs ++ rest) trav)
          (cres1 view f [] (norm_clamp (base ++ cs) ++ rest) trav).
Proof.
  intros cs base f rest trav ks Hd Hn Hl. set (gm := fun _ _ : bytes => false).
  pose proof (cresolve_lexical gm view Hwf (lit cs) base f (lit rest) trav ks Hd Hn) as H.
  rewrite map_fst_lit in H.
  assert (Hf : flags_ok (normI base (lit cs))).
  { apply (normI_forall (fun _ => True)); [intros c _ E; discriminate E|apply Forall_forall; auto|apply flags_ok_lit]. }
  rewrite !(cresolve_literal gm view) in H by (apply Forall_app; split; solve [exact Hf|apply flags_ok_lit]).
  rewrite !map_app, !map_fst_lit, (normI_fst (lit cs) base Hn), map_fst_lit in H by (rewrite map_fst_lit; exact Hl). destruct (H Hl _ (or_introl eq_refl)) as (o' & [<-|[]] & R). exact R.
Qed.

End Lexical.

Lemma fold_cstep_normal_inv cs stk :
  Forall normal stk -> Forall normal (fold_left (cstep true) cs stk).
Proof.
  revert stk; induction cs as [|c cs IH]; intros stk H; [exact H|]. cbn [fold_left]. apply IH.
  destruct (is_triv c) eqn:Et; [rewrite cstep_triv by auto; exact H|].
  destruct (is_dotdot c) eqn:Ed.
  - unfold is_dotdot in Ed. apply bytes_eqb_eq in Ed. subst c. rewrite cstep_dotdot_eq.
    destruct stk as [|t r]; [constructor|]. inversion H as [|? ? Ht Hr]; subst.
    destruct Ht as (_ & _ & Ht). apply bytes_eqb_neq in Ht. rewrite Ht. exact Hr.
  - rewrite cstep_normal by (apply normal_iff; auto). constructor; auto. apply normal_iff; auto.
Qed.

Lemma norm_clamp_normal cs : Forall normal (norm_clamp cs).
Proof. unfold norm_clamp. apply Forall_rev. apply fold_cstep_normal_inv. constructor. Qed.

(* an expansion has called append on target ++ rest itself: targets are clean already *)
Lemma expanded_call gmatch view F cur c rest t :
  ExpOk gmatch view F (cur, c, rest) -> In t (read_symlink gmatch view cur c) -> Forall normal rest ->
  In (t ++ rest) (g_calls F).
Proof.
  intros Hok Ht Hr. specialize (Hok t Ht). rewrite norm_clamp_normal_id in Hok; [exact Hok|].
  apply Forall_app. split; [|exact Hr]. destruct (read_symlink_In _ _ _ _ _ Ht) as (name & n & _ & ->).
  apply norm_clamp_normal.
Qed.

(* The calls of append are the least set that holds the requests and, with cur/c/rest and a
   target t of cur/c, holds t/rest; every resolved key is "." or names a non-empty prefix of a
   call.  So a property [P] of paths that the requests have and expansion keeps holds of every call. *)
Section CallShape.
Variable gmatch : bytes -> bytes -> bool.
Variable view : list node.
Variable P : list bytes -> Prop.
Hypothesis P_exp : forall cur c rest t,
  P (cur ++ c :: rest) -> In t (read_symlink gmatch view cur c) -> P (norm_clamp (t ++ rest)).

Definition pkey (k : bytes) : Prop := k = s_dot \/ exists a c b, P (a ++ c :: b) /\ k = key (a ++ [c]).
Definition shaped (st : fstate) : Prop := Forall P (g_calls st) /\ Forall pkey (resolved st).

Lemma shaped_add_resolved k st : pkey k -> shaped st -> shaped (add_resolved k st).
Proof. intros Hk [Hc Hr]. split; [exact Hc|constructor; assumption]. Qed.
Lemma shaped_add_call p st : P p -> shaped st -> shaped (add_call p st).
Proof. intros Hp [Hc Hr]. split; [constructor; assumption|exact Hr]. Qed.

Definition shape_rec (rec : rec_t) : Prop :=
  forall st p st', P p -> shaped st -> rec st p = Ok st' -> shaped st'.

Lemma each_target_shape rec rest ts : shape_rec rec -> (forall t, In t ts -> P (norm_clamp (t ++ rest))) ->
  forall st st', shaped st -> each_target rec rest ts st = Ok st' -> shaped st'.
Proof.
  intros Hrec. induction ts as [|t ts IH]; intros Hts st st' Hs H; simpl in H; [inversion H; subst; exact Hs|].
  destruct (rec st (norm_clamp (t ++ rest))) as [st1|] eqn:E; [|discriminate].
  apply (IH (fun t0 Ht0 => Hts t0 (or_intror Ht0)) st1 st'); [|exact H].
  apply (Hrec _ _ _ (Hts t (or_introl eq_refl)) Hs E).
Qed.

Lemma loop_shape rec : shape_rec rec -> forall p cur st st', P (cur ++ p) -> shaped st ->
  loop gmatch view rec cur p st = Ok st' -> shaped st'.
Proof.
  intros Hrec. induction p as [|c rest IH]; intros cur st st' HP Hs H; [inversion H; subst; exact Hs|].
  assert (Hk : pkey (key (cur ++ [c]))) by (right; exists cur, c, rest; auto).
  rewrite loop_cons in H. cbv zeta in H. pose proof (P_exp cur c rest) as Hts.
  destruct (read_symlink gmatch view cur c) as [|t ts].
  - destruct rest.
    + inversion H; subst. destruct (mem _ (resolved st)); [exact Hs|apply shaped_add_resolved; assumption].
    + apply (IH (cur ++ [c]) st st'); [rewrite <- app_assoc; exact HP|exact Hs|exact H].
  - destruct (mem _ (resolved st)).
    + inversion H; subst. unfold note_revisit. destruct (_ && _); exact Hs.
    + refine (each_target_shape rec rest _ Hrec (fun t0 => Hts t0 HP) _ _ _ H).
      exact (shaped_add_resolved (key (cur ++ [c])) st Hk Hs).
Qed.

Lemma append_shape fuel : shape_rec (append gmatch view fuel).
Proof.
  induction fuel as [|f IH]; intros st p st' Hp Hs H; [discriminate|]. cbn [append] in H.
  apply (shaped_add_call p) in Hs; [|exact Hp]. destruct p as [|c r]; [|exact (loop_shape _ IH _ [] _ _ Hp Hs H)].
  inversion H; subst. destruct (mem s_dot _); [exact Hs|apply shaped_add_resolved; [left; reflexivity|exact Hs]].
Qed.

Lemma follow_state_shape fuel reqs st : (forall r, In r reqs -> P (norm_clamp (comps r))) ->
  follow_state gmatch view fuel reqs = Ok st ->
  (forall q, In q (g_calls st) -> P q) /\ (forall k, In k (resolved st) -> pkey k).
Proof.
  intros Hreqs. unfold follow_state. rewrite follow_reqs_each_target, <- !Forall_forall.
  apply (each_target_shape _ [] _ (append_shape fuel)); [|split; constructor].
  intros t Ht. apply in_map_iff in Ht. destruct Ht as (r & <- & Hr). rewrite app_nil_r. apply Hreqs, Hr.
Qed.

End CallShape.

Section Shape.
Variable gmatch : bytes -> bytes -> bool.
Variable view : list node.
Variable reqs : list bytes.

Definition PCN (cs : list bytes) : Prop :=
  Forall (fun c => In c (comp_pool view reqs) /\ normal c) cs.

Lemma PCN_split cs : PCN cs <-> PC view reqs cs /\ Forall normal cs.
Proof.
  unfold PCN, PC. rewrite !Forall_forall. split.
  - intros H. split; intros c Hc; apply (H c Hc).
  - intros [H1 H2] c Hc. split; auto.
Qed.

Lemma PCN_app a b : PCN a -> PCN b -> PCN (a ++ b).
Proof. intros. apply Forall_app. split; auto. Qed.

Lemma norm_clamp_PCN cs : PC view reqs cs -> PCN (norm_clamp cs).
Proof. intros H. apply PCN_split. split; [apply norm_clamp_forall; exact H|apply norm_clamp_normal]. Qed.

Lemma read_symlink_PCN dirc c : PCN dirc -> Forall PCN (read_symlink gmatch view dirc c).
Proof.
  intros H. apply PCN_split in H. destruct H as [H _].
  pose proof (read_symlink_PC gmatch view reqs dirc c H) as Hpc.
  rewrite Forall_forall in Hpc |- *. intros t Ht. apply PCN_split. split; [apply Hpc; auto|].
  destruct (read_symlink_In _ _ _ _ _ Ht) as (name & n & _ & ->). apply norm_clamp_normal.
Qed.

Lemma reqs_PCN r : In r reqs -> PCN (norm_clamp (comps r)).
Proof.
  intros Hr. apply norm_clamp_PCN. apply Forall_forall. intros c. apply pool_req. exact Hr.
Qed.

Lemma expansion_PCN cur c rest t :
  PCN (cur ++ c :: rest) -> In t (read_symlink gmatch view cur c) -> PCN (norm_clamp (t ++ rest)).
Proof.
  intros H Ht. apply Forall_app in H. destruct H as [Hcur Hrest]. inversion Hrest; subst.
  pose proof (read_symlink_PCN cur c Hcur) as Hts. rewrite Forall_forall in Hts.
  apply norm_clamp_PCN. apply PCN_split. apply PCN_app; auto.
Qed.

Definition goodkey (k : bytes) : Prop := k = s_dot \/ exists cs, cs <> [] /\ PCN cs /\ k = joinc cs.

Lemma final_state_shape fuel st :
  follow_state gmatch view fuel reqs = Ok st ->
  (forall q, In q (g_calls st) -> PCN q) /\ (forall k, In k (resolved st) -> goodkey k).
Proof.
  intros H. destruct (follow_state_shape gmatch view PCN expansion_PCN fuel reqs st reqs_PCN H) as [Hc Hk].
  split; [exact Hc|]. intros k Hin. destruct (Hk k Hin) as [->|(a & c & b & HP & ->)]; [left; reflexivity|right].
  exists (a ++ [c]). split; [destruct a; discriminate|]. split; [|destruct a; reflexivity].
  apply Forall_app in HP. destruct HP as [Ha Hcb]. inversion Hcb; subst. apply PCN_app; auto. constructor; auto.
Qed.

End Shape.

(* What is shown of an outcome, for a notion [cov] of "at or below a resolved key": the links
   traversed beyond [trav] and the entry reached are covered; the root is reached only if "." was resolved. *)
Section Post.
Variable F : fstate.
Variable cov : list bytes -> Prop.

Definition post_of (trav : list (list bytes)) (r : cres) : Prop :=
  (forall x, In x (traversed r) -> In x trav \/ cov x) /\
  match final r with
  | Reached [] => mem s_dot (resolved F) = true
  | Reached y => cov y
  | Failed => True
  end.

Lemma post_refines trav a b : refines a b -> post_of trav b -> post_of trav a.
Proof.
  intros [R1 R2] [P1 P2]. split; [intros x Hx; apply P1; apply R1; exact Hx|].
  destruct R2 as [R2|R2]; rewrite R2; [exact I|exact P2].
Qed.

Lemma post_weaken x trav r : cov x -> post_of (x :: trav) r -> post_of trav r.
Proof.
  intros Hx [P1 P2]. split; [|exact P2]. intros y Hy. destruct (P1 y Hy) as [[<-|H]|H]; auto.
Qed.

Lemma post_failed trav : post_of trav (mkc trav Failed).
Proof. split; [intros x Hx; left; exact Hx|exact I]. Qed.

Lemma post_entered x trav : cov x -> post_of trav (mkc (x :: trav) Failed).
Proof. intros Hx. apply (post_weaken x); [exact Hx|apply post_failed]. Qed.

Lemma post_reached trav y : y <> [] -> cov y -> post_of trav (mkc trav (Reached y)).
Proof.
  intros Hne Hc. split; [intros x Hx; left; exact Hx|]. cbn [final mkc].
  destruct y; [congruence|exact Hc].
Qed.

(* ... which is what the executable specification asks of it *)
Lemma post_closed_for gmatch res o :
  (forall y, cov y -> covered gmatch res y = true) -> finish F = Some res ->
  post_of [] o -> closed_for gmatch false res o = true.
Proof.
  intros Hcov Hfin [P1 P2]. unfold closed_for. apply andb_true_iff. split.
  - apply forallb_forall. intros x Hx. destruct (P1 x Hx) as [[]|Hc]. apply Hcov. exact Hc.
  - destruct (final o) as [[|y0 ys]|]; [|apply Hcov; exact P2|reflexivity].
    destruct (finish_some_nodot F res Hfin). apply mem_In. exact P2.
Qed.

End Post.

Section Main.
Variable gmatch : bytes -> bytes -> bool.
Variable view : list node.
Variable reqs : list bytes.
Variable F : fstate.
Hypothesis Hwf : forallb wf_node view = true.
Hypothesis HW : forall q, In q (g_calls F) -> Walked gmatch view F q.
Hypothesis HE : forall e, In e (g_expanded F) -> ExpOk gmatch view F e.
Hypothesis HR : g_revisit F = [].
Hypothesis HC : forall q, In q (g_calls F) -> PCN view reqs q.
Hypothesis Hlex : forall l, In l (forest_links view) -> leading_dotdot_only (comps l) = true.
Hypothesis Hlit : forall c, In c (comp_pool view reqs) -> contains_wildcards c = false.

(* [y] is, or lies below, a resolved key *)
Definition covR (y : list bytes) : Prop :=
  exists y' z, y = y' ++ z /\ y' <> [] /\ PCN view reqs y' /\ mem (key y') (resolved F) = true.

Definition post (trav : list (list bytes)) (r : cres) : Prop :=
  (forall x, In x (traversed r) -> In x trav \/ covR x) /\
  match final r with
  | Reached [] => mem s_dot (resolved F) = true
  | Reached y => covR y
  | Failed => True
  end.

Lemma PCN_normal cs : PCN view reqs cs -> Forall normal cs.
Proof. intros H. apply PCN_split in H. tauto. Qed.

Lemma inner : forall f,
  (forall f', (f' < f)%nat -> forall q trav, In q (g_calls F) -> post trav (cres1 view f' [] q trav)) ->
  forall rest cur trav, PCN view reqs cur -> PCN view reqs rest -> rest <> [] ->
    walk_ok gmatch view F cur rest -> post trav (cres1 view f cur rest trav).
Proof.
  intros f IHf. induction rest as [|c rest IH]; intros cur trav Hcur Hrest Hne Hwalk; [congruence|].
  inversion Hrest as [|? ? [Hcp Hcn] Hrest']; subst.
  rewrite cres1_eq. destruct (dir_at view cur) as [kids|] eqn:Ed; [|apply (post_failed F covR)].
  apply normal_iff in Hcn. destruct Hcn as [Et Edd]. rewrite Et, Edd.
  destruct (find_kid c kids) as [n|] eqn:Ek; [|apply (post_failed F covR)]. cbv zeta.
  destruct (find_kid_In _ _ _ Ek) as [_ Hname]. rewrite Hname.
  assert (Hlk : lookup view (cur ++ [c]) = Some n) by (rewrite (lookup_dir_at view cur c kids Ed); exact Ek).
  assert (Hrs : read_symlink gmatch view cur c =
                if node_is_symlink n then [link_target cur (node_link n)] else []).
  { unfold read_symlink. rewrite (Hlit c Hcp). unfold read_symlink1, stat_node. rewrite Hlk. reflexivity. }
  assert (Hcur' : PCN view reqs (cur ++ [c])).
  { apply PCN_app; auto. constructor; [|constructor]. split; auto. apply normal_iff; auto. }
  assert (Hne' : cur ++ [c] <> []) by (destruct cur; discriminate).
  assert (Hcov : mem (key (cur ++ [c])) (resolved F) = true -> covR (cur ++ [c])).
  { intros Hm. exists (cur ++ [c]), []. rewrite app_nil_r. auto. }
  cbn [walk_ok] in Hwalk. rewrite Hrs in Hwalk.
  destruct (node_is_symlink n) eqn:Es; cbn [is_nil negb] in Hwalk.
  - destruct Hwalk as [Hm [Hexp|Hrev]]; [|rewrite HR in Hrev; destruct Hrev]. apply Hcov in Hm.
    destruct f as [|f']; [exact (post_entered F covR _ trav Hm)|].
    destruct (is_nil (node_link n)); [exact (post_entered F covR _ trav Hm)|].
    set (l := node_link n) in *. set (base := if is_abs l then [] else cur).
    apply (post_weaken F covR (cur ++ [c])); [exact Hm|].
    assert (Hbase : exists ks, dir_at view base = Some ks /\ Forall normal base).
    { unfold base. destruct (is_abs l); [exists view; split; [reflexivity|constructor]|].
      exists kids. split; [exact Ed|apply PCN_normal; exact Hcur]. }
    destruct Hbase as (ks & Hbd & Hbn).
    assert (Hll : leading_dotdot_only (comps l) = true) by (apply Hlex; eapply lookup_link; eauto).
    eapply (post_refines F covR); [apply (cres1_lexical view Hwf (comps l) base f' rest _ ks Hbd Hbn Hll)|].
    apply IHf; [lia|].
    eapply expanded_call; [apply (HE _ Hexp)|rewrite Hrs; left; reflexivity|apply PCN_normal; exact Hrest'].
  - destruct rest as [|c2 rest2]; cbn [is_nil] in Hwalk.
    + rewrite cres1_eq. apply (post_reached F covR); auto.
    + apply IH; auto. discriminate.
Qed.

Lemma main_lemma : forall f q trav, In q (g_calls F) -> post trav (cres1 view f [] q trav).
Proof.
  induction f as [f IHf] using lt_wf_ind. intros q trav Hq.
  destruct q as [|c r].
  - rewrite cres1_eq. split; [intros x Hx; left; exact Hx|]. exact (HW [] Hq).
  - apply (inner f IHf (c :: r) [] trav); [constructor|apply HC; exact Hq|discriminate|exact (HW _ Hq)].
Qed.

End Main.

Lemma inside_joinc a b :
  a <> [] -> Forall nosep a -> Forall nosep b -> inside (joinc a) (joinc b) = true -> exists w, b = a ++ w.
Proof.
  intros Hne Ha Hb H. apply inside_split in H. destruct H as [r Hr].
  assert (Hbne : b <> []).
  { intro; subst b. simpl in Hr. destruct (joinc a); discriminate. }
  exists (comps r). rewrite <- (comps_joinc b Hbne Hb), Hr. apply comps_joinc_app_sep; auto.
Qed.

Lemma pat_prefix_literal gmatch a z :
  (forall c, In c a -> contains_wildcards c = false) -> pat_prefix gmatch a (a ++ z) = true.
Proof.
  induction a as [|c a IH]; intros H; [reflexivity|]. cbn [app pat_prefix].
  rewrite (H c (or_introl eq_refl)), bytes_eqb_refl. apply IH. intros; apply H; right; auto.
Qed.

Lemma pool_nosep view reqs c : In c (comp_pool view reqs) -> nosep c.
Proof.
  intros H. apply pool_iff in H. destruct H as [(x & _ & Hx)|(x & _ & Hx)];
    pose proof (comps_all_nosep x) as Hall; rewrite Forall_forall in Hall; auto.
Qed.

Section Final.
Variable gmatch : bytes -> bytes -> bool.
Variable view : list node.
Variable reqs : list bytes.

Lemma PCN_nosep cs : PCN view reqs cs -> Forall nosep cs.
Proof. intros H. eapply Forall_impl; [|exact H]. intros c [Hc _]. eapply pool_nosep; eauto. Qed.

(* a resolved key has an element of the result as a prefix, component-wise *)
Lemma resolved_in_result F res e :
  (forall k, In k (resolved F) -> goodkey view reqs k) -> finish F = Some res ->
  e <> [] -> PCN view reqs e -> mem (key e) (resolved F) = true ->
  exists ecs w, In (joinc ecs) res /\ comps (joinc ecs) = ecs /\ PCN view reqs ecs /\ e = ecs ++ w.
Proof.
  intros Hgood Hfin Hne Hpcn Hm.
  assert (Hkey : key e = joinc e) by (destruct e; [congruence|reflexivity]).
  apply mem_In in Hm. destruct (finish_covers F res Hfin _ Hm) as (e' & He & Hc). rewrite Hkey in Hc.
  destruct Hc as [->|Hin].
  - exists e, []. rewrite app_nil_r. auto using comps_joinc, PCN_nosep.
  - pose proof (finish_subset F res Hfin e' He) as HeR.
    destruct (Hgood e' HeR) as [->|(ecs & Hene & Hepcn & ->)]; [destruct (finish_some_nodot F res Hfin HeR)|].
    destruct (inside_joinc ecs e Hene (PCN_nosep _ Hepcn) (PCN_nosep _ Hpcn) Hin) as [w ->].
    exists ecs, w. auto using comps_joinc, PCN_nosep.
Qed.

Lemma cov_covered F res y :
  (forall c, In c (comp_pool view reqs) -> contains_wildcards c = false) ->
  (forall k, In k (resolved F) -> goodkey view reqs k) ->
  finish F = Some res -> covR view reqs F y -> covered gmatch res y = true.
Proof.
  intros Hlit Hgood Hfin (y' & z & -> & Hne & Hpcn & Hm).
  destruct (resolved_in_result F res y' Hgood Hfin Hne Hpcn Hm) as (ecs & w & He & Hc & Hp & ->).
  unfold covered. apply existsb_exists. exists (joinc ecs). split; [exact He|].
  rewrite Hc, <- app_assoc. apply pat_prefix_literal. intros c Hin. apply Hlit.
  unfold PCN in Hp. rewrite Forall_forall in Hp. apply (Hp c Hin).
Qed.

Lemma literal_only_pool :
  literal_only view reqs = true -> forall c, In c (comp_pool view reqs) -> contains_wildcards c = false.
Proof.
  unfold literal_only, links_literal, literal_path. intros H c Hc. apply andb_true_iff in H. destruct H as [H1 H2].
  rewrite forallb_forall in H1, H2. apply negb_true_iff.
  apply pool_iff in Hc. destruct Hc as [(x & Hx & Hcx)|(x & Hx & Hcx)]; [pose proof (H1 x Hx) as Hx'|pose proof (H2 x Hx) as Hx'];
    rewrite forallb_forall in Hx'; apply Hx'; exact Hcx.
Qed.

(* NEVER [unfold chroot_resolve_all in H]: the kernel then re-checks the conversion with the
   resolver unfolded on 40 on one side only, which does not terminate in practice. *)
Lemma chroot_resolve_all_eq p :
  chroot_resolve_all gmatch view p = cresolve gmatch view 40 [] (map (fun c => (c, true)) (comps p)) [].
Proof. reflexivity. Qed.

(* The specification holds of the result when it holds of every outcome of every request, for
   ANY bound on the number of links followed by the independent resolver (kept abstract: the
   kernel must never unfold the resolver on 40). *)
Lemma closed_b_by_request (fuel : nat) (isnil : bool) (res : list bytes) :
  follow_links_opt gmatch view fuel reqs = Ok (if isnil then None else Some res) ->
  no_revisit gmatch view fuel reqs = true ->
  (forall follows F r, follow_state gmatch view fuel reqs = Ok F -> finish F = Some res -> g_revisit F = [] ->
     In r reqs -> forall o, In o (cresolve gmatch view follows [] (map (fun c => (c, true)) (comps r)) []) ->
     closed_for gmatch false res o = true) ->
  closed_b gmatch view isnil res reqs = true.
Proof.
  intros Hres Hnr Hreq.
  unfold closed_b. apply forallb_forall. intros r Hr. apply forallb_forall. intros o Ho.
  destruct isnil; [reflexivity|].
  unfold follow_links_opt in Hres. unfold no_revisit in Hnr.
  destruct (follow_state gmatch view fuel reqs) as [F|] eqn:EF; [|discriminate].
  inversion Hres as [Hfin]. clear Hres.
  assert (HR : g_revisit F = []) by (destruct (g_revisit F); [reflexivity|discriminate]).
  rewrite chroot_resolve_all_eq in Ho.
  exact (Hreq 40%nat F r eq_refl Hfin HR Hr o Ho).
Qed.

Theorem result_closed_partial_proof : forall (fuel : nat) (isnil : bool) (res : list bytes),
  wf_view view = true ->
  follow_links_opt gmatch view fuel reqs = Ok (if isnil then None else Some res) ->
  no_revisit gmatch view fuel reqs = true ->
  lexical_safe view reqs = true ->
  literal_only view reqs = true ->
  closed_b gmatch view isnil res reqs = true.
Proof.
  intros fuel isnil res Hwf Hres Hnr Hls Hlo. apply (closed_b_by_request fuel isnil res Hres Hnr).
  intros follows F r EF Hfin HR Hr o Ho.
  destruct (final_state_facts gmatch view fuel reqs F EF) as (Hreq & HW & HE).
  destruct (final_state_shape gmatch view reqs fuel F EF) as (HC & HK).
  pose proof (wf_view_forallb view Hwf) as Hwf'.
  pose proof (literal_only_pool Hlo) as Hlit.
  unfold lexical_safe in Hls. apply andb_true_iff in Hls. destruct Hls as [Hls1 Hls2].
  rewrite forallb_forall in Hls1, Hls2.
  (* the outcome is the literal resolution of the request *)
  assert (Hflags : flags_ok (map (fun c => (c, true)) (comps r))).
  { unfold flags_ok. apply Forall_forall. intros x Hx. apply in_map_iff in Hx. destruct Hx as (c & <- & Hc).
    intros _. cbn [fst]. apply Hlit. apply (pool_req view reqs r c Hr Hc). }
  rewrite (cresolve_literal gmatch view follows _ [] [] Hflags) in Ho.
  rewrite map_map in Ho. cbn [fst] in Ho. rewrite map_id in Ho. destruct Ho as [<-|[]].
  (* it asks for no more than resolving the cleaned request from the root *)
  pose proof (cres1_lexical view Hwf' (comps r) [] follows [] [] view eq_refl (Forall_nil _) (Hls1 r Hr)) as Href.
  rewrite !app_nil_r in Href. cbn [app] in Href.
  apply (post_closed_for F (covR view reqs F)); [intros y; apply cov_covered; assumption|exact Hfin|].
  apply (post_refines _ _ _ _ _ Href).
  exact (main_lemma gmatch view reqs F Hwf' HW HE HR HC Hls2 Hlit follows _ [] (Hreq r Hr)).
Qed.

End Final.
