(* C14 — each system call of the copier on a target path "<dstRoot>/cs/x", where cs are real
   directories ending in d: it keeps Ctx and every chain ending at or above d. *)
From Coq Require Import List NArith Lia Bool ZifyN ZifyNat ZifyBool.
From FS Require Import Sx Model.Path Model.Fs Model.RootPath Model.CopyFs Model.CopyFsSpec
  Proofs.Lex Proofs.PathP Proofs.FsP Proofs.RootPathStrP Proofs.FsCopyFrameP Proofs.FsCopyInvP
  Proofs.FsCopySafeP Proofs.FsCopyLinksP.
Import ListNotations.
Open Scope N_scope.
Open Scope bool_scope.

Section Sys.
  Variables (c : ctx) (f0 : fs) (dr : N) (dcs : list bytes).
  Notation Ctx := (Ctx c f0 dr dcs).
  Notation tpath := (tpath dcs).
  Notation SS := (SS f0 dr).
  Let b := f_next f0.

  (* a target: the current file system, the real-directory chain cs from dstRoot to d, the name x *)
  Record Tgt (f : fs) (cs : list bytes) (d : N) (x : bytes) : Prop := {
    tg_ctx : Ctx f;
    tg_chain : chain f dr cs d;
    tg_cs : Forall nm cs;
    tg_csnul : Forall nonul cs;
    tg_x : nm x;
    tg_xnul : nonul x
  }.

  Definition absent (f : fs) (d : N) (x : bytes) : Prop :=
    match blookup x (dents f d) with None => True | Some i => get f i = None end.

  Lemma tgt_resolve f cs d x fl : Tgt f cs d x -> chain_res f d x fl (resolve c f (tpath cs x) fl).
  Proof. intros T. apply (resolve_tpath_res c f0 dr dcs); apply T. Qed.

  Lemma tgt_resolve_nf f cs d x r : Tgt f cs d x -> resolve c f (tpath cs x) false = inl r ->
    l_dir r = d /\ l_name r = x /\ l_ino r = blookup x (dents f d).
  Proof.
    intros T H. pose proof (tgt_resolve f cs d x false T) as G. rewrite H in G.
    destruct G as [G|[G _]]; [exact G|discriminate].
  Qed.

  (* a following lookup of a name that is absent cannot meet a symlink there *)
  Lemma tgt_resolve_absent f cs d x r : Tgt f cs d x -> absent f d x -> resolve c f (tpath cs x) true = inl r ->
    l_dir r = d /\ l_name r = x /\ l_ino r = blookup x (dents f d).
  Proof.
    intros T Hab H. pose proof (tgt_resolve f cs d x true T) as G. rewrite H in G.
    destruct G as [G|(_ & i & Hb & Hl)]; [exact G|].
    unfold absent in Hab. rewrite Hb in Hab. unfold FsP.is_link in Hl. rewrite Hab in Hl. discriminate.
  Qed.

  Lemma tgt_inv f cs d x : Tgt f cs d x -> Inv f0 dr f.
  Proof. intros T. apply (cx_inv c f0 dr dcs f). apply T. Qed.

  Lemma tgt_okn f cs d x : Tgt f cs d x -> okn x.
  Proof. intros T. split; apply T. Qed.

  Lemma tgt_step f f' cs d x : Tgt f cs d x -> Ctx f' -> above d f f' -> Tgt f' cs d x.
  Proof.
    intros T C A. constructor; try apply T; auto.
    apply (A dr cs d []); [apply T|]. constructor. eapply chain_end_dir. apply T.
  Qed.

  Lemma tgt_dir f cs d x : Tgt f cs d x -> is_dir f d = true.
  Proof. intros T. eapply chain_end_dir. apply T. Qed.

  Lemma tgt_SS f cs d x : Tgt f cs d x -> SS d.
  Proof. intros T. eapply ctx_dir_SS; apply T. Qed.

  Lemma tgt_alloc f cs d x : Tgt f cs d x -> alloc_ok f.
  Proof. intros T. apply (inv_fresh f0 dr f). eapply tgt_inv; eauto. Qed.

  Lemma tgt_next f cs d x : Tgt f cs d x -> b <= f_next f.
  Proof. intros T. apply (inv_next f0 dr f). eapply tgt_inv; eauto. Qed.

  (* a change of the entries of d alone, with the invariant kept: in an acyclic file system it
     cannot touch a chain that ends at or above d *)
  Lemma tgt_change f f' cs d x : Tgt f cs d x -> Inv f0 dr f' ->
    (forall j, j <> d -> dents f' j = dents f j) -> (forall j, is_dir f j = true -> is_dir f' j = true) ->
    Ctx f' /\ above d f f'.
  Proof.
    intros T I' Hs Hd.
    assert (A : above d f f').
    { intros a p e q H1 H2. eapply chain_stable_below; eauto. eapply ctx_acyclic; apply T. }
    split; [|exact A]. constructor; try apply T; auto. apply (A (c_root c) dcs dr cs); apply T.
  Qed.

  Lemma t_lstat f cs d x : Tgt f cs d x ->
    match snd (sys_lstat c f (tpath cs x)) with
    | RStat i n => blookup x (dents f d) = Some i /\ get f i = Some n
    | RErr ENOENT => absent f d x
    | _ => True
    end.
  Proof.
    intros T. pose proof (tgt_resolve f cs d x false T) as G. unfold sys_lstat, resolve_ino.
    destruct (resolve c f (tpath cs x) false) as [r|e]; destruct G as [G|[G _]]; try discriminate.
    - destruct G as (_ & _ & H3). unfold absent. rewrite <- H3. destruct (l_ino r) as [i|]; simpl; auto.
      destruct (get f i) eqn:Eg; simpl; auto.
    - subst e. exact I.
  Qed.

  Definition outcome (res : result) (P : Prop) : Prop := (exists e, res = RErr e) \/ (res = ROk /\ P).

  Lemma outcome_impl res (P Q : Prop) : (P -> Q) -> outcome res P -> outcome res Q.
  Proof. intros H [O|[O HP]]; [left|right]; auto. Qed.

  Lemma t_failed f cs d x res P : Tgt f cs d x -> (exists e, res = RErr e) -> Ctx f /\ above d f f /\ outcome res P.
  Proof. intros T He. split; [apply T|]. split; [apply above_refl|left; exact He]. Qed.

  Notation keeps_new := (keeps_new dr b).

  (* what a call that only adds entries, or only removes the name x of d, leaves: [Ctx] and [above]
     with what the call reports (P), what persists ([grows] or [shrinks]), and the ghost invariant
     [keeps_new] *)
  Definition grown (d : N) (f f' : fs) (P : Prop) : Prop :=
    (Ctx f' /\ above d f f' /\ P) /\ grows f f' /\ keeps_new f f'.
  Definition shrunk (d : N) (x : bytes) (f f' : fs) (P : Prop) : Prop :=
    (Ctx f' /\ above d f f' /\ P) /\ keeps_new f f' /\ shrinks f f' d x.

  Lemma grown_impl d f f' (P Q : Prop) : (P -> Q) -> grown d f f' P -> grown d f f' Q.
  Proof. intros H ((C & A & HP) & GK). split; auto. Qed.

  Definition created (f f' : fs) (d : N) (x : bytes) (nw : N) : Prop :=
    nw = f_next f /\ b <= nw /\ blookup x (dents f' d) = Some nw /\ get f nw = None.

  Lemma t_create_at f cs d x r isdir k mode :
    Tgt f cs d x -> l_dir r = d -> l_name r = x -> blookup x (dents f d) = None -> leaf_kind k ->
    let f' := fst (create_at f r isdir k mode) in
    (Ctx f' /\ above d f f' /\ created f f' d x (f_next f) /\
     get f' (f_next f) = Some {| i_kind := k; i_meta := new_meta f d isdir mode |}) /\
    grows f f' /\ keeps_new f f'.
  Proof.
    intros T <- <- Hnone Hleaf f'.
    pose proof (tgt_alloc _ _ _ _ T) as Ha. pose proof (tgt_dir _ _ _ _ T) as Hd.
    pose proof (tgt_next _ _ _ _ T) as Hb. pose proof (dir_lt_next f r Ha Hd) as Hlt.
    assert (Hdents := fun j => create_at_dents f r isdir k mode Ha Hd j Hleaf). fold f' in Hdents.
    assert (G : grows f f') by (apply grows_create_at; auto).
    assert (CA : Ctx f' /\ above (l_dir r) f f').
    { apply (tgt_change f f' cs _ _ T); [|intros j Hj|apply G].
      - apply inv_create_at; eauto using tgt_inv, tgt_SS, tgt_okn.
      - rewrite Hdents. apply N.eqb_neq in Hj. rewrite Hj. reflexivity. }
    split; [|split; [exact G|apply kn_create_at; auto]].
    split; [apply CA|]. split; [apply CA|]. split; [|apply create_at_new; auto].
    split; [reflexivity|]. split; [exact Hb|]. split; [|apply Ha; lia].
    rewrite Hdents, N.eqb_refl, blookup_app, Hnone. simpl. rewrite bytes_eqb_refl. reflexivity.
  Qed.

  Lemma t_creation {f cs d x f' res isdir k mode} :
    Tgt f cs d x -> creation c f (tpath cs x) f' res isdir k mode -> (forall r, leaf_kind (k r)) ->
    grown d f f' (outcome res (created f f' d x (f_next f) /\
                  exists r, get f' (f_next f) = Some {| i_kind := k r; i_meta := new_meta f d isdir mode |})).
  Proof.
    intros T [[-> He]|(r & E & Hn & -> & ->)] Hleaf.
    - split; [exact (t_failed _ _ _ _ _ _ T He)|]. split; [apply grows_refl|apply keeps_new_refl].
    - destruct (tgt_resolve_nf f cs d x r T E) as (H1 & H2 & H3). rewrite Hn in H3.
      destruct (t_create_at f cs d x r isdir (k r) mode T H1 H2 (eq_sym H3) (Hleaf r)) as ((C' & A & Hc & Hg) & G & K).
      split; [|split; assumption]. do 2 (split; [assumption|]). right. eauto.
  Qed.

  Lemma t_mkdir f cs d x mode f' res : Tgt f cs d x -> sys_mkdir c f (tpath cs x) mode = (f', res) ->
    grown d f f' (outcome res (created f f' d x (f_next f) /\ is_dir f' (f_next f) = true)).
  Proof.
    intros T H. eapply grown_impl; [apply outcome_impl|exact (t_creation T (sys_mkdir_inv H) (fun _ => eq_refl))].
    intros (Hc & r & Hg). split; [exact Hc|]. unfold is_dir, dir_of. rewrite Hg. reflexivity.
  Qed.

  Lemma t_mknod f cs d x typ mode rdev f' res : Tgt f cs d x ->
    sys_mknod c f (tpath cs x) typ mode rdev = (f', res) ->
    grown d f f' (outcome res (created f f' d x (f_next f) /\ FsP.is_link f' (f_next f) = false)).
  Proof.
    intros T H. destruct (sys_mknod_inv H) as (a & b0 & Hcr).
    eapply grown_impl; [apply outcome_impl|exact (t_creation T Hcr (fun _ => I))].
    intros (Hc & r & Hg). split; [exact Hc|]. unfold FsP.is_link. rewrite Hg. reflexivity.
  Qed.

  Lemma t_mknod_reg f cs d x mode f' res : Tgt f cs d x ->
    sys_mknod_reg c f (tpath cs x) mode = (f', res) ->
    grown d f f' (outcome res (created f f' d x (f_next f) /\ FsP.is_link f' (f_next f) = false)).
  Proof.
    intros T H. eapply grown_impl; [apply outcome_impl|exact (t_creation T (sys_mknod_reg_inv H) (fun _ => I))].
    intros (Hc & r & Hg). split; [exact Hc|]. unfold FsP.is_link. rewrite Hg. reflexivity.
  Qed.

  Lemma t_symlink f cs d x t f' res : Tgt f cs d x ->
    sys_symlink c f t (tpath cs x) = (f', res) -> grown d f f' (outcome res (created f f' d x (f_next f))).
  Proof.
    intros T H. eapply grown_impl; [apply outcome_impl|exact (t_creation T (sys_symlink_inv H) (fun _ => I))].
    intros [Hc _]. exact Hc.
  Qed.

  (* open(O_CREAT) follows a final symlink: safe when the name is absent *)
  Lemma t_open f cs d x mode f' res : Tgt f cs d x -> absent f d x ->
    sys_open_wronly c f (tpath cs x) true mode = (f', res) ->
    grown d f f' (forall i, res = RFd i -> i = f_next f /\ created f f' d x i /\ FsP.is_link f' i = false /\
                               exists m, get f' i = Some {| i_kind := KFile []; i_meta := m |}).
  Proof.
    intros T Hab H.
    destruct (sys_open_wronly_inv H) as [[-> Hr]|[(r & i & dd & E & Hi & Hg & _ & -> & ->)|(r & E & Hn & _ & -> & ->)]].
    - split; [|split; [apply grows_refl|apply keeps_new_refl]].
      split; [apply T|]. split; [apply above_refl|]. intros i Hi. destruct (Hr i Hi).
    - exfalso. destruct (tgt_resolve_absent f cs d x r T Hab E) as (_ & _ & H3).
      unfold absent in Hab. rewrite <- H3, Hi in Hab. congruence.
    - destruct (tgt_resolve_absent f cs d x r T Hab E) as (K1 & K2 & K3). rewrite Hn in K3.
      destruct (t_create_at f cs d x r false (KFile []) (N.land mode perm_mask) T K1 K2 (eq_sym K3) I) as ((C' & A & Hc & Hg) & G).
      split; [|exact G]. do 2 (split; [assumption|]). intros i [= <-]. split; [reflexivity|]. split; [exact Hc|].
      split; [unfold FsP.is_link; rewrite Hg; reflexivity|eexists; exact Hg].
  Qed.

  Lemma t_del f cs d x : Tgt f cs d x ->
    let f' := del_ent f d x in
    (Ctx f' /\ above d f f' /\ blookup x (dents f' d) = None) /\ keeps_new f f' /\ shrinks f f' d x.
  Proof.
    intros T f'. pose proof (tgt_dir _ _ _ _ T) as Hd.
    pose proof (inv_nodup f0 dr f (tgt_inv _ _ _ _ T) d (tgt_SS _ _ _ _ T)) as Hn.
    assert (Hdents := fun j => del_ent_dents f d x j Hd). fold f' in Hdents.
    pose proof (shrinks_del_ent f d x Hn) as S.
    assert (CA : Ctx f' /\ above d f f').
    { apply (tgt_change f f' cs d x T); [|intros j Hj|apply S].
      - apply inv_del_ent; eauto using tgt_inv, tgt_SS.
      - rewrite Hdents. apply N.eqb_neq in Hj. rewrite Hj. reflexivity. }
    split; [|split; [apply kn_del_ent; exact Hn|exact S]].
    split; [apply CA|]. split; [apply CA|]. rewrite Hdents, N.eqb_refl. apply blookup_bremove_same, Hn.
  Qed.

  Lemma t_removal {f cs d x f' res Q} : Tgt f cs d x -> removal c f (tpath cs x) f' res Q ->
    shrunk d x f f' (outcome res (blookup x (dents f' d) = None)).
  Proof.
    intros T [[-> He]|(r & i & E & _ & _ & -> & ->)].
    - split; [exact (t_failed _ _ _ _ _ _ T He)|]. split; [apply keeps_new_refl|apply grows_shrinks, grows_refl].
    - destruct (tgt_resolve_nf f cs d x r T E) as (-> & -> & _).
      destruct (t_del f cs _ _ T) as ((C' & A & Hb) & KS). split; [|exact KS].
      do 2 (split; [assumption|]). right. auto.
  Qed.

  (* os.RemoveAll also succeeds when the name is not there *)
  Lemma t_remove_all f cs d x f' res : Tgt f cs d x -> sys_remove_all c f (tpath cs x) = (f', res) ->
    shrunk d x f f' (outcome res (blookup x (dents f' d) = None)).
  Proof.
    intros T H. destruct (sys_remove_all_inv H) as [(-> & -> & E)|R]; [|eapply t_removal; eauto].
    split; [|split; [apply keeps_new_refl|apply grows_shrinks, grows_refl]].
    split; [apply T|]. split; [apply above_refl|]. right. split; [reflexivity|].
    unfold resolve_ino in E. pose proof (tgt_resolve f cs d x false T) as G.
    destruct (resolve c f (tpath cs x) false) as [r|e]; destruct G as [G|[G _]]; try discriminate.
    - destruct G as (_ & _ & <-). destruct (l_ino r); [discriminate|reflexivity].
    - subst e. discriminate.
  Qed.

  Lemma t_unlink f cs d x f' res : Tgt f cs d x -> sys_unlink c f (tpath cs x) = (f', res) ->
    shrunk d x f f' (outcome res (blookup x (dents f' d) = None)).
  Proof. intros T H. apply (t_removal T (sys_unlink_inv H)). Qed.
  Lemma t_rmdir f cs d x f' res : Tgt f cs d x -> sys_rmdir c f (tpath cs x) = (f', res) ->
    shrunk d x f f' (outcome res (blookup x (dents f' d) = None)).
  Proof. intros T H. apply (t_removal T (sys_rmdir_inv H)). Qed.

  Definition names_ss (f : fs) (d : N) (x : bytes) (i : N) : Prop :=
    blookup x (dents f d) = Some i /\ SS i.

  Definition meta_post (f f' : fs) : Prop :=
    Ctx f' /\ (forall d, above d f f') /\ (forall j, dents f' j = dents f j) /\
    (forall j, is_dir f' j = is_dir f j) /\ (forall j, FsP.is_link f' j = FsP.is_link f j) /\
    f_next f' = f_next f /\ (forall j, get f j <> None -> get f' j <> None) /\ grows f f'.

  Lemma meta_post_refl f : Ctx f -> meta_post f f.
  Proof. intros C. split; [exact C|]. split; [intros d; apply above_refl|]. repeat split; auto. Qed.

  Lemma meta_post_trans f1 f2 f3 : meta_post f1 f2 -> meta_post f2 f3 -> meta_post f1 f3.
  Proof.
    intros (C2 & A2 & D2 & I2 & L2 & N2 & G2 & W2) (C3 & A3 & D3 & I3 & L3 & N3 & G3 & W3).
    split; auto. split; [|split; [|split; [|split; [|split; [|split; [|eapply grows_trans; eauto]]]]]].
    - intros d a p e q H1 H2. apply (chain_same f1 f3); auto.
      + intros j. rewrite D3, D2. reflexivity.
      + intros j Hj. rewrite I3, I2. exact Hj.
    - intros j. rewrite D3, D2. reflexivity.
    - intros j. rewrite I3, I2. reflexivity.
    - intros j. rewrite L3, L2. reflexivity.
    - congruence.
    - auto.
  Qed.

  Lemma names_ss_meta f f' d x i : names_ss f d x i -> meta_post f f' -> names_ss f' d x i.
  Proof. intros [H1 H2] (_ & _ & D & _). split; auto. rewrite D. exact H1. Qed.

  Lemma k_meta f f' : meta_post f f' -> keeps_new f f'.
  Proof. intros (_ & _ & D & I & _). apply kn_same; auto. Qed.

  Lemma t_put f i n n' : Ctx f -> SS i -> get f i = Some n -> same_shape n n' -> meta_post f (put f i n').
  Proof.
    intros C Hs Hg Hsh. set (f' := put f i n').
    pose proof (put_shape_tag f i n n' Hg Hsh) as Htag. pose proof (put_shape_dents f i n n' Hg Hsh) as Hdents.
    pose proof (put_shape_is_dir f i n n' Hg Hsh) as Hisdir. fold f' in Htag, Hdents, Hisdir.
    assert (A : forall a p e, chain f a p e -> chain f' a p e).
    { apply (chain_same f f'); auto. intros j Hj. rewrite Hisdir. exact Hj. }
    split; [constructor; try apply C; [eapply inv_put; eauto; apply C|apply A, C]|].
    split; [intros d a p e q H1 _; auto|]. split; [exact Hdents|]. split; [exact Hisdir|].
    split; [intros j; apply is_link_same_tag, Htag|]. split; [reflexivity|]. split; [|eapply grows_put; eauto].
    intros j Hj. specialize (Htag j). destruct (get f' j); [discriminate|]. destruct (get f j); [discriminate|congruence].
  Qed.

  Lemma t_put_meta f i n m : Ctx f -> SS i -> get f i = Some n -> meta_post f (put f i (set_meta n m)).
  Proof. intros C Hs Hg. apply (t_put f i n); auto using same_shape_meta. Qed.

  Lemma tgt_ino_nf f cs d x i : Tgt f cs d x -> resolve_ino c f (tpath cs x) false = inl i ->
    blookup x (dents f d) = Some i.
  Proof.
    intros T H. unfold resolve_ino in H. destruct (resolve c f (tpath cs x) false) as [r|e] eqn:E; [|discriminate].
    destruct (tgt_resolve_nf f cs d x r T E) as (_ & _ & H3). rewrite <- H3.
    destruct (l_ino r); inversion H; auto.
  Qed.

  Lemma tgt_ino_fl f cs d x i j : Tgt f cs d x -> blookup x (dents f d) = Some j -> FsP.is_link f j = false ->
    resolve_ino c f (tpath cs x) true = inl i -> i = j.
  Proof.
    intros T Hb Hl H. unfold resolve_ino in H. pose proof (tgt_resolve f cs d x true T) as G.
    destruct (resolve c f (tpath cs x) true) as [r|e]; [|discriminate].
    destruct G as [(_ & _ & H3)|(_ & k & Hk & Hkl)]; [|congruence].
    rewrite Hb in H3. rewrite H3 in H. inversion H; auto.
  Qed.

  Lemma t_meta_update f cs d x i fl f' res : Tgt f cs d x -> names_ss f d x i ->
    (fl = true -> FsP.is_link f i = false) -> meta_update c f (tpath cs x) fl f' res -> meta_post f f'.
  Proof.
    intros T [Hb Hs] Hl [[-> _]|(j & n & m & E & Hg & -> & ->)]; [apply meta_post_refl, T|].
    assert (j = i) as ->; [|apply t_put_meta; auto; apply T].
    destruct fl; [eapply tgt_ino_fl; eauto|]. rewrite (tgt_ino_nf f cs d x j T E) in Hb. congruence.
  Qed.

  Lemma t_fd_truncate f i : Ctx f -> b <= i -> meta_post f (fd_truncate f i).
  Proof.
    intros C Hi. unfold fd_truncate. destruct (get f i) as [[[p es|x|t|ty rd] m]|] eqn:E; try (apply meta_post_refl; auto).
    eapply (t_put f i); [exact C|right; auto|exact E|exact I].
  Qed.

  Lemma t_fd_pwrite f i off data f' res : Ctx f -> b <= i -> fd_pwrite f i off data = (f', res) -> meta_post f f'.
  Proof.
    intros C Hi H. unfold fd_pwrite in H. destruct (get f i) as [[[p es|x|t|ty rd] m]|] eqn:E;
      try (inversion H; subst; apply meta_post_refl; auto).
    destruct data; inversion H; subst; [apply meta_post_refl; auto|].
    eapply (t_put f i); [exact C|right; auto|exact E|exact I].
  Qed.

  (* link(2): the new name is the target; the old path may lead anywhere, and the ghost
     invariant needs the linked inode to be one the copier created *)
  Lemma t_link f cs d x first f' res : Tgt f cs d x -> sys_link c f first (tpath cs x) = (f', res) ->
    (Ctx f' /\ above d f f' /\
     outcome res (exists i, resolve_ino c f first false = inl i /\ blookup x (dents f' d) = Some i /\
                            f' = add_ent f d x i)) /\
    grows f f' /\ ((forall i, resolve_ino c f first false = inl i -> b <= i) -> keeps_new f f').
  Proof.
    intros T H. destruct (sys_link_inv H) as [[-> He]|(i & r & E1 & E & Hn & Hi & -> & ->)].
    - split; [exact (t_failed _ _ _ _ _ _ T He)|]. split; [apply grows_refl|intros _; apply keeps_new_refl].
    - destruct (tgt_resolve_nf f cs d x r T E) as (-> & -> & H3). rewrite Hn in H3. symmetry in H3.
      pose proof (tgt_dir _ _ _ _ T) as Hd.
      assert (Hdents := fun j => add_ent_dents f d x i j Hd).
      pose proof (grows_add_ent f d x i Hd) as G.
      assert (CA : Ctx (add_ent f d x i) /\ above d f (add_ent f d x i)).
      { apply (tgt_change f _ cs d x T); [|intros j Hj|apply G].
        - apply inv_add_ent; eauto using tgt_inv, tgt_SS, tgt_okn.
          destruct (resolve_ino_src _ _ _ _ _ E1) as [Hx|(j & nme & Hx)]; [congruence|].
          eapply (inv_target f0 dr f); eauto using tgt_inv.
        - rewrite Hdents. apply N.eqb_neq in Hj. rewrite Hj. reflexivity. }
      split; [|split; [exact G|intros Hnew; apply kn_add_ent; auto]].
      split; [apply CA|]. split; [apply CA|]. right. split; [reflexivity|]. exists i. repeat split; auto.
      rewrite Hdents, N.eqb_refl, blookup_app, H3. simpl. rewrite bytes_eqb_refl. reflexivity.
  Qed.
End Sys.
