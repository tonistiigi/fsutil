(* C01 — merge mode (ReceiveOpt.Merge: the destination walker is empty, every source entry is an
   add): the destination map left by receive_abs is the overlay of the source over the old
   destination — every source entry present with exactly the stat that was sent, every old entry
   that the source neither names nor covers with a non-directory literally in place (stat,
   bytes, inode class), everything else gone. *)
From Coq Require Import List NArith Lia Bool Sorting.Sorted.
From FS Require Import Sx Model.Path Model.Stat Model.Diff Model.AbsDest Model.Converge Model.ConvergeA
  Proofs.Lex Proofs.PathP Proofs.ListAux Proofs.DiffP Proofs.AbsDestP Proofs.ReceiveP Proofs.ApplyInoP Proofs.OracleP
  Proofs.ConvergeP.
Import ListNotations.
Open Scope N_scope.
Open Scope bool_scope.

Definition add_of (b : stat) : change := (KAdd, st_path b, Some b).

Lemma diff_loop_nil flt d : forall B fuel rm, (length B < fuel)%nat ->
  diff_loop flt d fuel rm [] B = Some (map add_of B).
Proof.
  induction B as [|b B IH]; intros fuel rm Hf; destruct fuel as [|f]; try (simpl in Hf; lia).
  - reflexivity.
  - cbn [diff_loop]. unfold step_add. rewrite IH by (simpl in Hf; lia). reflexivity.
Qed.

Lemma diff_nil_l flt d B : diff flt d [] B = map add_of B.
Proof. unfold diff, diff_opt. rewrite diff_loop_nil; [reflexivity|unfold diff_fuel; simpl; lia]. Qed.

Lemma adds_sorted B : sorted B -> StronglySorted clt (map add_of B).
Proof. apply (SS_map plt clt). intros a b _ _ H. exact H. Qed.

Lemma path_under_above anc p : path_under anc p = above anc p.
Proof. reflexivity. Qed.

Section Merge.
Variable H : bytes -> bytes.
Variable hdr : stat -> bytes.
Variable d : differ.
Variables A B : list AbsDest.entry.
Notation LA := (map fst A).
Notation LB := (map fst B).
Notation D0 := (dest_of A).
Notation src := (src_of B).
Hypothesis HwA : wf_listing LA.
Hypothesis HwB : wf_listing LB.
Hypothesis HlB : links_canon B.

Definition covered (done : list stat) (p : bytes) : Prop :=
  exists b, In b done /\ st_is_dir b = false /\ above (st_path b) p = true.

Definition coveredb (done : list stat) (p : bytes) : bool :=
  existsb (fun b => negb (st_is_dir b) && above (st_path b) p) done.

Lemma coveredb_iff done p : coveredb done p = true <-> covered done p.
Proof.
  unfold coveredb, covered. rewrite existsb_exists.
  split; intros (b & Hb & Hc); exists b; split; auto.
  - apply andb_true_iff in Hc. rewrite negb_true_iff in Hc. exact Hc.
  - destruct Hc as [-> ->]. reflexivity.
Qed.

(* the map after the entries [done] of the source have been added: they are there as sent, what
   they cover is gone, everything else is as in the old destination *)
Record minv (done : list stat) (D : dmap) : Prop := {
  mi_a : forall b bb, In (b, bb) B -> In b done ->
         exists e, alookup (st_path b) D = Some e /\ de_stat e = b /\ (AbsDest.is_reg b = true -> de_bytes e = bb);
  mi_b : forall p, notin done p -> alookup p D = if coveredb done p then None else alookup p D0 }.

Lemma minv_init : minv [] D0.
Proof. split; [intros b bb _ []|reflexivity]. Qed.

Lemma not_covered_in_B done rest b : LB = done ++ b :: rest -> coveredb done (st_path b) = false.
Proof.
  intros E. destruct (coveredb done (st_path b)) eqn:Ec; [exfalso|reflexivity].
  apply coveredb_iff in Ec. destruct Ec as (b' & Hb' & Hd & Hab). destruct HwB as [HsB HcB].
  apply above_iff in Hab. destruct Hab as [r Er].
  assert (Hb : In b LB) by (rewrite E; apply in_or_app; right; left; auto).
  assert (Hb'' : In b' LB) by (rewrite E; apply in_or_app; auto).
  destruct (HcB b Hb _ _ Er) as (t & Ht & Et & Hdt).
  assert (t = b') by (apply (sorted_unique LB); auto). subst. congruence.
Qed.

(* below the path of b, cutting the old subtree when directory-ness changes leaves what a
   non-directory b leaves: the old listing is closed, so it has entries below that path only
   under a directory *)
Lemma below_cut b p : above (st_path b) p = true ->
  (if removes D0 (st_path b) b then None else alookup p D0) = if negb (st_is_dir b) then None else alookup p D0.
Proof.
  intros Hab. destruct HwA as [HsA HcA]. unfold removes.
  destruct (alookup (st_path b) D0) as [o|] eqn:Eo.
  - apply D0_some in Eo. destruct Eo as [Ho Ep]. apply (in_map fst) in Ho. rewrite <- Ep in Hab.
    destruct (st_is_dir (de_stat o)) eqn:Eod; [destruct (st_is_dir b); reflexivity|].
    rewrite (D0_below_nondir A HsA HcA (de_stat o) p Ho Eod Hab). destruct (st_is_dir b); reflexivity.
  - destruct (alookup p D0) as [v|] eqn:Ev; [exfalso|destruct (st_is_dir b); reflexivity].
    apply D0_some in Ev. destruct Ev as [Hv Ep]. apply above_iff in Hab. destruct Hab as [r Er].
    destruct (HcA _ (in_map fst _ _ Hv) (st_path b) r) as (t & Ht & Et & _); [simpl; congruence|].
    destruct (D0_in A HsA t Ht) as (bt & i & _ & Hlt). rewrite Et, Eo in Hlt. discriminate.
Qed.

Lemma merge_step done b rest D n :
  LB = done ++ b :: rest -> minv done D ->
  exists D' n', apply_map src D n (add_of b) = Some (D', n') /\ minv (done ++ [b]) D'.
Proof.
  intros E Hinv. destruct HwA as [HsA HcA]. destruct HwB as [HsB HcB].
  assert (HS := HsB). rewrite E in HS. apply sorted_mid in HS. destruct HS as [F1 Hrest].
  assert (F2 : notin done (st_path b)).
  { intros x Hx. apply compare_path_lt_neq, F1, Hx. }
  assert (Hb : In b LB) by (rewrite E; apply in_or_app; right; left; auto).
  assert (Hold : alookup (st_path b) D = alookup (st_path b) D0).
  { rewrite (mi_b _ _ Hinv _ F2), (not_covered_in_B _ _ _ E). reflexivity. }
  assert (Hdone : forall st, In st LB -> compare_path (st_path st) (st_path b) = Lt -> In st done).
  { intros st Hst Hlt. rewrite E in Hst. apply in_app_or in Hst. destruct Hst as [Hst|[<-|Hst]]; auto; exfalso.
    - rewrite compare_path_refl in Hlt. discriminate.
    - eapply compare_path_asym; [exact Hlt|apply Hrest, Hst]. }
  (* the link target is already there *)
  assert (Hlink : forall bb, In (b, bb) B -> is_hardlink b = true ->
            exists t, alookup (st_linkname b) D = Some t /\ st_is_dir (de_stat t) = false /\
                      (AbsDest.is_reg b = true -> de_bytes t = bb) /\
                      (* the target was added with the stat as sent, a canonical link entry carries the same metadata *)
                      link_stat (de_stat t) b = b).
  { intros bb Hin Hl. destruct (HlB b bb Hin Hl) as (st & bt & Ht & Ep & Hlt & Hr & _ & Hmeta & Eb).
    assert (Hst : In st done) by (apply Hdone; [apply (in_map fst _ _ Ht)|exact Hlt]).
    destruct (mi_a _ _ Hinv st bt Ht Hst) as (t & Hxt & Es & Hbt).
    exists t. rewrite <- Ep. split; auto. split; [rewrite Es; apply is_node_not_dir; auto|].
    split; [|rewrite Es; apply link_stat_honest; exact Hmeta].
    intros Hrb. rewrite Hbt; auto. rewrite (is_reg_mode_eq st b); auto. apply Hmeta. }
  destruct (B_efind B HsB b Hb) as (bb & Hbb & _).
  destruct (apply_map_add_ok src D n (st_path b) b) as (D' & n' & Ea).
  { intros Hl. destruct (Hlink bb Hbb Hl) as (t & Ht & Htd & _). eauto. }
  exists D', n'. split; [exact Ea|].
  assert (Hk : KAdd <> KDelete) by discriminate.
  assert (Hoth : forall x, x <> st_path b ->
            alookup x D' = if removes D (st_path b) b && at_or_below (st_path b) x then None else alookup x D).
  { intros x Hx. apply (apply_map_others src D n KAdd (st_path b) b D' n' x Hk Ea Hx). }
  assert (Hnotin : forall p, notin (done ++ [b]) p -> notin done p /\ p <> st_path b).
  { intros p Hn. split.
    - intros x Hx. apply Hn. apply in_or_app; auto.
    - intros Ep. apply (Hn b); [apply in_or_app; right; left; auto|auto]. }
  assert (Hab : forall p, p <> st_path b -> at_or_below (st_path b) p = above (st_path b) p).
  { intros p Hp. unfold at_or_below. apply not_eq_sym in Hp. apply bytes_eqb_neq in Hp. rewrite Hp. reflexivity. }
  split.
  - intros b0 bb0 Hin0 Hd0. apply in_app_or in Hd0. destruct Hd0 as [Hd0|[<-|[]]].
    + destruct (mi_a _ _ Hinv b0 bb0 Hin0 Hd0) as (e & He & Es & Hbe). exists e. split; auto.
      rewrite Hoth.
      * destruct (at_or_below (st_path b) (st_path b0)) eqn:Ab; [|rewrite andb_false_r; exact He].
        apply at_or_below_le in Ab. exfalso. apply Ab, F1, Hd0.
      * apply compare_path_lt_neq, F1, Hd0.
    + destruct (apply_map_at src _ _ _ _ _ _ _ Hk Ea) as (e & -> & Es & Hc). exists e.
      split; [apply alookup_aset_same|]. split.
      { destruct (is_hardlink b) eqn:Hhl; [|auto].
        destruct Hc as [(Hdir & _)|[(_ & _ & t & Ht & _ & _ & _ & Est)|(Hl & _)]]; [| |congruence].
        - unfold is_hardlink, is_node in Hhl. rewrite Hdir in Hhl. discriminate.
        - destruct (Hlink bb0 Hin0 eq_refl) as (t' & Ht' & _ & _ & Ehon). rewrite Ht in Ht'. inversion Ht'; subst t'.
          rewrite Est. exact Ehon. }
      intros Hreg. destruct Hc as [(Hdir & _)|[(Hl & _ & t & Ht & _ & _ & Eb & _)|(Hl & _ & _ & Eb & _)]].
      * apply is_reg_not_dir in Hreg. congruence.
      * destruct (Hlink bb0 Hin0 Hl) as (t' & Ht' & _ & Ebt & _). rewrite Ht in Ht'. inversion Ht'; subst.
        rewrite Eb. apply Ebt; auto.
      * rewrite Eb, (not_hardlink_wants _ Hreg Hl). apply (src_at B HsB); auto.
  - intros p Hn. destruct (Hnotin p Hn) as [Hn1 Hn2].
    rewrite (Hoth p Hn2), (Hab p Hn2), (mi_b _ _ Hinv p Hn1). unfold coveredb at 2.
    rewrite existsb_app. fold (coveredb done p). simpl. rewrite orb_false_r.
    destruct (coveredb done p); [destruct (_ && _); reflexivity|]. simpl.
    destruct (above (st_path b) p) eqn:Eab; [|rewrite !andb_false_r; reflexivity]. rewrite !andb_true_r.
    unfold removes. rewrite Hold. apply (below_cut b p Eab).
Qed.

Lemma merge_run : forall rest done D n,
  LB = done ++ rest -> minv done D ->
  exists D' n', apply_all src (map add_of rest) D n = (D', n', map add_of rest, false) /\ minv LB D'.
Proof.
  induction rest as [|b rest IH]; intros done D n E Hinv.
  - exists D, n. split; [reflexivity|]. rewrite E, app_nil_r. exact Hinv.
  - destruct (merge_step done b rest D n E Hinv) as (D1 & n1 & Ea & Hinv1).
    destruct (IH (done ++ [b]) D1 n1) as (D' & n' & Er & Hinv'); [rewrite <- app_assoc; exact E|exact Hinv1|].
    exists D', n'. split; auto. simpl map. cbn [apply_all]. rewrite Ea, Er. reflexivity.
Qed.

Let r := receive_abs H hdr Merge d A B.
Let R := ds_map r.
Let n0 := N.of_nat (length A).

Lemma merge_final :
  exists nR, apply_all src (map add_of LB) D0 n0 = (R, nR, map add_of LB, false) /\ minv LB R /\ ds_err r = false.
Proof.
  destruct (merge_run LB [] D0 n0 eq_refl minv_init) as (D' & n' & Er & Hinv).
  pose proof (receive_abs_unfold H hdr d A B Merge D' n' (map add_of LB) false) as Hu. cbv zeta in Hu.
  rewrite diff_nil_l in Hu. specialize (Hu Er).
  exists n'. unfold R, r. rewrite Hu. simpl. auto.
Qed.

Lemma merge_kept_iff p : kept_in_merge B p = true <-> notin LB p /\ ~ covered LB p.
Proof.
  unfold kept_in_merge. destruct (find_entry p B) as [e|] eqn:Ef.
  { apply find_entry_some in Ef. destruct Ef as [He Ep]. split; [discriminate|]. intros [Hn _].
    destruct (Hn (fst e) (in_map fst _ _ He) Ep). }
  assert (Hn : notin LB p).
  { intros b Hb Eb. apply in_map_iff in Hb. destruct Hb as (e & <- & He). apply (find_entry_none _ _ Ef e He Eb). }
  rewrite negb_true_iff. split.
  - intros Hex. split; [exact Hn|]. intros (b & Hb & Hd & Hab).
    apply in_map_iff in Hb. destruct Hb as ([b' bb] & E1 & Hb). simpl in E1. subst b'.
    assert (Ht : existsb (fun e => negb (st_is_dir (fst e)) && path_under (st_path (fst e)) p) B = true).
    { apply existsb_exists. exists (b, bb). split; auto. simpl. rewrite Hd, path_under_above, Hab. reflexivity. }
    congruence.
  - intros [_ Hnc]. match goal with |- ?X = false => destruct X eqn:Ex end; auto. exfalso. apply Hnc.
    apply existsb_exists in Ex. destruct Ex as ([b bb] & Hb & Hc). simpl in Hc.
    apply andb_true_iff in Hc. destruct Hc as [Hd Hab]. apply negb_true_iff in Hd.
    exists b. split; [apply (in_map fst _ _ Hb)|auto].
Qed.

Lemma merge_rep s c x : In (s, c) B -> is_node s = true -> alookup (st_path s) R = Some x ->
  exists t, alookup (group_rep s) R = Some t /\ de_ino t = de_ino x /\ is_hardlink (de_stat t) = false.
Proof.
  intros Hin Hreg Hx. destruct merge_final as (nR & E & Hinv & _). destruct HwB as [HsB HcB].
  unfold group_rep. destruct (st_linkname s) as [|l0 l] eqn:El.
  - exists x. split; auto. split; auto.
    destruct (mi_a _ _ Hinv s c Hin (in_map fst _ _ Hin)) as (e & He & Es & _). rewrite Hx in He.
    inversion He; subst e. rewrite Es. apply nolink_not_hardlink; auto.
  - rewrite <- El.
    assert (Hh : is_hardlink s = true) by (unfold is_hardlink; rewrite Hreg, El; reflexivity).
    destruct (HlB s c Hin Hh) as (st & bt & Ht & Ep & Hlt & Hrt & Ent & _ & _).
    destruct (mi_a _ _ Hinv st bt Ht (in_map fst _ _ Ht)) as (t & Hxt & Est & _).
    assert (Hc : In (add_of s) (map add_of LB)) by (apply in_map; apply (in_map fst _ _ Hin)).
    assert (Hk : KAdd <> KDelete) by discriminate.
    destruct (changed_final src _ _ _ _ _ _ _ _ _ (adds_sorted _ HsB) E Hc Hk) as (e & He & _ & Hl & _).
    rewrite Hx in He. inversion He; subst e.
    destruct (Hl Hh) as (t' & Ht' & _ & Ei & _); [rewrite <- Ep; exact Hlt|].
    rewrite <- Ep in *. rewrite Hxt in Ht'. inversion Ht'; subst t'.
    exists t. split; auto. split; auto. rewrite Est. apply nolink_not_hardlink; auto.
Qed.

Lemma kept_lookup D : minv LB D -> forall p, notin LB p -> ~ covered LB p -> alookup p D = alookup p D0.
Proof.
  intros Hinv p Hn Hc. rewrite (mi_b _ _ Hinv p Hn).
  destruct (coveredb LB p) eqn:Ec; [apply coveredb_iff in Ec; contradiction|reflexivity].
Qed.

End Merge.

(* Merge mode: the overlay of the source over the old destination *)
Theorem merge_is_overlay_proof (H : bytes -> bytes) (hdr : stat -> bytes) d A B :
  wf_listing (map fst A) -> wf_entries B ->
  let r := receive_abs H hdr Merge d A B in
  ds_err r = false /\ approx_merge A B (view_of (ds_map r)) /\
  (* the kept entries are literally untouched: stat incl. mtime and xattrs, bytes, inode class *)
  (forall p, notin (map fst B) p -> ~ covered (map fst B) p ->
             alookup p (ds_map r) = alookup p (dest_of A)) /\
  (* the source entries carry exactly the stat that was sent *)
  (forall s c, In (s, c) B -> exists e, alookup (st_path s) (ds_map r) = Some e /\ de_stat e = s /\
                                        (AbsDest.is_reg s = true -> de_bytes e = c)).
Proof.
  intros HwA [HwB HlB]. cbv zeta.
  destruct (merge_final H hdr d A B HwA HwB HlB) as (nR & E & Hinv & Herr).
  set (R := ds_map (receive_abs H hdr Merge d A B)) in *.
  destruct HwA as [HsA HcA]. pose proof HwB as [HsB HcB].
  split; [exact Herr|]. split; [|split].
  - split; [|split; [|split]].
    + (* source entries *)
      intros s c Hin. destruct (mi_a _ _ _ _ Hinv s c Hin (in_map fst _ _ Hin)) as (e & He & Es & Hb).
      exists (obs_of_dentry (st_path s) e). rewrite find_obs_view_of, He. split; [reflexivity|].
      unfold entry_ok, obs_of_dentry. cbv zeta. simpl. rewrite Es.
      repeat split; auto. intros Hr. apply Hb. apply conv_reg_abs_reg. unfold Converge.is_reg. rewrite Hr. apply N.eqb_refl.
    + (* whatever else is there is an untouched kept entry *)
      intros dd Hd. apply in_map_iff in Hd. destruct Hd as ([k v] & <- & Hkv). simpl fst. simpl snd.
      assert (Hnk : nodup_keys R).
      { eapply apply_all_nodup_keys; [exact E|]. apply dest_of_nodup_keys; auto. }
      pose proof (nodup_keys_lookup R k v Hnk Hkv) as Hlk. simpl o_path.
      destruct (find_entry k B) as [e|] eqn:Ef.
      { left. apply find_entry_some in Ef. exists e. exact Ef. }
      right. assert (Hn : notin (map fst B) k).
      { intros b Hb Eb. apply in_map_iff in Hb. destruct Hb as (e & <- & He). apply (find_entry_none _ _ Ef e He Eb). }
      rewrite (mi_b _ _ _ _ Hinv k Hn) in Hlk.
      destruct (coveredb (map fst B) k) eqn:Hc; [discriminate|].
      split; [apply merge_kept_iff; split; [exact Hn|]; intros Hc'; apply coveredb_iff in Hc'; congruence|].
      apply D0_some in Hlk. destruct Hlk as [Hv Ep].
      exists (de_stat v), (de_bytes v). split; [rewrite <- Ep; apply find_entry_sorted; auto|].
      unfold prior_ok, obs_of_dentry. cbv zeta. simpl. repeat split; auto.
    + (* nothing else was removed *)
      intros e He Hk. apply merge_kept_iff in Hk. destruct Hk as [Hn Hk].
      destruct (D0_in A HsA (fst e) (in_map fst _ _ He)) as (ba & i & _ & Hl).
      rewrite find_obs_view_of. fold R. rewrite (kept_lookup _ _ _ Hinv _ Hn Hk), Hl. simpl. eauto.
    + apply partition_of_reps; [apply (run_nonlink_inj _ _ _ _ _ _ _ E)|].
      apply (merge_rep H hdr d A B (conj HsA HcA) HwB HlB).
  - intros p Hn Hc. apply (kept_lookup _ _ _ Hinv); auto.
  - intros s c Hin. apply (mi_a _ _ _ _ Hinv); auto. apply (in_map fst _ _ Hin).
Qed.
