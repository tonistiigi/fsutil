(* transfer_resolves_same for requests whose last component is a bare star (the include set
   then holds patterns L/star, the one non-literal pattern shape C10's prefix_semantics gives a
   meaning to).  It rests on the shape of the resolved keys: a star can only be the last
   component. *)
From Coq Require Import List NArith Bool Lia Arith.
From FS Require Import Sx Model.Path Model.Stat Model.Tree Model.FollowLinks Model.Pattern Model.FilterWalk Model.FollowTransfer
     Proofs.Lex Proofs.PathP Proofs.ValidatorP Proofs.PatternP Proofs.IncrNaiveP
     Proofs.FilterP Proofs.PruneP Proofs.RefP Proofs.FlatRefP
     Proofs.FollowLinksP Proofs.FollowLinksClosedP Proofs.FollowLinksWildP Proofs.FollowTransferP.
Import ListNotations.
Open Scope N_scope.
Open Scope bool_scope.

Definition psafe (c : bytes) : Prop := psafe_comp c = true.

Fixpoint slast (q : list bytes) : Prop :=
  match q with
  | [] => True
  | c :: r => match r with [] => psafe c \/ c = s_star | _ => psafe c /\ slast r end
  end.

Lemma star_last_c_slast q : star_last_c q = true -> slast q.
Proof.
  induction q as [|c r IH]; intros H; [exact I|]. cbn [star_last_c slast] in *. destruct r as [|c2 r].
  - apply orb_true_iff in H. destruct H as [H|H]; [left; exact H|right; apply bytes_eqb_eq; exact H].
  - apply andb_true_iff in H. destruct H as [H1 H2]. split; [exact H1|apply IH; exact H2].
Qed.

Lemma slast_tail c r : slast (c :: r) -> slast r.
Proof. destruct r; [intros; exact I|intros [_ H]; exact H]. Qed.
Lemma slast_head c r : r <> [] -> slast (c :: r) -> psafe c.
Proof. destruct r; [congruence|intros _ [H _]; exact H]. Qed.
Lemma slast_single c : slast [c] -> psafe c \/ c = s_star.
Proof. intros H; exact H. Qed.
Lemma slast_all q : Forall psafe q -> slast q.
Proof. induction 1 as [|c r Hc Hr IH]; [exact I|]. cbn [slast]. destruct r; [left; exact Hc|split; auto]. Qed.
Lemma slast_app a b : Forall psafe a -> slast b -> slast (a ++ b).
Proof.
  induction a as [|c a IH]; intros Ha Hb; [exact Hb|]. inversion Ha as [|? ? Hc Ha']; subst.
  cbn [app slast]. specialize (IH Ha' Hb). destruct (a ++ b) eqn:E; [left; exact Hc|]. split; [exact Hc|exact IH].
Qed.

Lemma slast_split a c b : slast (a ++ c :: b) -> Forall psafe a /\ slast (c :: b).
Proof.
  induction a as [|x a IH]; intros H; [split; [constructor|exact H]|].
  destruct (IH (slast_tail _ _ H)) as [Ha Hb]. split; [|exact Hb].
  constructor; [|exact Ha]. apply (slast_head x (a ++ c :: b)); [destruct a; discriminate|exact H].
Qed.

Section StarShape.
Variable gmatch : bytes -> bytes -> bool.
Variable view : list node.
Variable reqs : list bytes.
Hypothesis Hlinks : forall l, In l (forest_links view) -> Forall psafe (comps l).

(* a resolved key: the root, or literal components followed by a literal one or a star *)
Definition skey (k : bytes) : Prop :=
  k = s_dot \/ exists cs c, PCN view reqs (cs ++ [c]) /\ Forall psafe cs /\ (psafe c \/ c = s_star) /\ k = joinc (cs ++ [c]).

(* the shape of a call: a star can only be its last component *)
Definition scall (q : list bytes) : Prop := PCN view reqs q /\ slast q.

Lemma expansion_scall cur c rest t :
  scall (cur ++ c :: rest) -> In t (read_symlink gmatch view cur c) -> scall (norm_clamp (t ++ rest)).
Proof.
  intros [Hp Hs] Ht. pose proof (expansion_PCN gmatch view reqs cur c rest t Hp Ht) as Hp'.
  split; [exact Hp'|]. apply slast_split in Hs. destruct Hs as [Hcur Hs].
  pose proof (read_symlink_forall gmatch view psafe cur c Hcur Hlinks) as Hts. rewrite Forall_forall in Hts.
  apply Forall_app in Hp. destruct Hp as [Hpc Hpr]. inversion Hpr; subst.
  pose proof (read_symlink_PCN gmatch view reqs cur c Hpc) as Htp. rewrite Forall_forall in Htp.
  rewrite norm_clamp_normal_id by (apply Forall_app; split; apply (PCN_normal view reqs); auto).
  apply slast_app; [auto|apply (slast_tail c); exact Hs].
Qed.

Lemma final_state_star fuel st :
  (forall r, In r reqs -> slast (norm_clamp (comps r))) ->
  follow_state gmatch view fuel reqs = Ok st -> forall k, In k (resolved st) -> skey k.
Proof.
  intros Hs H k Hk.
  destruct (follow_state_shape gmatch view scall expansion_scall fuel reqs st) as [_ HK]; [|exact H|].
  { intros r Hr. split; [apply reqs_PCN; exact Hr|apply Hs; exact Hr]. }
  destruct (HK k Hk) as [->|(a & c & b & [Hp Hsl] & ->)]; [left; reflexivity|right].
  apply slast_split in Hsl. destruct Hsl as [Ha Hsl]. exists a, c. split.
  { apply Forall_app in Hp. destruct Hp as [Hpa Hpc]. inversion Hpc; subst. apply PCN_app; auto. constructor; auto. }
  split; [exact Ha|]. split; [|destruct a; reflexivity].
  destruct b; [exact Hsl|left; apply (slast_head c (l :: b)); [discriminate|exact Hsl]].
Qed.

End StarShape.

Lemma psafe_inv c : psafe c -> plain_comp c = true /\ regex_safe c = true.
Proof. unfold psafe, psafe_comp. intros H. apply andb_true_iff in H. exact H. Qed.

Lemma star_normal : normal s_star.
Proof. repeat split; discriminate. Qed.
Lemma star_nosep : nosep s_star.
Proof. intros [H|[]]. discriminate. Qed.

Lemma regex_safe_joinc cs : Forall (fun c => regex_safe c = true) cs -> regex_safe (joinc cs) = true.
Proof.
  induction 1 as [|c cs Hc Hcs IH]; [reflexivity|]. destruct cs as [|c2 cs]; [cbn [joinc]; exact Hc|].
  rewrite joinc_cons by discriminate. unfold regex_safe in *. rewrite forallb_app, Hc. cbn [forallb andb].
  rewrite IH. reflexivity.
Qed.

Section StarKey.
Variable cs : list bytes.
Hypothesis Hne : cs <> [].
Hypothesis Hpl : Forall plainc cs.

Let L := joinc cs.
Let e := joinc (cs ++ [s_star]).

Lemma star_key_eq : e = L ++ s_sep_star.
Proof. unfold e, L. rewrite joinc_snoc by exact Hne. reflexivity. Qed.

Lemma star_key_okc : okc (cs ++ [s_star]).
Proof.
  split; [destruct cs; discriminate|]. split; apply Forall_app; split.
  - eapply Forall_impl; [|exact Hpl]. intros c (_ & H & _); exact H.
  - constructor; [exact star_normal|constructor].
  - eapply Forall_impl; [|exact Hpl]. intros c (_ & _ & H); exact H.
  - constructor; [exact star_nosep|constructor].
Qed.

Lemma star_key_kind : pat_kind e = LitStar L.
Proof.
  destruct (plain_key_facts cs Hne Hpl) as (_ & Hcpc & _).
  rewrite star_key_eq.
  assert (H2 : strip_suffix s_sep_starstar (L ++ s_sep_star) = None).
  { apply strip_suffix_none. intros pre E. unfold s_sep_star, s_sep_starstar in E.
    change (L ++ [sep; star]) with (L ++ [sep] ++ [star]) in E.
    change (pre ++ [sep; star; star]) with (pre ++ [sep; star] ++ [star]) in E.
    rewrite !app_assoc in E. apply app_inj_tail in E. destruct E as [E _].
    change (pre ++ [sep; star]) with (pre ++ [sep] ++ [star]) in E. rewrite app_assoc in E.
    apply app_inj_tail in E. destruct E as [_ E]. discriminate. }
  assert (H1 : strip_suffix s_sep_star (L ++ s_sep_star) = Some L) by (apply strip_suffix_spec; reflexivity).
  assert (Hw : without_trailing_glob (L ++ s_sep_star) = L).
  { unfold without_trailing_glob. rewrite (trim_suffix_none _ _ H2), bytes_eqb_refl. cbn [negb].
    apply trim_suffix_some. reflexivity. }
  unfold pat_kind. rewrite Hw. fold L in Hcpc. rewrite Hcpc, H2, H1. reflexivity.
Qed.

Lemma star_key_normalize : normalize1 e = NPat (lit_pat e).
Proof.
  apply (normalize1_edges _ star_key_okc). apply Forall_app. split; [apply (plain_key_facts cs Hne Hpl)|].
  constructor; [|constructor]. split; [reflexivity|]. exists star, []. auto.
Qed.

Lemma star_key_match pmatch n : prefix_semantics pmatch -> regex_safe L = true -> nosep n ->
  pmatch e (joinc (cs ++ [n])) = true.
Proof.
  intros (_ & _ & Hstar) Hrs Hn. rewrite (Hstar e L _ star_key_kind Hrs).
  rewrite joinc_snoc by exact Hne. fold L.
  assert (E : strip_prefix (L ++ [sep]) (L ++ sep :: n) = Some n).
  { apply strip_prefix_spec. rewrite <- app_assoc. reflexivity. }
  rewrite E. apply no_sep_nosep. exact Hn.
Qed.

End StarKey.

(* L/star selects, as an include pattern, every entry it covers as a FollowLinks pattern *)
Lemma transfers_star pmatch gmatch view cs :
  prefix_semantics pmatch -> FollowLinks.wf_view view = true ->
  cs <> [] -> Forall plainc cs -> Forall (fun c => regex_safe c = true) cs ->
  transfers pmatch gmatch view (joinc (cs ++ [s_star])).
Proof.
  intros Hsem Hwf Hne Hpl Hrs. pose proof (regex_safe_joinc cs Hrs) as HrsL.
  split; [apply star_key_normalize; auto|]. split; [rewrite (star_key_kind cs Hne Hpl); exact HrsL|].
  intros x (nd & Hnd) Hpp. destruct (star_key_okc cs Hne Hpl) as (Hne0 & _ & Hns). rewrite (comps_joinc _ Hne0 Hns) in Hpp.
  destruct (pat_prefix_app_lit gmatch cs [s_star] (plainc_nowild cs Hpl) x Hpp) as (y' & -> & Hy).
  destruct y' as [|n z]; [discriminate|].
  pose proof (lookup_okc _ view nd (wf_view_forallb view Hwf) Hnd) as (_ & _ & Hxs).
  assert (Hn : nosep n).
  { rewrite Forall_forall in Hxs. apply Hxs. apply in_or_app. right. left. reflexivity. }
  exists (cs ++ [n]), z. split; [destruct cs; discriminate|]. split; [rewrite <- app_assoc; reflexivity|].
  apply (star_key_match cs Hne Hpl pmatch n Hsem HrsL Hn).
Qed.

Section TransferStar.
Variable pmatch : bytes -> bytes -> bool.
Variable gmatch : bytes -> bytes -> bool.
Variable view : list node.
Variable reqs : list bytes.
Hypothesis Hsem : prefix_semantics pmatch.
Hypothesis Hwf : FollowLinks.wf_view view = true.

Hypothesis Hstar : star_inputs view reqs = true.

Lemma star_reqs r : In r reqs -> slast (norm_clamp (comps r)).
Proof.
  unfold star_inputs in Hstar. apply andb_true_iff in Hstar. destruct Hstar as [H _].
  rewrite forallb_forall in H. intros Hr. apply star_last_c_slast. apply H. exact Hr.
Qed.
Lemma star_links l : In l (forest_links view) -> Forall psafe (comps l).
Proof.
  unfold star_inputs in Hstar. apply andb_true_iff in Hstar. destruct Hstar as [_ H].
  rewrite forallb_forall in H. intros Hl. specialize (H l Hl). rewrite forallb_forall in H.
  apply Forall_forall. exact H.
Qed.

Lemma psafe_elit c : psafe c -> elit gmatch view c.
Proof. intros H. unfold elit, quasi_literal. rewrite (plain_comp_nowild c (proj1 (psafe_inv c H))). reflexivity. Qed.
Lemma slast_abl q : slast q -> abl gmatch view q.
Proof.
  induction q as [|c r IH]; intros H; [exact I|]. cbn [abl]. destruct r as [|c2 r]; [exact I|].
  destruct H as [H1 H2]. split; [apply psafe_elit; exact H1|apply IH; exact H2].
Qed.

Lemma psafe_PCN cs : PCN view reqs cs -> Forall psafe cs ->
  Forall plainc cs /\ Forall (fun c => regex_safe c = true) cs.
Proof.
  intros Hp Hs. pose proof (PCN_nosep view reqs cs Hp) as Hns. apply PCN_normal in Hp. rewrite !Forall_forall in *.
  split; intros c Hc; destruct (psafe_inv c (Hs c Hc)); [split; [|split]|]; auto.
Qed.

Theorem transfer_resolves_same_star_proof : forall (fuel : nat) (follow : option (list bytes)),
  follow_links_opt gmatch view fuel reqs = Ok follow ->
  no_revisit gmatch view fuel reqs = true ->
  lexical_safe view reqs = true ->
  (forall res, follow = Some res -> ~ In s_star res) ->
  exists c, follow_cfg follow = Some c /\
    forall r o x, In r reqs -> In o (chroot_resolve_all gmatch view r) -> needed o x ->
      In (joinc x) (map st_path (filter_walk pmatch id_map c view)).
Proof.
  intros fuel follow Hres Hnr Hls Hnostar.
  apply (transfer_of_keys pmatch gmatch view reqs Hsem Hwf fuel follow); auto.
  - intros r Hr. apply slast_abl. apply star_reqs. exact Hr.
  - intros l Hl. eapply Forall_impl; [|apply (star_links l Hl)]. intros c Hc. apply psafe_elit. exact Hc.
  - (* every element of the result is a literal key or L/star *)
    intros F res EF Efin. assert (Hf : follow = Some res).
    { unfold follow_links_opt in Hres. rewrite EF, Efin in Hres. congruence. }
    specialize (Hnostar res Hf).
    apply Forall_forall. intros e He. pose proof (finish_subset F res Efin e He) as HeR.
    destruct (final_state_star gmatch view reqs star_links fuel F star_reqs EF e HeR)
      as [->|(cs & c & Hp & Hps & Hc & ->)]; [destruct (finish_some_nodot F res Efin HeR)|].
    apply Forall_app in Hp. destruct Hp as [Hp Hpc]. destruct (psafe_PCN cs Hp Hps) as [Hpl Hrs].
    destruct Hc as [Hc| ->].
    + apply (transfers_plain pmatch gmatch view Hsem); [destruct cs; discriminate|].
      apply Forall_app. split; [exact Hpl|]. apply (psafe_PCN [c] Hpc). constructor; [exact Hc|constructor].
    + apply transfers_star; auto. intros ->. apply Hnostar. exact He.
Qed.

End TransferStar.
