(* Generic lemmas for the endpoint acceptors: running over appended traces, byte-prefix
   stripping, id-keyed association lists, trace projections. *)
From Coq Require Import List NArith Bool Lia.
From FS Require Import Sx Model.Stat Model.AccEvents Proofs.Lex.
Import ListNotations.
Open Scope N_scope.

Section RunP.
  Context {St : Type}.
  Variable step : St -> event -> option St.

  Lemma run_app : forall a b s,
    run step s (a ++ b) = match run step s a with Some s' => run step s' b | None => None end.
  Proof.
    induction a as [|e a IH]; intros b s; simpl; [reflexivity|].
    destruct (step s e); [apply IH|reflexivity].
  Qed.

  Lemma run_snoc : forall a e s,
    run step s (a ++ [e]) = match run step s a with Some s' => step s' e | None => None end.
  Proof.
    intros. rewrite run_app. destruct (run step s a); [|reflexivity].
    simpl. destruct (step s0 e); reflexivity.
  Qed.

  (* an accepted trace splits at any event into an accepted prefix, a step, and the rest *)
  Lemma run_split : forall pre e post s s',
    run step s (pre ++ e :: post) = Some s' ->
    exists s1 s2, run step s pre = Some s1 /\ step s1 e = Some s2 /\ run step s2 post = Some s'.
  Proof.
    intros pre e post s s' H. rewrite run_app in H.
    destruct (run step s pre) as [s1|] eqn:E1; [|discriminate].
    simpl in H. destruct (step s1 e) as [s2|] eqn:E2; [|discriminate].
    exists s1, s2. auto.
  Qed.

  (* a property of states that every step preserves holds at the end of a run *)
  Lemma run_preserves : forall (P : St -> Prop),
    (forall s e s', step s e = Some s' -> P s -> P s') ->
    forall tr s s', run step s tr = Some s' -> P s -> P s'.
  Proof.
    intros P HP. induction tr as [|e tr IH]; intros s s' H Hs; simpl in H.
    - inversion H; subst; assumption.
    - destruct (step s e) as [s1|] eqn:E; [|discriminate]. eapply IH; eauto.
  Qed.

  (* invariants relating the trace read so far to the state *)
  Lemma run_invariant : forall (I : list event -> St -> Prop) s0,
    I [] s0 ->
    (forall tr s e s', I tr s -> step s e = Some s' -> I (tr ++ [e]) s') ->
    forall tr s, run step s0 tr = Some s -> I tr s.
  Proof.
    intros I s0 H0 Hstep tr. induction tr as [|e tr IH] using rev_ind; intros s H.
    - simpl in H. inversion H; subst. exact H0.
    - rewrite run_snoc in H. destruct (run step s0 tr) as [s1|] eqn:E; [|discriminate].
      eapply Hstep; eauto.
  Qed.

  (* a state property that, once true, constrains every later event *)
  Lemma run_forall : forall (P : St -> Prop) (Q : event -> Prop),
    (forall s e s', step s e = Some s' -> P s -> Q e /\ P s') ->
    forall tr s s', run step s tr = Some s' -> P s -> Forall Q tr /\ P s'.
  Proof.
    intros P Q HP. induction tr as [|e tr IH]; intros s s' H Hs; simpl in H.
    - inversion H; subst. split; [constructor|assumption].
    - destruct (step s e) as [s1|] eqn:E; [|discriminate].
      destruct (HP _ _ _ E Hs) as [Hq Hp1]. destruct (IH _ _ H Hp1) as [Hf Hp']. split; [constructor; assumption|assumption].
  Qed.
End RunP.

Lemma strip_prefix_some : forall p s r, strip_prefix p s = Some r -> s = p ++ r.
Proof.
  induction p as [|a p IH]; intros s r H; simpl in H.
  - inversion H. reflexivity.
  - destruct s as [|b s]; [discriminate|].
    destruct (N.eqb a b) eqn:E; [|discriminate]. apply N.eqb_eq in E. subst.
    simpl. f_equal. auto.
Qed.

Lemma strip_prefix_app : forall p r, strip_prefix p (p ++ r) = Some r.
Proof. induction p; intros; simpl; [reflexivity|]. rewrite N.eqb_refl. auto. Qed.

Lemma strip_chunks_some : forall cs s r, strip_chunks cs s = Some r -> s = concat cs ++ r.
Proof.
  induction cs as [|c cs IH]; intros s r H; simpl in H.
  - inversion H. reflexivity.
  - destruct (strip_prefix c s) as [s'|] eqn:E; [|discriminate].
    apply strip_prefix_some in E. apply IH in H. subst. simpl. rewrite app_assoc. reflexivity.
Qed.

Lemma strip_chunks_concat : forall cs r, strip_chunks cs (concat cs ++ r) = Some r.
Proof.
  induction cs as [|c cs IH]; intros r; simpl; [reflexivity|].
  rewrite <- app_assoc. rewrite strip_prefix_app. apply IH.
Qed.

Lemma is_nil_true : forall A (l : list A), is_nil l = true -> l = [].
Proof. destruct l; simpl; intros; [reflexivity|discriminate]. Qed.

Lemma nlookup_nupdate_same : forall A (k : N) (v : A) m,
  nlookup k m <> None -> nlookup k (nupdate k v m) = Some v.
Proof.
  induction m as [|[k' v'] m IH]; simpl; intros H; [congruence|].
  destruct (N.eqb k k') eqn:E; simpl; rewrite E; [reflexivity|auto].
Qed.

Lemma nlookup_nupdate_other : forall A (k k2 : N) (v : A) m,
  k2 <> k -> nlookup k2 (nupdate k v m) = nlookup k2 m.
Proof.
  induction m as [|[k' v'] m IH]; simpl; intros H; [reflexivity|].
  destruct (N.eqb k k') eqn:E; simpl.
  - apply N.eqb_eq in E. subst k'. destruct (N.eqb k2 k) eqn:E2; [apply N.eqb_eq in E2; congruence|reflexivity].
  - destruct (N.eqb k2 k'); auto.
Qed.

Lemma nlookup_nupdate_keys : forall A (k k2 : N) (v : A) m,
  nlookup k2 (nupdate k v m) <> None <-> nlookup k2 m <> None.
Proof.
  induction m as [|[k' v'] m IH]; simpl; [tauto|].
  destruct (N.eqb k k') eqn:E; simpl.
  - destruct (N.eqb k2 k'); [split; congruence|tauto].
  - destruct (N.eqb k2 k'); [split; congruence|exact IH].
Qed.

Lemma nlookup_nremove_same : forall A (k : N) (m : list (N * A)),
  NoDup (map fst m) -> nlookup k (nremove k m) = None.
Proof.
  induction m as [|[k' v'] m IH]; simpl; intros H; [reflexivity|].
  inversion H as [|? ? Hn Hd]; subst.
  destruct (N.eqb k k') eqn:E; simpl.
  - apply N.eqb_eq in E. subst k'.
    clear - Hn. induction m as [|[k2 v2] m IH]; simpl; [reflexivity|].
    destruct (N.eqb k k2) eqn:E2.
    + apply N.eqb_eq in E2. subst. exfalso. apply Hn. simpl. auto.
    + apply IH. intros Hin. apply Hn. simpl. auto.
  - rewrite E. auto.
Qed.

Lemma nlookup_nremove_other : forall A (k k2 : N) (m : list (N * A)),
  k2 <> k -> nlookup k2 (nremove k m) = nlookup k2 m.
Proof.
  induction m as [|[k' v'] m IH]; simpl; intros H; [reflexivity|].
  destruct (N.eqb k k') eqn:E; simpl.
  - apply N.eqb_eq in E. subst k'. destruct (N.eqb k2 k) eqn:E2; [apply N.eqb_eq in E2; congruence|reflexivity].
  - destruct (N.eqb k2 k'); auto.
Qed.

Lemma nlookup_in : forall A (k : N) (v : A) m, nlookup k m = Some v -> In (k, v) m.
Proof.
  induction m as [|[k' v'] m IH]; simpl; intros H; [discriminate|].
  destruct (N.eqb k k') eqn:E.
  - apply N.eqb_eq in E. inversion H. subst. auto.
  - auto.
Qed.

Lemma nlookup_none_notin : forall A (k : N) (m : list (N * A)), nlookup k m = None -> ~ In k (map fst m).
Proof.
  induction m as [|[k' v'] m IH]; simpl; intros H; [tauto|].
  destruct (N.eqb k k') eqn:E; [discriminate|].
  apply N.eqb_neq in E. intros [H1|H1]; [congruence|]. apply IH; assumption.
Qed.

Lemma map_fst_nupdate : forall A (k : N) (v : A) m, map fst (nupdate k v m) = map fst m.
Proof.
  induction m as [|[k' v'] m IH]; simpl; [reflexivity|].
  destruct (N.eqb k k'); simpl; [reflexivity|]. f_equal. assumption.
Qed.

Lemma in_map_fst_nremove : forall A (k x : N) (m : list (N * A)), In x (map fst (nremove k m)) -> In x (map fst m).
Proof.
  induction m as [|[k' v'] m IH]; simpl; intros H; [tauto|].
  destruct (N.eqb k k'); simpl in *; [auto|]. destruct H; auto.
Qed.

Lemma nodup_map_fst_nremove : forall A (k : N) (m : list (N * A)), NoDup (map fst m) -> NoDup (map fst (nremove k m)).
Proof.
  induction m as [|[k' v'] m IH]; simpl; intros H; [constructor|].
  inversion H; subst. destruct (N.eqb k k'); simpl; [assumption|].
  constructor; [|auto]. intros Hin. apply in_map_fst_nremove in Hin. contradiction.
Qed.

Lemma stats_out_app : forall a b, stats_out (a ++ b) = stats_out a ++ stats_out b.
Proof. intros. unfold stats_out. apply flat_map_app. Qed.
Lemma stats_in_app : forall a b, stats_in (a ++ b) = stats_in a ++ stats_in b.
Proof. intros. unfold stats_in. apply flat_map_app. Qed.
Lemma data_out_app : forall n a b, data_out n (a ++ b) = data_out n a ++ data_out n b.
Proof. intros. unfold data_out. apply flat_map_app. Qed.
Lemma data_in_app : forall n a b, data_in n (a ++ b) = data_in n a ++ data_in n b.
Proof. intros. unfold data_in. apply flat_map_app. Qed.
Lemma progress_of_app : forall a b, progress_of (a ++ b) = progress_of a ++ progress_of b.
Proof. intros. unfold progress_of. apply flat_map_app. Qed.
Lemma some_stats_app : forall a b, some_stats (a ++ b) = some_stats a ++ some_stats b.
Proof. intros. unfold some_stats. apply flat_map_app. Qed.

Lemma in_snoc : forall A (x e : A) l, In x (l ++ [e]) <-> In x l \/ e = x.
Proof. intros. rewrite in_app_iff. simpl. tauto. Qed.

Lemma firstn_snoc_nth : forall A (l : list A) k x,
  nth_error l k = Some x -> firstn (S k) l = firstn k l ++ [x].
Proof.
  induction l as [|a l IH]; intros k x H.
  - destruct k; discriminate.
  - destruct k; simpl in *.
    + inversion H. reflexivity.
    + f_equal. apply IH. assumption.
Qed.

Lemma nth_error_lt : forall A (l : list A) k x, nth_error l k = Some x -> (k < length l)%nat.
Proof. intros. apply nth_error_Some. congruence. Qed.
