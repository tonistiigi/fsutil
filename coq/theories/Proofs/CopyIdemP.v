(* C15 — repeating a successful copy changes nothing (one literal source): copying a source
   over its own copy changes no field of any dentry, and the directories the second run asks
   for exist already. *)
From Coq Require Import List NArith Bool Lia ZifyN ZifyNat ZifyBool.
From FS Require Import Sx Model.Path Model.SymMode Model.Copier Model.CopySpec Proofs.Lex
  Proofs.CopierP Proofs.CopyOpsP Proofs.CopyDentP Proofs.CopyNodeP Proofs.CopyMkdirP Proofs.CopyConflictP
  Proofs.CopyTopP Proofs.CopyThmP Proofs.CopyFaithP.
Import ListNotations.
Open Scope N_scope.
Open Scope bool_scope.

Section Again.
  Variable o : copts.
  Variable ms : option (list bitcmd).
  Variable multi : N -> bool.
  Notation copied := (copied o ms multi).
  Notation new_entry := (new_entry o ms multi).

  Lemma merged_d_idem sd d0 : xsorted (d_xattrs sd) -> merged_d o ms sd (merged_d o ms sd d0) = merged_d o ms sd d0.
  Proof.
    intro Hx. apply dent_ext; try reflexivity.
    - unfold merged_d at 1 3. cbn [set_xattrs set_mtime set_perm d_mode]. f_equal. apply (ftype_merged_d o ms sd d0).
    - apply merge_idem; auto.
  Qed.

  Lemma merged_new_entry s p : wf_dent (sdent s) -> is_dir (sdent s) = true ->
    merged_d o ms (sdent s) (x_d (new_entry s p)) = x_d (new_entry s p).
  Proof.
    intros (_ & _ & _ & Hx) Hd. destruct (type_facts (sdent s)) as (_ & _ & TD). destruct (TD Hd) as (_ & C2 & _).
    apply dent_ext; try reflexivity.
    - unfold merged_d. cbn [set_xattrs set_mtime set_perm d_mode].
      change (ftype (set_owner _ _ ?d)) with (ftype d). rewrite new_entry_ftype, info_mode_idem.
      unfold CopySpec.new_entry. cbn [x_d d_mode]. rewrite C2. reflexivity.
    - apply merge_self; auto.
  Qed.

  (* copying s over what its own copy left changes no field *)
  Lemma copied_again s old top p e' : wf_dent (sdent s) ->
    x_d e' = x_d (copied s old top p) -> x_d (copied s (Some e') top p) = x_d e'.
  Proof.
    intros Hwd He'. pose proof (copied_ftype o ms multi s old top p) as Hft. rewrite <- He' in Hft.
    destruct (is_dir (sdent s)) eqn:Hd; [|rewrite copied_unmerged, He', copied_unmerged by (rewrite Hd; auto); reflexivity].
    destruct (type_facts (sdent s)) as (_ & _ & TD). destruct (TD Hd) as (_ & _ & _ & _ & C5).
    assert (Hd' : is_dir (x_d e') = true) by (unfold is_dir; rewrite Hft, C5; reflexivity).
    rewrite copied_merged by auto. cbn [x_d]. rewrite He'.
    destruct (x_isdir old) eqn:Eo.
    - destruct old as [e|]; [|discriminate]. rewrite copied_merged by auto. cbn [x_d].
      destruct top; [reflexivity|]. destruct Hwd as (_ & _ & _ & Hx). apply merged_d_idem; auto.
    - rewrite copied_unmerged by (rewrite Eo; apply andb_false_r). destruct top; [reflexivity|]. apply merged_new_entry; auto.
  Qed.
End Again.

(* the same dentry, or nothing, in both *)
Definition same_d (a b : option xdent) : Prop := option_map x_d a = option_map x_d b.

Section Idem.
  Variable o : copts.
  Variable ms : option (list bitcmd).
  Variable multi : N -> bool.

  Lemma touch_d P V p : same_d (touch o P V p) (V p).
  Proof.
    unfold same_d. destruct (path_dec p P) as [->|Hn]; [|rewrite touch_other by auto; reflexivity].
    rewrite touch_same. destruct (V P); simpl; auto. rewrite touched_d. reflexivity.
  Qed.

  Lemma res_unrel_d sn L tp V p : strip_prefix L p = None -> same_d (res o ms multi sn L tp V p) (V p).
  Proof.
    intro H. unfold res. destruct (_ && _); [|unfold same_d; rewrite touch_d]; rewrite ov_unrel by auto; reflexivity.
  Qed.

  (* copying the same source again over a view that holds the result of the first copy *)
  Lemma second_view sn L V1 Vs :
    wf_s sn ->
    (L = [] -> is_dir (sdent sn) = true /\ x_isdir (Vs []) = true) ->
    (forall rel s, s_lookup sn rel = Some s ->
       exists e', Vs (L ++ rel) = Some e' /\
                  x_d e' = x_d (copied o ms multi s (V1 (L ++ rel)) (match rel with [] => true | _ => false end) (L ++ rel))) ->
    (forall rel, s_lookup sn rel = None -> shadowed sn rel = true -> Vs (L ++ rel) = None) ->
    forall p, same_d (res o ms multi sn L true Vs p) (Vs p).
  Proof.
    intros Hwf HL HA HB p. destruct (path_cases L p) as [(rel & ->)|Hu]; [|apply res_unrel_d; auto].
    unfold same_d. destruct (s_lookup sn rel) as [s|] eqn:Es.
    - rewrite (res_at_source _ _ _ _ _ _ _ _ HL Es).
      destruct (HA rel s Es) as (e' & E1 & E2). rewrite E1. simpl. f_equal.
      eapply copied_again; eauto. eapply wf_s_dent, s_lookup_wf; eauto.
    - rewrite (res_at_nonsource _ _ _ _ _ _ _ HL Es).
      destruct (shadowed sn rel) eqn:Esh; [rewrite (HB rel Es Esh)|]; reflexivity.
  Qed.
End Idem.

(* the fields two dentries share when only the time may differ *)
Definition same_but_time (a b : dent) : Prop :=
  d_mode a = d_mode b /\ d_uid a = d_uid b /\ d_gid a = d_gid b /\ d_rdev a = d_rdev b /\
  d_target a = d_target b /\ d_xattrs a = d_xattrs b /\ d_content a = d_content b.

Section IdemThm.
  Variable o : copts.
  Variable sroot : snode.
  Hypothesis Hsrc : wf_src sroot.
  Hypothesis Hlc : links_consistent sroot.
  Notation multi := (multi_of sroot).

  Theorem copy_idempotent_partial_proof fs src dst r1 st1 r2 ms sn L :
    o_wild o = false -> wf_fs fs ->
    overlay_all o sroot (view_of_fs fs) src dst = inl r1 ->
    copy_top o sel_all sroot fs src dst = (st1, None) ->
    parse_of o = Some ms -> s_resolve sroot (rooted src) = inl sn ->
    xr_landings r1 = [L] -> landing_clear r1 sn L ->
    overlay_all o sroot (view_of_fs (c_fs st1)) src dst = inl r2 -> xr_landings r2 = [L] ->
    exists st2, copy_top o sel_all sroot (c_fs st1) src dst = (st2, None) /\
      forall p, match view_of_fs (c_fs st1) p, view_of_fs (c_fs st2) p with
                | None, None => True
                | Some (_, d1), Some (_, d2) =>
                    same_but_time d1 d2 /\
                    (d_mtime d1 = d_mtime d2 \/ exists e, xr_view r2 p = Some e /\ x_known e = false)
                | _, _ => False
                end.
  Proof.
    intros Hw Hfs Eo1 Ec1 Hp Hs HL1 Hclear Eo2 HL2.
    (* first run *)
    destruct (top o sroot Hsrc Hlc (or_intror Hw) fs src dst Hfs) as (sdof1 & T1). rewrite Eo1 in T1.
    destruct T1 as (st1' & Ec1' & I1 & S1 & _). rewrite Ec1 in Ec1'. inversion Ec1'; subst st1'. clear Ec1'.
    destruct (inv_init o fs Hfs) as (_ & Hroot0 & _).
    destruct (overlay_all_single o sroot Hsrc _ src dst r1 ms sn L Hw Hroot0 Eo1 Hp Hs HL1)
      as (X1 & eps & V1 & target & B1 & B2 & B2' & _ & BT & B5 & B7 & B8 & _ & _ & B12).
    (* second run *)
    set (fs1 := c_fs st1) in *.
    assert (Hfs1 : wf_fs fs1) by (eapply (copy_preserves_wf_proof o sroot Hsrc Hlc); eauto).
    destruct (top o sroot Hsrc Hlc (or_intror Hw) fs1 src dst Hfs1) as (sdof2 & T2). rewrite Eo2 in T2.
    destruct T2 as (st2 & Ec2 & I2 & S2 & _). exists st2. split; auto.
    destruct (inv_init o fs1 Hfs1) as (_ & Hroot0' & _).
    destruct (overlay_all_single o sroot Hsrc _ src dst r2 ms sn L Hw Hroot0' Eo2 Hp Hs HL2)
      as (X1' & eps' & V1' & target' & C1 & _ & _ & _ & CT & C5 & C7 & C8 & _).
    set (X0' := xview_of (view_of_fs fs1)) in *.
    pose proof (s_resolve_wf_src sroot Hsrc _ _ Hs) as Hwfn.
    (* what exists after the first run *)
    assert (Ex1 : forall q, res o ms multi sn L true V1 q <> None -> X0' q <> None).
    { intros q Hq. rewrite <- B8 in Hq. unfold X0', xview_of, view_of_fs.
      destruct (names fs1 q) eqn:En; [discriminate|]. rewrite (i_none _ _ _ I1 _ En) in Hq. congruence. }
    assert (ExV1 : forall q, x_isdir (V1 q) = true -> In q (xr_paths r1) -> X0' q <> None).
    { intros q Hq Hin. apply Ex1. destruct (path_cases L q) as [(rel & ->)|Hu].
      - destruct (s_lookup sn rel) as [s|] eqn:Es.
        + rewrite (res_at_source _ _ _ _ _ _ _ _ B7 Es). discriminate.
        + destruct (Hclear rel); auto. intro; subst; destruct sn; discriminate.
      - pose proof (res_unrel_d o ms multi sn L true V1 q Hu) as Hd. unfold same_d in Hd.
        unfold x_isdir in Hq. destruct (V1 q); [|discriminate].
        destruct (res o ms multi sn L true V1 q); discriminate. }
    (* the directories the second run asks for exist already, so it makes none *)
    assert (PfxL : forall q, In q (prefixes [] L) -> X0' q <> None).
    { intros q Hq. apply prefixes_in in Hq. destruct Hq as (r1' & r2' & EL & ->). simpl.
      destruct r2' as [|c r2' _] using rev_ind.
      - rewrite app_nil_r in EL. subst r1'. apply Ex1. rewrite <- (app_nil_r L) at 2.
        rewrite (res_at_source _ _ _ _ _ _ [] sn B7) by reflexivity. discriminate.
      - assert (Hq : In r1' (prefixes [] target)).
        { apply prefixes_in. destruct BT as [->| ->]; [exists r1', (r2' ++ [c]); auto|].
          exists r1', r2'. rewrite EL, app_assoc, parent_snoc. auto. }
        apply ExV1; [exact (make_dirs_prefix_dirs _ _ _ _ _ B5 _ Hq)|]. rewrite B12. auto using in_or_app. }
    assert (E1' : forall p, X1' p = X0' p).
    { apply (make_dirs_noop _ _ _ _ _ C1). intros q Hq. apply B2' in Hq. destruct Hq as [<-|Hq].
      - unfold x_isdir in Hroot0'. fold X0' in Hroot0'. destruct (X0' []); [discriminate|discriminate].
      - apply ExV1; [|rewrite B12; auto using in_or_app].
        apply (make_dirs_mono o _ _ _ _ B5), (make_dirs_prefix_dirs _ _ _ _ _ B1), B2, Hq. }
    assert (E2' : forall p, V1' p = X0' p).
    { intro p. rewrite <- E1'. revert p. apply (make_dirs_noop _ _ _ _ _ C5). intros q Hq. rewrite E1'. apply PfxL.
      destruct CT as [->| ->]; auto.
      apply prefixes_in in Hq. destruct Hq as (r1' & r2' & EL & ->). apply prefixes_in.
      destruct (path_snoc_cases L) as [E0|(P & a & E0)]; rewrite E0 in EL |- *.
      - simpl in EL. symmetry in EL. apply app_eq_nil in EL as [-> ->]. exists [], []. auto.
      - rewrite parent_snoc in EL. exists r1', (r2' ++ [a]). rewrite EL, app_assoc. auto. }
    (* the second overlay leaves every dentry as it is *)
    assert (SV : forall p, same_d (res o ms multi sn L true V1' p) (V1' p)).
    { apply (second_view o ms multi sn L V1 V1'); auto.
      - intros rel s Es. rewrite E2'.
        pose proof (B8 (L ++ rel)) as Ex. rewrite (res_at_source _ _ _ _ _ _ _ _ B7 Es) in Ex.
        destruct (inv_x_some _ _ _ _ _ I1 Ex) as (i & Hi & Hdm & _).
        unfold X0', xview_of, view_of_fs. rewrite Hi. eexists. split; [reflexivity|].
        exact (dm_eq _ _ _ Hdm (S1 _ _ _ Hi Ex (copied_known _ _ _ _ _ _ _))).
      - intros rel Es Esh. rewrite E2'.
        pose proof (B8 (L ++ rel)) as Ex. rewrite (res_at_nonsource _ _ _ _ _ _ _ B7 Es), Esh in Ex.
        unfold X0', xview_of, view_of_fs. rewrite (inv_x_none _ _ _ _ I1 Ex). auto. }
    intro p. specialize (SV p). unfold same_d in SV. rewrite <- C8, E2' in SV.
    unfold X0', xview_of, view_of_fs in SV |- *.
    destruct (names fs1 p) as [i1|]; destruct (xr_view r2 p) as [e2|] eqn:E2v; try discriminate.
    - destruct (inv_x_some _ _ _ _ _ I2 E2v) as (i2 & Hi2 & Hdm2 & _). rewrite Hi2.
      inversion SV. destruct Hdm2 as (G1 & G2 & G3 & _ & G5 & G6 & G7 & G8).
      split; [unfold same_but_time; auto 10|].
      destruct (x_known e2) eqn:Ek; [left; symmetry; exact (S2 _ _ _ Hi2 E2v Ek)|right; eauto].
    - rewrite (inv_x_none _ _ _ _ I2 E2v). auto.
  Qed.
End IdemThm.
