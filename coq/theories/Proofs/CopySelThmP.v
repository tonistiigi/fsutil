(* C16: the statements of the property, derived from the pointwise specification of the copier's
   selection side (CopySelP.copy_dir_top_spec) and C10's theorems about the filtered walk. *)
From Coq Require Import List NArith Bool.
From FS Require Import Sx Model.Path Model.Stat Model.Tree Model.Pattern Model.FilterWalk Model.CopierSel
  Proofs.Lex Proofs.PathP Proofs.ListAux Proofs.ValidatorP Proofs.PatternP Proofs.FilterP Proofs.PruneP Proofs.IncrNaiveP Proofs.RefP
  Proofs.RefValidP Proofs.FlatRefP Proofs.NaiveRefP Proofs.WitnessP Proofs.CopySelP.
Import ListNotations.
Open Scope bool_scope.

Lemma wf_tree_node_wf : forall n, wf_tree_node n = true -> wf_node n = true.
Proof.
  induction n as [name st ct kids IHk] using node_ind2. cbn [wf_tree_node wf_node]. intros H.
  repeat (apply andb_true_iff in H; destruct H as [H ?]).
  repeat (apply andb_true_iff; split); auto.
  rewrite forallb_forall in *. rewrite Forall_forall in IHk. auto.
Qed.

Lemma wf_tree_wf_view view : wf_tree view = true -> wf_view view = true.
Proof.
  unfold wf_tree, wf_view. intros H. apply andb_true_iff in H. destruct H as [_ H].
  rewrite forallb_forall in *. intros n Hn. apply wf_tree_node_wf; auto.
Qed.

(* an unselected item of the reference is a directory (it has a selected entry below it) *)
Lemma ref_items_unsel_dir V : forall n, wf_tree_node n = true -> forall dir it,
  In it (ref_items V dir n) -> l_sel it = false -> st_is_dir (l_st it) = true.
Proof.
  refine (wf_tree_ind _ _). intros name st ct kids _ _ Hdk _ IHk dir it Hin Hs.
  cbn [ref_items] in Hin. cbv zeta in Hin.
  destruct (V (child_path dir name) || existsb (has_sel V (child_path dir name)) kids) eqn:E; [|destruct Hin].
  destruct Hin as [<-|Hin].
  - cbn [l_sel l_st] in *. rewrite Hs in E. destruct Hdk as [X|X]; [exact X|]. subst kids. discriminate.
  - apply in_flat_map in Hin. destruct Hin as (k & Hk & Hi). rewrite Forall_forall in IHk. eapply IHk; eauto.
Qed.

Lemma flat_items_unsel_dir V view it : wf_tree view = true ->
  In it (flat_items V view) -> l_sel it = false -> st_is_dir (l_st it) = true.
Proof.
  intros Hwf Hin Hs. rewrite <- (ref_items_flat V view Hwf) in Hin.
  apply in_flat_map in Hin. destruct Hin as (k & Hk & Hi).
  unfold wf_tree in Hwf. apply andb_true_iff in Hwf. destruct Hwf as [_ Hw]. rewrite forallb_forall in Hw.
  eapply ref_items_unsel_dir; eauto.
Qed.

Section Thms.
Variable pmatch : bytes -> bytes -> bool.
Variable c : cfg.
Notation V := (keep_incr pmatch c).

Theorem copy_selects_proof rootst view fs0 fs' log :
  wf_tree view = true ->
  copy_sel pmatch c false (SrcDir rootst view) fs0 = (fs', log, None) ->
  log = flat_items V view
  /\ map l_st log = flat_reference V view
  /\ (forall q, q <> [] -> fs' q = spec_ent log fs0 q)
  /\ (forall q, q <> [] -> (fs' q <> None <-> (fs0 q <> None \/ In q (map l_path log)))).
Proof.
  intros Hwf H. cbn [copy_sel] in H. destruct (copy_dir_top_spec pmatch c rootst view fs0 fs' log Hwf H) as [-> Q].
  split; [reflexivity|]. split; [apply flat_items_stats|]. split; [exact Q|].
  intros q Hq. rewrite (Q q Hq). unfold spec_ent. apply sfold_some.
Qed.

Theorem no_extra_dirs_proof rootst view fs0 fs' log :
  wf_tree view = true ->
  copy_sel pmatch c false (SrcDir rootst view) fs0 = (fs', log, None) ->
  forall e, In e (walk_root view) ->
    V (st_path (fst e)) = false ->
    (forall e', In e' (walk_root view) ->
       has_prefix (st_path (fst e) ++ [sep]) (st_path (fst e')) = true -> V (st_path (fst e')) = false) ->
    fs0 (st_path (fst e)) = None -> fs' (st_path (fst e)) = None.
Proof.
  intros Hwf H e He HV Hbelow H0.
  destruct (copy_selects_proof rootst view fs0 fs' log Hwf H) as (-> & _ & Q & _).
  rewrite (Q _ (walk_root_nonempty view e Hwf He)). unfold spec_ent. rewrite sfold_notin; [exact H0|].
  rewrite flat_items_paths. intros Hin. apply in_map_iff in Hin. destruct Hin as (e2 & E & He2).
  apply filter_In in He2. destruct He2 as [He2 Hsoa].
  assert (e2 = e).
  { eapply (NoDup_map_inj (fun x : Tree.entry => st_path (fst x))); eauto. apply walk_root_nodup; auto. }
  subst e2. unfold selected_or_above in Hsoa. rewrite HV in Hsoa. cbn [orb] in Hsoa.
  apply existsb_exists in Hsoa. destruct Hsoa as (e' & He' & X). apply andb_true_iff in X. destruct X as [X1 X2].
  rewrite (Hbelow e' He' X1) in X2. discriminate.
Qed.

(* every item of the log is written as [result] says, whatever was at its path before *)
Theorem copy_item_result rootst view fs0 fs' log :
  wf_tree view = true ->
  copy_sel pmatch c false (SrcDir rootst view) fs0 = (fs', log, None) ->
  forall it, In it log ->
    In (l_st it, l_ct it) (walk_root view) /\ fs' (l_path it) = Some (result it (fs0 (l_path it))).
Proof.
  intros Hwf H it Hin.
  destruct (copy_selects_proof rootst view fs0 fs' log Hwf H) as (-> & _ & Q & _).
  destruct (flat_items_in V view it Hin) as (Hw & _ & _). split; [exact Hw|].
  rewrite (Q (l_path it) (walk_root_nonempty view _ Hwf Hw)).
  exact (sfold_unique _ (flat_items_nodup V view Hwf) it _ Hin).
Qed.

Theorem lazy_parent_metadata_proof rootst view fs0 fs' log :
  wf_tree view = true ->
  copy_sel pmatch c false (SrcDir rootst view) fs0 = (fs', log, None) ->
  forall it, In it log -> l_sel it = false ->
    In (l_st it, l_ct it) (walk_root view) /\ st_is_dir (l_st it) = true /\
    match fs0 (l_path it) with
    | None => exists e, fs' (l_path it) = Some e /\ st_is_dir (fst e) = true
              /\ perm_of (st_mode (fst e)) = perm_of (st_mode (l_st it))
              /\ st_uid (fst e) = st_uid (l_st it) /\ st_gid (fst e) = st_gid (l_st it)
              /\ (keys_sorted (st_xattrs (l_st it)) = true -> st_xattrs (fst e) = st_xattrs (l_st it))
    | Some old => fs' (l_path it) = Some (chmod_stat (l_st it) (fst old), snd old)
    end.
Proof.
  intros Hwf H it Hin Hs. destruct (copy_item_result rootst view fs0 fs' log Hwf H it Hin) as [Hw ->].
  destruct (copy_selects_proof rootst view fs0 fs' log Hwf H) as (-> & _).
  pose proof (flat_items_unsel_dir V view it Hwf Hin Hs) as Hd.
  split; [exact Hw|]. split; [exact Hd|].
  unfold result. rewrite Hd, Hs. cbn [orb].
  destruct (fs0 (l_path it)) as [old|]; [reflexivity|].
  eexists. split; [reflexivity|].
  unfold xattr_entry, info_entry, dir_only, blank_dir. cbn [fst snd st_xattrs st_mode st_uid st_gid set_xattrs].
  split; [|split; [|split; [|split]]].
  - change (st_is_dir (chmod_stat (l_st it) (chown_stat (l_st it) (fst (blank_dir (st_path (l_st it)))))) = true).
    rewrite isdir_chmod. reflexivity.
  - apply (perm_chmod (l_st it)).
  - reflexivity.
  - reflexivity.
  - intros Hk. apply xmerge_sorted_nil. exact Hk.
Qed.

(* C10: the un-pruned filtered walk reports the flat reference over the incremental verdict *)
Theorem copy_eq_filter_walk_unpruned_proof rootst view fs0 fs' log :
  wf_tree view = true ->
  copy_sel pmatch c false (SrcDir rootst view) fs0 = (fs', log, None) ->
  map l_st log = filter_walk pmatch id_map (no_prune c) view.
Proof.
  intros Hwf H. destruct (copy_selects_proof rootst view fs0 fs' log Hwf H) as (_ & E & _).
  rewrite E. rewrite filter_walk_reference_proof by (apply wf_tree_wf_view; auto).
  symmetry. apply reference_nomap_flat_proof. exact Hwf.
Qed.

Theorem copy_eq_filter_walk_proof rootst view fs0 fs' log :
  prefix_semantics pmatch -> cfg_star_safe c = true -> wf_tree view = true ->
  copy_sel pmatch c false (SrcDir rootst view) fs0 = (fs', log, None) ->
  map l_st log = filter_walk pmatch id_map c view.
Proof.
  intros Hsem Hsafe Hwf H.
  rewrite (prune_unobservable_proof pmatch id_map Hsem c Hsafe view (wf_tree_wf_view view Hwf)).
  eapply copy_eq_filter_walk_unpruned_proof; eauto.
Qed.

(* two verdicts that agree on every path of the view give the same items *)
Lemma flat_items_ext V1 V2 view :
  (forall e, In e (walk_root view) -> V1 (st_path (fst e)) = V2 (st_path (fst e))) ->
  flat_items V1 view = flat_items V2 view.
Proof.
  intros H. unfold flat_items.
  assert (Hf : forall e, In e (walk_root view) ->
            selected_or_above V1 (walk_root view) e = selected_or_above V2 (walk_root view) e).
  { intros e He. unfold selected_or_above. rewrite (H e He). f_equal.
    apply existsb_ext_in. intros x Hx. rewrite (H x Hx). reflexivity. }
  rewrite (filter_ext_in _ _ _ Hf). apply map_ext_in. intros e He. apply filter_In in He. destruct He as [He _].
  rewrite (H e He). reflexivity.
Qed.

Theorem copy_eq_naive_proof rootst view fs0 fs' log :
  wf_tree view = true -> wf_strict view = true -> all_paths (nls_path pmatch c) view = true ->
  copy_sel pmatch c false (SrcDir rootst view) fs0 = (fs', log, None) ->
  log = flat_items (keep_naive pmatch c) view.
Proof.
  intros Hwf Hst Hn H. destruct (copy_selects_proof rootst view fs0 fs' log Hwf H) as (-> & _).
  apply flat_items_ext. intros e He. apply eqb_prop.
  exact (all_paths_in _ view (all_paths_keep_view pmatch c view Hst Hn) e He).
Qed.
End Thms.

(* a non-directory as the source: the patterns are never consulted *)
Lemma single_file_proof pmatch c pmatch' c' repl st ct fs :
  copy_sel pmatch c repl (SrcFile st ct) fs = copy_sel pmatch' c' repl (SrcFile st ct) fs.
Proof. reflexivity. Qed.
