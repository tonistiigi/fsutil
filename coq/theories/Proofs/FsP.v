(* C03 — lemmas about the file-system model L9 (Model/Fs.v):
   association lists, the inode table, rewriting a directory's entry list, "real" walks (no symlink
   met) and the characterisation of [walk] on normal components by them ([walk_real]), so that the
   frame lemmas of FsFrameP.v never unfold the fuelled functions. *)
From Coq Require Import List NArith Bool Lia ZifyN ZifyNat ZifyBool.
From FS Require Import Sx Model.Path Model.Fs Proofs.Lex Proofs.PathP.
Import ListNotations.
Open Scope N_scope.
Open Scope bool_scope.

Lemma alookup_aset_same {A} k (v : A) l : alookup k (aset k v l) = Some v.
Proof.
  induction l as [|[k' v'] l IH]; simpl.
  - rewrite N.eqb_refl. reflexivity.
  - destruct (N.eqb k k') eqn:E; simpl.
    + rewrite N.eqb_refl. reflexivity.
    + rewrite E. exact IH.
Qed.

Lemma alookup_aset_other {A} k k' (v : A) l : k <> k' -> alookup k (aset k' v l) = alookup k l.
Proof.
  intros H. induction l as [|[k2 v2] l IH]; simpl.
  - apply N.eqb_neq in H. rewrite H. reflexivity.
  - destruct (N.eqb k' k2) eqn:E; simpl.
    + apply N.eqb_eq in E. subst k2. apply N.eqb_neq in H. rewrite H. reflexivity.
    + destruct (N.eqb k k2); auto.
Qed.

Lemma blookup_In {A} k (v : A) l : blookup k l = Some v -> In (k, v) l.
Proof.
  induction l as [|[k' v'] l IH]; simpl; [discriminate|].
  destruct (bytes_eqb k k') eqn:E.
  - apply bytes_eqb_eq in E. subst. intros H. inversion H. left. reflexivity.
  - intros H. right. auto.
Qed.

Lemma blookup_None_iff {A} k (l : list (bytes * A)) : blookup k l = None <-> ~ In k (map fst l).
Proof.
  induction l as [|[k' v'] l IH]; simpl; [tauto|].
  destruct (bytes_eqb k k') eqn:E; [apply bytes_eqb_eq in E|apply bytes_eqb_neq in E].
  - split; [discriminate|intros H; destruct H; auto].
  - rewrite IH. split; [intros H [H1|H1]; [congruence|auto]|tauto].
Qed.
Lemma blookup_None_notin {A} k (l : list (bytes * A)) : blookup k l = None -> ~ In k (map fst l).
Proof. apply blookup_None_iff. Qed.

Lemma In_blookup_nodup {A} k (v : A) l : NoDup (map fst l) -> In (k, v) l -> blookup k l = Some v.
Proof.
  induction l as [|[k' v'] l IH]; simpl; [tauto|].
  intros Hnd [H|H].
  - inversion H; subst. rewrite bytes_eqb_refl. reflexivity.
  - inversion Hnd as [|? ? Hni Hnd']; subst.
    rewrite (proj2 (bytes_eqb_neq _ _)).
    + apply IH; auto.
    + intro; subst. apply Hni. change k' with (fst (k', v)). apply in_map. exact H.
Qed.

Lemma blookup_app {A} k (l1 l2 : list (bytes * A)) :
  blookup k (l1 ++ l2) = match blookup k l1 with Some v => Some v | None => blookup k l2 end.
Proof.
  induction l1 as [|[k' v'] l1 IH]; simpl; [reflexivity|].
  destruct (bytes_eqb k k'); auto.
Qed.

Lemma blookup_bset_same {A} k (v : A) l : blookup k (bset k v l) = Some v.
Proof.
  induction l as [|[k' v'] l IH]; simpl.
  - rewrite bytes_eqb_refl. reflexivity.
  - destruct (bytes_eqb k k') eqn:E; simpl.
    + rewrite bytes_eqb_refl. reflexivity.
    + rewrite E. exact IH.
Qed.

Lemma blookup_bset_other {A} k k' (v : A) l : k <> k' -> blookup k (bset k' v l) = blookup k l.
Proof.
  intros H. induction l as [|[k2 v2] l IH]; simpl.
  - rewrite (proj2 (bytes_eqb_neq _ _)) by auto. reflexivity.
  - destruct (bytes_eqb k' k2) eqn:E; simpl.
    + apply bytes_eqb_eq in E. subst k2. rewrite (proj2 (bytes_eqb_neq _ _)) by auto. reflexivity.
    + destruct (bytes_eqb k k2); auto.
Qed.

Lemma blookup_bremove_other {A} k k' (l : list (bytes * A)) : k <> k' -> blookup k (bremove k' l) = blookup k l.
Proof.
  intros H. induction l as [|[k2 v2] l IH]; simpl; [reflexivity|].
  destruct (bytes_eqb k' k2) eqn:E; simpl.
  - apply bytes_eqb_eq in E. subst k2. rewrite (proj2 (bytes_eqb_neq _ _)) by auto. reflexivity.
  - destruct (bytes_eqb k k2); auto.
Qed.

Lemma bremove_In {A} k (l : list (bytes * A)) x : In x (bremove k l) -> In x l.
Proof.
  induction l as [|[k2 v2] l IH]; simpl; [tauto|].
  destruct (bytes_eqb k k2); simpl; intuition.
Qed.

Lemma bremove_fst_In {A} k (l : list (bytes * A)) x : In x (map fst (bremove k l)) -> In x (map fst l).
Proof.
  intros H. apply in_map_iff in H. destruct H as (y & <- & H). exact (in_map fst _ _ (bremove_In _ _ _ H)).
Qed.

Lemma bremove_nodup {A} k (l : list (bytes * A)) : NoDup (map fst l) -> NoDup (map fst (bremove k l)).
Proof.
  induction l as [|[k2 v2] l IH]; simpl; intros H; [constructor|].
  inversion H; subst. destruct (bytes_eqb k k2); simpl; auto.
  constructor; auto. intro Hin. apply bremove_fst_In in Hin. auto.
Qed.

Lemma blookup_bremove_same {A} k (l : list (bytes * A)) : NoDup (map fst l) -> blookup k (bremove k l) = None.
Proof.
  induction l as [|[k2 v2] l IH]; simpl; intros H; [reflexivity|].
  inversion H; subst. destruct (bytes_eqb k k2) eqn:E; simpl.
  - apply bytes_eqb_eq in E. subst. apply blookup_None_iff. auto.
  - rewrite E. auto.
Qed.

Lemma bset_In {A} k (v : A) l x : In x (bset k v l) -> x = (k, v) \/ In x l.
Proof.
  induction l as [|[k2 v2] l IH]; simpl; intros H.
  - destruct H as [H|[]]; auto.
  - destruct (bytes_eqb k k2); simpl in H; destruct H as [H|H]; auto.
    apply IH in H. tauto.
Qed.

Lemma bset_fst {A} k (v : A) l : forall x, In x (map fst (bset k v l)) -> x = k \/ In x (map fst l).
Proof.
  intros x H. apply in_map_iff in H. destruct H as (y & <- & H).
  destruct (bset_In _ _ _ _ H) as [->|H']; [left; reflexivity|right; exact (in_map fst _ _ H')].
Qed.

Lemma bset_nodup {A} k (v : A) l : NoDup (map fst l) -> NoDup (map fst (bset k v l)).
Proof.
  induction l as [|[k2 v2] l IH]; simpl; intros H.
  - constructor; [simpl; tauto|constructor].
  - inversion H; subst. destruct (bytes_eqb k k2) eqn:E; simpl.
    + apply bytes_eqb_eq in E. subst. constructor; auto.
    + constructor; auto. intro Hin. apply bset_fst in Hin. destruct Hin as [Hin|Hin]; auto.
      subst. rewrite bytes_eqb_refl in E. discriminate.
Qed.

Lemma aset_aset {A} k (a b : A) l : aset k b (aset k a l) = aset k b l.
Proof.
  induction l as [|[k' v'] l IH]; simpl.
  - rewrite N.eqb_refl. reflexivity.
  - destruct (N.eqb k k') eqn:E; simpl.
    + rewrite N.eqb_refl. reflexivity.
    + rewrite E, IH. reflexivity.
Qed.

Lemma bremove_notin {A} k (l : list (bytes * A)) : NoDup (map fst l) -> ~ In k (map fst (bremove k l)).
Proof. intros H. apply blookup_None_notin, blookup_bremove_same, H. Qed.

Lemma get_put_same f i n : get (put f i n) i = Some n.
Proof. unfold get, put. simpl. apply alookup_aset_same. Qed.
Lemma get_put_other f i j n : j <> i -> get (put f i n) j = get f j.
Proof. intros H. unfold get, put. simpl. apply alookup_aset_other. exact H. Qed.
Lemma next_put f i n : f_next (put f i n) = f_next f. Proof. reflexivity. Qed.
Lemma put_put f i a b : put (put f i a) i b = put f i b.
Proof. unfold put. simpl. rewrite aset_aset. reflexivity. Qed.

Lemma get_alloc_new f n : get (fst (alloc f n)) (snd (alloc f n)) = Some n.
Proof. unfold alloc, get. simpl. apply alookup_aset_same. Qed.
Lemma get_alloc_other f n j : j <> f_next f -> get (fst (alloc f n)) j = get f j.
Proof. intros H. unfold alloc, get. simpl. apply alookup_aset_other. exact H. Qed.
Lemma alloc_snd f n : snd (alloc f n) = f_next f. Proof. reflexivity. Qed.
Lemma next_alloc f n : f_next (fst (alloc f n)) = f_next f + 1. Proof. reflexivity. Qed.

(* tag of the constructor of an inode's kind: what [st_tag] (FsReachP.step) says no step changes *)
Definition ktag (k : ikind) : N :=
  match k with KDir _ _ => 0 | KFile _ => 1 | KLink _ => 2 | KSpecial _ _ => 3 end.
Definition itag (o : option inode) : option N := option_map (fun n => ktag (i_kind n)) o.

Definition is_link (f : fs) (i : N) : bool :=
  match get f i with Some {| i_kind := KLink _ |} => true | _ => false end.

Lemma dir_of_tag f i p es : dir_of f i = Some (p, es) -> itag (get f i) = Some 0.
Proof.
  unfold dir_of. destruct (get f i) as [[k m]|]; [|discriminate]. destruct k; try discriminate. reflexivity.
Qed.
Lemma tag_dir_of f i : itag (get f i) = Some 0 -> exists p es, dir_of f i = Some (p, es).
Proof.
  unfold dir_of. destruct (get f i) as [[k m]|]; [|discriminate]. destruct k; try discriminate. eauto.
Qed.
Lemma is_link_tag f i : is_link f i = true <-> itag (get f i) = Some 2.
Proof.
  unfold is_link. destruct (get f i) as [[k m]|]; simpl; [|split; discriminate].
  destruct k; simpl; split; congruence.
Qed.
Lemma is_dir_dir_of f i : is_dir f i = true <-> exists p es, dir_of f i = Some (p, es).
Proof.
  unfold is_dir. destruct (dir_of f i) as [[p es]|]; split; intros H; eauto; try discriminate.
  destruct H as (? & ? & ?). discriminate.
Qed.

Lemma is_dir_tag f i : is_dir f i = true <-> itag (get f i) = Some 0.
Proof.
  rewrite is_dir_dir_of. split; [intros (p & es & H); exact (dir_of_tag f i p es H)|apply tag_dir_of].
Qed.

(* what an inode is depends on its constructor only *)
Lemma is_dir_same_tag f f' i : itag (get f' i) = itag (get f i) -> is_dir f' i = is_dir f i.
Proof. intros H. apply eq_true_iff_eq. rewrite !is_dir_tag, H. reflexivity. Qed.
Lemma is_link_same_tag f f' i : itag (get f' i) = itag (get f i) -> is_link f' i = is_link f i.
Proof. intros H. apply eq_true_iff_eq. rewrite !is_link_tag, H. reflexivity. Qed.
Lemma rfuel_S : exists k, rfuel = S k.
Proof. exists (pred rfuel). reflexivity. Qed.

Lemma dir_not_link f i : is_dir f i = true -> is_link f i = false.
Proof.
  intros H. apply is_dir_tag in H. destruct (is_link f i) eqn:E; auto. apply is_link_tag in E. congruence.
Qed.

Lemma dir_of_get f i p es :
  dir_of f i = Some (p, es) -> exists m, get f i = Some {| i_kind := KDir p es; i_meta := m |}.
Proof.
  unfold dir_of. destruct (get f i) as [[[] m]|]; try discriminate. intros [= -> ->]. eauto.
Qed.

(* entries of a directory (nil for anything else) *)
Definition ents (f : fs) (i : N) : list (bytes * N) :=
  match dir_of f i with Some (_, es) => es | None => [] end.
Lemma dir_of_ents f i p es : dir_of f i = Some (p, es) -> ents f i = es.
Proof. unfold ents. intros ->. reflexivity. Qed.
Lemma blookup_ents_dir f i n j : blookup n (ents f i) = Some j -> is_dir f i = true.
Proof. unfold ents, is_dir. destruct (dir_of f i) as [[p es]|]; [reflexivity|discriminate]. Qed.

Lemma set_ents_get f d p es m es' :
  get f d = Some {| i_kind := KDir p es; i_meta := m |} ->
  set_ents f d es' = put f d {| i_kind := KDir p es'; i_meta := with_mtime m now_mark |}.
Proof. intros H. unfold set_ents. rewrite H. reflexivity. Qed.

Lemma next_set_ents f d es' : f_next (set_ents f d es') = f_next f.
Proof. unfold set_ents. destruct (get f d) as [[[] ?]|]; reflexivity. Qed.

Lemma get_set_ents_other f d es' j : j <> d -> get (set_ents f d es') j = get f j.
Proof.
  intros H. unfold set_ents. destruct (get f d) as [[[] ?]|]; try reflexivity. apply get_put_other, H.
Qed.

Lemma itag_set_ents f d es' j : itag (get (set_ents f d es') j) = itag (get f j).
Proof.
  destruct (N.eq_dec j d) as [->|H]; [|rewrite get_set_ents_other; auto].
  unfold set_ents. destruct (get f d) as [[[] ?]|] eqn:E; rewrite ?get_put_same, ?E; reflexivity.
Qed.

Lemma ents_set_ents_same f d es' : is_dir f d = true -> ents (set_ents f d es') d = es'.
Proof.
  unfold is_dir, ents, set_ents, dir_of. destruct (get f d) as [[[] ?]|]; try discriminate.
  rewrite get_put_same. reflexivity.
Qed.

Lemma ents_set_ents_other f d es' j : j <> d -> ents (set_ents f d es') j = ents f j.
Proof. intros H. unfold ents, dir_of. rewrite get_set_ents_other by exact H. reflexivity. Qed.

Lemma set_ents_twice f d es1 es2 : set_ents (set_ents f d es1) d es2 = set_ents f d es2.
Proof.
  unfold set_ents. destruct (get f d) as [[[] ?]|] eqn:E; rewrite ?get_put_same, ?E, ?put_put; reflexivity.
Qed.

(* the model's updates of an entry list, [add_ent] and [del_ent] among them, are such rewritings (of
   nothing, when [d] is no directory) *)
Lemma upd_ents_set_ents f d (g : list (bytes * N) -> list (bytes * N)) :
  match dir_of f d with Some (_, es) => set_ents f d (g es) | None => f end = set_ents f d (g (ents f d)).
Proof. unfold ents, set_ents, dir_of. destruct (get f d) as [[[] ?]|]; reflexivity. Qed.
Lemma add_ent_set_ents f d n i : add_ent f d n i = set_ents f d (ents f d ++ [(n, i)]).
Proof. exact (upd_ents_set_ents f d (fun es => es ++ [(n, i)])). Qed.
Lemma del_ent_set_ents f d n : del_ent f d n = set_ents f d (bremove n (ents f d)).
Proof. exact (upd_ents_set_ents f d (bremove n)). Qed.

Lemma ents_set_parent f i p j : ents (set_parent f i p) j = ents f j.
Proof.
  unfold set_parent. destruct (get f i) as [[[] ?]|] eqn:E; try reflexivity.
  unfold ents, dir_of. destruct (N.eq_dec j i) as [->|H].
  - rewrite get_put_same, E. reflexivity.
  - rewrite get_put_other by exact H. reflexivity.
Qed.

(* real walks: follow directory entries only; every inode passed must be a directory *)
Fixpoint rwalk (f : fs) (i : N) (cs : list bytes) : option N :=
  match cs with
  | [] => Some i
  | c :: r =>
    match dir_of f i with
    | Some (_, es) => match blookup c es with Some j => rwalk f j r | None => None end
    | None => None
    end
  end.

Lemma rwalk_unfold f j c r :
  rwalk f j (c :: r) = match blookup c (ents f j) with Some i => rwalk f i r | None => None end.
Proof. simpl. unfold ents. destruct (dir_of f j) as [[p es]|]; reflexivity. Qed.

Lemma rwalk_app f i a b : rwalk f i (a ++ b) = match rwalk f i a with Some j => rwalk f j b | None => None end.
Proof.
  revert i; induction a as [|c a IH]; intros i; [reflexivity|].
  cbn [app]. rewrite !rwalk_unfold. destruct (blookup c (ents f i)); auto.
Qed.

Lemma rwalk_snoc f i a c j :
  rwalk f i (a ++ [c]) = Some j <-> exists d, rwalk f i a = Some d /\ blookup c (ents f d) = Some j /\ is_dir f d = true.
Proof.
  rewrite rwalk_app. split.
  - destruct (rwalk f i a) as [d|]; [|discriminate]. rewrite rwalk_unfold.
    destruct (blookup c (ents f d)) eqn:E; [|discriminate]. intros [= <-]. eauto using blookup_ents_dir.
  - intros (d & -> & H & _). rewrite rwalk_unfold, H. reflexivity.
Qed.

(* no entry met along [cs] (from directory [i]) is a symlink; a missing entry or a
   non-directory in the way ends the walk (ENOENT / ENOTDIR) and is harmless *)
Fixpoint safe (f : fs) (i : N) (cs : list bytes) : Prop :=
  match cs with
  | [] => True
  | c :: r =>
    match dir_of f i with
    | Some (_, es) =>
      match blookup c es with
      | Some j => is_link f j = false /\ safe f j r
      | None => True
      end
    | None => True
    end
  end.

Lemma safe_unfold f j c r :
  safe f j (c :: r) <-> match blookup c (ents f j) with Some i => is_link f i = false /\ safe f i r | None => True end.
Proof. simpl. unfold ents. destruct (dir_of f j) as [[p es]|]; tauto. Qed.

Lemma safe_app f i a b : safe f i (a ++ b) <-> safe f i a /\ (forall j, rwalk f i a = Some j -> safe f j b).
Proof.
  revert i; induction a as [|c a IH]; intros i.
  - simpl. split; [intros H; split; auto; intros j [= <-]; exact H|intros [_ H]; apply H; reflexivity].
  - cbn [app]. rewrite !safe_unfold, rwalk_unfold.
    destruct (blookup c (ents f i)) as [j|]; [rewrite IH; tauto|]. split; [intros _; split; auto; discriminate|auto].
Qed.

Lemma safe_prefix f i a b : safe f i (a ++ b) -> safe f i a.
Proof. intros H. apply safe_app in H. tauto. Qed.

Definition normalc (c : bytes) : Prop := normal c.

Lemma normal_not_dot c : normal c -> bytes_eqb c s_dot = false /\ bytes_eqb c s_dotdot = false.
Proof. intros (H1 & H2 & H3). split; apply bytes_eqb_neq; auto. Qed.

(* what a lookup of [pre ++ [n]] from directory [cur] gives when it follows no symlink: the real
   walk along [pre] finds the directory that holds, or would hold, the name [n] *)
Definition walks_to (f : fs) (cur : N) (pre : list bytes) (n : bytes) (r : lres + errno) : Prop :=
  match rwalk f cur pre with
  | Some j => r = if is_dir f j then inl {| l_dir := j; l_name := n; l_ino := blookup n (ents f j) |}
                  else inr ENOTDIR
  | None => exists e, r = inr e
  end.

(* the fuelled lookup on normal components that meets no symlink on its way (the final component
   may be one when it is not to be followed): either out of fuel or the real walk *)
Lemma walk_real fuel f root n (follow : bool) : normal n -> forall pre cur nsym,
  Forall normal pre -> safe f cur (if follow then pre ++ [n] else pre) ->
  walk fuel f root cur (pre ++ [n]) follow nsym = inr ELOOP
  \/ walks_to f cur pre n (walk fuel f root cur (pre ++ [n]) follow nsym).
Proof.
  intros Hn. induction fuel as [|fuel IH]; intros pre cur nsym Hp Hs; [left; reflexivity|].
  destruct pre as [|c pre]; cbn [app walk]; unfold walks_to; cbn [rwalk].
  - right. unfold is_dir, ents. destruct (dir_of f cur) as [[p es]|] eqn:Ed; [|reflexivity].
    destruct (normal_not_dot n Hn) as [-> ->].
    destruct (blookup n es) as [i|] eqn:Eb; [|reflexivity]. cbn [is_nil andb].
    destruct follow; cbn [negb]; [|destruct (get f i) as [[[] ?]|]; reflexivity].
    cbn [app safe] in Hs. rewrite Ed, Eb in Hs. destruct Hs as [Hl _]. unfold is_link in Hl.
    destruct (get f i) as [[[] ?]|]; try discriminate; reflexivity.
  - inversion Hp as [|? ? Hc Hp']; subst. destruct (normal_not_dot c Hc) as [-> ->].
    replace (is_nil (pre ++ [n])) with false by (destruct pre; reflexivity).
    destruct (dir_of f cur) as [[p es]|] eqn:Ed; [|right; eauto].
    destruct (blookup c es) as [i|] eqn:Eb; [|right; eauto].
    assert (H : is_link f i = false /\ safe f i (if follow then pre ++ [n] else pre)).
    { destruct follow; cbn [app safe] in Hs; rewrite Ed, Eb in Hs; exact Hs. }
    destruct H as [Hl Hs']. unfold is_link in Hl. cbn [andb].
    destruct (get f i) as [[[] ?]|]; try discriminate; apply IH; auto.
Qed.
