(* The un-pruned filterFS.Walk reports exactly what the declarative reference says, with
   the verdict of a path being the one MatchesUsingParentResults yields when handed down
   from the root (keep_incr). *)
From Coq Require Import List NArith Bool.
From FS Require Import Sx Model.Path Model.Stat Model.Tree Model.Pattern Model.FilterWalk
  Proofs.Lex Proofs.PathP Proofs.PatternP Proofs.FilterP Proofs.IncrNaiveP.
Import ListNotations.
Open Scope bool_scope.

Lemma comps_snoc d name : nosep name -> comps (d ++ sep :: name) = comps d ++ [name].
Proof. intros Hn. rewrite comps_app_sep_gen, (comps_nosep_single name) by auto. reflexivity. Qed.

Lemma pcomps_child dir name : name <> [] -> nosep name -> pcomps (child_path dir name) = pcomps dir ++ [name].
Proof.
  intros Hne Hn. unfold child_path. destruct dir as [|a dir].
  - cbn [pcomps app]. unfold pcomps. destruct name; [congruence|]. apply comps_nosep_single; auto.
  - unfold pcomps at 1. destruct ((a :: dir) ++ sep :: name) eqn:E; [destruct dir; discriminate|]. rewrite <- E.
    rewrite comps_snoc by auto. reflexivity.
Qed.

(* One optional matcher asked about p with the parent directory's MatchInfo pi (dflt: the answer
   of a nil matcher): eval_inc / eval_exc of the walk ask with the info on top of the stack,
   sel_inc / sel_exc of the copier with the info passed down.  [chain_at] is the answer when the
   infos have been handed down from the root. *)
Section Handed.
Variable pmatch : bytes -> bytes -> bool.

Definition ask (o : option (list pat)) (dflt : bool) (p : bytes) (pi : list bool) : bool * list bool :=
  match o with Some pats => incr_eval pmatch pats p pi | None => (dflt, []) end.
Definition chain_at (o : option (list pat)) (dflt : bool) (p : bytes) : bool * list bool :=
  match o with Some pats => incr_chain pmatch pats (pcomps p) | None => (dflt, []) end.
Definition handed (o : option (list pat)) (dir : bytes) (pi : list bool) : Prop :=
  forall pats, o = Some pats -> pi = snd (incr_chain pmatch pats (pcomps dir)).

Lemma handed_chain o dflt p : handed o p (snd (chain_at o dflt p)).
Proof. intros pats ->. reflexivity. Qed.

(* evaluating the child with the parent's info is evaluating the whole chain *)
Lemma ask_child o dflt dir name pi : name <> [] -> nosep name -> handed o dir pi ->
  ask o dflt (child_path dir name) pi = chain_at o dflt (child_path dir name).
Proof.
  intros Hne Hns H. destruct o as [pats|]; [|reflexivity]. cbn [ask chain_at]. rewrite (H pats eq_refl).
  rewrite pcomps_child by auto. rewrite incr_chain_snoc. rewrite <- pcomps_child by auto.
  rewrite joinc_pcomps. reflexivity.
Qed.

Lemma keep_incr_chain c p :
  keep_incr pmatch c p = fst (chain_at (c_inc c) true p) && negb (fst (chain_at (c_exc c) false p)).
Proof. unfold keep_incr. destruct (c_inc c), (c_exc c); reflexivity. Qed.
End Handed.

Section Lazy.
Variable mapfn : bytes -> stat -> mres * stat.

Notation lz := (lazy_parents mapfn).
Definition lz_stack (A : list vdir) : list vdir := fst (fst (lz A)).
Definition lz_em (A : list vdir) : list stat := snd (fst (lz A)).
Definition lz_ab (A : list vdir) : bool := snd (lz A).

Lemma lz_eta A : lz A = (lz_stack A, lz_em A, lz_ab A).
Proof. unfold lz_stack, lz_em, lz_ab. destruct (lz A) as [[? ?] ?]. reflexivity. Qed.

Lemma lazy_go_app l1 l2 :
  lazy_go mapfn (l1 ++ l2) =
  let '(l1', em1, ab1) := lazy_go mapfn l1 in
  if ab1 then (l1' ++ l2, em1, true)
  else let '(l2', em2, ab2) := lazy_go mapfn l2 in (l1' ++ l2', em1 ++ em2, ab2).
Proof.
  induction l1 as [|v r IH]; cbn [app].
  - cbn [lazy_go]. destruct (lazy_go mapfn l2) as [[? ?] ?]. reflexivity.
  - rewrite !lazy_go_cons, IH. destruct (lazy_step mapfn v) as [[v' em] ab]. destruct ab; [reflexivity|].
    destruct (lazy_go mapfn r) as [[r' em1] ab1]. destruct ab1; [reflexivity|].
    destruct (lazy_go mapfn l2) as [[? ?] ?]. rewrite app_assoc. reflexivity.
Qed.

Lemma lazy_step_idem v :
  lazy_step mapfn (fst (fst (lazy_step mapfn v))) = (fst (fst (lazy_step mapfn v)), [], snd (lazy_step mapfn v)).
Proof.
  unfold lazy_step. destruct (vd_skip v) eqn:Es; [cbn [fst snd]; rewrite Es; reflexivity|].
  destruct (vd_called v) eqn:Ec; [cbn [fst snd]; rewrite Es, Ec; reflexivity|].
  destruct (mapfn (st_path (vd_stat v)) (vd_stat v)) as [[| |] s'] eqn:Em;
    cbn [fst snd set_called set_skip vd_skip vd_called vd_stat]; rewrite ?Es, ?Ec, ?Em; reflexivity.
Qed.

Lemma lazy_go_idem l :
  lazy_go mapfn (fst (fst (lazy_go mapfn l))) = (fst (fst (lazy_go mapfn l)), [], snd (lazy_go mapfn l)).
Proof.
  induction l as [|v r IH]; [reflexivity|]. rewrite lazy_go_cons. pose proof (lazy_step_idem v) as Hv.
  destruct (lazy_step mapfn v) as [[v' em] ab]. cbn [fst snd] in Hv.
  destruct ab; [cbn [fst snd]; rewrite lazy_go_cons, Hv; reflexivity|].
  destruct (lazy_go mapfn r) as [[r' em'] ab']. cbn [fst snd] in *. rewrite lazy_go_cons, Hv, IH. reflexivity.
Qed.

Lemma lz_idem A : lz (lz_stack A) = (lz_stack A, [], lz_ab A).
Proof.
  unfold lz_stack, lz_ab, lazy_parents.
  pose proof (lazy_go_idem (rev A)) as H.
  destruct (lazy_go mapfn (rev A)) as [[l em] ab]. cbn [fst snd] in *.
  rewrite rev_involutive, H. reflexivity.
Qed.

(* one more directory on top: asked after the ones below it, unless one of those said SkipDir *)
Lemma lz_cons v A :
  lz (v :: A) =
  if lz_ab A then (v :: lz_stack A, lz_em A, true)
  else let '(v', em, ab) := lazy_step mapfn v in (v' :: lz_stack A, lz_em A ++ em, ab).
Proof.
  unfold lz_stack, lz_em, lz_ab, lazy_parents. cbn [rev]. rewrite lazy_go_app.
  destruct (lazy_go mapfn (rev A)) as [[l em] ab]. cbn [fst snd].
  destruct ab; [rewrite rev_app_distr; reflexivity|].
  rewrite lazy_go_cons. destruct (lazy_step mapfn v) as [[v' em'] ab'].
  destruct ab'; cbn [lazy_go]; rewrite rev_app_distr, ?app_nil_r; reflexivity.
Qed.

(* a directory that was itself reported or dropped (calledFn set) on top *)
Lemma lz_push_called v A : vd_called v = true -> vd_skip v = false ->
  lz (v :: A) = (v :: lz_stack A, lz_em A, lz_ab A).
Proof.
  intros Hc Hs. rewrite lz_cons. unfold lazy_step. rewrite Hs, Hc.
  destruct (lz_ab A); rewrite ?app_nil_r; reflexivity.
Qed.

(* a directory the patterns do not select (calledFn, skipFn clear) on top *)
Lemma lz_push_pending v A : vd_called v = false -> vd_skip v = false ->
  lz (v :: A) =
  if lz_ab A then (v :: lz_stack A, lz_em A, true)
  else match mapfn (st_path (vd_stat v)) (vd_stat v) with
       | (MExclude, _) => (v :: lz_stack A, lz_em A, false)
       | (MSkipDir, _) => (set_skip v :: lz_stack A, lz_em A, true)
       | (MKeep, s') => (set_called v :: lz_stack A, lz_em A ++ [s'], false)
       end.
Proof.
  intros Hc Hs. rewrite lz_cons. unfold lazy_step. rewrite Hs, Hc.
  destruct (mapfn (st_path (vd_stat v)) (vd_stat v)) as [[| |] s']; rewrite ?app_nil_r; reflexivity.
Qed.

(* infos are never touched *)
Lemma lz_top_infos A : top_inc (lz_stack A) = top_inc A /\ top_exc (lz_stack A) = top_exc A.
Proof.
  unfold lz_stack.
  pose proof (lazy_parents_map mapfn vd_inc A (fun _ => eq_refl) (fun _ => eq_refl)) as E1.
  pose proof (lazy_parents_map mapfn vd_exc A (fun _ => eq_refl) (fun _ => eq_refl)) as E2.
  destruct (fst (fst (lazy_parents mapfn A))) as [|x xs], A as [|y ys]; try discriminate; cbn in *; split; congruence.
Qed.
End Lazy.

Section RefUnfold.
Variable V : bytes -> bool.
Variable mapfn : bytes -> stat -> mres * stat.

Definition ref_below (b isd : bool) (p : bytes) (kids : list node) : list stat * bool :=
  if isd then ref_forest V mapfn b p kids else ([], false).

Lemma ref_node_eq blocked dir name st0 ct kids :
  ref_node V mapfn blocked dir (Node name st0 ct kids) =
  let p := child_path dir name in
  let st := set_path st0 p in
  let isd := st_is_dir st0 in
  if V p then
    match fst (mapfn p st) with
    | MSkipDir => ([], false, negb isd)
    | MExclude => (fst (ref_below blocked isd p kids), snd (ref_below blocked isd p kids), false)
    | MKeep => ((if blocked then [] else [snd (mapfn p st)]) ++ fst (ref_below blocked isd p kids), true, false)
    end
  else
    let b' := blocked || match fst (mapfn p st) with MSkipDir => true | _ => false end in
    ((if snd (ref_below b' isd p kids) && negb blocked && match fst (mapfn p st) with MKeep => true | _ => false end
      then [snd (mapfn p st)] else []) ++ fst (ref_below b' isd p kids),
     snd (ref_below b' isd p kids), false).
Proof.
  cbn [ref_node]. cbv zeta.
  set (p := child_path dir name). set (st := set_path st0 p).
  assert (E : forall b l,
     (fix kids_go (l : list node) : list stat * bool :=
        match l with
        | [] => ([], false)
        | k :: r => let '(e, f, cut) := ref_node V mapfn b p k in
                    if cut then (e, f) else let '(e', f') := kids_go r in (e ++ e', f || f')
        end) l = ref_forest V mapfn b p l).
  { induction l as [|k r IH]; [reflexivity|]. cbn [ref_forest].
    destruct (ref_node V mapfn b p k) as [[e f] cut]. destruct cut; auto. rewrite IH. reflexivity. }
  unfold ref_below. destruct (mapfn p st) as [res st'']. cbn [fst snd].
  destruct (V p).
  - destruct res; auto.
    + destruct (st_is_dir st0); [rewrite E|]; [destruct (ref_forest V mapfn blocked p kids)|]; reflexivity.
    + destruct (st_is_dir st0); [rewrite E|]; [destruct (ref_forest V mapfn blocked p kids)|]; reflexivity.
  - destruct (st_is_dir st0); [rewrite E|].
    + destruct (ref_forest V mapfn _ p kids). reflexivity.
    + reflexivity.
Qed.

(* below a blocked point nothing is reported *)
Lemma ref_blocked_forest_of l :
  Forall (fun k => forall dir, fst (fst (ref_node V mapfn true dir k)) = []) l ->
  forall dir, fst (ref_forest V mapfn true dir l) = [].
Proof.
  induction 1 as [|k r Hk _ IH]; intros dir; [reflexivity|]. cbn [ref_forest].
  specialize (Hk dir). specialize (IH dir).
  destruct (ref_node V mapfn true dir k) as [[e f] cut]. cbn [fst] in Hk. subst e.
  destruct cut; [reflexivity|]. destruct (ref_forest V mapfn true dir r). cbn [fst] in *. subst. reflexivity.
Qed.

Lemma ref_blocked_node : forall n dir, fst (fst (ref_node V mapfn true dir n)) = [].
Proof.
  induction n as [name st ct kids IHk] using node_ind2. intros dir.
  rewrite ref_node_eq. cbv zeta.
  assert (Hb : forall isd p, fst (ref_below true isd p kids) = []).
  { intros isd p. unfold ref_below. destruct isd; [apply ref_blocked_forest_of, IHk|reflexivity]. }
  destruct (V _).
  - destruct (fst (mapfn _ _)); cbn [fst]; rewrite ?Hb; reflexivity.
  - cbn [orb negb andb fst]. rewrite andb_false_r. cbn [andb]. rewrite Hb. reflexivity.
Qed.

Lemma ref_blocked_forest l dir : fst (ref_forest V mapfn true dir l) = [].
Proof. apply ref_blocked_forest_of, Forall_all, ref_blocked_node. Qed.

(* nothing is reported where no candidate is reached *)
Lemma ref_nof_forest_of l :
  Forall (fun n => forall b dir, snd (fst (ref_node V mapfn b dir n)) = false -> fst (fst (ref_node V mapfn b dir n)) = []) l ->
  forall b dir, snd (ref_forest V mapfn b dir l) = false -> fst (ref_forest V mapfn b dir l) = [].
Proof.
  induction 1 as [|k r Hk _ IH]; intros b dir; [reflexivity|]. cbn [ref_forest].
  specialize (Hk b dir). specialize (IH b dir).
  destruct (ref_node V mapfn b dir k) as [[e f] cut]. cbn [fst snd] in Hk.
  destruct cut; cbn [fst snd]; [exact Hk|].
  destruct (ref_forest V mapfn b dir r) as [e' f']. cbn [fst snd] in *.
  intros E. apply orb_false_iff in E. destruct E as [-> ->]. rewrite Hk, IH by reflexivity. reflexivity.
Qed.

Lemma ref_nof_node : forall n b dir,
  snd (fst (ref_node V mapfn b dir n)) = false -> fst (fst (ref_node V mapfn b dir n)) = [].
Proof.
  induction n as [name st ct kids IH] using node_ind2. intros blocked dir.
  rewrite ref_node_eq. cbv zeta. set (p := child_path dir name). set (st' := set_path st p).
  assert (Hb : forall b isd, snd (ref_below b isd p kids) = false -> fst (ref_below b isd p kids) = []).
  { intros b isd. unfold ref_below. destruct isd; [apply ref_nof_forest_of; auto|reflexivity]. }
  destruct (V p).
  - destruct (fst (mapfn p st')); cbn [fst snd]; auto. discriminate.
  - cbn [fst snd]. intros E. rewrite E. cbn [andb app]. apply Hb; auto.
Qed.

Lemma ref_nof_forest l b dir : snd (ref_forest V mapfn b dir l) = false -> fst (ref_forest V mapfn b dir l) = [].
Proof. apply ref_nof_forest_of, Forall_all, ref_nof_node. Qed.
End RefUnfold.

Section Main.
Variable pmatch : bytes -> bytes -> bool.
Variable mapfn : bytes -> stat -> mres * stat.
Variable c : cfg.
Hypothesis Hnp : c_prune c = false.

Notation V := (keep_incr pmatch c).
Notation lzs := (lz_stack mapfn).
Notation lze := (lz_em mapfn).
Notation lza := (lz_ab mapfn).

Definition infos_ok (dir : bytes) (pinc pexc : list bool) : Prop :=
  handed pmatch (c_inc c) dir pinc /\ handed pmatch (c_exc c) dir pexc.
Definition info_ok (dir : bytes) (A : list vdir) : Prop := infos_ok dir (top_inc A) (top_exc A).

Lemma infos_ok_root : infos_ok [] [] [].
Proof. split; intros pats _; reflexivity. Qed.

Lemma info_ok_root : info_ok [] [].
Proof. exact infos_ok_root. Qed.

Lemma info_ok_lz dir A : info_ok dir A -> info_ok dir (lzs A).
Proof. unfold info_ok. destruct (lz_top_infos mapfn A) as [-> ->]. auto. Qed.

Lemma info_ok_nomatch dir A : use_match c = false -> info_ok dir A.
Proof.
  unfold use_match. intros H. apply orb_false_iff in H. destruct H as [H1 H2].
  split; intros pats E; rewrite E in *; discriminate.
Qed.

Section Child.
Variables (dir : bytes) (A : list vdir) (name : bytes).
Hypothesis Hinfo : info_ok dir A.
Hypothesis Hne : name <> [].
Hypothesis Hns : nosep name.
Let p := child_path dir name.

Lemma eval_inc_chain : eval_inc pmatch c p A = chain_at pmatch (c_inc c) true p.
Proof. exact (ask_child pmatch _ true _ _ _ Hne Hns (proj1 Hinfo)). Qed.

Lemma eval_exc_chain : eval_exc pmatch c p A = chain_at pmatch (c_exc c) false p.
Proof. exact (ask_child pmatch _ false _ _ _ Hne Hns (proj2 Hinfo)). Qed.

Lemma skip_V : is_skip pmatch c A p = negb (V p).
Proof.
  unfold is_skip. rewrite eval_inc_chain, eval_exc_chain, keep_incr_chain, negb_andb, negb_involutive. reflexivity.
Qed.

Lemma info_ok_push st X : info_ok p (new_dir pmatch c A p st :: X).
Proof.
  unfold info_ok. cbn [top_inc top_exc new_dir vd_inc vd_exc]. rewrite eval_inc_chain, eval_exc_chain.
  split; apply handed_chain.
Qed.
End Child.

Lemma V_nomatch p : use_match c = false -> V p = true.
Proof.
  unfold use_match, keep_incr. intros H. apply orb_false_iff in H. destruct H as [H1 H2].
  destruct (c_inc c); [discriminate|]. destruct (c_exc c); [discriminate|]. reflexivity.
Qed.

Lemma lz_parts A s e a : lazy_parents mapfn A = (s, e, a) -> lzs A = s /\ lze A = e /\ lza A = a.
Proof. intros H. unfold lz_stack, lz_em, lz_ab. rewrite H. auto. Qed.

Lemma lzs_idem A : lzs (lzs A) = lzs A.
Proof. unfold lz_stack at 1. rewrite lz_idem. reflexivity. Qed.
Lemma lze_idem A : lze (lzs A) = [].
Proof. unfold lz_em. rewrite lz_idem. reflexivity. Qed.
Lemma lza_idem A : lza (lzs A) = lza A.
Proof. unfold lz_ab at 1. rewrite lz_idem. reflexivity. Qed.

(* Below some point the reference reports e and finds a candidate or not (f); the walk
   enters there with stack A, leaves with stack s and has made the calls em.  They agree
   if the walk has reported the pending parents first, once, when there was a candidate. *)
Definition flush (f : bool) (A : list vdir) : list vdir * list stat :=
  if f then (lzs A, lze A) else (A, []).

Definition ok (A : list vdir) (e : list stat) (f : bool) (s : list vdir) (em : list stat) : Prop :=
  s = fst (flush f A) /\ em = snd (flush f A) ++ e.

Definition forest_ok (B : list vdir) (rr : list stat * bool) (sr : list vdir * list stat) : Prop :=
  ok B (fst rr) (snd rr) (fst sr) (snd sr).

(* below a blocked point nothing is reported, so there the two may cut differently *)
Definition node_ok (A : list vdir) (rr : list stat * bool * bool) (sr : list vdir * list stat * bool) : Prop :=
  forest_ok A (fst rr) (fst sr) /\ (snd (fst rr) && lza A = false -> snd sr = snd rr).

Lemma ok_nil A : ok A [] false A [].
Proof. split; reflexivity. Qed.

Lemma ok_app A e f s em e' f' s' em' : (f = false -> e = []) ->
  ok A e f s em -> ok s e' f' s' em' -> ok A (e ++ e') (f || f') s' (em ++ em').
Proof.
  intros H1 (-> & ->) (-> & ->). unfold ok.
  destruct f, f'; cbn [flush fst snd orb]; rewrite ?lzs_idem, ?lze_idem, ?H1 by reflexivity;
    cbn [app]; rewrite ?app_nil_r, <- ?app_assoc; split; reflexivity.
Qed.

(* nothing pending: the stack stays, the calls are the reports *)
Lemma ok_settled A e f s em : lzs A = A -> lze A = [] -> ok A e f s em -> s = A /\ em = e.
Proof. intros H1 H2 (-> & ->). destruct f; cbn [flush fst snd]; rewrite ?H1, ?H2; auto. Qed.

Lemma flush_info dir f A : info_ok dir A -> info_ok dir (fst (flush f A)).
Proof. destruct f; [apply info_ok_lz|auto]. Qed.

Lemma flush_ab f A : lza (fst (flush f A)) = lza A.
Proof. destruct f; [apply lza_idem|reflexivity]. Qed.

Definition ref_ok (n : node) : Prop := forall dir A, info_ok dir A ->
  node_ok A (ref_node V mapfn (lza A) dir n) (sw_node pmatch mapfn c A dir n).

Lemma forest_of_nodes l : Forall ref_ok l -> forall dir B, info_ok dir B ->
  forest_ok B (ref_forest V mapfn (lza B) dir l) (sw_forest pmatch mapfn c B dir l).
Proof.
  induction 1 as [|k rest Hk _ IH]; intros dir B HB; cbn [ref_forest sw_forest]; [apply ok_nil|].
  specialize (Hk dir B HB).
  assert (Hbk : lza B = true -> fst (fst (ref_node V mapfn (lza B) dir k)) = [])
    by (intros ->; apply ref_blocked_node).
  assert (Hbr : lza B = true -> fst (ref_forest V mapfn (lza B) dir rest) = [])
    by (intros ->; apply ref_blocked_forest).
  pose proof (ref_nof_node V mapfn k (lza B) dir) as Hnof.
  destruct (ref_node V mapfn (lza B) dir k) as [[e f] cut'], (sw_node pmatch mapfn c B dir k) as [[B1 em1] cut].
  destruct Hk as [Hok Hcut]. unfold forest_ok in Hok. cbn [fst snd] in Hok, Hcut, Hbk, Hnof.
  assert (HB1 : info_ok dir B1 /\ lza B1 = lza B)
    by (destruct Hok as (-> & _); split; [apply flush_info; auto|apply flush_ab]).
  destruct HB1 as [HB1 Eab]. specialize (IH dir B1 HB1). rewrite Eab in IH.
  destruct (ref_forest V mapfn (lza B) dir rest) as [e' f'], (sw_forest pmatch mapfn c B1 dir rest) as [B2 em2].
  unfold forest_ok in *. cbn [fst snd] in *.
  destruct (f && lza B) eqn:Ebl.
  - (* blocked: nothing more is reported, whatever is skipped *)
    apply andb_true_iff in Ebl. destruct Ebl as [-> Eb]. rewrite (Hbr Eb) in *.
    assert (X : B2 = B1 /\ em2 = []).
    { destruct Hok as (-> & _). apply (ok_settled _ _ _ _ _ (lzs_idem B) (lze_idem B) IH). }
    destruct X as [-> ->]. destruct cut, cut'; cbn [orb]; rewrite ?app_nil_r; exact Hok.
  - rewrite <- (Hcut eq_refl). destruct cut; [exact Hok|]. exact (ok_app _ _ _ _ _ _ _ _ _ Hnof Hok IH).
Qed.

(* the contents of a directory, walked with the directory on the stack (if matchers exist) *)
Definition push_on (o : option vdir) (S : list vdir) : list vdir := match o with Some d => d :: S | None => S end.
Definition unpush (o : option vdir) (a : list vdir) : list vdir := match o with Some _ => tl a | None => a end.

(* ... a directory that was itself reported or dropped *)
Section Called.
Variables (o : option vdir) (S : list vdir).
Hypothesis Ho : forall d, o = Some d -> vd_called d = true /\ vd_skip d = false.

Lemma called_parts : unpush o (lzs (push_on o S)) = lzs S /\ lze (push_on o S) = lze S /\ lza (push_on o S) = lza S.
Proof.
  destruct o as [d|]; [|auto]. destruct (Ho d eq_refl) as [Hc Hs]. cbn [push_on unpush].
  destruct (lz_parts _ _ _ _ (lz_push_called mapfn d S Hc Hs)) as (-> & -> & ->). auto.
Qed.

Lemma dir_called rr sr : forest_ok (push_on o S) rr sr -> forest_ok S rr (unpush o (fst sr), snd sr).
Proof.
  destruct called_parts as (L1 & L2 & _). unfold forest_ok, ok. cbn [fst snd]. intros (-> & ->).
  destruct (snd rr); cbn [flush fst snd]; rewrite ?L1, ?L2; [|destruct o]; auto.
Qed.
End Called.

(* ... a directory the patterns do not select: it is reported with the first candidate below *)
Lemma dir_pending d S rr sr : vd_called d = false -> vd_skip d = false ->
  lza (d :: S) = lza S || match fst (mapfn (st_path (vd_stat d)) (vd_stat d)) with MSkipDir => true | _ => false end /\
  (forest_ok (d :: S) rr sr ->
   forest_ok S ((if snd rr && negb (lza S) && match fst (mapfn (st_path (vd_stat d)) (vd_stat d)) with MKeep => true | _ => false end
                 then [snd (mapfn (st_path (vd_stat d)) (vd_stat d))] else []) ++ fst rr, snd rr)
               (tl (fst sr), snd sr)).
Proof.
  intros Hc Hs. pose proof (lz_push_pending mapfn d S Hc Hs) as L.
  unfold forest_ok, ok. cbn [fst snd].
  destruct (lza S); [|destruct (mapfn (st_path (vd_stat d)) (vd_stat d)) as [[| |] s']];
    apply lz_parts in L; destruct L as (L1 & L2 & L3); (split; [exact L3|]); intros (-> & ->);
    destruct (snd rr); cbn [flush fst snd andb negb app]; rewrite ?L1, ?L2;
    cbn [tl app]; rewrite ?app_nil_r, <- ?app_assoc; split; reflexivity.
Qed.

Lemma ref_sim_node : forall n, wf_node n = true -> ref_ok n.
Proof.
  apply wf_node_ind. intros name st ct kids Hne Hns _ IHk dir A Hinfo.
  rewrite ref_node_eq, sw_node_eq. cbv zeta.
  set (p := child_path dir name). set (st' := set_path st p). remember (st_is_dir st) as isd eqn:Eisd.
  pose proof (skip_V dir A name Hinfo Hne Hns) as Hskip. fold p in Hskip.
  pose proof (pruned_off pmatch c A p isd Hnp) as Hpr.
  set (nd := new_dir pmatch c A p st').
  assert (Hnd_called : vd_called nd = V p).
  { unfold nd, new_dir. cbn [vd_called]. fold (is_skip pmatch c A p). rewrite Hskip. apply negb_involutive. }
  assert (Hnd_map : mapfn (st_path (vd_stat nd)) (vd_stat nd) = mapfn p st') by reflexivity.
  (* the contents, walked with this directory pushed on S *)
  assert (Hf : forall S, let B := push_on (push_of pmatch c A p st' true) S in
            forest_ok B (ref_forest V mapfn (lza B) p kids) (sw_forest pmatch mapfn c B p kids)).
  { intros S. apply (forest_of_nodes kids IHk). unfold push_of. cbn [andb]. fold nd.
    destruct (use_match c) eqn:Eu; [apply info_ok_push|apply info_ok_nomatch]; auto. }
  assert (Hb : forall b, fst (ref_below V mapfn true b p kids) = []).
  { intros b. unfold ref_below. destruct b; [apply ref_blocked_forest|reflexivity]. }
  unfold node_ok, forest_ok, ok.
  destruct (V p) eqn:EV; cbn [negb] in Hskip.
  - (* selected *)
    assert (Hcalled : forall d, push_of pmatch c A p st' true = Some d -> vd_called d = true /\ vd_skip d = false).
    { unfold push_of. intros d. destruct (_ && _); [|discriminate]. intros [= <-]. auto. }
    rewrite (core_map pmatch mapfn c) by auto.
    destruct (mapfn p st') as [res st''] eqn:Em. cbn [fst snd].
    destruct res.
    + (* keep: the pending parents are reported, unless one of them answers SkipDir *)
      rewrite (lz_eta mapfn A). destruct (lza A) eqn:Eab; cbn [r_skip r_stack r_em r_push fst snd flush app].
      * rewrite Hb, app_nil_r. repeat split; auto; discriminate.
      * destruct isd; [|cbn [ref_below fst snd]; repeat split; auto; discriminate].
        specialize (Hf (lzs A)). cbv zeta in Hf. unfold pushed. cbn [r_push r_stack]. fold (push_on (push_of pmatch c A p st' true) (lzs A)).
        destruct (called_parts _ (lzs A) Hcalled) as (_ & _ & Lab). rewrite Lab, lza_idem, Eab in Hf.
        apply (dir_called _ _ Hcalled), (ok_settled _ _ _ _ _ (lzs_idem A) (lze_idem A)) in Hf.
        destruct (sw_forest _ _ _ _ _ _) as [a2 em2]. cbn [ref_below fst snd] in *. unfold unpush in Hf. destruct Hf as [-> ->].
        rewrite <- app_assoc. repeat split; auto; discriminate.
    + (* exclude: dropped, contents still walked *)
      cbn [r_skip r_stack r_em r_push].
      destruct isd; [|cbn [ref_below fst snd]; repeat split; auto].
      specialize (Hf A). cbv zeta in Hf. unfold pushed. cbn [r_push r_stack]. fold (push_on (push_of pmatch c A p st' true) A).
      destruct (called_parts _ A Hcalled) as (_ & _ & Lab). rewrite Lab in Hf. apply (dir_called _ _ Hcalled) in Hf.
      destruct (sw_forest _ _ _ _ _ _) as [a2 em2]. cbn [ref_below fst snd app]. split; [exact Hf|reflexivity].
    + (* skipdir *)
      cbn [r_skip r_stack r_em fst snd flush]. repeat split; auto.
  - (* not selected: matchers exist, a directory is pushed pending *)
    rewrite (core_skip pmatch mapfn c) by auto. cbn [r_skip r_stack r_em r_push].
    destruct isd; [|cbn [ref_below fst snd andb app flush]; repeat split; auto].
    assert (Eu : use_match c = true).
    { destruct (use_match c) eqn:Eu; auto. rewrite (V_nomatch p Eu) in EV. discriminate. }
    specialize (Hf A). unfold pushed, push_of in *. cbn [andb r_push r_stack] in *. rewrite Eu in *. fold nd in Hf |- *.
    cbn [push_on] in Hf.
    destruct (dir_pending nd A (ref_forest V mapfn (lza (nd :: A)) p kids) (sw_forest pmatch mapfn c (nd :: A) p kids)
                Hnd_called eq_refl) as [Lab Hd].
    apply Hd in Hf. rewrite Lab, Hnd_map in Hf.
    destruct (sw_forest _ _ _ _ _ _) as [a2 em2]. cbn [ref_below fst snd app]. split; [exact Hf|reflexivity].
Qed.

Theorem sw_walk_reference view : wf_view view = true ->
  sw_walk pmatch mapfn c view = reference V mapfn view.
Proof.
  intros Hwf. unfold sw_walk, reference.
  destruct (ok_settled [] _ _ _ _ eq_refl eq_refl
              (forest_of_nodes view (Forall_wf _ _ ref_sim_node Hwf) [] [] info_ok_root)) as [_ H].
  exact H.
Qed.

End Main.

(* the walk with its own stack, shortcuts off *)
Theorem filter_walk_reference_proof pmatch mapfn c view : wf_view view = true ->
  filter_walk pmatch mapfn (no_prune c) view = reference (keep_incr pmatch c) mapfn view.
Proof.
  intros Hwf. rewrite filter_walk_structural by auto.
  rewrite (sw_walk_reference pmatch mapfn (no_prune c) eq_refl view Hwf). reflexivity.
Qed.
