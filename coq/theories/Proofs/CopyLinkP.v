(* C13 / C15 — link groups: the invariant [Lk] tying copier.inodes (c_imap) to the destination
   file system and the expected view, and its preservation by the steps of the copier.
   (Inv of CopierP.v says nothing about KSrc keys; the invariant about them is here.) *)
From Coq Require Import List NArith Bool Lia ZifyN ZifyNat ZifyBool.
From FS Require Import Sx Model.Path Model.SymMode Model.Copier Model.CopySpec Proofs.Lex
  Proofs.CopierP Proofs.CopyOpsP Proofs.CopyDentP.
Import ListNotations.
Open Scope N_scope.
Open Scope bool_scope.

Section Link.
  Variable o : copts.
  Variable ms : option (list bitcmd).
  Variable multi : N -> bool.
  Variable sdof : N -> dent.      (* the dentry of a multiply-linked source inode *)
  Notation Inv := (Inv o).
  Notation touch := (touch o).

  (* the dentry of a fresh copy of a source entry *)
  Definition ne_d (sd : dent) : dent :=
    {| d_mode := N.lor (copy_type sd) (if is_lnk sd then perm12 sd else info_mode o ms sd);
       d_uid := fst (info_owner o sd); d_gid := snd (info_owner o sd);
       d_mtime := info_time o sd; d_rdev := if is_dev sd then d_rdev sd else 0;
       d_target := d_target sd; d_xattrs := d_xattrs sd;
       d_content := if is_reg sd then d_content sd else [] |}.
  Lemma new_entry_d s p : x_d (new_entry o ms multi s p) = ne_d (sdent s).
  Proof. reflexivity. Qed.

  Lemma ftype_ne_d sd : ftype (ne_d sd) = copy_type sd.
  Proof.
    unfold ne_d, ftype. cbn [d_mode]. apply ftype_mk; [apply copy_type_fmt|].
    destruct (is_lnk sd); [rewrite <- perm12_idem|rewrite <- info_mode_idem]; apply land_all_fmt.
  Qed.
  Lemma ne_d_nondir sd : is_reg sd = true -> is_dir (ne_d sd) = false.
  Proof.
    intro H. unfold is_dir. rewrite ftype_ne_d. unfold copy_type. destruct (is_sock sd); [reflexivity|].
    apply N.eqb_eq in H. rewrite H. reflexivity.
  Qed.

  (* [S]: the exact-partition mode.  With S the invariant also says that every entry keyed
     KSrc s has the inode currently recorded for s (so "same key <-> same inode"); it is
     maintained as long as no record with surviving names is forgotten, which is the case for one
     literal source and for sources without link groups.  Without S (wildcards together with
     link groups) only "same inode -> same group" is kept. *)
  Variable S : Prop.

  Record Lk (fs : fsys) (X : xview) (im : list (N * (list (list N) * N))) : Prop := {
    lk_nodup : NoDup (map fst im);
    lk_rec : forall s l i, imap_find s im = Some (l, i) ->
               names fs l = Some i /\ multi s = true /\ is_reg (sdof s) = true;
    lk_mem : forall s l i p, imap_find s im = Some (l, i) -> names fs p = Some i ->
               exists e, X p = Some e /\ x_key e = KSrc s /\ x_d e = ne_d (sdof s) /\ x_known e = true /\ x_mk e = false;
    lk_grp : forall p e s, X p = Some e -> x_key e = KSrc s ->
               is_reg (sdof s) = true /\ x_d e = ne_d (sdof s) /\ x_known e = true /\ x_mk e = false /\
               forall i q, names fs p = Some i -> names fs q = Some i -> exists e', X q = Some e' /\ x_key e' = KSrc s;
    lk_src : S -> forall p e s, X p = Some e -> x_key e = KSrc s ->
               exists l i, imap_find s im = Some (l, i) /\ names fs p = Some i
  }.

  (* no recorded copy lies at or below T *)
  Definition PC (T : list (list N)) (im : list (N * (list (list N) * N))) : Prop :=
    forall s l i, imap_find s im = Some (l, i) -> is_prefix T l = false.
  (* every record of im' is one of im or lies at or below T *)
  Definition IM (im im' : list (N * (list (list N) * N))) (T : list (list N)) : Prop :=
    forall s l i, imap_find s im' = Some (l, i) -> imap_find s im = Some (l, i) \/ is_prefix T l = true.

  Lemma imap_find_none_notin s im : imap_find s im = None -> ~ In s (map fst im).
  Proof.
    induction im as [|[j x] r IH]; simpl; auto. destruct (N.eqb s j) eqn:E; [discriminate|].
    intros H [H1|H1]; [subst; rewrite N.eqb_refl in E; discriminate|]. apply IH; auto.
  Qed.
  Lemma imap_find_notin s im : ~ In s (map fst im) -> imap_find s im = None.
  Proof.
    induction im as [|[j x] r IH]; simpl; auto. intro H. destruct (N.eqb s j) eqn:E.
    - apply N.eqb_eq in E. subst. tauto.
    - apply IH. tauto.
  Qed.
  Lemma forget_keys T im s : In s (map fst (imap_forget T im)) -> In s (map fst im).
  Proof.
    unfold imap_forget. induction im as [|[j x] r IH]; simpl; auto.
    destruct (negb (is_prefix T (fst x))); simpl; tauto.
  Qed.
  Lemma forget_nodup T im : NoDup (map fst im) -> NoDup (map fst (imap_forget T im)).
  Proof.
    unfold imap_forget. induction im as [|[j x] r IH]; simpl; intro H; auto. inversion H; subst.
    destruct (negb (is_prefix T (fst x))); simpl; auto. constructor; auto.
    intro Hin. apply (forget_keys T r) in Hin. auto.
  Qed.
  Lemma imap_find_forget T im s : NoDup (map fst im) ->
    imap_find s (imap_forget T im) =
    match imap_find s im with
    | Some (l, i) => if is_prefix T l then None else Some (l, i)
    | None => None
    end.
  Proof.
    unfold imap_forget. induction im as [|[j [l i]] r IH]; simpl; intro H; auto. inversion H; subst.
    destruct (N.eqb s j) eqn:E.
    - apply N.eqb_eq in E. subst j. destruct (is_prefix T l); simpl.
      + apply imap_find_notin. intro Hin. apply (forget_keys T r) in Hin. auto.
      + rewrite N.eqb_refl. auto.
    - destruct (is_prefix T l); simpl; [|rewrite E]; apply IH; auto.
  Qed.
  Lemma imap_find_forget_some T im s l i : NoDup (map fst im) ->
    imap_find s (imap_forget T im) = Some (l, i) -> imap_find s im = Some (l, i) /\ is_prefix T l = false.
  Proof.
    intros Hn H. rewrite imap_find_forget in H by auto.
    destruct (imap_find s im) as [[l0 i0]|]; [|discriminate]. destruct (is_prefix T l0) eqn:E; [discriminate|].
    inversion H; subst. auto.
  Qed.
  Lemma PC_forget T im : NoDup (map fst im) -> PC T (imap_forget T im).
  Proof. intros Hn s l i H. apply (imap_find_forget_some _ _ _ _ _ Hn H). Qed.
  Lemma IM_forget T im T' : NoDup (map fst im) -> IM im (imap_forget T im) T'.
  Proof. intros Hn s l i H. left. apply (imap_find_forget_some _ _ _ _ _ Hn H). Qed.

  Lemma Lk_forget fs X im T : Lk fs X im -> (S -> PC T im) -> Lk fs X (imap_forget T im).
  Proof.
    intros [N A B C D] Hpc. split.
    - apply forget_nodup; auto.
    - intros s l i H. apply imap_find_forget_some in H as (H & _); eauto.
    - intros s l i p H. apply imap_find_forget_some in H as (H & _); eauto.
    - exact C.
    - intros HS p e s H1 H2. destruct (D HS _ _ _ H1 H2) as (l & i & H3 & H4). exists l, i. split; auto.
      rewrite imap_find_forget, H3, (Hpc HS _ _ _ H3); auto.
  Qed.

  Lemma lk_src_not_dir fs X im p e s : Lk fs X im -> X p = Some e -> x_key e = KSrc s -> is_dir (x_d e) = false.
  Proof.
    intros L H1 H2. destruct (lk_grp _ _ _ L _ _ _ H1 H2) as (A & B & _). rewrite B. apply ne_d_nondir; auto.
  Qed.
  Lemma lk_dir_key fs X im P e s : Lk fs X im -> x_isdir (X P) = true -> X P = Some e -> x_key e <> KSrc s.
  Proof. intros L HP He Hs. unfold x_isdir in HP. rewrite He, (lk_src_not_dir _ _ _ _ _ _ L He Hs) in HP. discriminate. Qed.

  (* The frame rule.  Outside a set D of paths neither the view nor the names change.  Inside D the
     new view has no link-group entry, and a name is bound to a fresh inode or keeps its inode,
     its old entry being no link-group entry either.  No record loses its name. *)
  Lemma Lk_frame (D : list (list N) -> Prop) fs fs' X X' im :
    Lk fs X im ->
    (forall p, D p \/ X' p = X p /\ names fs' p = names fs p) ->
    (forall p e s, D p -> X' p = Some e -> x_key e <> KSrc s) ->
    (forall p i, D p -> names fs' p = Some i ->
       (forall q, names fs q <> Some i) \/ names fs p = Some i /\ forall e s, X p = Some e -> x_key e <> KSrc s) ->
    (forall s l i, imap_find s im = Some (l, i) -> names fs' l = names fs l) ->
    Lk fs' X' im.
  Proof.
    intros L Hout Hk Hi Hr.
    assert (Hback : forall p e s, X' p = Some e -> x_key e = KSrc s -> X p = Some e /\ names fs' p = names fs p).
    { intros p e s H1 H2. destruct (Hout p) as [d|[<- ->]]; auto. destruct (Hk _ _ _ d H1 H2). }
    (* a name of fs' for an inode that carried a link-group entry is an old name of it *)
    assert (Hfw : forall q e s i p, names fs q = Some i -> X q = Some e -> x_key e = KSrc s ->
                    names fs' p = Some i -> X' p = X p /\ names fs p = Some i).
    { intros q e s i p Hq He Hs Hp. destruct (Hout p) as [d|[-> <-]]; auto.
      destruct (Hi _ _ d Hp) as [F|[Hpi Hn]]; [destruct (F _ Hq)|].
      destruct (lk_grp _ _ _ L _ _ _ He Hs) as (_ & _ & _ & _ & G). destruct (G _ _ Hq Hpi) as (e' & E1 & E2).
      destruct (Hn _ _ E1 E2). }
    split.
    - apply L.
    - intros s l i H. rewrite (Hr _ _ _ H). eapply lk_rec; eauto.
    - intros s l i p H Hp. destruct (lk_rec _ _ _ L _ _ _ H) as (Hl & _).
      destruct (lk_mem _ _ _ L _ _ _ _ H Hl) as (e & E1 & E2 & _).
      destruct (Hfw _ _ _ _ _ Hl E1 E2 Hp) as (-> & Hp'). eapply lk_mem; eauto.
    - intros p e s H1 H2. destruct (Hback _ _ _ H1 H2) as (HX & Hn).
      destruct (lk_grp _ _ _ L _ _ _ HX H2) as (C1 & C2 & C3 & C4 & C5). repeat split; auto.
      intros i q Hp Hq. rewrite Hn in Hp. destruct (Hfw _ _ _ _ _ Hp HX H2 Hq) as (-> & Hq'). eauto.
    - intros HS p e s H1 H2. destruct (Hback _ _ _ H1 H2) as (HX & ->). eapply (lk_src _ _ _ L HS); eauto.
  Qed.

  Lemma Lk_ext fs X X' im : (forall p, X' p = X p) -> Lk fs X im -> Lk fs X' im.
  Proof. intros E L. apply (Lk_frame (fun _ => False) fs fs X X' im L); auto; tauto. Qed.
  Lemma Lk_names_ext fs fs' X im : (forall q, names fs' q = names fs q) -> Lk fs X im -> Lk fs' X im.
  Proof. intros E L. apply (Lk_frame (fun _ => False) fs fs' X X im L); auto; tauto. Qed.
  Lemma Lk_fs_ext fs fs' X im : fs_eqv fs fs' -> Lk fs X im -> Lk fs' X im.
  Proof. intros [En _ _]. apply Lk_names_ext. intro q. symmetry. apply En. Qed.

  Lemma Lk_touch fs X im P : Lk fs X im -> x_isdir (X P) = true -> Lk fs (touch P X) im.
  Proof.
    intros L HP. apply (Lk_frame (eq P) fs _ X _ _ L); auto.
    - intro p. destruct (path_dec p P) as [->|H]; auto. right. rewrite touch_other; auto.
    - intros p e s <- H Hs. rewrite touch_same in H. destruct (X P) as [eP|] eqn:EP; [|discriminate].
      inversion H; subst e. rewrite touched_key in Hs. apply (lk_dir_key _ _ _ P eP s L); auto. rewrite EP; auto.
    - intros p i <- H. right. split; auto. intros e s He. eapply lk_dir_key; eauto.
  Qed.

  (* an entry without a link-group key replaced in the view, names unchanged *)
  Lemma Lk_upd fs fs' X im T e e' :
    Lk fs X im -> (forall q, names fs' q = names fs q) -> X T = Some e ->
    (forall s, x_key e <> KSrc s) -> (forall s, x_key e' <> KSrc s) ->
    Lk fs' (xupd T (Some e') X) im.
  Proof.
    intros L Hn HT Hk Hk'. apply (Lk_frame (eq T) fs _ X _ _ L); auto.
    - intro p. destruct (path_dec p T) as [->|H]; auto. right. rewrite xupd_other; auto.
    - intros p e0 s <- H. rewrite xupd_same in H. inversion H; subst. apply Hk'.
    - intros p i <- H. right. rewrite <- Hn. split; auto. intros e0 s H0. rewrite HT in H0. inversion H0; subst. apply Hk.
  Qed.

  (* names at and below T removed (unlink, RemoveAll), after forgetLinkSources(T) *)
  Lemma Lk_removed fs fs' X im P a :
    Lk fs X im -> PC (P ++ [a]) im -> x_isdir (X P) = true ->
    (forall q, names fs' q = if is_prefix (P ++ [a]) q then None else names fs q) ->
    Lk fs' (touch P (xrm (P ++ [a]) X)) im.
  Proof.
    intros L Hpc HP Hn. apply Lk_touch; [|unfold xrm; rewrite is_prefix_snoc_self; auto].
    apply (Lk_frame (fun p => is_prefix (P ++ [a]) p = true) fs _ X _ _ L).
    - intro p. unfold xrm. rewrite Hn. destruct (is_prefix (P ++ [a]) p); auto.
    - intros p e s d. unfold xrm. rewrite d. discriminate.
    - intros p i d. rewrite Hn, d. discriminate.
    - intros s l i H. rewrite Hn, (Hpc _ _ _ H). auto.
  Qed.

  (* a new name with a fresh inode and a per-path key *)
  Lemma Lk_new fs fs' X im P a e :
    Inv fs X -> Lk fs X im -> x_isdir (X P) = true -> X (P ++ [a]) = None ->
    (forall q, q <> P ++ [a] -> names fs' q = names fs q) -> names fs' (P ++ [a]) = Some (next fs) ->
    x_key e = KNew (P ++ [a]) ->
    Lk fs' (xupd (P ++ [a]) (Some e) (touch P X)) im.
  Proof.
    intros I L HP HT Hn HnT Hk. set (T := P ++ [a]) in *.
    apply (Lk_frame (eq T) fs _ (touch P X) _ _ (Lk_touch _ _ _ _ L HP)).
    - intro p. destruct (path_dec p T) as [->|H]; auto. right. rewrite xupd_other; auto.
    - intros p e0 s <- H. rewrite xupd_same in H. inversion H; subst. congruence.
    - intros p i <- H. left. intros q Hq. rewrite HnT in H. inversion H; subst. apply (i_lt _ _ _ I) in Hq. lia.
    - intros s l i H. apply Hn. intro; subst l. destruct (lk_rec _ _ _ L _ _ _ H) as (A & _).
      rewrite (inv_x_none _ _ _ _ I HT) in A. discriminate.
  Qed.

  (* a new name T for inode i joins the link group of the source inode ino, recorded in im'
     as (l, i): the first copy (im' has the new record, i is fresh) or a further link (im' = im) *)
  Lemma Lk_join fs fs' X im im' T e ino l i :
    Lk fs X im -> names fs T = None ->
    (forall q, names fs' q = if path_eqb q T then Some i else names fs q) ->
    NoDup (map fst im') -> imap_find ino im' = Some (l, i) -> names fs' l = Some i ->
    (forall s, s <> ino -> imap_find s im' = imap_find s im) ->
    (forall x, imap_find ino im = Some x -> x = (l, i)) ->
    (forall q, names fs q = Some i -> imap_find ino im = Some (l, i)) ->
    multi ino = true -> is_reg (sdof ino) = true ->
    x_key e = KSrc ino -> x_d e = ne_d (sdof ino) -> x_known e = true -> x_mk e = false ->
    Lk fs' (xupd T (Some e) X) im'.
  Proof.
    intros L HT Hn Hnd Hrec Hl Him Hino Hi Hm Hr Hk Hd Hkn Hmk.
    assert (HnT : names fs' T = Some i) by (rewrite Hn, path_eqb_refl; auto).
    assert (HnO : forall q, q <> T -> names fs' q = names fs q).
    { intros q Hq. rewrite Hn. apply path_eqb_neq in Hq. rewrite Hq. auto. }
    pose proof (fun q Hq => lk_mem _ _ _ L _ _ _ q (Hi q Hq) Hq) as Hgrp.
    assert (Hold : forall s l0 i0, imap_find s im' = Some (l0, i0) ->
                     (s = ino /\ l0 = l /\ i0 = i) \/ (s <> ino /\ imap_find s im = Some (l0, i0))).
    { intros s l0 i0 H. destruct (N.eq_dec s ino) as [->|Hs]; [left; rewrite Hrec in H; inversion H; auto|].
      right. rewrite <- Him; auto. }
    split.
    - exact Hnd.
    - intros s l0 i0 H. destruct (Hold _ _ _ H) as [(-> & -> & ->)|(Hs & H0)]; auto.
      destruct (lk_rec _ _ _ L _ _ _ H0) as (A & B & C). split; auto. rewrite HnO; auto. intro; subst; congruence.
    - intros s l0 i0 p H Hp. destruct (path_dec p T) as [->|Hne].
      + rewrite HnT in Hp. inversion Hp; subst i0. rewrite xupd_same. exists e.
        (* two records with one inode are one record *)
        assert (s = ino); [|subst; auto].
        destruct (Hold _ _ _ H) as [(-> & _)|(Hs & H0)]; auto.
        destruct (lk_rec _ _ _ L _ _ _ H0) as (A & _). destruct (Hgrp _ A) as (e1 & B1 & B2 & _).
        destruct (lk_mem _ _ _ L _ _ _ _ H0 A) as (e2 & C1 & C2 & _). congruence.
      + rewrite HnO in Hp by auto. rewrite xupd_other by auto.
        destruct (Hold _ _ _ H) as [(-> & -> & ->)|(Hs & H0)]; [auto|eapply lk_mem; eauto].
    - intros p e0 s H1 H2. destruct (path_dec p T) as [->|Hne].
      + rewrite xupd_same in H1. inversion H1; subst e0. rewrite Hk in H2. inversion H2; subst s.
        repeat split; auto. intros i0 q Hpi Hqi. rewrite HnT in Hpi. inversion Hpi; subst i0.
        destruct (path_dec q T) as [->|Hq]; [rewrite xupd_same; eauto|].
        rewrite HnO in Hqi by auto. rewrite xupd_other by auto. destruct (Hgrp _ Hqi) as (e' & E1 & E2 & _). eauto.
      + rewrite xupd_other in H1 by auto.
        destruct (lk_grp _ _ _ L _ _ _ H1 H2) as (C1 & C2 & C3 & C4 & C5). repeat split; auto.
        intros i0 q Hpi Hqi. rewrite HnO in Hpi by auto. destruct (path_dec q T) as [->|Hq].
        * rewrite HnT in Hqi. inversion Hqi; subst i0. rewrite xupd_same.
          destruct (Hgrp _ Hpi) as (e1 & D1 & D2 & _). exists e. split; auto. congruence.
        * rewrite HnO in Hqi by auto. rewrite xupd_other by auto. eauto.
    - intros HS p e0 s H1 H2. destruct (path_dec p T) as [->|Hne].
      + rewrite xupd_same in H1. inversion H1; subst e0. rewrite Hk in H2. inversion H2; subst s. eauto.
      + rewrite xupd_other in H1 by auto. destruct (lk_src _ _ _ L HS _ _ _ H1 H2) as (l0 & i0 & A & B).
        exists l0, i0. rewrite HnO by auto. split; auto.
        destruct (N.eq_dec s ino) as [->|Hs]; [|rewrite Him; auto].
        pose proof (Hino _ A) as E. inversion E; subst. exact Hrec.
  Qed.

  (* the copy of a link group member recorded (no record for its inode at this point) *)
  Lemma Lk_record fs fs' X im P a e ino :
    Inv fs X -> Lk fs X im -> x_isdir (X P) = true -> X (P ++ [a]) = None ->
    (forall q, q <> P ++ [a] -> names fs' q = names fs q) -> names fs' (P ++ [a]) = Some (next fs) ->
    imap_find ino im = None -> multi ino = true -> is_reg (sdof ino) = true ->
    x_key e = KSrc ino -> x_d e = ne_d (sdof ino) -> x_known e = true -> x_mk e = false ->
    Lk fs' (xupd (P ++ [a]) (Some e) (touch P X)) ((ino, (P ++ [a], next fs)) :: im).
  Proof.
    intros I L HP HT Hn HnT Hnone Hm Hr Hk Hd Hkn Hmk. set (T := P ++ [a]) in *.
    eapply (Lk_join fs fs' (touch P X) im _ T e ino T (next fs)); auto.
    - apply Lk_touch; auto.
    - eapply inv_x_none; eauto.
    - intro q. destruct (path_eqb q T) eqn:E; [apply path_eqb_eq in E; subst; auto|apply Hn, path_eqb_neq; auto].
    - simpl. constructor; [apply imap_find_none_notin; auto|apply (lk_nodup _ _ _ L)].
    - cbn [imap_find]. rewrite N.eqb_refl. auto.
    - intros s Hs. cbn [imap_find]. apply N.eqb_neq in Hs. rewrite Hs. auto.
    - congruence.
    - intros q Hq. apply (i_lt _ _ _ I) in Hq. lia.
  Qed.

  (* a further member linked to the recorded copy *)
  Lemma Lk_link fs fs' X im P a e ino l id :
    Lk fs X im -> x_isdir (X P) = true -> names fs (P ++ [a]) = None ->
    (forall q, names fs' q = if path_eqb q (P ++ [a]) then Some id else names fs q) ->
    imap_find ino im = Some (l, id) ->
    x_key e = KSrc ino -> x_d e = ne_d (sdof ino) -> x_known e = true -> x_mk e = false ->
    Lk fs' (xupd (P ++ [a]) (Some e) (touch P X)) im.
  Proof.
    intros L HP HT Hn Hrec Hk Hd Hkn Hmk. destruct (lk_rec _ _ _ L _ _ _ Hrec) as (Hl & Hmul & Hreg).
    eapply (Lk_join fs fs' (touch P X) im im _ e ino l id); eauto.
    - apply Lk_touch; auto.
    - apply (lk_nodup _ _ _ L).
    - rewrite Hn. destruct (path_eqb l (P ++ [a])); auto.
    - congruence.
  Qed.

  (* the metadata phase on an inode that already is a finished copy changes nothing *)
  Lemma finfo_fix sd d e : xsorted (d_xattrs sd) -> is_lnk sd = false ->
    dm o d e -> x_d e = ne_d sd -> dm o (finfo o ms sd d) e.
  Proof.
    intros Hx Hl (A1 & A2 & A3 & _ & A5 & A6 & A7 & A8) He. rewrite He in *. unfold dm, finfo. rewrite He, Hl.
    unfold ne_d in *. rewrite Hl in *.
    cbn [set_xattrs set_mtime set_perm set_owner d_mode d_uid d_gid d_mtime d_rdev d_target d_xattrs d_content] in *.
    rewrite ftype_set_owner.
    repeat split; auto.
    - unfold ftype. rewrite A1, info_mode_idem. f_equal.
      apply ftype_mk; [apply copy_type_fmt|rewrite <- info_mode_idem; apply land_all_fmt].
    - rewrite A7. apply merge_self; auto.
  Qed.
End Link.
