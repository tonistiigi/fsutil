(* C14 — paths "<dstRoot>/<real directories>/<name>": what a lookup of such a path can return,
   the standing facts [Ctx] about the setting, and [above]: the chains that an operation below a
   directory leaves alone. *)
From Coq Require Import List NArith Lia Bool ZifyN ZifyNat ZifyBool.
From FS Require Import Sx Model.Path Model.Fs Model.RootPath Model.CopyFs Model.CopyFsSpec
  Proofs.Lex Proofs.PathP Proofs.FsP Proofs.RootPathStrP Proofs.FsCopyFrameP Proofs.FsCopyInvP.
From FS Require Proofs.RootPathP.
Import ListNotations.
Open Scope N_scope.
Open Scope bool_scope.

Local Opaque rfuel.

(* all chains that end at or above directory d survive *)
Definition above (d : N) (f f' : fs) : Prop :=
  forall a p e q, chain f a p e -> chain f e q d -> chain f' a p e.

Lemma above_refl d f : above d f f.
Proof. intros a p e q H _. exact H. Qed.

Lemma above_trans d f1 f2 f3 : is_dir f1 d = true -> above d f1 f2 -> above d f2 f3 -> above d f1 f3.
Proof.
  intros Hd A B a p e q H1 H2. apply (B a p e q); [apply (A a p e q); auto|].
  apply (A e q d []); auto. constructor; auto.
Qed.

Lemma above_mono d d1 q1 f f' : chain f d q1 d1 -> above d1 f f' -> above d f f'.
Proof. intros Hq A a p e q H1 H2. apply (A a p e (q ++ q1)); auto. eapply chain_app; eauto. Qed.

Lemma chain_same f f' : (forall j, dents f' j = dents f j) -> (forall j, is_dir f j = true -> is_dir f' j = true) ->
  forall a p e, chain f a p e -> chain f' a p e.
Proof.
  intros Hs Hd a p e H. apply (chain_stable f f' (fun _ => False)); auto.
Qed.

(* What the lookup of "cs/x" can return when cs is a chain to d: what the entry x of d says, or
   ELOOP for lack of fuel, unless it follows a symlink that x names. *)
Definition chain_res (f : fs) (d : N) (x : bytes) (fl : bool) (w : lres + errno) : Prop :=
  match w with
  | inl r => l_dir r = d /\ l_name r = x /\ l_ino r = blookup x (dents f d)
  | inr e => e = ELOOP
  end \/ (fl = true /\ exists i, blookup x (dents f d) = Some i /\ is_link f i = true).

Lemma walk_dir_step f d x i rest fuel rt fl n : blookup x (dents f d) = Some i -> is_dir f i = true -> nm x -> rest <> [] ->
  walk (S fuel) f rt d (x :: rest) fl n = walk fuel f rt i rest fl n.
Proof.
  intros Hb Hi Hx Hr. cbn [walk]. unfold dents in Hb. destruct (dir_of f d) as [[par ents]|]; [|discriminate].
  destruct (nm_not_dots x Hx) as [-> ->]. rewrite Hb.
  unfold is_dir, dir_of in Hi. destruct (get f i) as [[[p0 es0|?|?|? ?] m]|]; try discriminate.
  destruct rest; [congruence|reflexivity].
Qed.

Lemma walk_chain_res f a cs d : chain f a cs d -> Forall nm cs -> forall x, nm x ->
  forall fuel rt fl n, chain_res f d x fl (walk fuel f rt a (cs ++ [x]) fl n).
Proof.
  induction 1 as [d Hd|d y i cs e Hb Hi Hc IH]; intros Hcs x Hx fuel rt fl n;
    unfold chain_res; (destruct fuel as [|fuel]; [left; reflexivity|]); simpl app.
  - cbn [walk]. unfold dents. unfold is_dir in Hd. destruct (dir_of f d) as [[par ents]|]; [|discriminate].
    destruct (nm_not_dots x Hx) as [-> ->].
    destruct (blookup x ents) as [i|]; [|left; simpl; auto].
    unfold is_link. destruct (get f i) as [[[p0 es|dd|t|ty rd] m]|] eqn:Eg; try solve [left; simpl; auto].
    destruct fl; [right; split; auto; exists i; rewrite Eg; auto|left; simpl; auto].
  - inversion Hcs as [|? ? Hy Hcs']; subst.
    rewrite (walk_dir_step f d y i) by (auto; destruct cs; discriminate).
    apply IH; auto.
Qed.

Lemma walk_chain f a cs d : chain f a cs d -> Forall nm cs -> forall x, nm x ->
  forall fuel rt fl n res, walk fuel f rt a (cs ++ [x]) fl n = inl res ->
  (l_dir res = d /\ l_name res = x /\ l_ino res = blookup x (dents f d)) \/
  (fl = true /\ exists i, blookup x (dents f d) = Some i /\ is_link f i = true).
Proof.
  intros Hc Hcs x Hx fuel rt fl n res H.
  pose proof (walk_chain_res f a cs d Hc Hcs x Hx fuel rt fl n) as G. rewrite H in G. exact G.
Qed.

Lemma chain_plain_dir f : forall cs a e, chain f a cs e -> plain_dir f a cs = Some e.
Proof.
  induction 1 as [d Hd|d x i cs e Hb Hi Hc IH].
  - unfold plain_dir. cbn [plain_lookup]. unfold is_dir in Hd.
    destruct (dir_of f d) as [[p es]|] eqn:E; [|discriminate]. cbn [l_ino]. unfold is_dir. rewrite E. reflexivity.
  - unfold plain_dir in *. cbn [plain_lookup]. unfold dents in Hb.
    destruct (dir_of f d) as [[p es]|] eqn:E; [|discriminate]. rewrite Hb.
    unfold is_dir, dir_of in Hi. destruct (get f i) as [[[p0 es0|?|?|? ?] m]|] eqn:Eg; try discriminate.
    destruct cs as [|y cs].
    + inversion Hc; subst. cbn [is_nil l_ino]. unfold is_dir, dir_of. rewrite Eg. reflexivity.
    + cbn [is_nil]. exact IH.
Qed.

Lemma chain_link_free f : forall a ns d, chain f a ns d -> link_free f a ns = true.
Proof.
  induction 1 as [d Hd|d x i cs e Hb Hi Hc IH]; [reflexivity|].
  cbn [link_free]. unfold dents in Hb. destruct (dir_of f d) as [[p es]|]; [|reflexivity]. rewrite Hb.
  unfold is_dir, dir_of in Hi. destruct (get f i) as [[[? ?|?|?|? ?] ?]|]; try discriminate. exact IH.
Qed.

Lemma lf_walk_parent f x : forall cs fuel a rt fl n r,
  link_free f a cs = true -> Forall nm cs -> walk fuel f rt a (cs ++ [x]) fl n = inl r ->
  exists d', chain f a cs d'.
Proof.
  induction cs as [|y rest IH]; intros fuel a rt fl n r Hlf Hcs H;
    (destruct fuel as [|fuel]; [discriminate|]); simpl app in H; cbn [walk] in H;
    (destruct (dir_of f a) as [[par ents]|] eqn:Ed; [|discriminate]).
  - exists a. constructor. unfold is_dir. rewrite Ed. reflexivity.
  - inversion Hcs as [|? ? [(_ & N2 & N3) _] Hrest]; subst. apply bytes_eqb_neq in N2, N3. rewrite N2, N3 in H.
    cbn [link_free] in Hlf. rewrite Ed in Hlf.
    replace (is_nil (rest ++ [x])) with false in H by (destruct rest; reflexivity).
    destruct (blookup y ents) as [i0|] eqn:Eb; [|discriminate].
    assert (Hc : exists d', chain f i0 rest d').
    { destruct (get f i0) as [[[]]|]; try discriminate; eapply IH; eauto. }
    destruct Hc as [d' Hc]. exists d'.
    econstructor; [unfold dents; rewrite Ed; exact Eb|eapply chain_start_dir; eauto|exact Hc].
Qed.

Lemma lf_walk_entry f fuel cs a x rt n r i : link_free f a cs = true -> Forall nm cs -> nm x ->
  walk fuel f rt a (cs ++ [x]) false n = inl r -> l_ino r = Some i ->
  exists d', chain f a cs d' /\ blookup x (dents f d') = Some i.
Proof.
  intros Hlf Hcs Hx H Hi. destruct (lf_walk_parent f x cs _ _ _ _ _ _ Hlf Hcs H) as [d' Hc].
  exists d'. split; [exact Hc|].
  destruct (walk_chain f a cs d' Hc Hcs x Hx _ _ _ _ _ H) as [(_ & _ & E)|[E _]]; [congruence|discriminate].
Qed.

Lemma link_free_walk_chain f fuel cs a rt fl n r i :
  link_free f a cs = true -> Forall nm cs -> is_dir f a = true ->
  walk fuel f rt a cs fl n = inl r -> l_ino r = Some i -> is_dir f i = true -> chain f a cs i.
Proof.
  intros Hlf Hcs Ha H Hi Hd. destruct cs as [|x cs _] using rev_ind.
  - destruct fuel; [discriminate|]. cbn [walk] in H. destruct (dir_of f a) as [[]|]; [|discriminate].
    inversion H; subst. inversion Hi; subst. constructor; auto.
  - (* the last name is no symlink either: following makes no difference *)
    rewrite (RootPathP.link_free_resolution_rootless_proof f a (cs ++ [x]) (proj2 (forallb_lex_name_ok _) Hcs) Hlf fuel rt rt fl false n n) in H.
    apply Forall_app in Hcs. destruct Hcs as [Hcs Hx]. inversion Hx; subst.
    destruct (lf_walk_entry f fuel cs a x rt n r i (RootPathP.link_free_prefix f [x] cs a Hlf) Hcs) as (d' & Hc & Hb); auto.
    eapply chain_snoc; eauto.
Qed.

Lemma walk_chain_prefix f : forall p a m, chain f a p m -> Forall nm p -> forall rest, rest <> [] ->
  forall fuel rt fl n, walk (length p + fuel) f rt a (p ++ rest) fl n = walk fuel f rt m rest fl n.
Proof.
  induction 1 as [d Hd|d x i cs e Hb Hi Hc IH]; intros Hp rest Hne fuel rt fl n; [reflexivity|].
  inversion Hp as [|? ? Hx Hcs]; subst. simpl length. simpl app. cbn [plus].
  rewrite (walk_dir_step f d x i) by (auto; destruct cs; simpl; auto; discriminate). apply IH; auto.
Qed.

Lemma walk_chain_full f : forall p a m, chain f a p m -> Forall nm p -> p <> [] ->
  forall fuel rt fl n, (length p <= fuel)%nat ->
  exists r, walk fuel f rt a p fl n = inl r /\ l_ino r = Some m.
Proof.
  induction 1 as [d Hd|d x i cs e Hb Hi Hc IH]; intros Hp Hne fuel rt fl n Hf; [congruence|].
  inversion Hp as [|? ? Hx Hcs]; subst. destruct Hx as [(N1 & N2 & N3) _].
  apply bytes_eqb_neq in N2, N3.
  destruct fuel as [|fuel]; [simpl in Hf; lia|]. cbn [walk]. unfold dents in Hb.
  destruct (dir_of f d) as [[par ents]|] eqn:Ed; [|discriminate]. rewrite N2, N3, Hb.
  unfold is_dir, dir_of in Hi. destruct (get f i) as [[[p0 es0|?|?|? ?] m]|] eqn:Eg; try discriminate.
  destruct cs as [|y cs].
  - inversion Hc; subst. cbn [is_nil]. eexists. split; reflexivity.
  - cbn [is_nil]. apply IH; auto; [discriminate|simpl in *; lia].
Qed.

(* a path of real directories from the process root resolves to its end, followed or not *)
Lemma resolve_chain c f p m fl : chain f (c_root c) p m -> Forall nm p -> Forall nonul p -> (length p < rfuel)%nat ->
  exists r, resolve c f (render p) fl = inl r /\ l_ino r = Some m.
Proof.
  intros Hc Hd Hn Hl. destruct p as [|y l] eqn:E.
  - inversion Hc as [? H|]; subst. destruct rfuel_S as [k Ek].
    unfold resolve, render. cbn [joinc has_nul existsb ends_with_sep rev app is_abs pcs comps filter nonempty].
    change (N.eqb 0 sep) with false. cbn [orb]. rewrite N.eqb_refl. cbn [filter nonempty orb].
    rewrite orb_true_r. rewrite Ek. cbn [walk]. unfold is_dir in H.
    destruct (dir_of f (c_root c)) as [[par ents]|] eqn:Ed; [|discriminate].
    cbn [l_ino]. unfold is_dir. rewrite Ed. eexists. split; reflexivity.
  - rewrite <- E in *. rewrite resolve_render by (auto; rewrite E; discriminate).
    apply walk_chain_full; auto; [rewrite E; discriminate|lia].
Qed.

Lemma resolve_ino_chain c f p m fl : chain f (c_root c) p m -> Forall nm p -> Forall nonul p -> (length p < rfuel)%nat ->
  resolve_ino c f (render p) fl = inl m.
Proof. intros Hc Hd Hn Hl. unfold resolve_ino. destruct (resolve_chain c f p m fl Hc Hd Hn Hl) as (r & -> & ->). reflexivity. Qed.

Lemma walk_ino_src fuel f : forall rt cur cs fl n r i,
  walk fuel f rt cur cs fl n = inl r -> l_ino r = Some i ->
  is_dir f i = true \/ exists j nme, blookup nme (dents f j) = Some i.
Proof.
  induction fuel as [|fuel IH]; intros rt cur cs fl n r i H Hi; [discriminate|].
  cbn [walk] in H. destruct (dir_of f cur) as [[par ents]|] eqn:Ed; [|discriminate].
  destruct cs as [|x rest].
  - inversion H; subst. simpl in Hi. inversion Hi; subst. left. unfold is_dir. rewrite Ed. reflexivity.
  - destruct (bytes_eqb x s_dot); [eapply IH; eauto|].
    destruct (bytes_eqb x s_dotdot); [eapply IH; eauto|].
    destruct (blookup x ents) as [i0|] eqn:Eb.
    + assert (Hsrc : blookup x (dents f cur) = Some i0) by (unfold dents; rewrite Ed; auto).
      assert (Hfin : @inl lres errno {| l_dir := cur; l_name := x; l_ino := Some i0 |} = inl r ->
                     is_dir f i = true \/ exists j nme, blookup nme (dents f j) = Some i).
      { intros E0. inversion E0; subst. simpl in Hi. inversion Hi; subst. right; eauto. }
      destruct (get f i0) as [[[p0 es|dd|t|ty rd] m]|];
        try solve [destruct (is_nil rest); [eapply Hfin; eauto|eapply IH; eauto]].
      destruct (is_nil rest && negb fl); [eapply Hfin; eauto|].
      destruct (N.leb max_symlinks n); [discriminate|]. destruct (is_nil t); [discriminate|]. eapply IH; eauto.
    + destruct (is_nil rest); [|discriminate]. inversion H; subst. simpl in Hi. discriminate.
Qed.

Lemma resolve_ino_src c f p fl i : resolve_ino c f p fl = inl i ->
  is_dir f i = true \/ exists j nme, blookup nme (dents f j) = Some i.
Proof.
  unfold resolve_ino, resolve. destruct p as [|a p]; [discriminate|].
  destruct (has_nul (a :: p)); [discriminate|].
  destruct (walk rfuel f (c_root c) _ _ _ 0) as [r|e] eqn:E; [|discriminate].
  destruct (ends_with_sep (a :: p)).
  - destruct (l_ino r) as [i0|] eqn:Ei; [|discriminate]. destruct (is_dir f i0); [|discriminate].
    rewrite Ei. intros H. inversion H; subst. eapply walk_ino_src; eauto.
  - destruct (l_ino r) as [i0|] eqn:Ei; [|discriminate]. intros H. inversion H; subst. eapply walk_ino_src; eauto.
Qed.

Section Safe.
  Variables (c : ctx) (f0 : fs) (dr : N) (dcs : list bytes).
  Let rt := c_root c.
  Let b := f_next f0.

  (* the standing facts: about the setting (dstRoot is "/dcs", a directory of the acyclic initial
     file system) and about the current file system *)
  Record Ctx (f : fs) : Prop := {
    cx_dcs : Forall nm dcs;
    cx_dnul : Forall nonul dcs;
    cx_ac : acyclic f0;
    cx_dr0 : is_dir f0 dr = true;
    cx_len : (length dcs < rfuel)%nat;
    cx_inv : Inv f0 dr f;
    cx_root : chain f rt dcs dr
  }.

  (* [tpath cs x]: the path "<dstRoot>/cs/x" *)
  Definition tpath (cs : list bytes) (x : bytes) : bytes := render (dcs ++ cs ++ [x]).

  Lemma resolve_tpath_res f cs d x fl :
    Ctx f -> chain f dr cs d -> Forall nm cs -> Forall nonul cs -> nm x -> nonul x ->
    chain_res f d x fl (resolve c f (tpath cs x) fl).
  Proof.
    intros C Hc Hcs Hnul Hx Hxn. unfold tpath.
    pose proof (cx_dcs f C) as Hdcs. pose proof (cx_dnul f C) as Hdnul.
    rewrite resolve_render.
    - rewrite app_assoc. apply (walk_chain_res f rt (dcs ++ cs) d); auto.
      + eapply chain_app; eauto. apply (cx_root f C).
      + apply Forall_app; auto.
    - repeat (apply Forall_app; split; auto).
    - repeat (apply Forall_app; split; auto).
    - destruct dcs; [destruct cs|]; discriminate.
  Qed.

  Lemma resolve_tpath_err f cs d x fl e :
    Ctx f -> chain f dr cs d -> Forall nm cs -> Forall nonul cs -> nm x -> nonul x ->
    resolve c f (tpath cs x) fl = inr e ->
    e = ELOOP \/ (fl = true /\ exists i, blookup x (dents f d) = Some i /\ is_link f i = true).
  Proof.
    intros C Hc Hcs Hnul Hx Hxn H.
    pose proof (resolve_tpath_res f cs d x fl C Hc Hcs Hnul Hx Hxn) as G. rewrite H in G. exact G.
  Qed.

  Lemma ctx_dr_SS f : Ctx f -> SS f0 dr dr.
  Proof. intros C. apply dr_SS. apply (cx_dr0 f C). Qed.

  Lemma ctx_dir_SS f cs d : Ctx f -> chain f dr cs d -> SS f0 dr d.
  Proof. intros C H. eapply chain_SS; eauto; [apply (cx_inv f C)|eapply ctx_dr_SS; eauto]. Qed.

  Lemma ctx_acyclic f : Ctx f -> acyclic f.
  Proof. intros C. eapply inv_acyclic; [apply (cx_inv f C)|apply (cx_ac f C)]. Qed.

End Safe.
