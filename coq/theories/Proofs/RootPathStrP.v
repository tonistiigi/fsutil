(* C14 — string facts: filepath.Join / Clean / Base / Dir / Split on rendered component lists,
   and the parsing of a rendered path by Fs.resolve. *)
From Coq Require Import List NArith Lia Bool.
From FS Require Import Sx Model.Path Model.Fs Model.RootPath Proofs.Lex Proofs.PathP Proofs.ListAux.
Import ListNotations.
Open Scope N_scope.
Open Scope bool_scope.

(* a name: what [lex_name_ok] decides ([name_ok] adds [nonul]) *)
Definition nm (x : bytes) : Prop := normal x /\ nosep x.

Lemma forallb_nosep x : forallb (fun b => negb (N.eqb b sep)) x = true <-> nosep x.
Proof.
  unfold nosep. induction x as [|a x IH]; simpl.
  - split; auto.
  - rewrite andb_true_iff, IH. split.
    + intros [H1 H2] [E|H]; [subst; rewrite N.eqb_refl in H1; discriminate|auto].
    + intros H. split; [|intro; apply H; auto].
      destruct (N.eqb a sep) eqn:E; auto. apply N.eqb_eq in E. exfalso. apply H. auto.
Qed.

Lemma lex_name_ok_nm x : lex_name_ok x = true <-> nm x.
Proof.
  unfold lex_name_ok, nm, normal. rewrite !andb_true_iff, !negb_true_iff, !bytes_eqb_neq, forallb_nosep.
  destruct x; simpl; intuition congruence.
Qed.

Lemma forallb_lex_name_ok cs : forallb lex_name_ok cs = true <-> Forall nm cs.
Proof. rewrite forallb_forall, Forall_forall. split; intros H x Hx; apply lex_name_ok_nm; auto. Qed.

Definition nonul (x : bytes) : Prop := has_nul x = false.

Lemma forallb_name_ok cs : forallb name_ok cs = true <-> Forall nm cs /\ Forall nonul cs.
Proof.
  rewrite forallb_forall, !Forall_forall. unfold name_ok, nonul. split.
  - intros H. split; intros x Hx; specialize (H x Hx); apply andb_true_iff in H; destruct H as [H1 H2].
    + apply lex_name_ok_nm; auto.
    + apply negb_true_iff; auto.
  - intros [H1 H2] x Hx. apply andb_true_iff. split; [apply lex_name_ok_nm; auto|].
    apply negb_true_iff. apply H2; auto.
Qed.

Lemma has_nul_app a b : has_nul (a ++ b) = has_nul a || has_nul b.
Proof. unfold has_nul. apply existsb_app. Qed.

Lemma has_nul_joinc cs : has_nul (joinc cs) = existsb has_nul cs.
Proof.
  induction cs as [|c cs IH]; [reflexivity|].
  destruct cs as [|d cs].
  - simpl. rewrite orb_false_r. reflexivity.
  - rewrite joinc_cons by discriminate. rewrite has_nul_app.
    change (has_nul (sep :: joinc (d :: cs))) with (has_nul (joinc (d :: cs))).
    rewrite IH. reflexivity.
Qed.

Lemma has_nul_render cs : has_nul (render cs) = false <-> Forall nonul cs.
Proof.
  unfold render. change (has_nul (sep :: joinc cs)) with (has_nul (joinc cs)).
  rewrite has_nul_joinc. unfold nonul. induction cs as [|c cs IH]; simpl.
  - split; auto.
  - rewrite orb_false_iff, IH. split.
    + intros [H1 H2]. constructor; auto.
    + intros H. inversion H; auto.
Qed.

Lemma nm_nonempty x : nm x -> x <> []. Proof. intros [[H _] _]; auto. Qed.

Lemma nm_not_dots x : nm x -> bytes_eqb x s_dot = false /\ bytes_eqb x s_dotdot = false.
Proof. intros [(H1 & H2 & H3) _]. split; apply bytes_eqb_neq; auto. Qed.

Lemma Forall_nm_normal cs : Forall nm cs -> Forall normal cs.
Proof. apply Forall_impl. intros a [H _]; auto. Qed.
Lemma Forall_nm_nosep cs : Forall nm cs -> Forall nosep cs.
Proof. apply Forall_impl. intros a [_ H]; auto. Qed.

(* the stack Clean builds for an absolute path *)
Definition stk_from (stk : list bytes) (s : bytes) : list bytes := fold_left (cstep true) (comps s) stk.

Lemma clean_abs s : clean (sep :: s) = render (rev (stk_from [] s)).
Proof.
  unfold clean, render, stk_from. cbn [is_abs]. rewrite N.eqb_refl.
  change (sep :: s) with ([] ++ sep :: s). rewrite comps_app_sep_gen. reflexivity.
Qed.

Lemma stk_from_app stk a b : stk_from stk (a ++ sep :: b) = stk_from (stk_from stk a) b.
Proof. unfold stk_from. rewrite comps_app_sep_gen, fold_left_app. reflexivity. Qed.

Lemma stk_from_joinc stk cs : Forall nm cs -> stk_from stk (joinc cs) = rev cs ++ stk.
Proof.
  intros H. unfold stk_from. destruct cs as [|c cs].
  - reflexivity.
  - rewrite comps_joinc by (try discriminate; apply Forall_nm_nosep; auto).
    apply fold_cstep_normal. apply Forall_nm_normal; auto.
Qed.

Lemma stk_from_render stk cs : Forall nm cs -> stk_from stk (render cs) = rev cs ++ stk.
Proof.
  intros H. unfold render. change (sep :: joinc cs) with ([] ++ sep :: joinc cs).
  rewrite stk_from_app. change (stk_from stk []) with stk. apply stk_from_joinc; auto.
Qed.

Lemma stk_from_single stk x : nosep x -> stk_from stk x = cstep true stk x.
Proof. intros H. unfold stk_from. rewrite comps_nosep_single by auto. reflexivity. Qed.

Lemma render_nonempty cs : render cs <> []. Proof. discriminate. Qed.

Lemma clean_render cs : Forall nm cs -> clean (render cs) = render cs.
Proof.
  intros H. unfold render at 1. rewrite clean_abs, stk_from_joinc by auto.
  rewrite app_nil_r, rev_involutive. reflexivity.
Qed.

Lemma join2_render a t : Forall nm a ->
  join2 (render a) t = render (rev (stk_from (rev a) t)).
Proof.
  intros H. unfold join2. unfold render at 1.
  destruct t as [|b t].
  - fold (render a). rewrite clean_render by auto. unfold stk_from. cbn [comps fold_left].
    rewrite cstep_empty, rev_involutive. reflexivity.
  - change (clean ((sep :: joinc a) ++ sep :: b :: t) = render (rev (stk_from (rev a) (b :: t)))).
    change ((sep :: joinc a) ++ sep :: b :: t) with (sep :: (joinc a ++ sep :: b :: t)).
    rewrite clean_abs, stk_from_app, stk_from_joinc by auto. rewrite app_nil_r. reflexivity.
Qed.

Lemma join2_root t : join2 [sep] t = render (rev (stk_from [] t)).
Proof. apply (join2_render [] t). constructor. Qed.

Lemma cstep_cases stk x : Forall nm stk -> nosep x ->
  (cstep true stk x = stk) \/ (cstep true stk x = tl stk) \/ (nm x /\ cstep true stk x = x :: stk).
Proof.
  intros Hs Hx. unfold cstep.
  destruct (bytes_eqb x []) eqn:E1; [auto|]. destruct (bytes_eqb x s_dot) eqn:E2; [auto|]. simpl.
  destruct (bytes_eqb x s_dotdot) eqn:E3.
  - destruct stk as [|t r]; auto. inversion Hs; subst.
    destruct (bytes_eqb t s_dotdot) eqn:E4; auto.
    apply bytes_eqb_eq in E4. destruct H1 as [(_ & _ & H) _]. congruence.
  - right; right. apply bytes_eqb_neq in E1, E2, E3. repeat split; auto.
Qed.

Lemma cstep_nm stk x : Forall nm stk -> nosep x -> Forall nm (cstep true stk x).
Proof.
  intros Hs Hx. destruct (cstep_cases stk x Hs Hx) as [->|[->|[Hn ->]]];
    [auto|destruct Hs; [constructor|assumption]|constructor; auto].
Qed.

Lemma stk_from_nm stk s : Forall nm stk -> Forall nm (stk_from stk s).
Proof.
  unfold stk_from. intros H. pose proof (comps_all_nosep s) as Hc.
  revert stk H. induction Hc as [|x cs Hx _ IH]; intros stk H; [exact H|].
  simpl. apply IH. apply cstep_nm; auto.
Qed.

Lemma joinc_names_nonempty cs : Forall nm cs -> cs <> [] -> joinc cs <> [].
Proof.
  intros H Hne E. apply joinc_nil_iff in E; auto.
  eapply Forall_impl; [|exact H]. intros a Ha. apply nm_nonempty; auto.
Qed.

Lemma render_eq_sep cs : Forall nm cs -> bytes_eqb (render cs) [sep] = true <-> cs = [].
Proof.
  intros H. rewrite bytes_eqb_eq. split.
  - intros E. destruct cs as [|c cs]; auto. exfalso.
    apply (joinc_names_nonempty (c :: cs)); auto; [discriminate|]. unfold render in E. congruence.
  - intros ->. reflexivity.
Qed.

Lemma render_inj a b : Forall nm a -> Forall nm b -> render a = render b -> a = b.
Proof.
  intros Ha Hb E. unfold render in E. injection E as E.
  destruct a as [|x a], b as [|y b]; auto.
  - exfalso. symmetry in E. revert E. apply joinc_names_nonempty; auto. discriminate.
  - exfalso. revert E. apply joinc_names_nonempty; auto. discriminate.
  - rewrite <- (comps_joinc (x :: a)), <- (comps_joinc (y :: b)), E; auto using Forall_nm_nosep; discriminate.
Qed.

Lemma pcs_render cs : Forall nm cs -> pcs (render cs) = cs.
Proof.
  intros H. unfold pcs, render. change (sep :: joinc cs) with ([] ++ sep :: joinc cs).
  rewrite comps_app_sep_gen. simpl.
  destruct cs as [|c cs]; [reflexivity|].
  rewrite comps_joinc by (try discriminate; apply Forall_nm_nosep; auto).
  apply filter_all. intros x Hx.
  rewrite Forall_forall in H. specialize (H x Hx). apply nm_nonempty in H. destruct x; auto; congruence.
Qed.

Lemma ends_with_sep_snoc q b : ends_with_sep (q ++ [b]) = N.eqb b sep.
Proof. unfold ends_with_sep. rewrite rev_unit. reflexivity. Qed.

Lemma ends_with_sep_render cs : Forall nm cs -> cs <> [] -> ends_with_sep (render cs) = false.
Proof.
  intros H Hne. destruct (exists_last Hne) as (d & c & ->).
  apply Forall_app in H. destruct H as [_ Hc]. inversion Hc as [|? ? Hc1 _]; subst.
  destruct (exists_last (nm_nonempty _ Hc1)) as (c' & b & ->).
  assert (Hb : N.eqb b sep = false).
  { apply N.eqb_neq. intros ->. destruct Hc1 as [_ Hns]. apply Hns. apply in_or_app. right. left. reflexivity. }
  unfold render. destruct d as [|x d].
  - simpl joinc. change (sep :: c' ++ [b]) with ((sep :: c') ++ [b]). rewrite ends_with_sep_snoc. exact Hb.
  - rewrite joinc_snoc by discriminate.
    replace (sep :: joinc (x :: d) ++ sep :: c' ++ [b]) with ((sep :: joinc (x :: d) ++ sep :: c') ++ [b]).
    + rewrite ends_with_sep_snoc. exact Hb.
    + simpl. rewrite <- app_assoc. reflexivity.
Qed.

Lemma resolve_render c f cs fl : Forall nm cs -> Forall nonul cs -> cs <> [] ->
  resolve c f (render cs) fl = walk rfuel f (c_root c) (c_root c) cs fl 0.
Proof.
  intros H Hnul Hne. unfold resolve. unfold render at 1.
  apply has_nul_render in Hnul. fold (render cs). rewrite Hnul. unfold render at 1.
  rewrite ends_with_sep_render by auto. rewrite pcs_render by auto.
  unfold render. cbn [is_abs]. rewrite N.eqb_refl. rewrite orb_false_r.
  destruct (walk rfuel f (c_root c) (c_root c) cs fl 0); reflexivity.
Qed.

Lemma name_ok_nm x : name_ok x = true -> nm x /\ nonul x.
Proof.
  intros H. assert (G : forallb name_ok [x] = true) by (simpl; rewrite H; reflexivity).
  apply forallb_name_ok in G. destruct G as [G1 G2]. inversion G1; inversion G2; auto.
Qed.


Lemma render_app_sep l r : l <> [] -> r <> [] -> render (l ++ r) = render l ++ sep :: joinc r.
Proof. intros Hl Hr. unfold render. rewrite joinc_app by auto. reflexivity. Qed.

Lemma skipn_app_len {A} (a b : list A) : skipn (length a) (a ++ b) = b.
Proof. induction a; simpl; auto. Qed.

Lemma join2_names L n : Forall nm L -> nm n -> join2 (render L) n = render (L ++ [n]).
Proof.
  intros HL Hn. rewrite join2_render by auto. rewrite stk_from_single by (destruct Hn; auto).
  rewrite cstep_normal by (destruct Hn; auto). simpl rev. rewrite rev_involutive. reflexivity.
Qed.

Lemma strip_render l x : Forall nm (l ++ [x]) -> strip_trailing_seps (render (l ++ [x])) = render (l ++ [x]).
Proof.
  intros H. apply Forall_app in H. destruct H as [_ Hx]. inversion Hx as [|? ? Hx1 _]; subst.
  destruct (exists_last (nm_nonempty _ Hx1)) as (x' & a & ->).
  assert (Ha : a <> sep).
  { intros ->. destruct Hx1 as [_ Hns]. apply Hns. apply in_or_app. right. left. reflexivity. }
  unfold render. destruct l as [|y l].
  - simpl joinc. change (sep :: x' ++ [a]) with ((sep :: x') ++ [a]). apply strip_trailing_seps_id; auto.
  - rewrite joinc_snoc by discriminate.
    replace (sep :: joinc (y :: l) ++ sep :: x' ++ [a]) with ((sep :: joinc (y :: l) ++ sep :: x') ++ [a]).
    + apply strip_trailing_seps_id; auto.
    + simpl. rewrite <- app_assoc. reflexivity.
Qed.

Lemma comps_nonul p : has_nul p = false -> Forall nonul (comps p).
Proof.
  induction p as [|a p IH]; intros H; [constructor; [reflexivity|constructor]|].
  unfold has_nul in H. simpl in H. apply orb_false_iff in H. destruct H as [Ha Hp].
  specialize (IH Hp). simpl. destruct (N.eqb a sep); [constructor; [reflexivity|auto]|].
  destruct (comps p) as [|x xs]; [constructor; [|constructor]|].
  - unfold nonul, has_nul. simpl. rewrite Ha. reflexivity.
  - inversion IH; subst. constructor; auto. unfold nonul, has_nul in *. simpl. rewrite Ha. auto.
Qed.

Lemma cstep_nonul stk x : Forall nonul stk -> nonul x -> Forall nonul (cstep true stk x).
Proof.
  intros Hs Hx. unfold cstep. destruct (bytes_eqb x [] || bytes_eqb x s_dot); auto.
  destruct (bytes_eqb x s_dotdot); [|constructor; auto].
  destruct stk as [|t r]; auto. inversion Hs; subst. destruct (bytes_eqb t s_dotdot); auto.
Qed.

Lemma stk_from_nonul stk s : Forall nonul stk -> has_nul s = false -> Forall nonul (stk_from stk s).
Proof.
  intros Hs Hn. unfold stk_from. pose proof (comps_nonul s Hn) as Hc.
  revert stk Hs. induction Hc as [|x cs Hx _ IH]; intros stk Hs; [exact Hs|].
  simpl. apply IH. apply cstep_nonul; auto.
Qed.

Lemma join_sep_names src : has_nul src = false ->
  exists l, join2 [sep] src = render l /\ Forall nm l /\ Forall nonul l.
Proof.
  intros H. exists (rev (stk_from [] src)). split; [apply join2_root|].
  split; apply Forall_rev; [apply stk_from_nm; constructor|apply stk_from_nonul; auto; constructor].
Qed.

Lemma base_render l x : Forall nm (l ++ [x]) -> base (render (l ++ [x])) = x.
Proof.
  intros H. unfold base. rewrite strip_render by auto. unfold render. cbn [split_last].
  rewrite split_last_joinc by (apply Forall_nm_nosep; auto).
  destruct l as [|y l]; [rewrite N.eqb_refl; reflexivity|reflexivity].
Qed.

Lemma base_render_nil : base (render []) = [sep].
Proof. reflexivity. Qed.

Lemma join2_render_sep m : Forall nm m -> join2 (render m) [sep] = render m.
Proof.
  intros H. rewrite join2_render by auto. unfold stk_from. cbn [comps]. rewrite N.eqb_refl. cbn [fold_left].
  rewrite !cstep_empty, rev_involutive. reflexivity.
Qed.

Lemma dir_render m x : Forall nm (m ++ [x]) -> dir (render (m ++ [x])) = render m.
Proof.
  intros H. assert (Hm : Forall nm m) by (apply Forall_app in H; apply H).
  unfold dir, render. cbn [split_last]. rewrite split_last_joinc by (apply Forall_nm_nosep; auto).
  destruct m as [|y m].
  - rewrite N.eqb_refl. reflexivity.
  - change (clean (sep :: joinc (y :: m) ++ [sep]) = render (y :: m)). rewrite clean_abs.
    unfold stk_from. rewrite comps_snoc_sep, fold_left_app.
    fold (stk_from [] (joinc (y :: m))). rewrite stk_from_joinc by auto. cbn [fold_left]. rewrite cstep_empty, app_nil_r, rev_involutive. reflexivity.
Qed.

Lemma dir_render_nil : dir (render []) = render [].
Proof. reflexivity. Qed.

Lemma split_path_render d b : Forall nm (d ++ [b]) ->
  split_path (render (d ++ [b])) = (match d with [] => [sep] | _ => render d ++ [sep] end, b).
Proof.
  intros H. unfold split_path, render. cbn [split_last].
  rewrite split_last_joinc by (apply Forall_nm_nosep; auto).
  destruct d as [|x d].
  - rewrite N.eqb_refl. reflexivity.
  - reflexivity.
Qed.
