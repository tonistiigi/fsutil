(* The per-id equations [wq] are preserved by a step between two states that satisfy [scal] (wq_step);
   the tactics bring each clause of the new state down to linear arithmetic over the old ones. *)
From Coq Require Import List Arith Bool PeanoNat Lia ZifyBool.
From FS Require Import Model.Lts Model.LtsExplore Proofs.LtsInv Proofs.LtsSafe Proofs.LtsTerm Proofs.LtsC08 Proofs.LtsTok Proofs.LtsContent Proofs.LtsContent3.
From FS Require Import Proofs.LtsClean1.
Import ListNotations.

(* [scal st'] excludes the transitions that raise an error flag, break the stream or enter an error path:
   the field of [S' : scal st'] that says so computes to an absurdity. *)
Ltac scal_excludes S' :=
  first [ discriminate (k_se _ S') | discriminate (k_re _ S') | discriminate (k_de _ S') | discriminate (k_ee _ S')
        | discriminate (k_sb _ S') | discriminate (k_rb _ S') | discriminate (k_dw _ S') | discriminate (k_eg _ S')
        | discriminate (k_cc _ S')
        | exfalso; exact (k_sw _ S') | exfalso; exact (k_rq _ S') | exfalso; exact (k_fl _ S')
        | exfalso; exact (k_do _ S') ].
Ltac kill_by_scal S' :=
  try first [ scal_excludes S'
            | exfalso; clear - S'; destruct S'; cbn in *; first [ discriminate | contradiction | congruence ] ].

Lemma b2n_eq : forall b, b2n b = Nat.b2n b.
Proof. destruct b; reflexivity. Qed.

Lemma is_file_oob : forall p i, (i <? nentries p) = false -> is_file p i = false.
Proof.
  intros p i H. apply Nat.ltb_ge in H. unfold is_file, entry_at, nentries in *.
  destruct (nth_error (p_entries p) i) eqn:E; auto. apply nth_error_some_lt in E. lia.
Qed.

Ltac oob_facts :=
  repeat match goal with H : (_ <? nentries _) = false |- _ => apply is_file_oob in H end.

(* the guard [memb x l = true] as a fact about the count of [id] *)
Ltac memb_facts id :=
  repeat match goal with M : memb _ _ = true |- _ => apply (cnt_memb_le id) in M end.

Lemma fin_rs_writers_done : forall st j w,
  inv3 st -> nth_error (wrs st) j = Some w -> wr_done w = false -> g_fin_rs st = false.
Proof.
  intros st j w (_ & _ & _ & I4 & _) E N. destruct (g_fin_rs st) eqn:G; auto.
  destruct (I4 eq_refl) as (_ & _ & _ & W). pose proof (forallb_nth _ _ _ _ _ W E). congruence.
Qed.
Lemma drain_fin_rs : forall st, inv1 st -> rl_pc st = RL_Drain -> g_fin_rs st = true.
Proof.
  intros st (_ & _ & _ & I4 & I5 & _ & _ & I8 & I9 & _) E. rewrite E in I9. auto.
Qed.
Lemma dofin_alldone : forall st, inv3 st ->
  match do_pc st with DO_LockFin | DO_SendFin => True | _ => False end -> forallb wr_done (wrs st) = true.
Proof.
  intros st (_ & _ & I3 & _) D. destruct (do_pc st); try contradiction; apply I3.
Qed.

Ltac inv_facts id :=
  try match goal with E : nth_error (wrs ?s) ?j = Some ?w, I : inv3 ?s |- _ =>
        pose proof (fin_rs_writers_done s j w I E eq_refl) end;
  try match goal with E : rl_pc ?s = RL_Drain, I : inv1 ?s |- _ => pose proof (drain_fin_rs s I E) end;
  try match goal with E : do_pc ?s = DO_SendFin, I : inv3 ?s |- _ =>
        let A := fresh "A" in
        assert (A: forallb wr_done (wrs s) = true) by (apply dofin_alldone; [exact I | rewrite E; exact Logic.I]);
        destruct (alldone_wsum id _ A) as (? & ? & ? & ?) end.

(* the bound of a count moves up by one: entry [i] is counted from now on if it is a file *)
Lemma b2n_below_succ : forall (f : nat -> bool) id i,
  b2n (f id && (id <? S i)) = b2n (f id && (id <? i)) + b2n (f i && (id =? i)).
Proof.
  intros f id i. destruct (Nat.eqb_spec id i) as [->|N].
  - rewrite Nat.ltb_irrefl, (proj2 (Nat.ltb_lt i (S i)) (Nat.lt_succ_diag_r i)), andb_false_r. reflexivity.
  - rewrite andb_false_r, Nat.add_0_r. do 2 f_equal. apply eq_true_iff_eq. rewrite !Nat.ltb_lt. lia.
Qed.

(* One clause of [wq] after a step, the clauses of [st] it follows from being the premises of the goal:
   the counters of the new state are expressed by those of [st] (a replaced worker or writer through
   [sumf_set_nth], the lists through the [cnt]/[cntE]/[cntQ] equations, a bound that moves through
   [b2n_below_succ]), which leaves linear arithmetic. *)
Ltac wq_norm id :=
  unfold wsum, down, tok, sw_bound, dl_bound, setw, setwr; cbn;
  rw_eqs; cbn;
  repeat match goal with E : nth_error ?l ?j = Some ?w |- context [sumf ?f (set_nth ?j ?x ?l)] =>
    generalize (sumf_set_nth _ f l j w x E); generalize (sumf f (set_nth j x l)) end;
  count_eqs;
  repeat match goal with
    | |- context [sumf ?f (?l ++ [?x])] => rewrite (sumf_snoc _ f l x)
    | |- context [wsel ?c ?i {| wr_id := ?a; wr_pc := ?b |}] => rewrite (wsel_mk c i a b)
    | E : is_file ?p ?i = _ |- context [b2n (is_file ?p ?x && (?x <? S ?i))] =>
        rewrite (b2n_below_succ (is_file p) x i), E
    end;
  cbn [held cAll cS cL cW cN cD is_dend is_preq b2n andb];
  repeat match goal with |- context [cnt id (remb ?x ?l)] =>
    destruct (Nat.eq_dec id x) as [<-|]; [rewrite ?cnt_remb_same | rewrite ?cnt_remb_other by assumption] end.

(* The goal is a clause of the new state with the clauses of [W : wq p id st] it follows from as
   premises.  [W] is cleared before [lia] runs, which would otherwise translate all eight clauses each
   time; [Nat.b2n] is the form of [b2n] that [lia] interprets, needed where a count is bounded by
   [b2n _ <= 1]. *)
Ltac wq_close id W :=
  clear W; wq_norm id; intros; first [ assumption | lia | change b2n with Nat.b2n in *; lia ].
Ltac wq_from id W X := first [ exact X | generalize X; wq_close id W | idtac ].

Lemma wq_step : forall p id st l st',
  scal st -> scal st' -> inv9a st -> inv1 st -> inv3 st -> wq p id st -> step p st l = Some st' -> wq p id st'.
Proof.
  intros p id st l st' HS HS' (I91 & _ & _) J1 J3 W H.
  (* the flags that [scal st] fixes are put into the step before it is split into its cases *)
  destruct l; unfold_steps H;
    rewrite ?(k_sb st HS), ?(k_rb st HS), ?(k_cc st HS), ?(k_de st HS), ?(k_ee st HS) in H;
    step_split H; inv_some; subst.
  all: try scal_excludes HS'.
  all: try match goal with w : writer |- _ => destruct w as [wi wpc]; simpl in * |-; subst wpc end.
  all: inv_facts id; memb_facts id; oob_facts; clear HS HS' J1 J3.
  (* a clause is unchanged, or follows from the same clause of [st] ... *)
  all: constructor;
    [ wq_from id W (w_u _ _ _ W) | wq_from id W (w_b _ _ _ W) | wq_from id W (w_S _ _ _ W)
    | wq_from id W (w_Q _ _ _ W) | wq_from id W (w_R _ _ _ W) | wq_from id W (w_P _ _ _ W)
    | wq_from id W (w_C _ _ _ W) | wq_from id W (w_F _ _ _ W) ].
  (* ... except where another clause is needed too *)
  all: [> (* the drain loop drops a packet: FIN has been sent, nothing of [id] is in flight *)
          generalize (w_S _ _ _ W) (w_F _ _ _ W) | generalize (w_Q _ _ _ W) (w_F _ _ _ W)
        | (* a writer is created: none with this id exists *)
          generalize (w_u _ _ _ W) (w_b _ _ _ W) I91
        | (* the receiver sends FIN: all writers are done, each done writer's id is completed *)
          generalize (w_Q _ _ _ W) (w_C _ _ _ W) (w_R _ _ _ W)
        | (* a notified writer ends: it was the only one with its id *)
          generalize (w_R _ _ _ W) (w_P _ _ _ W) ];
    wq_close id W.
Qed.
