(* C13 / C15 — (1) the bookkeeping invariant [G] for directories made above the target
   (they are re-stamped by fixCreatedParentDirs at the end of the call), preserved by the
   overlay; (2) a directory / non-directory clash: copier.copy reports it and leaves the
   obstacle as it was. *)
From Coq Require Import List NArith Bool Lia ZifyN ZifyNat ZifyBool.
From FS Require Import Sx Model.Path Model.SymMode Model.Copier Model.CopySpec Proofs.Lex
  Proofs.CopierP Proofs.CopyOpsP Proofs.CopyDentP Proofs.CopyLinkP Proofs.CopyNodeP.
Import ListNotations.
Open Scope N_scope.
Open Scope bool_scope.

Definition err_cls (e : err) : N :=
  match e with EDirOverNondir => 1 | ENondirOverDir => 2 | ENoMatch => 3 | EOther => 4 | EScope => 99 end.

Ltac spl := repeat match goal with |- _ /\ _ => split end.

Section Conf.
  Variable o : copts.
  Variable ms : option (list bitcmd).
  Variable multi : N -> bool.
  Variable selected : list (list N) -> bool.
  Hypothesis Hsel : forall p, selected p = true.
  Variable sdof : N -> dent.
  Variable S : Prop.
  Notation Inv := (Inv o).
  Notation Lk := (Lk o ms multi sdof S).
  Notation touch := (touch o).
  Notation ov := (ov o ms multi).
  Notation ovk := (ovk o ms multi).
  Notation res := (res o ms multi).
  Notation nc := (nc o).
  Notation tok := tok.
  Notation node_ok := (node_ok o ms multi selected sdof S).
  Notation kids_loop := (kids_loop o ms multi selected).

  Definition Gp (cr : list (list (list N))) (q : list (list N)) (v : option xdent) : Prop :=
    match v with
    | None => True
    | Some e => (x_mk e = true -> In q cr) /\
                (In q cr -> (x_key e = KNew q \/ exists s, x_key e = KSrc s) /\ mkfacts o (x_d e))
    end.
  Definition G (X : xview) (cr : list (list (list N))) : Prop := forall q, Gp cr q (X q).

  Lemma Gp_touched cr q v : Gp cr q v -> Gp cr q (option_map (touched o) v).
  Proof. destruct v as [e|]; simpl; auto. rewrite touched_mk, touched_key, touched_d. auto. Qed.

  Lemma G_touch X cr P : G X cr -> G (touch P X) cr.
  Proof.
    intros H q. destruct (path_dec q P) as [->|Hn].
    - rewrite touch_same. apply Gp_touched, H.
    - rewrite touch_other; auto.
  Qed.
  Lemma G_xupd X cr T v : G X cr -> Gp cr T v -> G (xupd T v X) cr.
  Proof.
    intros H Hv q. destruct (path_dec q T) as [->|Hn]; [rewrite xupd_same|rewrite xupd_other]; auto.
  Qed.
  Lemma G_ext X X' cr : (forall q, X' q = X q) -> G X cr -> G X' cr.
  Proof. intros E H q. rewrite E. auto. Qed.

  Lemma info_time_ut sd t : o_utime o = Some t -> info_time o sd = t.
  Proof. unfold info_time. intros ->. auto. Qed.
  Lemma info_owner_ch sd u g : o_chown o = Some (u, g) -> info_owner o sd = (u, g).
  Proof. unfold info_owner. intros ->. auto. Qed.

  Lemma Gp_copied cr q s old b : Gp cr q old -> Gp cr q (Some (copied o ms multi s old b q)).
  Proof.
    intro H. unfold copied.
    assert (Hnew : Gp cr q (Some (new_entry o ms multi s q))).
    { unfold new_entry, Gp, mkfacts. cbn [x_mk x_key x_d d_mtime d_uid d_gid].
      split; [discriminate|]. intros _. split; [destruct (is_reg (sdent s) && multi (sino s)); eauto|]. split; [apply info_time_ut|].
      intros u g Hc. rewrite (info_owner_ch _ _ _ Hc). auto. }
    destruct old as [e|]; auto.
    destruct (is_dir (sdent s) && is_dir (x_d e)); auto. simpl in H. destruct H as [H1 H2].
    destruct b; unfold Gp; cbn [x_mk x_key x_d]; split; auto;
      intro Hin; destruct (H2 Hin) as [K1 [K2 K3]]; split; auto; unfold mkfacts;
      cbn [d_mtime d_uid d_gid set_mtime set_xattrs set_perm set_owner]; split; auto; try apply info_time_ut.
    intros u g Hc. rewrite (info_owner_ch _ _ _ Hc). auto.
  Qed.

  Lemma G_ov n T tp X cr : G X cr -> G (ov n T tp X) cr.
  Proof.
    intros H q. unfold CopyNodeP.ov. destruct (strip_prefix T q) as [r|]; [|apply H].
    destruct (s_lookup n r).
    - apply Gp_copied, H.
    - destruct (shadowed n r); [exact Logic.I|apply H].
  Qed.
  Lemma G_res n T tp X cr : G X cr -> G (res n T tp X) cr.
  Proof. intro H. unfold CopyNodeP.res. destruct (_ && _); [|apply G_touch]; apply G_ov; auto. Qed.
  Lemma G_ovk l T X cr : G X cr -> G (ovk l T X) cr.
  Proof.
    intros H q. unfold CopyNodeP.ovk. destruct (strip_prefix T q) as [[|a r]|]; try apply H.
    destruct (find_kid a l); [apply G_ov; auto|apply H].
  Qed.

  Fixpoint kids_conflict (V : xview) (T : list (list N)) (l : list snode) : option xerr :=
    match l with
    | [] => None
    | k :: r => match first_conflict V (T ++ [sname k]) k with Some c => Some c | None => kids_conflict V T r end
    end.
  Lemma first_conflict_unfold V p nm ino sd kids :
    first_conflict V p (SNode nm ino sd kids) =
    match V p with
    | None => None
    | Some e =>
      if is_dir sd && negb (is_dir (x_d e)) then Some (XConflict 1 p (Some e))
      else if negb (is_dir sd) && is_dir (x_d e) then Some (XConflict 2 p (Some e))
      else if is_dir sd then kids_conflict V p kids else None
    end.
  Proof.
    cbn [first_conflict]. destruct (V p); auto. destruct (_ && _); auto. destruct (_ && _); auto.
    destruct (is_dir sd); auto. induction kids; simpl; auto. rewrite IHkids. auto.
  Qed.
  Lemma kids_conflict_ext V V' T l : (forall b r, In b (map sname l) -> V (T ++ b :: r) = V' (T ++ b :: r)) ->
    kids_conflict V T l = kids_conflict V' T l.
  Proof.
    induction l as [|k l IH]; intro H; simpl; auto.
    rewrite (first_conflict_ext V V'), IH; auto.
    - intros b r Hb. apply H. right; auto.
    - intro r. rewrite <- app_assoc. apply H. left; auto.
  Qed.

  Definition node_conf (n : snode) : Prop :=
    forall sc T ow st X cls p bef,
      Inv (c_fs st) X -> Lk (c_fs st) X (c_imap st) -> (S -> PC T (c_imap st)) ->
      tok X T (sdent n) -> o_replace o = false ->
      first_conflict X T n = Some (XConflict cls p bef) ->
      exists st' e X', copy_node o ms multi selected n sc T ow st = (st', Some e) /\ err_cls e = cls /\
        Inv (c_fs st') X' /\ Lk (c_fs st') X' (c_imap st') /\ X' p = bef /\ bef <> None /\
        (forall cr, G X cr -> G X' cr).

  Lemma bind_err s e (k : cstate -> R) : bind (s, Some e) k = (s, Some e).
  Proof. reflexivity. Qed.

  Lemma kids_conf l : Forall node_ok l -> Forall node_conf l -> forall sc T st Xc cls p bef,
    NoDup (map sname l) -> Inv (c_fs st) Xc -> Lk (c_fs st) Xc (c_imap st) ->
    (S -> forall k, In k l -> PC (T ++ [sname k]) (c_imap st)) ->
    x_isdir (Xc T) = true -> o_replace o = false ->
    kids_conflict Xc T l = Some (XConflict cls p bef) ->
    exists st' e X', kids_loop sc T l st = (st', Some e) /\ err_cls e = cls /\
      Inv (c_fs st') X' /\ Lk (c_fs st') X' (c_imap st') /\ X' p = bef /\ bef <> None /\
      (forall cr, G Xc cr -> G X' cr).
  Proof.
    intros Hok Hcf. induction l as [|k r IH]; intros sc T st Xc cls p bef Hnd I L Hpc HT Hr Hc; [discriminate|].
    inversion Hok as [|? ? Hk Hok']; inversion Hcf as [|? ? Hck Hcf']; subst.
    simpl in Hnd. inversion Hnd as [|? ? Hni Hnd']; subst.
    rewrite kids_loop_cons. simpl in Hc.
    assert (Htok : tok Xc (T ++ [sname k]) (sdent k)) by (right; exists T, (sname k); auto).
    assert (Hpck : S -> PC (T ++ [sname k]) (c_imap st)) by (intro HS; apply Hpc; auto; left; auto).
    destruct (first_conflict Xc (T ++ [sname k]) k) as [c|] eqn:Ec.
    - inversion Hc; subst c.
      destruct (Hck (sc ++ [sname k]) (T ++ [sname k]) true st Xc cls p bef I L Hpck Htok Hr Ec)
        as (st' & e & X' & E1 & E2 & E3 & E4 & E5 & E6 & E7).
      rewrite E1, bind_err. exists st', e, X'. spl; auto.
    - destruct (Hk (sc ++ [sname k]) (T ++ [sname k]) true st Xc I L Hpck Htok) as (st1 & E1 & I1 & L1 & M1 & N1).
      { intros _. auto. }
      rewrite E1, bind_ret. cbn [negb] in I1, L1.
      set (Xc' := res k (T ++ [sname k]) false Xc) in *.
      pose proof (res_kid_sibling o ms multi k T false Xc) as Hoth. fold Xc' in Hoth.
      destruct (IH Hok' Hcf' sc T st1 Xc' cls p bef) as (st' & e & X' & F1 & F2 & F3 & F4 & F5 & F6 & F7); auto.
      { intro HS. eapply PC_sibling; eauto. }
      { unfold Xc'. rewrite res_T_isdir. auto. }
      { rewrite <- Hc. apply kids_conflict_ext. intros b r0 Hb. apply Hoth, (notin_neqb _ _ _ Hni Hb). }
      exists st', e, X'. spl; auto; try congruence.
      intros cr Hg. apply F7. apply G_res. auto.
  Qed.

  Lemma kids_conflict_under V T l cls p bef : Forall (fun k => forall T cls p bef,
      first_conflict V T k = Some (XConflict cls p bef) -> exists r, p = T ++ r) l ->
    kids_conflict V T l = Some (XConflict cls p bef) -> exists b r, p = T ++ b :: r.
  Proof.
    induction 1 as [|k r Hk Hr IH]; simpl; [discriminate|].
    destruct (first_conflict V (T ++ [sname k]) k) eqn:E; auto.
    intro H; inversion H; subst. destruct (Hk _ _ _ _ E) as (r0 & ->). exists (sname k), r0.
    rewrite <- app_assoc. auto.
  Qed.

  Lemma copy_node_conflict : forall n, wf_s n -> cons_s multi sdof n -> node_conf n.
  Proof.
    induction n as [nm ino sd kids IH] using snode_ind2. intros Hwf Hcs.
    apply wf_s_unfold in Hwf. destruct Hwf as (Hwd & Hk & Hnd & Hall).
    apply cons_s_unfold in Hcs. destruct Hcs as (Hc1 & Hc2).
    assert (Hoks : Forall node_ok kids).
    { rewrite Forall_forall in *. intros k Hin. apply copy_node_ok; auto. }
    assert (Hcfs : Forall node_conf kids) by (rewrite Forall_forall in *; auto).
    intros sc T ow st X cls p bef I L0 Hpc Htok Hr Hc. cbn [sdent] in Htok.
    rewrite first_conflict_unfold in Hc.
    destruct (X T) as [e|] eqn:HXT; [|discriminate].
    pose proof (inv_lstat _ _ _ T I) as HL. rewrite HXT in HL.
    destruct (lstat (c_fs st) T) as [td|] eqn:ELs; [|contradiction].
    rewrite copy_node_eq. cbv zeta. rewrite ELs, (include_true selected Hsel).
    assert (E1 : remove_target_if_needed o T sd (Some td) st = (st, None)).
    { unfold remove_target_if_needed. rewrite Hr. auto. }
    rewrite E1, bind_ret.
    destruct (is_dir sd) eqn:Hd; cbn [andb negb] in Hc.
    - destruct (is_dir (x_d e)) eqn:Hde; cbn [negb] in Hc.
      + destruct (dir_only_merge o ms multi sdof S sd T ow st X e I L0 HXT Hde)
          as (fs2 & e2 & S2 & I2 & L2 & K1 & K2 & K3 & Hd2). rewrite S2.
        assert (G2 : forall cr, G X cr -> G (xupd T (Some e2) X) cr).
        { intros cr Hg. apply G_xupd; auto. specialize (Hg T). rewrite HXT in Hg.
          unfold Gp. rewrite K1, K2, K3. destruct ow; exact Hg. }
        set (st3 := if true && (false || ow) then notify T true (with_fs st fs2) else with_fs st fs2).
        assert (I3 : Inv (c_fs st3) (xupd T (Some e2) X)) by (unfold st3; destruct (true && (false || ow)); auto).
        assert (L3 : Lk (c_fs st3) (xupd T (Some e2) X) (c_imap st3)) by (unfold st3; destruct (true && (false || ow)); auto).
        assert (M3 : c_imap st3 = c_imap st) by (unfold st3; destruct (true && (false || ow)); auto).
        destruct (kids_conf kids Hoks Hcfs sc T st3 (xupd T (Some e2) X) cls p bef Hnd I3 L3)
          as (st' & e' & X' & F1 & F2 & F3 & F4 & F5 & F6 & F7); auto.
        { intros HS k Hin. rewrite M3. apply PC_kid. auto. }
        { rewrite xupd_same. auto. }
        { rewrite <- Hc. apply kids_conflict_ext. intros b r _. apply xupd_other, snoc_ne_self. }
        rewrite F1, bind_err. exists st', e', X'. spl; auto.
      + inversion Hc; subst.
        unfold copy_dir_only. rewrite ELs, (dm_is_dir _ _ _ HL), Hde. cbn [negb].
        exists st, EDirOverNondir, X. spl; auto. discriminate.
    - destruct (is_dir (x_d e)) eqn:Hde; [|discriminate]. inversion Hc; subst.
      unfold ensure_empty_file_target. rewrite forget_fs, ELs, (dm_is_dir _ _ _ HL), Hde.
      exists (forget p st), ENondirOverDir, X. spl; auto; try discriminate.
      rewrite forget_fs, forget_imap. apply Lk_forget; auto.
  Qed.
End Conf.
