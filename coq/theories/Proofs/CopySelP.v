(* The selection side of the copier (Model/CopierSel.v): a successful copy materialises exactly
   the entries of the declarative reference over the incremental verdict, in walk order, each
   written as [result] says; parents created on demand carry the source directory's metadata. *)
From Coq Require Import List NArith Bool.
From FS Require Import Sx Model.Path Model.Stat Model.Tree Model.Pattern Model.FilterWalk Model.CopierSel
  Proofs.Lex Proofs.PathP Proofs.PatternP Proofs.FilterP Proofs.IncrNaiveP Proofs.RefP
  Proofs.RefValidP Proofs.FlatRefP.
Import ListNotations.
Open Scope bool_scope.

Lemma fput_at p e fs q : fput p e fs q = if bytes_eqb q p then Some e else fs q.
Proof. reflexivity. Qed.

Lemma fupd_at p f fs q : fupd p f fs q = if bytes_eqb q p then option_map f (fs p) else fs q.
Proof.
  unfold fupd. destruct (fs p) eqn:E; cbn [option_map].
  - reflexivity.
  - destruct (bytes_eqb q p) eqn:Eq; auto. apply bytes_eqb_eq in Eq. subst. exact E.
Qed.

Lemma copy_meta_at src p fs q :
  copy_meta src p fs q =
  if bytes_eqb q p then option_map (fun e => xattr_entry src (info_entry src e)) (fs p) else fs q.
Proof.
  unfold copy_meta. rewrite fupd_at. destruct (bytes_eqb q p) eqn:Eq.
  - rewrite fupd_at, bytes_eqb_refl. destruct (fs p); reflexivity.
  - rewrite fupd_at, Eq. reflexivity.
Qed.

(* the metadata calls keep the kind of an entry and the permission bits of the source *)
Lemma perm_chmod src s : perm_of (st_mode (chmod_stat src s)) = perm_of (st_mode src).
Proof.
  unfold chmod_stat, perm_of. cbn [st_mode set_mode]. generalize perm_mask. intros m.
  apply N.bits_inj. intros n. rewrite !N.land_spec, N.lor_spec, N.ldiff_spec, N.land_spec.
  destruct (N.testbit (st_mode s) n), (N.testbit (st_mode src) n), (N.testbit m n); reflexivity.
Qed.

Lemma mask_no_dir_bit : N.testbit perm_mask 31 = false.
Proof. vm_compute. reflexivity. Qed.

Lemma modedir_pow : ModeDir = (2 ^ 31)%N.
Proof. vm_compute. reflexivity. Qed.

Lemma isdir_chmod src s : st_is_dir (chmod_stat src s) = st_is_dir s.
Proof.
  unfold st_is_dir, mode_is_dir, has_bits, chmod_stat, perm_of. cbn [st_mode set_mode]. do 2 f_equal.
  apply N.bits_inj. intros n. rewrite !N.land_spec, N.lor_spec, N.ldiff_spec, N.land_spec.
  rewrite modedir_pow, N.pow2_bits_eqb.
  destruct (N.eqb_spec 31 n) as [<-|Hn]; [|rewrite !andb_false_r; reflexivity].
  rewrite mask_no_dir_bit. destruct (N.testbit (st_mode s) 31), (N.testbit (st_mode src) 31); reflexivity.
Qed.

(* xattrs: setting the keys of a sorted list one by one on an empty list *)
Lemma xset_append k v acc : (forall kv, In kv acc -> cmp_bytes (fst kv) k = Lt) -> xset k v acc = acc ++ [(k, v)].
Proof.
  induction acc as [|[k' v'] r IH]; intros H; [reflexivity|]. cbn [xset app].
  rewrite (cmp_bytes_lt_gt k' k (H (k', v') (or_introl eq_refl))). f_equal. apply IH. intros kv Hin. apply H. right; auto.
Qed.

Lemma keys_sorted_tail a r : keys_sorted (a :: r) = true -> keys_sorted r = true.
Proof. destruct r as [|b r]; [reflexivity|]. cbn [keys_sorted]. intros H. apply andb_true_iff in H. tauto. Qed.

Lemma keys_sorted_head a r : keys_sorted (a :: r) = true -> forall kv, In kv r -> cmp_bytes (fst a) (fst kv) = Lt.
Proof.
  revert a. induction r as [|b r IH]; intros a H kv Hin; [destruct Hin|].
  cbn [keys_sorted] in H. apply andb_true_iff in H. destruct H as [Hab Hr].
  assert (Hlt : cmp_bytes (fst a) (fst b) = Lt) by (destruct (cmp_bytes (fst a) (fst b)); congruence).
  destruct Hin as [<-|Hin]; [exact Hlt|]. eapply cmp_bytes_trans; [exact Hlt|]. apply IH; auto.
Qed.

Lemma xmerge_sorted l : forall acc, keys_sorted l = true ->
  (forall a kv, In a acc -> In kv l -> cmp_bytes (fst a) (fst kv) = Lt) -> xmerge l acc = acc ++ l.
Proof.
  induction l as [|[k v] r IH]; intros acc Hs H; [symmetry; apply app_nil_r|].
  unfold xmerge. cbn [fold_left fst snd]. fold (xmerge r (xset k v acc)).
  rewrite xset_append by (intros a Ha; apply (H a (k, v) Ha (or_introl eq_refl))).
  rewrite IH.
  - rewrite <- app_assoc. reflexivity.
  - eapply keys_sorted_tail; eauto.
  - intros a kv Ha Hk. apply in_app_or in Ha. destruct Ha as [Ha|[<-|[]]].
    + apply H; [auto|right; auto].
    + apply (keys_sorted_head (k, v) r Hs kv Hk).
Qed.

Lemma xmerge_sorted_nil l : keys_sorted l = true -> xmerge l [] = l.
Proof. intros H. rewrite xmerge_sorted; auto. intros a kv []. Qed.

Lemma e_dir_meta src e : e_dir (xattr_entry src (info_entry src e)) = e_dir e.
Proof.
  unfold e_dir, xattr_entry, info_entry. cbn [fst].
  change (st_is_dir (set_xattrs (chmod_stat src (chown_stat src (fst e))) _)) with (st_is_dir (chmod_stat src (chown_stat src (fst e)))).
  rewrite isdir_chmod. reflexivity.
Qed.

Lemma step_other q o it : q <> l_path it -> step q o it = o.
Proof. intros H. unfold step. apply bytes_eqb_neq in H. rewrite H. reflexivity. Qed.

Lemma sfold_notin q items : forall o, ~ In q (map l_path items) -> fold_left (step q) items o = o.
Proof.
  induction items as [|it r IH]; intros o H; [reflexivity|]. cbn [fold_left].
  rewrite step_other by (intro E; apply H; left; symmetry; exact E). apply IH. intro X. apply H. right. exact X.
Qed.

Definition pend_items (S : list pdir) : list litem :=
  map (fun d => {| l_st := pd_st d; l_ct := pd_ct d; l_sel := false |}) (filter (fun d => negb (pd_copied d)) S).
Definition mark (S : list pdir) : list pdir := map set_copied S.
Definition stack_dirs (S : list pdir) : Prop := Forall (fun d => st_is_dir (pd_st d) = true) S.

Lemma set_copied_id d : pd_copied d = true -> set_copied d = d.
Proof. destruct d; cbn. intros ->. reflexivity. Qed.

Lemma mark_idem S : mark (mark S) = mark S.
Proof. unfold mark. rewrite map_map. apply map_ext. intros d. reflexivity. Qed.

Lemma pend_mark S : pend_items (mark S) = [].
Proof. unfold pend_items, mark. induction S as [|d r IH]; [reflexivity|]. cbn [map filter set_copied pd_copied negb]. exact IH. Qed.

(* marking changes the copied flag only *)
Lemma Forall_mark (P : pdir -> Prop) S : (forall d, P d -> P (set_copied d)) -> Forall P S -> Forall P (mark S).
Proof. intros HP H. apply Forall_map. exact (Forall_impl _ HP H). Qed.

Lemma stack_dirs_mark S : stack_dirs S -> stack_dirs (mark S).
Proof. apply Forall_mark. auto. Qed.

Lemma mark_app S T : mark (S ++ T) = mark S ++ mark T.
Proof. apply map_app. Qed.

Lemma pend_app S T : pend_items (S ++ T) = pend_items S ++ pend_items T.
Proof. unfold pend_items. rewrite filter_app, map_app. reflexivity. Qed.

(* creating one pending parent = one [step] with its (unselected) item *)
Lemma deferred_step dirp src ct fs fs1 created :
  st_is_dir src = true ->
  copy_dir_only dirp (st_path src) src fs = (fs1, None, created) ->
  forall q, (if created then copy_meta src (st_path src) fs1 else fs1) q =
            step q (fs q) {| l_st := src; l_ct := ct; l_sel := false |}.
Proof.
  intros Hd H q. unfold copy_dir_only in H. unfold step, l_path, result. cbn [l_st l_sel orb]. rewrite Hd.
  destruct (fs (st_path src)) as [e|] eqn:E.
  - destruct (e_dir e); [|discriminate]. inversion H; subst. rewrite fput_at.
    destruct (bytes_eqb q (st_path src)) eqn:Eq; [|reflexivity].
    apply bytes_eqb_eq in Eq. subst q. rewrite E. reflexivity.
  - destruct (parent_ok dirp fs); [|discriminate]. inversion H; subst.
    rewrite copy_meta_at. rewrite !fput_at, bytes_eqb_refl.
    destruct (bytes_eqb q (st_path src)) eqn:Eq; [|reflexivity].
    apply bytes_eqb_eq in Eq. subst q. rewrite E. reflexivity.
Qed.

Lemma create_parents_ok S : forall fs fs' S' em,
  stack_dirs S -> create_parents S fs = (fs', S', em, None) ->
  S' = mark S /\ em = pend_items S /\ forall q, fs' q = fold_left (step q) em (fs q).
Proof.
  induction S as [|d r IH]; intros fs fs' S' em Hd H.
  - cbn in H. inversion H; subst. repeat split; reflexivity.
  - inversion Hd as [|? ? Hdd Hdr]; subst. cbn [create_parents] in H.
    unfold pend_items, mark. cbn [map filter]. fold (mark r).
    destruct (pd_copied d) eqn:Ec.
    + destruct (create_parents r fs) as [[[f1 r1] e1] er] eqn:E1. inversion H; subst.
      destruct (IH _ _ _ _ Hdr E1) as (-> & -> & Hq). cbn [negb]. rewrite set_copied_id by exact Ec. auto.
    + destruct (copy_dir_only (pd_dir d) (st_path (pd_st d)) (pd_st d) fs) as [[f1 [e|]] cr] eqn:E0; [discriminate|].
      destruct (create_parents r (if cr then copy_meta (pd_st d) (st_path (pd_st d)) f1 else f1)) as [[[f3 r3] e3] er] eqn:E1.
      inversion H; subst. destruct (IH _ _ _ _ Hdr E1) as (-> & -> & Hq). cbn [negb map].
      repeat split; auto. intros q. rewrite Hq. cbn [fold_left]. f_equal.
      apply (deferred_step _ _ (pd_ct d) _ _ _ Hdd E0).
Qed.

Lemma create_parents_noop S fs : pend_items S = [] -> create_parents S fs = (fs, S, [], None).
Proof.
  induction S as [|d r IH]; intros H; [reflexivity|]. cbn [create_parents].
  unfold pend_items in H. cbn [filter] in H. destruct (pd_copied d); cbn [negb] in H; [|discriminate].
  rewrite IH by exact H. reflexivity.
Qed.

Lemma wf_tree_node_name k : wf_tree_node k = true -> node_name k <> [] /\ nosep (node_name k).
Proof. destruct k as [name st ct kids]. intros H. apply wf_tree_node_inv in H. cbn [node_name]. tauto. Qed.

Lemma below_ne_self p q : has_prefix (p ++ [sep]) q = true -> q <> p.
Proof. intros H ->. rewrite (has_prefix_longer p sep []) in H. discriminate. Qed.

Lemma child_path_inj dir a b : child_path dir a = child_path dir b -> a = b.
Proof.
  unfold child_path. destruct dir; auto. intros H. apply app_inv_head in H. inversion H; auto.
Qed.

Lemma under_or_eq_ne_sibling dir k1 k2 e1 e2 :
  wf_tree_node k1 = true -> wf_tree_node k2 = true -> node_name k1 <> node_name k2 ->
  In e1 (walk_node dir k1) -> In e2 (walk_node dir k2) -> st_path (fst e1) <> st_path (fst e2).
Proof.
  intros Hw1 Hw2 Hne H1 H2 E.
  destruct (wf_tree_node_name k1 Hw1) as [_ Hn1]. destruct (wf_tree_node_name k2 Hw2) as [_ Hn2].
  destruct (walk_paths k1 Hw1 dir e1 H1) as [P1|P1].
  - destruct (walk_paths k2 Hw2 dir e2 H2) as [P2|P2].
    + apply Hne. apply (child_path_inj dir). congruence.
    + pose proof (sibling_not_below dir (node_name k2) k1 Hn2 Hw1 Hne e1 H1) as X.
      rewrite E in X. congruence.
  - pose proof (sibling_not_below dir (node_name k1) k2 Hn1 Hw2 (fun x => Hne (eq_sym x)) e2 H2) as X.
    rewrite <- E in X. congruence.
Qed.

Lemma NoDup_app_intro {A} (a b : list A) :
  NoDup a -> NoDup b -> (forall x, In x a -> In x b -> False) -> NoDup (a ++ b).
Proof.
  induction a as [|x a IH]; intros Ha Hb H; [exact Hb|]. inversion Ha as [|? ? Hx Ha']; subst.
  cbn [app]. constructor.
  - intros Hin. apply in_app_or in Hin. destruct Hin as [Hin|Hin]; [auto|]. apply (H x); [left|]; auto.
  - apply IH; auto. intros y Hy1 Hy2. apply (H y); [right|]; auto.
Qed.

Lemma walk_forest_nodup dir l :
  Forall (fun k => forall d, NoDup (map (fun e : Tree.entry => st_path (fst e)) (walk_node d k))) l ->
  forallb wf_tree_node l = true -> distinct (map node_name l) = true ->
  NoDup (map (fun e : Tree.entry => st_path (fst e)) (walk_forest dir l)).
Proof.
  induction l as [|k r IH]; intros HF Hwf Hd; [constructor|].
  inversion HF as [|? ? Hk Hr]; subst. cbn [forallb] in Hwf. apply andb_true_iff in Hwf. destruct Hwf as [Hwk Hwr].
  destruct (distinct_names_ne k r Hd) as [Hne Hdr].
  cbn [walk_forest]. rewrite map_app. apply NoDup_app_intro; [apply Hk|apply IH; auto|].
  intros q H1 H2. apply in_map_iff in H1. destruct H1 as (e1 & <- & H1). apply in_map_iff in H2. destruct H2 as (e2 & E & H2).
  apply in_walk_forest in H2. destruct H2 as (k' & Hk' & H2).
  rewrite forallb_forall in Hwr.
  exact (under_or_eq_ne_sibling dir k k' e1 e2 Hwk (Hwr _ Hk') (Hne _ Hk') H1 H2 (eq_sym E)).
Qed.

Lemma walk_node_nodup : forall n, wf_tree_node n = true -> forall dir,
  NoDup (map (fun e : Tree.entry => st_path (fst e)) (walk_node dir n)).
Proof.
  induction n as [name st ct kids IHk] using node_ind2. intros Hwf dir.
  pose proof Hwf as Hwf0. apply wf_tree_node_inv in Hwf. destruct Hwf as (Hne & Hns & _ & Hdist & Hkids).
  rewrite walk_node_eq. cbn [map fst st_path set_path]. set (p := child_path dir name).
  assert (Hp : p <> []) by (apply child_path_nonempty; auto).
  constructor.
  - intros Hin. apply in_map_iff in Hin. destruct Hin as (e & E & Hin).
    exact (below_ne_self p _ (walk_forest_below p kids e Hp Hkids Hin) E).
  - apply walk_forest_nodup; auto.
    rewrite Forall_forall in *. intros k Hk d. apply IHk; auto. rewrite forallb_forall in Hkids; auto.
Qed.

Theorem walk_root_nodup view : wf_tree view = true ->
  NoDup (map (fun e : Tree.entry => st_path (fst e)) (walk_root view)).
Proof.
  unfold wf_tree. intros H. apply andb_true_iff in H. destruct H as [Hd Hw]. unfold walk_root.
  apply walk_forest_nodup; auto. apply Forall_forall. intros k Hk d. apply walk_node_nodup.
  rewrite forallb_forall in Hw; auto.
Qed.

Lemma walk_root_nonempty view e : wf_tree view = true -> In e (walk_root view) -> st_path (fst e) <> [].
Proof.
  unfold wf_tree. intros H Hin. apply andb_true_iff in H. destruct H as [_ Hw].
  apply in_walk_forest in Hin. destruct Hin as (k & Hk & He).
  assert (Hwk : wf_tree_node k = true) by (rewrite forallb_forall in Hw; auto).
  assert (Hnk : child_path [] (node_name k) <> []) by apply (wf_tree_node_name k Hwk).
  destruct (walk_paths k Hwk [] e He) as [P|P].
  - rewrite P. exact Hnk.
  - intros E. rewrite E in P. destruct (child_path [] (node_name k)); [congruence|discriminate].
Qed.

Section RefItems.
Variable V : bytes -> bool.

Fixpoint ref_items (dir : bytes) (n : node) {struct n} : list litem :=
  match n with
  | Node name st ct kids =>
    let p := child_path dir name in
    if V p || existsb (has_sel V p) kids
    then {| l_st := set_path st p; l_ct := ct; l_sel := V p |} :: flat_map (ref_items p) kids
    else []
  end.

Lemma ref_items_nil dir n : has_sel V dir n = false -> ref_items dir n = [].
Proof. destruct n as [name st ct kids]. cbn [has_sel ref_items]. cbv zeta. intros ->. reflexivity. Qed.

Lemma flat_nil dir l : existsb (has_sel V dir) l = false -> flat_map (ref_items dir) l = [].
Proof.
  induction l as [|k r IH]; [reflexivity|]. cbn [existsb flat_map]. intros H.
  apply orb_false_iff in H. destruct H as [H1 H2]. rewrite ref_items_nil by exact H1. apply IH. exact H2.
Qed.

Definition ents (l : list litem) : list Tree.entry := map (fun it => (l_st it, l_ct it)) l.

Lemma ents_app a b : ents (a ++ b) = ents a ++ ents b.
Proof. apply map_app. Qed.

Lemma ents_stats l : map fst (ents l) = map l_st l.
Proof. unfold ents. rewrite map_map. reflexivity. Qed.

(* the items are entries of the walk, in walk order *)
Lemma ref_items_rsub_forest dir l :
  Forall (fun k => forall d, rsub eq (ents (ref_items d k)) (walk_node d k)) l ->
  rsub eq (ents (flat_map (ref_items dir) l)) (walk_forest dir l).
Proof.
  induction 1 as [|k r Hk _ IH]; [constructor|]. cbn [flat_map walk_forest]. rewrite ents_app. apply rsub_app; auto.
Qed.

Lemma ref_items_rsub : forall n dir, rsub eq (ents (ref_items dir n)) (walk_node dir n).
Proof.
  induction n as [name st ct kids IHk] using node_ind2. intros dir. rewrite walk_node_eq. cbn [ref_items]. cbv zeta.
  destruct (_ || _); [|apply rsub_nil_l]. apply rs_keep; [reflexivity|]. apply ref_items_rsub_forest, IHk.
Qed.

Lemma ref_items_in_walk n dir it : In it (ref_items dir n) -> In (l_st it, l_ct it) (walk_node dir n).
Proof.
  intros Hin. apply (in_map (fun it => (l_st it, l_ct it))) in Hin.
  destruct (rsub_in _ _ _ (ref_items_rsub n dir) _ Hin) as (e & He & <-). exact He.
Qed.

Lemma below_ne p kids it : p <> [] -> forallb wf_tree_node kids = true ->
  In it (flat_map (ref_items p) kids) -> l_path it <> p.
Proof.
  intros Hp Hwf Hin. apply in_flat_map in Hin. destruct Hin as (k & Hk & Hi).
  apply ref_items_in_walk in Hi. apply below_ne_self.
  apply (walk_forest_below p kids (l_st it, l_ct it) Hp Hwf). apply in_walk_forest. eauto.
Qed.

(* their stats are what the reference filter reports for a nil map function *)
Lemma ref_items_stats : forall n, wf_tree_node n = true -> forall dir,
  map l_st (ref_items dir n) = sel_node V dir n.
Proof.
  induction n as [name st ct kids IHk] using node_ind2. intros Hwf dir.
  unfold sel_node. rewrite (ref_id V _ Hwf dir). cbn [fst node_stat node_name node_kids has_sel ref_items]. cbv zeta.
  apply wf_tree_node_inv in Hwf. destruct Hwf as (_ & _ & _ & _ & Hkids).
  destruct (_ || _); [|reflexivity]. cbn [map l_st]. f_equal.
  rewrite forallb_forall in Hkids. rewrite Forall_forall in IHk.
  rewrite !flat_map_concat_map, concat_map, map_map. f_equal. apply map_ext_in. intros k Hk. apply IHk; auto.
Qed.

Lemma ref_items_sel : forall n dir it, In it (ref_items dir n) -> l_sel it = V (l_path it).
Proof.
  induction n as [name st ct kids IHk] using node_ind2. intros dir it Hin.
  cbn [ref_items] in Hin. cbv zeta in Hin.
  destruct (V (child_path dir name) || existsb (has_sel V (child_path dir name)) kids); [|destruct Hin].
  destruct Hin as [<-|Hin]; [reflexivity|].
  apply in_flat_map in Hin. destruct Hin as (k & Hk & Hi). rewrite Forall_forall in IHk. eapply IHk; eauto.
Qed.

Lemma items_of_ents (l : list litem) : (forall it, In it l -> l_sel it = V (l_path it)) ->
  l = map (fun e : Tree.entry => {| l_st := fst e; l_ct := snd e; l_sel := V (st_path (fst e)) |}) (ents l).
Proof.
  induction l as [|it r IH]; intros H; [reflexivity|]. cbn [ents map fst snd]. f_equal.
  - destruct it as [s ct b]. cbn. f_equal. apply (H _ (or_introl eq_refl)).
  - apply IH. intros it' Hi. apply H. right; auto.
Qed.

(* The tree-recursive reference is the flat one.  Both are sub-sequences of the walk, whose paths
   are pairwise different, and they have the same stats (FlatRefP.reference_nomap_flat_proof). *)
Theorem ref_items_flat view : wf_tree view = true ->
  flat_map (ref_items []) view = flat_items V view.
Proof.
  intros Hwf. pose proof Hwf as Hw. unfold wf_tree in Hw. apply andb_true_iff in Hw. destruct Hw as [_ Hw].
  assert (E : ents (flat_map (ref_items []) view) = filter (selected_or_above V (walk_root view)) (walk_root view)).
  { apply (rsub_eq_unique (fun e : Tree.entry => st_path (fst e)) (walk_root view) (walk_root_nodup view Hwf)).
    - apply ref_items_rsub_forest. apply Forall_all, ref_items_rsub.
    - apply rsub_filter.
    - rewrite <- !(map_map (A:=Tree.entry) fst st_path). f_equal. rewrite ents_stats.
      change (map fst (filter _ _)) with (flat_reference V view).
      rewrite <- (reference_nomap_flat_proof V view Hwf). unfold reference. rewrite (ref_id_forest V view [] Hw). cbn [fst].
      rewrite forallb_forall in Hw.
      rewrite !flat_map_concat_map, concat_map, map_map. f_equal. apply map_ext_in. intros k Hk. apply ref_items_stats; auto. }
  unfold flat_items. rewrite <- E. apply items_of_ents.
  intros it Hin. apply in_flat_map in Hin. destruct Hin as (k & _ & Hi). eapply ref_items_sel; eauto.
Qed.
End RefItems.

Section Main.
Variable pmatch : bytes -> bytes -> bool.
Variable c : cfg.
Notation V := (keep_incr pmatch c).
Notation cnode := (copy_node pmatch c false).
Notation cforest := (copy_forest pmatch c false).

Lemma copy_node_eq_r repl dir name st0 ct kids pinc pexc S fs :
  copy_node pmatch c repl dir (Node name st0 ct kids) pinc pexc S fs =
    let p := child_path dir name in
    let st := set_path st0 p in
    let ri := sel_inc pmatch c p pinc in
    let re := sel_exc pmatch c p pexc in
    let include := fst ri && negb (fst re) in
    let it := {| l_st := st; l_ct := ct; l_sel := true |} in
    match (if include then create_parents S fs else (fs, S, [], None)) with
    | (fs1, S1, em1, Some e) => (fs1, S1, em1, Some e)
    | (fs0, S1, em1, None) =>
      let fs1 := if repl && include then remove_target p (st_is_dir st0) (fs p) fs0 else fs0 in
      if st_is_dir st0 then
        match (if include then copy_dir_only dir p st fs1 else (fs1, None, false)) with
        | (fs2, Some e, _) => (fs2, S1, em1, Some e)
        | (fs2, None, _) =>
          let d := {| pd_st := st; pd_ct := ct; pd_dir := dir; pd_copied := include |} in
          let self := if include then [it] else [] in
          let '(fs3, S3, em3, e3) := copy_forest pmatch c repl p kids (snd ri) (snd re) (S1 ++ [d]) fs2 in
          match e3 with
          | Some e => (fs3, removelast S3, em1 ++ self ++ em3, Some e)
          | None => ((if include then copy_meta st p fs3 else fs3), removelast S3, em1 ++ self ++ em3, None)
          end
        end
      else if negb include then (fs1, S1, em1, None)
      else
        match (match fs1 p with
               | Some e => if e_dir e then None else Some (fdel p fs1)
               | None => Some fs1
               end) with
        | None => (fs1, S1, em1, Some ENondirOverDir)
        | Some fs2 =>
          if parent_ok dir fs2 then (fput p (st, ct) fs2, S1, em1 ++ [it], None)
          else (fs2, S1, em1, Some ENoParent)
        end
    end.
Proof.
  cbn [copy_node]. cbv zeta.
  destruct (if fst (sel_inc pmatch c (child_path dir name) pinc) && negb (fst (sel_exc pmatch c (child_path dir name) pexc))
            then create_parents S fs else (fs, S, [], None)) as [[[fs1 S1] em1] [e|]]; auto.
  destruct (st_is_dir st0); auto.
  match goal with |- context [if ?b then copy_dir_only ?a1 ?a2 ?a3 ?a4 else ?z] =>
    destruct (if b then copy_dir_only a1 a2 a3 a4 else z) as [[fs2 [e|]] cr]; auto end.
  match goal with |- context [?f kids (S1 ++ _) fs2] =>
    assert (E : forall l S0 f0, f l S0 f0 = copy_forest pmatch c repl (child_path dir name) l
                (snd (sel_inc pmatch c (child_path dir name) pinc)) (snd (sel_exc pmatch c (child_path dir name) pexc)) S0 f0) end.
  { induction l as [|k r IH]; intros S0 f0; [reflexivity|]. cbn [copy_forest].
    destruct (copy_node pmatch c repl (child_path dir name) k _ _ S0 f0) as [[[f' S'] em] [e|]]; auto. rewrite IH. reflexivity. }
  rewrite E. reflexivity.
Qed.

(* the verdict the copier computes = keep_incr *)
Section Child.
Variables (dir : bytes) (pinc pexc : list bool) (name : bytes).
Hypothesis Hinfo : infos_ok pmatch c dir pinc pexc.
Hypothesis Hne : name <> [].
Hypothesis Hns : nosep name.
Let p := child_path dir name.

Lemma sel_inc_chain : sel_inc pmatch c p pinc = chain_at pmatch (c_inc c) true p.
Proof. exact (ask_child pmatch _ true _ _ _ Hne Hns (proj1 Hinfo)). Qed.

Lemma sel_exc_chain : sel_exc pmatch c p pexc = chain_at pmatch (c_exc c) false p.
Proof. exact (ask_child pmatch _ false _ _ _ Hne Hns (proj2 Hinfo)). Qed.

Lemma include_V : fst (sel_inc pmatch c p pinc) && negb (fst (sel_exc pmatch c p pexc)) = V p.
Proof. rewrite sel_inc_chain, sel_exc_chain. symmetry. apply keep_incr_chain. Qed.

Lemma infos_ok_child : infos_ok pmatch c p (snd (sel_inc pmatch c p pinc)) (snd (sel_exc pmatch c p pexc)).
Proof. rewrite sel_inc_chain, sel_exc_chain. split; apply handed_chain. Qed.
End Child.

Lemma copy_dir_only_at dirp p st fs fs2 cr : st_path st = p ->
  copy_dir_only dirp p st fs = (fs2, None, cr) ->
  forall q, fs2 q = if bytes_eqb q p then Some (dir_only st (fs p)) else fs q.
Proof.
  intros Hp H q. unfold copy_dir_only in H. unfold dir_only. rewrite Hp.
  destruct (fs p) as [e|] eqn:E.
  - destruct (e_dir e); [|discriminate]. inversion H; subst. reflexivity.
  - destruct (parent_ok dirp fs); [|discriminate]. inversion H; subst. reflexivity.
Qed.

(* a visit that succeeds: the stack is marked and the pending parents are emitted, before the items
   of the subtree, iff something in it is selected [h]; the destination is changed item by item *)
Definition visited (h : bool) (S : list pdir) (items : list litem) (fs fs' : dfs) (S' : list pdir) (em : list litem) : Prop :=
  S' = (if h then mark S else S) /\ em = (if h then pend_items S else []) ++ items /\
  forall q, fs' q = fold_left (step q) em (fs q).

Definition visit_ok (n : node) : Prop :=
  forall dir pinc pexc S fs fs' S' em,
    infos_ok pmatch c dir pinc pexc -> stack_dirs S ->
    cnode dir n pinc pexc S fs = (fs', S', em, None) ->
    visited (has_sel V dir n) S (ref_items V dir n) fs fs' S' em.

Lemma visit_forest l : Forall visit_ok l ->
  forall dir pinc pexc S fs fs' S' em,
    infos_ok pmatch c dir pinc pexc -> stack_dirs S ->
    cforest dir l pinc pexc S fs = (fs', S', em, None) ->
    visited (existsb (has_sel V dir) l) S (flat_map (ref_items V dir) l) fs fs' S' em.
Proof.
  induction 1 as [|k r Hk _ IH]; intros dir pinc pexc S fs fs' S' em Hinfo HS H.
  - cbn in H. inversion H; subst. split; [|split]; reflexivity.
  - cbn [copy_forest] in H.
    destruct (cnode dir k pinc pexc S fs) as [[[f1 S1] e1] [x|]] eqn:E1; [discriminate|].
    destruct (cforest dir r pinc pexc S1 f1) as [[[f2 S2] e2] x2] eqn:E2. inversion H; subst; clear H.
    destruct (Hk _ _ _ _ _ _ _ _ Hinfo HS E1) as (-> & -> & Q1).
    assert (HS1 : stack_dirs (if has_sel V dir k then mark S else S))
      by (destruct (has_sel V dir k); auto using stack_dirs_mark).
    destruct (IH _ _ _ _ _ _ _ _ Hinfo HS1 E2) as (-> & -> & Q2).
    cbn [existsb flat_map]. split; [|split].
    + destruct (has_sel V dir k), (existsb (has_sel V dir) r); cbn [orb]; rewrite ?mark_idem; reflexivity.
    + destruct (has_sel V dir k) eqn:Hs, (existsb (has_sel V dir) r); cbn [orb];
        rewrite ?(ref_items_nil V _ _ Hs), ?pend_mark, <- ?app_assoc; reflexivity.
    + intros q. rewrite Q2, Q1, <- fold_left_app. reflexivity.
Qed.

Lemma st_is_dir_set_path st p : st_is_dir (set_path st p) = st_is_dir st.
Proof. reflexivity. Qed.

Lemma visit_ok_all : forall n, wf_tree_node n = true -> visit_ok n.
Proof.
  refine (wf_tree_ind _ _). intros name st0 ct kids Hne Hns Hdk Hkids IHk dir pinc pexc S fs fs' S' em Hinfo HS H.
  rewrite copy_node_eq_r in H. cbv zeta in H.
  rewrite (include_V dir pinc pexc name Hinfo Hne Hns) in H. cbn [andb] in H.
  pose proof (infos_ok_child dir pinc pexc name Hinfo Hne Hns) as Hic.
  cbn [has_sel ref_items]. cbv zeta.
  set (p := child_path dir name) in *.
  assert (Hp : p <> []) by (apply child_path_nonempty; auto).
  destruct (V p) eqn:EV; cbn [orb].
  - (* selected *)
    destruct (create_parents S fs) as [[[fs1 S1] em1] [e|]] eqn:E1; [discriminate|].
    destruct (create_parents_ok _ _ _ _ _ HS E1) as (-> & -> & Hq1).
    destruct (st_is_dir st0) eqn:Ed.
    + destruct (copy_dir_only dir p (set_path st0 p) fs1) as [[fs2 [e|]] cr] eqn:E2; [discriminate|].
      set (d := {| pd_st := set_path st0 p; pd_ct := ct; pd_dir := dir; pd_copied := true |}) in *.
      destruct (cforest p kids _ _ (mark S ++ [d]) fs2) as [[[fs3 S3] em3] [e3|]] eqn:E3; [discriminate|].
      inversion H; subst fs' S' em; clear H.
      assert (HT : stack_dirs (mark S ++ [d])).
      { apply Forall_app. split; [apply stack_dirs_mark; auto|]. constructor; [exact Ed|constructor]. }
      destruct (visit_forest kids IHk _ _ _ _ _ _ _ _ Hic HT E3) as (-> & -> & Q3).
      (* everything on the stack is marked already *)
      assert (HS3 : (if existsb (has_sel V p) kids then mark (mark S ++ [d]) else mark S ++ [d]) = mark S ++ [d])
        by (destruct (existsb _ kids); [rewrite mark_app, mark_idem|]; reflexivity).
      assert (Hem3 : (if existsb (has_sel V p) kids then pend_items (mark S ++ [d]) else []) = [])
        by (destruct (existsb _ kids); [rewrite pend_app, pend_mark|]; reflexivity).
      rewrite HS3, Hem3, removelast_last in *. cbn [app] in *.
      split; [reflexivity|split; [reflexivity|]].
      intros q. rewrite fold_left_app. cbn [fold_left app]. rewrite <- Hq1.
      pose proof (copy_dir_only_at dir p (set_path st0 p) fs1 fs2 cr eq_refl E2) as Q2.
      rewrite copy_meta_at. unfold step at 2. unfold l_path. cbn [l_st st_path set_path].
      destruct (bytes_eqb q p) eqn:Eq.
      * apply bytes_eqb_eq in Eq. subst q.
        rewrite Q3, Q2, bytes_eqb_refl.
        rewrite !sfold_notin by (intro X; apply in_map_iff in X; destruct X as (it & Eit & Hit);
                                 exact (below_ne V p kids it Hp Hkids Hit Eit)).
        cbn [option_map]. unfold result. cbn [l_st l_sel orb]. rewrite st_is_dir_set_path, Ed. reflexivity.
      * rewrite Q3, Q2, Eq. reflexivity.
    + cbn [negb] in H.
      assert (Hk0 : kids = []) by (destruct Hdk as [X|X]; [congruence|exact X]). subst kids. cbn [flat_map].
      destruct (match fs1 p with Some _ => _ | None => _ end) as [fs2|] eqn:E2; [|discriminate].
      destruct (parent_ok dir fs2); [|discriminate]. inversion H; subst; clear H.
      split; [reflexivity|split; [reflexivity|]]. intros q. rewrite fold_left_app. cbn [fold_left]. rewrite <- Hq1.
      unfold step, l_path, result. cbn [l_st l_ct st_path set_path]. rewrite st_is_dir_set_path, Ed, fput_at.
      destruct (bytes_eqb q p) eqn:Eq; [reflexivity|].
      (* the slot at p was cleared, nothing else *)
      destruct (fs1 p) as [e|]; [destruct (e_dir e); [discriminate|]|]; injection E2 as <-;
        [unfold fdel; rewrite Eq|]; reflexivity.
  - (* not selected *)
    destruct (st_is_dir st0) eqn:Ed.
    + set (d := {| pd_st := set_path st0 p; pd_ct := ct; pd_dir := dir; pd_copied := false |}) in *.
      destruct (cforest p kids _ _ (S ++ [d]) fs) as [[[fs3 S3] em3] [e3|]] eqn:E3; [discriminate|].
      inversion H; subst fs' S' em; clear H.
      assert (HT : stack_dirs (S ++ [d])).
      { apply Forall_app. split; [auto|]. constructor; [exact Ed|constructor]. }
      destruct (visit_forest kids IHk _ _ _ _ _ _ _ _ Hic HT E3) as (-> & -> & Q3).
      cbn [app]. split; [|split; [|exact Q3]]; destruct (existsb (has_sel V p) kids) eqn:Hs.
      * rewrite mark_app. cbn [mark map]. apply removelast_last.
      * apply removelast_last.
      * rewrite pend_app. unfold pend_items at 2. cbn. rewrite <- app_assoc. reflexivity.
      * rewrite (flat_nil V _ _ Hs). reflexivity.
    + cbn [negb] in H. inversion H; subst; clear H.
      assert (Hk0 : kids = []) by (destruct Hdk as [X|X]; [congruence|exact X]). subst kids.
      split; [|split]; reflexivity.
Qed.

Theorem copy_dir_top_spec rootst view fs0 fs' log :
  wf_tree view = true ->
  copy_dir_top pmatch c false rootst view fs0 = (fs', log, None) ->
  log = flat_items V view /\ forall q, q <> [] -> fs' q = spec_ent log fs0 q.
Proof.
  intros Hwf H. pose proof Hwf as Hw. unfold wf_tree in Hw. apply andb_true_iff in Hw.
  pose proof (Forall_wf _ _ visit_ok_all (proj2 Hw)) as HF.
  unfold copy_dir_top in H. cbv beta iota zeta in H.
  assert (G : forall fs1 fs2 S' em, cforest [] view [] [] [] fs1 = (fs2, S', em, None) ->
              em = flat_items V view /\ forall q, fs2 q = fold_left (step q) em (fs1 q)).
  { intros fs1 fs2 S' em E.
    destruct (visit_forest view HF _ _ _ _ _ _ _ _ (infos_ok_root pmatch c) (Forall_nil _) E) as (_ & -> & Q). split; [|exact Q].
    rewrite <- (ref_items_flat V view Hwf). destruct (existsb _ view); reflexivity. }
  destruct (fs0 []) as [e|] eqn:E0.
  - destruct (e_dir e); [|discriminate].
    destruct (cforest [] view [] [] [] fs0) as [[[fs2 S2] em] [x|]] eqn:E; [discriminate|].
    inversion H; subst. destruct (G _ _ _ _ E) as [-> Q]. split; auto. intros q _. apply Q.
  - destruct (cforest [] view [] [] [] (fput [] (blank_dir []) fs0)) as [[[fs2 S2] em] [x|]] eqn:E; [discriminate|].
    inversion H; subst. destruct (G _ _ _ _ E) as [-> Q]. split; auto.
    intros q Hq. rewrite copy_meta_at. apply bytes_eqb_neq in Hq. rewrite Hq. rewrite Q, fput_at, Hq. reflexivity.
Qed.
End Main.

Lemma sfold_some q items : forall o,
  fold_left (step q) items o <> None <-> (o <> None \/ In q (map l_path items)).
Proof.
  induction items as [|it r IH]; intros o; cbn [fold_left map In].
  - tauto.
  - rewrite IH. unfold step. destruct (bytes_eqb q (l_path it)) eqn:E.
    + apply bytes_eqb_eq in E. subst q. split; [auto|]. intros _. left. discriminate.
    + apply bytes_eqb_neq in E. split.
      * intros [H|H]; auto.
      * intros [H|[H|H]]; auto; congruence.
Qed.

Lemma sfold_unique items : NoDup (map l_path items) -> forall it o, In it items ->
  fold_left (step (l_path it)) items o = Some (result it o).
Proof.
  induction items as [|x r IH]; intros Hnd it o Hin; [destruct Hin|].
  cbn [map] in Hnd. inversion Hnd as [|? ? Hx Hr]; subst. cbn [fold_left].
  destruct Hin as [->|Hin].
  - unfold step at 2. rewrite bytes_eqb_refl. apply sfold_notin. exact Hx.
  - rewrite step_other; [apply IH; auto|]. intros E. apply Hx. rewrite <- E. apply in_map. exact Hin.
Qed.

Lemma NoDup_map_filter {A B} (f : A -> B) (g : A -> bool) l : NoDup (map f l) -> NoDup (map f (filter g l)).
Proof.
  induction l as [|a l IH]; intros H; [constructor|]. cbn [map] in H. inversion H as [|? ? Ha Hl]; subst.
  cbn [filter]. destruct (g a); [|apply IH; auto]. cbn [map]. constructor; [|apply IH; auto].
  intros Hin. apply Ha. apply in_map_iff in Hin. destruct Hin as (x & E & Hx). apply filter_In in Hx.
  apply in_map_iff. exists x. tauto.
Qed.

Lemma flat_items_paths V view :
  map l_path (flat_items V view) =
  map (fun e : Tree.entry => st_path (fst e)) (filter (selected_or_above V (walk_root view)) (walk_root view)).
Proof. unfold flat_items. rewrite map_map. reflexivity. Qed.

Lemma flat_items_nodup V view : wf_tree view = true -> NoDup (map l_path (flat_items V view)).
Proof. intros H. rewrite flat_items_paths. apply NoDup_map_filter. apply walk_root_nodup. exact H. Qed.

Lemma flat_items_stats V view : map l_st (flat_items V view) = flat_reference V view.
Proof. unfold flat_items, flat_reference. rewrite map_map. reflexivity. Qed.

Lemma flat_items_in V view it : In it (flat_items V view) ->
  In (l_st it, l_ct it) (walk_root view) /\ selected_or_above V (walk_root view) (l_st it, l_ct it) = true
  /\ l_sel it = V (l_path it).
Proof.
  unfold flat_items. intros H. apply in_map_iff in H. destruct H as (e & <- & He). apply filter_In in He.
  destruct e as [s ct]. cbn. tauto.
Qed.
