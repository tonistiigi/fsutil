(* Closure of the FollowLinks result w.r.t. the independent resolver WITH wildcards
   (result_closed, result_closed_selfmatch).

   FollowLinksClosedP.v proves closure for pattern-free inputs through the single-outcome
   resolver [cres1].  Here the main lemma is carried out directly on [cresolve] (a LIST of
   outcomes, one per wildcard expansion).  Its further cases: a request whose last component is a
   pattern (the wildcard branch of readSymlink), and link-target components that contain
   pattern characters but match exactly the entries named like themselves. *)
From Coq Require Import List NArith Bool Lia Arith.
From FS Require Import Sx Model.Path Model.Stat Model.Tree Model.FollowLinks Proofs.Lex Proofs.PathP
     Proofs.FollowLinksP Proofs.FollowLinksClosedP.
Import ListNotations.
Open Scope N_scope.
Open Scope bool_scope.

Lemma node_names_eq n : node_names n = node_name n :: forest_names (node_kids n).
Proof. destruct n as [a s c kids]. reflexivity. Qed.

Lemma forest_names_incl k kids : In k kids -> incl (node_names k) (forest_names kids).
Proof.
  induction kids as [|a kids IH]; intros H x Hx; [destruct H|]. simpl. apply in_or_app.
  destruct H as [->|H]; [left; auto|right; apply IH; auto].
Qed.

Lemma dir_at_names kids h ks n :
  dir_at kids h = Some ks -> In n ks -> In (node_name n) (forest_names kids).
Proof.
  revert kids; induction h as [|c h IH]; intros kids H Hn; simpl in H.
  - inversion H; subst. apply (forest_names_incl n ks Hn). rewrite node_names_eq. left; reflexivity.
  - destruct (find_kid c kids) as [k|] eqn:E; [|discriminate]. destruct (node_is_dir k); [|discriminate].
    apply find_kid_In in E. destruct E as [Hk _]. apply (forest_names_incl k kids Hk).
    rewrite node_names_eq. right. apply IH; auto.
Qed.

Lemma find_kid_none c kids : ~ In c (map node_name kids) -> find_kid c kids = None.
Proof.
  induction kids as [|k r IH]; intros H; [reflexivity|]. simpl.
  destruct (bytes_eqb (node_name k) c) eqn:E.
  - exfalso. apply H. left. apply bytes_eqb_eq. exact E.
  - apply IH. intros Hc. apply H. right. exact Hc.
Qed.

Lemma find_kid_distinct kids n :
  names_distinct (map node_name kids) = true -> In n kids -> find_kid (node_name n) kids = Some n.
Proof.
  induction kids as [|k r IH]; intros Hd Hn; [destruct Hn|]. simpl in Hd. apply andb_true_iff in Hd.
  destruct Hd as [Hk Hr]. apply negb_true_iff in Hk. simpl. destruct Hn as [->|Hn].
  - rewrite bytes_eqb_refl. reflexivity.
  - destruct (bytes_eqb (node_name k) (node_name n)) eqn:E; [|apply IH; auto].
    exfalso. apply bytes_eqb_eq in E. apply mem_false in Hk. apply Hk. rewrite E. apply in_map. exact Hn.
Qed.

Lemma dir_at_distinct kids h ks :
  forallb wf_node kids = true -> names_distinct (map node_name kids) = true ->
  dir_at kids h = Some ks -> names_distinct (map node_name ks) = true.
Proof.
  revert kids; induction h as [|c h IH]; intros kids Hw Hd H; simpl in H; [inversion H; subst; auto|].
  destruct (find_kid c kids) as [n|] eqn:E; [|discriminate]. destruct (node_is_dir n); [|discriminate].
  destruct (wf_find_kid_inv c kids n Hw E) as (_ & Hnd & Hk). apply (IH (node_kids n)); auto.
Qed.

Lemma dir_at_read_dir view cur kids : dir_at view cur = Some kids -> read_dir view cur = Some kids.
Proof.
  destruct cur as [|d cur0] using rev_ind; intros H; [exact H|].
  rewrite dir_at_app in H. destruct (dir_at view cur0) as [k0|] eqn:E0; [|discriminate].
  simpl in H. destruct (find_kid d k0) as [nd|] eqn:Ek; [|discriminate].
  destruct (node_is_dir nd) eqn:Edir; [|discriminate]. inversion H; subst.
  unfold read_dir. rewrite (lookup_dir_at view cur0 d k0 E0), Ek, Edir.
  destruct (cur0 ++ [d]) eqn:E; [destruct cur0; discriminate|reflexivity].
Qed.

Section PhysL.
Variable gmatch : bytes -> bytes -> bool.
Variable view : list node.

Lemma cresolve_trav : forall f todo here trav o,
  In o (cresolve gmatch view f here todo trav) -> incl trav (traversed o).
Proof.
  induction f as [f IHf] using lt_wf_ind. induction todo as [|[c g] rest IH]; intros here trav o Ho.
  - rewrite cresolve_eq in Ho. destruct Ho as [<-|[]]. apply incl_refl.
  - destruct (cresolve_step gmatch view f here c g rest trav o Ho) as [->|(kids & _ & Hs)]; [apply incl_refl|].
    destruct (is_triv c); [apply (IH _ _ _ Hs)|]. destruct (is_dotdot c); [apply (IH _ _ _ Hs)|].
    destruct Hs as (n & _ & Hn & _). apply enter_inv in Hn.
    destruct (node_is_symlink n); [|apply (IH _ _ _ Hn)].
    assert (Hp : incl trav ((here ++ [node_name n]) :: trav)) by apply incl_tl, incl_refl.
    destruct Hn as [->|(f' & -> & Hn)]; [exact Hp|].
    eapply incl_tran; [exact Hp|apply (IHf f' (Nat.lt_succ_diag_r f') _ _ _ _ Hn)].
Qed.

Definition lrefines (A B : list cres) : Prop := forall a, In a A -> exists b, In b B /\ refines a b.

Lemma lrefines_trans A B C : lrefines A B -> lrefines B C -> lrefines A C.
Proof.
  intros H1 H2 a Ha. destruct (H1 a Ha) as (b & Hb & Rab). destruct (H2 b Hb) as (c & Hc & Rbc).
  exists c. split; [exact Hc|eapply refines_trans; eauto].
Qed.

End PhysL.

Section Pat.
Variable gmatch : bytes -> bytes -> bool.

(* a component covers an entry named like itself *)
Definition selfc (c : bytes) : bool := if contains_wildcards c then gmatch c c else true.

Lemma pat_prefix_app_same a b z :
  pat_prefix gmatch a a = true -> pat_prefix gmatch (a ++ b) (a ++ z) = pat_prefix gmatch b z.
Proof.
  induction a as [|x a IH]; intros H; [reflexivity|]. cbn [app pat_prefix] in *.
  apply andb_true_iff in H. destruct H as [H1 H2]. rewrite H1. cbn [andb]. apply IH. exact H2.
Qed.

Lemma pat_prefix_snoc a c :
  pat_prefix gmatch a a = true -> selfc c = true -> pat_prefix gmatch (a ++ [c]) (a ++ [c]) = true.
Proof.
  intros Ha Hc. rewrite pat_prefix_app_same by exact Ha. cbn [pat_prefix]. unfold selfc in Hc.
  destruct (contains_wildcards c); [rewrite Hc; reflexivity|rewrite bytes_eqb_refl; reflexivity].
Qed.

Lemma pat_prefix_prefix a w : forall y, pat_prefix gmatch (a ++ w) y = true -> pat_prefix gmatch a y = true.
Proof.
  induction a as [|x a IH]; intros y H; [reflexivity|]. cbn [app pat_prefix] in *.
  destruct y as [|c y]; [discriminate|]. apply andb_true_iff in H. destruct H as [H1 H2].
  rewrite H1. cbn [andb]. apply IH. exact H2.
Qed.

Lemma flat_map_self {A} (m : bytes -> bool) (G : bytes -> list A) c kids :
  (forall k, In k kids -> m (node_name k) = bytes_eqb (node_name k) c) ->
  names_distinct (map node_name kids) = true ->
  flat_map (fun k => if m (node_name k) then G (node_name k) else []) kids =
  match find_kid c kids with Some _ => G c | None => [] end.
Proof.
  induction kids as [|k r IH]; intros Hm Hd; [reflexivity|]. cbn [flat_map find_kid].
  rewrite (Hm k (or_introl eq_refl)). cbn [map names_distinct] in Hd. apply andb_true_iff in Hd.
  destruct Hd as [Hk Hr]. apply negb_true_iff in Hk.
  destruct (bytes_eqb (node_name k) c) eqn:E.
  - apply bytes_eqb_eq in E. rewrite E in *. rewrite IH by (auto; intros; apply Hm; right; auto).
    rewrite find_kid_none; [apply app_nil_r|]. apply mem_false. exact Hk.
  - apply IH; auto. intros; apply Hm; right; auto.
Qed.

End Pat.

Section MainW.
Variable gmatch : bytes -> bytes -> bool.
Variable view : list node.
Variable reqs : list bytes.
Variable F : fstate.
Hypothesis Hwf : forallb wf_node view = true.
Hypothesis Hwf0 : names_distinct (map node_name view) = true.
Hypothesis HW : forall q, In q (g_calls F) -> Walked gmatch view F q.
Hypothesis HE : forall e, In e (g_expanded F) -> ExpOk gmatch view F e.
Hypothesis HR : g_revisit F = [].
Hypothesis HC : forall q, In q (g_calls F) -> PCN view reqs q.
Hypothesis Hlex : forall l, In l (forest_links view) -> leading_dotdot_only (comps l) = true.

(* [elit c]: reading c as a pattern or literally is the same in this tree *)
Definition elit (c : bytes) : Prop := quasi_literal gmatch view c = true.
Hypothesis Hlinks : forall l, In l (forest_links view) -> Forall elit (comps l).

Lemma elit_self c : elit c -> In c (forest_names view) -> selfc gmatch c = true.
Proof.
  unfold elit, quasi_literal, selfc. intros H Hn. destruct (contains_wildcards c); [|reflexivity].
  cbn [negb orb] in H. unfold selfmatch_only in H. rewrite forallb_forall in H. specialize (H c Hn).
  rewrite bytes_eqb_refl in H. apply eqb_prop in H. exact H.
Qed.

Lemma elit_match c nm :
  elit c -> contains_wildcards c = true -> In nm (forest_names view) -> gmatch c nm = true -> nm = c.
Proof.
  unfold elit, quasi_literal. intros H Hw Hn Hm. rewrite Hw in H. cbn [negb orb] in H.
  unfold selfmatch_only in H. rewrite forallb_forall in H. specialize (H nm Hn). rewrite Hm in H.
  apply eqb_prop in H. apply bytes_eqb_eq. symmetry. exact H.
Qed.

Lemma read_symlink_elit cur c kids :
  dir_at view cur = Some kids -> names_distinct (map node_name kids) = true -> elit c ->
  read_symlink gmatch view cur c = read_symlink1 view cur c.
Proof.
  intros Hd Hdist He. unfold read_symlink. destruct (contains_wildcards c) eqn:Ew; [|reflexivity].
  rewrite (dir_at_read_dir view cur kids Hd).
  rewrite (flat_map_self (gmatch c) (read_symlink1 view cur) c kids); [|
    |exact Hdist].
  - destruct (find_kid c kids) eqn:Ek; [reflexivity|]. unfold read_symlink1, stat_node.
    rewrite (lookup_dir_at view cur c kids Hd), Ek. reflexivity.
  - intros k Hk. pose proof (dir_at_names view cur kids k Hd Hk) as Hn.
    unfold elit, quasi_literal in He. rewrite Ew in He. cbn [negb orb] in He.
    unfold selfmatch_only in He. rewrite forallb_forall in He. specialize (He _ Hn).
    apply eqb_prop in He. exact He.
Qed.

(* [y] is covered by a resolved key read as a pattern list *)
Definition covW (y : list bytes) : Prop :=
  exists e, e <> [] /\ PCN view reqs e /\ mem (key e) (resolved F) = true /\ pat_prefix gmatch e y = true.

Definition postW : list (list bytes) -> cres -> Prop := post_of F covW.

(* all components but the last behave literally *)
Fixpoint abl (q : list bytes) : Prop :=
  match q with
  | [] => True
  | c :: r => match r with [] => True | _ => elit c /\ abl r end
  end.

Lemma abl_tail c r : abl (c :: r) -> abl r.
Proof. destruct r; [intros; exact I|intros [_ H]; exact H]. Qed.
Lemma abl_head c r : r <> [] -> abl (c :: r) -> elit c.
Proof. destruct r; [congruence|intros _ [H _]; exact H]. Qed.
Lemma abl_all q : Forall elit q -> abl q.
Proof.
  induction 1 as [|c r Hc Hr IH]; [exact I|]. cbn [abl]. destruct r; [exact I|split; auto].
Qed.
Lemma abl_app a b : Forall elit a -> abl b -> abl (a ++ b).
Proof.
  induction a as [|c a IH]; intros Ha Hb; [exact Hb|]. inversion Ha as [|? ? Hc Ha']; subst.
  cbn [app abl]. specialize (IH Ha' Hb). destruct (a ++ b); [exact I|]. split; [exact Hc|exact IH].
Qed.

(* items flagged "literal" behave literally *)
Definition fa (todo : list item) : Prop := Forall (fun it : item => snd it = false -> elit (fst it)) todo.

Lemma fa_lit b : Forall elit b -> fa (lit b).
Proof.
  intros H. unfold fa, lit. apply Forall_forall. intros x Hx. apply in_map_iff in Hx.
  destruct Hx as (c & <- & Hc). intros _. cbn [fst]. rewrite Forall_forall in H. auto.
Qed.
Lemma fa_flag cs : fa (map (fun c : bytes => (c, true)) cs).
Proof.
  unfold fa. apply Forall_forall. intros x Hx. apply in_map_iff in Hx. destruct Hx as (c & <- & _).
  cbn [snd]. discriminate.
Qed.
Lemma fa_normI cs base : Forall elit base -> fa cs -> fa (normI base cs).
Proof. apply (normI_forall elit). intros c Hc _. exact Hc. Qed.

Definition IHF (f : nat) : Prop :=
  forall f', (f' < f)%nat -> forall todo trav,
    In (map fst todo) (g_calls F) -> abl (map fst todo) -> fa todo ->
    forall o, In o (cresolve gmatch view f' [] todo trav) -> postW trav o.

(* following the link [n] found in the real directory [cur] *)
Lemma follow_case f : IHF f ->
  forall cur kids n rest trav,
    dir_at view cur = Some kids -> PCN view reqs cur -> Forall elit cur ->
    lookup view (cur ++ [node_name n]) = Some n -> node_is_symlink n = true ->
    covW (cur ++ [node_name n]) ->
    In (link_target cur (node_link n) ++ map fst rest) (g_calls F) ->
    abl (map fst rest) -> fa rest ->
    forall o, In o (enter gmatch view f cur rest trav n) -> postW trav o.
Proof.
  intros IHf cur kids n rest trav Ed Hcur Hel Hlk Es Hcov Hcall Habl Hfa o Ho.
  apply enter_inv in Ho. rewrite Es in Ho.
  destruct Ho as [->|(f' & -> & Ho)]; [exact (post_entered F covW _ trav Hcov)|].
  assert (Hlin : In (node_link n) (forest_links view)) by (eapply lookup_link; eauto).
  unfold link_target in Hcall.
  set (l := node_link n) in *. set (base := if is_abs l then [] else cur) in *.
  apply (post_weaken F covW (cur ++ [node_name n])); [exact Hcov|].
  assert (Hbase : exists ks, dir_at view base = Some ks /\ Forall normal base /\ Forall elit base).
  { unfold base. destruct (is_abs l); [exists view; repeat split; constructor|].
    exists kids. split; [exact Ed|]. split; [apply (PCN_normal view reqs); exact Hcur|exact Hel]. }
  destruct Hbase as (ks & Hbd & Hbn & Hbe).
  assert (Hl2 : leading_dotdot_only (map fst (lit (comps l))) = true) by (rewrite map_fst_lit; apply Hlex; exact Hlin).
  destruct (cresolve_lexical gmatch view Hwf (lit (comps l)) base f' rest _ ks Hbd Hbn Hl2 o Ho) as (o' & Ho' & R).
  apply (post_refines F covW _ _ _ R).
  assert (Hfst : map fst (normI base (lit (comps l)) ++ rest) = norm_clamp (base ++ comps l) ++ map fst rest).
  { rewrite map_app, normI_fst by auto. rewrite map_fst_lit. reflexivity. }
  refine (IHf f' (Nat.lt_succ_diag_r f') _ _ _ _ _ o' Ho').
  - rewrite Hfst. exact Hcall.
  - rewrite Hfst. apply abl_app; [|exact Habl]. apply norm_clamp_forall. apply Forall_app. split; [exact Hbe|apply Hlinks; exact Hlin].
  - apply Forall_app. split; [|exact Hfa]. apply fa_normI; [exact Hbe|]. apply fa_lit. apply Hlinks. exact Hlin.
Qed.

Lemma innerW : forall f, IHF f ->
  forall (rest : list item) cur trav, PCN view reqs cur -> PCN view reqs (map fst rest) -> rest <> [] ->
    Forall elit cur -> pat_prefix gmatch cur cur = true -> abl (map fst rest) -> fa rest ->
    walk_ok gmatch view F cur (map fst rest) ->
    forall o, In o (cresolve gmatch view f cur rest trav) -> postW trav o.
Proof.
  intros f IHf. induction rest as [|[c g] rest IH]; intros cur trav Hcur Hrest Hne Hel Hsc Habl Hfa Hwalk o Ho; [congruence|].
  cbn [map fst] in Hrest, Habl, Hwalk.
  inversion Hrest as [|? ? [Hcp Hcn] Hrest']; subst.
  inversion Hfa as [|? ? Hfa1 Hfa']; subst. cbn [fst snd] in Hfa1.
  apply normal_iff in Hcn. destruct Hcn as [Et Edd].
  destruct (cresolve_step gmatch view f cur c g rest trav o Ho) as [->|(kids & Ed & Hs)]; [apply (post_failed F covW)|].
  rewrite Et, Edd in Hs. destruct Hs as (n & Hin & Hon & Hcase).
  pose proof (dir_at_distinct view cur kids Hwf Hwf0 Ed) as Hdist.
  pose proof (find_kid_distinct kids n Hdist Hin) as Hfk.
  assert (Hlk : lookup view (cur ++ [node_name n]) = Some n) by (rewrite (lookup_dir_at view cur _ kids Ed); exact Hfk).
  pose proof (dir_at_names view cur kids n Ed Hin) as Hnm.
  assert (Hcur' : PCN view reqs (cur ++ [c])).
  { apply PCN_app; auto. constructor; [|constructor]. split; auto. apply normal_iff; auto. }
  assert (Hne' : cur ++ [c] <> []) by (destruct cur; discriminate).
  destruct (quasi_literal gmatch view c) eqn:Eq.
  - (* c behaves literally *)
    assert (Hname : node_name n = c).
    { destruct (g && contains_wildcards c) eqn:Hg; [|exact Hcase]. apply andb_true_iff in Hg.
      apply (elit_match c (node_name n) Eq (proj2 Hg) Hnm Hcase). }
    assert (Hrs : read_symlink gmatch view cur c =
                  if node_is_symlink n then [link_target cur (node_link n)] else []).
    { rewrite (read_symlink_elit cur c kids Ed Hdist Eq). unfold read_symlink1, stat_node.
      rewrite <- Hname at 1. rewrite Hlk. reflexivity. }
    assert (Hsc' : pat_prefix gmatch (cur ++ [c]) (cur ++ [c]) = true).
    { apply pat_prefix_snoc; [exact Hsc|]. apply elit_self; [exact Eq|]. rewrite <- Hname. exact Hnm. }
    cbn [walk_ok] in Hwalk. rewrite Hrs in Hwalk.
    destruct (node_is_symlink n) eqn:Es.
    + cbn [is_nil negb] in Hwalk. destruct Hwalk as [Hm [Hexp|Hrev]]; [|rewrite HR in Hrev; destruct Hrev].
      assert (Hcov : covW (cur ++ [c])).
      { exists (cur ++ [c]). repeat split; auto. }
      apply (follow_case f IHf cur kids n rest trav Ed Hcur Hel Hlk Es); auto.
      * rewrite Hname. exact Hcov.
      * eapply expanded_call; [apply (HE _ Hexp)|rewrite Hrs; left; reflexivity|apply (PCN_normal view reqs); exact Hrest'].
      * apply (abl_tail c). exact Habl.
    + cbn [is_nil negb] in Hwalk. unfold enter in Hon. rewrite Es, Hname in Hon.
      destruct rest as [|x rest2].
      * cbn [map is_nil] in Hwalk. rewrite cresolve_eq in Hon. destruct Hon as [<-|[]].
        apply (post_reached F covW); [exact Hne'|]. exists (cur ++ [c]). repeat split; auto.
      * cbn [map is_nil] in Hwalk. apply (IH (cur ++ [c]) trav); auto.
        -- discriminate.
        -- apply Forall_app. split; [exact Hel|]. constructor; [exact Eq|constructor].
        -- apply (abl_tail c). exact Habl.
  - (* c is a real pattern: the last component of a request *)
    assert (Hw : contains_wildcards c = true).
    { unfold quasi_literal in Eq. destruct (contains_wildcards c); [reflexivity|discriminate]. }
    assert (Hrest0 : rest = []).
    { destruct rest as [|x r]; [reflexivity|]. exfalso.
      assert (He : elit c) by (apply (abl_head c (map fst (x :: r))); [discriminate|exact Habl]).
      unfold elit in He. congruence. }
    subst rest.
    assert (Hg : g = true).
    { destruct g; [reflexivity|]. unfold elit in Hfa1. rewrite Hfa1 in Eq by reflexivity. discriminate. }
    subst g.
    rewrite Hw in Hcase. cbn [andb] in Hcase. rename Hcase into Hm.
    cbn [map walk_ok is_nil] in Hwalk.
    assert (Hkey : mem (key (cur ++ [c])) (resolved F) = true).
    { destruct (negb (is_nil (read_symlink gmatch view cur c))); [destruct Hwalk as [H _]; exact H|exact Hwalk]. }
    assert (Hcov : covW (cur ++ [node_name n])).
    { exists (cur ++ [c]). split; [exact Hne'|]. split; [exact Hcur'|]. split; [exact Hkey|].
      rewrite pat_prefix_app_same by exact Hsc. cbn [pat_prefix]. rewrite Hw, Hm. reflexivity. }
    destruct (node_is_symlink n) eqn:Es.
    + assert (Hin_t : In (link_target cur (node_link n)) (read_symlink gmatch view cur c)).
      { unfold read_symlink. rewrite Hw, (dir_at_read_dir view cur kids Ed). apply in_flat_map.
        exists n. split; [exact Hin|]. rewrite Hm. unfold read_symlink1, stat_node. rewrite Hlk, Es.
        left; reflexivity. }
      destruct (read_symlink gmatch view cur c) as [|t0 ts] eqn:Ers; [destruct Hin_t|].
      cbn [is_nil negb] in Hwalk. destruct Hwalk as [_ [Hexp|Hrev]]; [|rewrite HR in Hrev; destruct Hrev].
      apply (follow_case f IHf cur kids n [] trav Ed Hcur Hel Hlk Es Hcov); [|exact I|constructor|exact Hon].
      eapply expanded_call; [apply (HE _ Hexp)|rewrite Ers; exact Hin_t|constructor].
    + unfold enter in Hon. rewrite Es in Hon. rewrite cresolve_eq in Hon. destruct Hon as [<-|[]].
      apply (post_reached F covW); [destruct cur; discriminate|exact Hcov].
Qed.

Lemma mainW : forall f todo trav,
  In (map fst todo) (g_calls F) -> abl (map fst todo) -> fa todo ->
  forall o, In o (cresolve gmatch view f [] todo trav) -> postW trav o.
Proof.
  induction f as [f IHf] using lt_wf_ind. intros todo trav Hq Habl Hfa o Ho.
  destruct todo as [|x r].
  - rewrite cresolve_eq in Ho. destruct Ho as [<-|[]]. split; [intros x Hx; left; exact Hx|]. exact (HW [] Hq).
  - refine (innerW f IHf (x :: r) [] trav _ (HC _ Hq) _ _ eq_refl Habl Hfa (HW _ Hq) o Ho).
    + constructor.
    + discriminate.
    + constructor.
Qed.

End MainW.

Section FinalW.
Variable gmatch : bytes -> bytes -> bool.
Variable view : list node.
Variable reqs : list bytes.

Lemma covW_covered F res y :
  (forall k, In k (resolved F) -> goodkey view reqs k) ->
  finish F = Some res -> covW gmatch view reqs F y -> covered gmatch res y = true.
Proof.
  intros Hgood Hfin (e & Hne & Hpcn & Hm & Hpp).
  destruct (resolved_in_result view reqs F res e Hgood Hfin Hne Hpcn Hm) as (ecs & w & He & Hc & _ & ->).
  unfold covered. apply existsb_exists. exists (joinc ecs). split; [exact He|].
  rewrite Hc. apply (pat_prefix_prefix gmatch ecs w y Hpp).
Qed.

(* the general form: all but the last component of every (cleaned) request, and every
   component of every link target, behave literally in this tree *)
Theorem result_closed_general : forall (fuel : nat) (isnil : bool) (res : list bytes),
  wf_view view = true ->
  follow_links_opt gmatch view fuel reqs = Ok (if isnil then None else Some res) ->
  no_revisit gmatch view fuel reqs = true ->
  lexical_safe view reqs = true ->
  (forall r, In r reqs -> abl gmatch view (norm_clamp (comps r))) ->
  (forall l, In l (forest_links view) -> Forall (elit gmatch view) (comps l)) ->
  closed_b gmatch view isnil res reqs = true.
Proof.
  intros fuel isnil res Hwf Hres Hnr Hls Hreqs Hlinks.
  apply (closed_b_by_request gmatch view reqs fuel isnil res Hres Hnr).
  intros follows F r EF Hfin HR Hr o Ho.
  destruct (final_state_facts gmatch view fuel reqs F EF) as (Hreq & HW & HE).
  destruct (final_state_shape gmatch view reqs fuel F EF) as (HC & HK).
  unfold wf_view in Hwf. apply andb_true_iff in Hwf. destruct Hwf as [Hwf0 Hwf'].
  unfold lexical_safe in Hls. apply andb_true_iff in Hls. destruct Hls as [Hls1 Hls2].
  rewrite forallb_forall in Hls1, Hls2.
  set (todo0 := map (fun c : bytes => (c, true)) (comps r)) in *.
  assert (Hfst : map fst todo0 = comps r) by (unfold todo0; rewrite map_map; cbn [fst]; apply map_id).
  assert (Hl : leading_dotdot_only (map fst todo0) = true) by (rewrite Hfst; apply Hls1; exact Hr).
  (* the outcome asks for no more than one of the cleaned request resolved from the root *)
  pose proof (cresolve_lexical gmatch view Hwf' todo0 [] follows [] [] view eq_refl (Forall_nil _) Hl) as Href.
  rewrite !app_nil_r in Href.
  destruct (Href o Ho) as (o' & Ho' & R).
  assert (Hn0 : map fst (normI [] todo0) = norm_clamp (comps r)).
  { rewrite normI_fst by (auto; constructor). cbn [app]. rewrite Hfst. reflexivity. }
  apply (post_closed_for F (covW gmatch view reqs F)); [intros y; apply covW_covered; assumption|exact Hfin|].
  apply (post_refines _ _ _ _ _ R).
  refine (mainW gmatch view reqs F Hwf' Hwf0 HW HE HR HC Hls2 Hlinks follows (normI [] todo0) [] _ _ _ o' Ho').
  - rewrite Hn0. apply Hreq. exact Hr.
  - rewrite Hn0. apply Hreqs. exact Hr.
  - apply fa_normI; [constructor|]. apply fa_flag.
Qed.

Lemma wild_last_only_abl q : wild_last_only_c q = true -> abl gmatch view q.
Proof.
  induction q as [|c q IH]; intros H; [exact I|]. cbn [abl]. destruct q as [|c2 q]; [exact I|].
  cbn [wild_last_only_c] in H. apply andb_true_iff in H. destruct H as [Hc Hq].
  split; [|apply IH; exact Hq]. unfold elit, quasi_literal. rewrite Hc. reflexivity.
Qed.

Lemma wild_last_only_reqs :
  wild_last_only reqs = true -> forall r, In r reqs -> abl gmatch view (norm_clamp (comps r)).
Proof.
  unfold wild_last_only. intros H r Hr. rewrite forallb_forall in H. apply wild_last_only_abl. apply H. exact Hr.
Qed.

Lemma links_literal_elit :
  links_literal view = true -> forall l, In l (forest_links view) -> Forall (elit gmatch view) (comps l).
Proof.
  unfold links_literal, literal_path. intros H l Hl. rewrite forallb_forall in H. specialize (H l Hl).
  rewrite forallb_forall in H. apply Forall_forall. intros c Hc. unfold elit, quasi_literal.
  rewrite (H c Hc). reflexivity.
Qed.

Lemma links_selfmatch_elit :
  links_selfmatch gmatch view = true -> forall l, In l (forest_links view) -> Forall (elit gmatch view) (comps l).
Proof.
  unfold links_selfmatch. intros H l Hl. rewrite forallb_forall in H. specialize (H l Hl).
  rewrite forallb_forall in H. apply Forall_forall. intros c Hc. exact (H c Hc).
Qed.

(* the full closure statement of C18 *)
Theorem result_closed_proof : forall (fuel : nat) (isnil : bool) (res : list bytes),
  wf_view view = true ->
  follow_links_opt gmatch view fuel reqs = Ok (if isnil then None else Some res) ->
  no_revisit gmatch view fuel reqs = true ->
  lexical_safe view reqs = true ->
  wild_last_only reqs = true ->
  links_literal view = true ->
  closed_b gmatch view isnil res reqs = true.
Proof.
  intros fuel isnil res Hwf Hres Hnr Hls Hwl Hll.
  apply (result_closed_general fuel isnil res Hwf Hres Hnr Hls (wild_last_only_reqs Hwl) (links_literal_elit Hll)).
Qed.

(* ... and with link targets whose pattern-like components match only their own text *)
Theorem result_closed_selfmatch_proof : forall (fuel : nat) (isnil : bool) (res : list bytes),
  wf_view view = true ->
  follow_links_opt gmatch view fuel reqs = Ok (if isnil then None else Some res) ->
  no_revisit gmatch view fuel reqs = true ->
  lexical_safe view reqs = true ->
  wild_last_only reqs = true ->
  links_selfmatch gmatch view = true ->
  closed_b gmatch view isnil res reqs = true.
Proof.
  intros fuel isnil res Hwf Hres Hnr Hls Hwl Hll.
  apply (result_closed_general fuel isnil res Hwf Hres Hnr Hls (wild_last_only_reqs Hwl) (links_selfmatch_elit Hll)).
Qed.

End FinalW.
