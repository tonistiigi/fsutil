(* C14 — copier.copy onto the destination root itself, and prepareTargetDir: the target it hands to
   copier.copy is the root or a name below a chain of real directories (tdesc). *)
From Coq Require Import List Arith NArith Lia Bool ZifyN ZifyNat ZifyBool.
From FS Require Import Sx Model.Path Model.Fs Model.RootPath Model.CopyFs Model.CopyFsSpec
  Proofs.Lex Proofs.PathP Proofs.FsP Proofs.RootPathStrP Proofs.FsCopyFrameP Proofs.FsCopyInvP
  Proofs.FsCopySafeP Proofs.FsCopyLinksP Proofs.FsCopySysP Proofs.CopyFsP Proofs.CopyFsNrP Proofs.CopyRecP Proofs.CopyFsRec2P Proofs.CopyFsTopP.
Import ListNotations.
Open Scope N_scope.
Open Scope bool_scope.

Local Opaque rfuel.

Section Top2.
  Variables (c : ctx) (f0 : fs) (dr : N) (dcs : list bytes).
  Notation Ctx := (Ctx c f0 dr dcs).
  Notation tpath := (tpath dcs).
  Notation SS := (SS f0 dr).
  Notation Tgt := (Tgt c f0 dr dcs).
  Notation names_ss := (names_ss f0 dr).
  Notation stays := (stays c f0 dr dcs).
  Notation stays_ok := (stays_ok c f0 dr dcs).
  Notation mstep := (mstep c f0 dr dcs).
  Notation meta_post := (meta_post c f0 dr dcs).
  Notation lok := (lok f0 dr dcs).
  Notation keeps_new := (keeps_new dr (f_next f0)).
  Notation gnew := (gnew dr (f_next f0)).
  Notation created_ok := (created_ok f0 dr dcs).
  Let rt := c_root c.
  Let b := f_next f0.

  Lemma utimens_root f t f' res : Ctx f -> sys_utimens c f (render dcs) t = (f', res) -> meta_post f f'.
  Proof.
    intros C H. destruct (sys_utimens_inv _ _ _ _ _ _ H) as [[-> _]|(j & n & m & E & Hg & -> & ->)].
    - apply meta_post_refl; auto.
    - rewrite (resolve_ino_root c f0 dr dcs f false C) in E. injection E as <-. apply t_put_meta; auto. eapply ctx_dr_SS; eauto.
  Qed.

  Lemma join_root_child n : Forall nm dcs -> nm n -> join2 (render dcs) n = tpath [] n.
  Proof.
    intros Hd Hn. apply join2_names; auto.
  Qed.

  Lemma lstat_opt_root s : Ctx (s_fs s) -> exists n, kind_is_dir n = true /\
    lstat_opt c (render dcs) s = ({| s_fs := s_fs s; s_links := s_links s; s_parents := s_parents s; s_reads := s_reads s |}, inl (Some (dr, n))) /\
    lstat_opt_nd c (render dcs) s = ({| s_fs := s_fs s; s_links := s_links s; s_parents := s_parents s; s_reads := s_reads s |}, inl (Some (dr, n))).
  Proof.
    intros C. destruct (stat_root c f0 dr dcs (s_fs s) C) as (n & Hk & _ & E). exists n. split; auto.
    rewrite lstat_opt_run, lstat_opt_nd_run, E. split; reflexivity.
  Qed.

  Section Reads.
    Variable R : N -> Prop.
    Variables SP SPN : bytes -> Prop.
    Hypothesis HR : reads_ok c f0 dr dcs R SP SPN.
    Notation rok := (CopyRecP.rok R).
    Notation pok := (CopyRecP.pok SPN).

  Notation cpost := (CopyRecP.cpost c f0 dr dcs R).

  (* copier.copy onto the destination root: the source must be a directory *)
  Lemma copy_rec_root_spec_r k o sl src s s' r :
    Ctx (s_fs s) -> lok s -> s_parents s = [] ->
    (forall ino fi, snd (sys_lstat c (s_fs s) src) = RStat ino fi -> kind_is_dir fi = true) ->
    SP src -> rok s ->
    copy_rec (S k) c o sl src [] (render dcs) false [] [] s = (s', r) ->
    cpost dr s (fun _ s' => s_parents s' = []) s' r.
  Proof.
    intros C L Hst Hsrc Hsp Rk H. cbn [copy_rec] in H. rewrite bind_run in H. unfold get_fs at 1 in H.
    assert (Hdr : is_dir (s_fs s) dr = true) by (eapply chain_end_dir; apply (cx_root _ _ _ _ _ C)).
    apply (src_lstat_spec c f0 dr dcs R SP SPN HR dr src _ _ s s' r C Hsp Rk H). clear H Rk.
    intros s1 ino fi F1 L1 P1 Rk1 Esrc Hspn H.
    pose proof (Hsrc ino fi Esrc) as Hkd.
    assert (Hsn : SPN src).
    { apply Hspn. unfold kind_is_dir in Hkd. unfold kind_is_link. destruct (i_kind fi); auto; discriminate. }
    assert (C1 : Ctx (s_fs s1)) by (rewrite F1; exact C).
    destruct (lstat_opt_root s1 C1) as (n & Hkn & El & Eln).
    rewrite bind_run, Eln in H. cbv zeta in H. cbn [is_nil fst snd andb negb] in H.
    set (s2 := {| s_fs := s_fs s1; s_links := s_links s1; s_parents := s_parents s1; s_reads := s_reads s1 |}) in H.
    (* createParentDirs: the stack is empty *)
    assert (Ecp : create_parent_dirs c o false s2 = (CopyRecP.setp s2 [], inl tt)).
    { unfold create_parent_dirs. rewrite bind_run, get_parents_run. cbn [s_parents s2]. rewrite P1, Hst. reflexivity. }
    rewrite bind_run, Ecp in H.
    set (s3 := CopyRecP.setp s2 []) in H.
    (* prep_rest does nothing: both are directories *)
    assert (Epr : prep_rest c o (render dcs) fi (Some (dr, n)) s3 = (s3, inl tt)).
    { unfold prep_rest. rewrite bind_run.
      assert (E2 : remove_target_if_needed c o (render dcs) fi (Some (dr, n)) s3 = (s3, inl tt)).
      { unfold remove_target_if_needed. destruct (negb (o_always_replace o)); [reflexivity|]. rewrite Hkd, Hkn. reflexivity. }
      rewrite E2. rewrite Hkd. reflexivity. }
    rewrite bind_run, Epr in H.
    unfold kind_is_dir in Hkd. destruct (i_kind fi) as [pp es|?|?|? ?] eqn:Ek; try discriminate.
    (* copy_directory_only does nothing *)
    destruct (lstat_opt_root s3 C1) as (n2 & Hkn2 & El2 & _).
    rewrite bind_run in H. unfold copy_directory_only in H. rewrite bind_run, El2 in H. rewrite Hkn2 in H. cbn [negb ret] in H.
    match type of H with _ ?sX = _ => set (s4 := sX) in H end.
    apply (cpost_from c f0 dr dcs R dr s s4); [exact F1|exact L1|].
    assert (Hc : chain (s_fs s4) dr [] dr) by (constructor; exact (chain_end_dir _ _ _ _ (cx_root _ _ _ _ _ C1))).
    apply (walk_dir_spec c f0 dr dcs R SP SPN HR k o sl src [] (render dcs) [] dr [] dr [] true _ _ _ _ s4 s' r
             (copy_rec_spec_r c f0 dr dcs R SP SPN HR k)) with (2 := H); auto; try (constructor; fail).
    { rewrite app_nil_r. reflexivity. }
    { unfold CopyFsP.lok. cbn [s_fs s_links s4 s3 s2 CopyRecP.setp]. rewrite F1, L1. exact L. }
    clear H. intros s6 _ (C6 & _ & Pa6) L6 Rk6 H. apply stack_post_made in Pa6; [|reflexivity].
    rewrite bind_run, pop_parent_run in H. rewrite Pa6, removelast_last in H.
    apply (cpost_from c f0 dr dcs R dr s6 (CopyRecP.setp s6 [])); [reflexivity|reflexivity|].
    cbn [orb] in H. unfold copy_file_timestamp in H. cbv zeta in H.
    rewrite bind_run, sys_run in H. cbn [fst snd s_fs CopyRecP.setp] in H.
    destruct (sys_utimens c (s_fs s6) (render dcs) _) as [f8 r8] eqn:E8. cbn [fst snd] in H.
    pose proof (utimens_root (s_fs s6) _ f8 r8 C6 E8) as M8.
    rewrite expect_ok_run in H. injection H as <- <-.
    apply cpost_stays; [apply (stays_meta c f0 dr dcs dr (CopyRecP.setp s6 []) f8 M8)|exact Rk6|intros _ _; reflexivity].
  Qed.
  End Reads.

  Lemma copy_rec_root_spec k o sl src s s' r :
    Ctx (s_fs s) -> lok s -> s_parents s = [] ->
    (forall ino fi, snd (sys_lstat c (s_fs s) src) = RStat ino fi -> kind_is_dir fi = true) ->
    copy_rec (S k) c o sl src [] (render dcs) false [] [] s = (s', r) ->
    stays_ok dr s s' r /\ (ok_res r -> s_parents s' = []).
  Proof.
    intros C L Hst Hsrc H.
    destruct (copy_rec_root_spec_r _ _ _ (reads_ok_any c f0 dr dcs) k o sl src s s' r) as (S & P & _); auto using rok_any; try exact I.
    split; [exact S|]. intros [a E]. exact (P a E).
  Qed.

  (* a path above (or at) the root: MkdirAll finds it and does nothing *)
  Lemma mkdir_all_above k o f p m s s' r : s_fs s = f -> chain f rt p m -> Forall nm p -> Forall nonul p -> (length p < rfuel)%nat ->
    mkdir_all k c o (render p) s = (s', r) -> s_fs s' = f /\ s_links s' = s_links s /\ s_parents s' = s_parents s /\ (forall cr, r = inl cr -> cr = []).
  Proof.
    intros <- Hc Hd Hn Hl H. destruct k as [|k].
    - cbn [mkdir_all] in H. unfold fail in H. injection H as <- <-. repeat split; auto. discriminate.
    - cbn [mkdir_all] in H. rewrite sys_bind, sys_stat_fs in H.
      unfold sys_stat in H. rewrite (resolve_ino_chain c (s_fs s) p m true Hc Hd Hn Hl) in H.
      destruct (is_dir_get _ _ (chain_end_dir _ _ _ _ Hc)) as (nn & Eg & Hk). rewrite Eg in H. cbn [snd] in H. rewrite Hk in H.
      cbn [ret] in H. injection H as <- <-. repeat split; auto. intros cr Hcr. inversion Hcr; auto.
  Qed.

  (* what copier.copy is called on after prepareTargetDir: the root itself (only for a source that is a directory),
     or a name in a directory reached through real directories *)
  Inductive tdesc (f : fs) (sf dest1 : bytes) : Prop :=
  | td_root : dest1 = render dcs ->
      (forall ino fi, snd (sys_lstat c f sf) = RStat ino fi -> kind_is_dir fi = true) -> tdesc f sf dest1
  | td_below : forall cs1 x d1, dest1 = tpath cs1 x -> Forall nm cs1 -> Forall nonul cs1 -> nm x -> nonul x ->
      chain f dr cs1 d1 -> tdesc f sf dest1.

  Lemma ptd_tail k o sf L1 (tflag : bool) s s' r :
    Ctx (s_fs s) -> Forall nm L1 -> Forall nonul L1 ->
    link_free (s_fs s) dr (removelast L1) = true -> (tflag = true -> link_free (s_fs s) dr L1 = true) ->
    (L1 = [] -> forall ino fi, snd (sys_lstat c (s_fs s) sf) = RStat ino fi -> kind_is_dir fi = true) ->
    (created <~ mkdir_all k c o (if tflag then render (dcs ++ L1) else dir (render (dcs ++ L1))) ;;
     ret (render (dcs ++ L1), created)) s = (s', r) ->
    stays dr s s' /\ s_links s' = s_links s /\
    (forall d1 created, r = inl (d1, created) -> tdesc (s_fs s') sf d1 /\ Forall (created_ok (s_fs s')) created).
  Proof.
    intros C Hn Hnul Hlf Hlft Hroot H. rewrite bind_run in H.
    pose proof (cx_dcs _ _ _ _ _ C) as Hd. pose proof (cx_dnul _ _ _ _ _ C) as Hdn.
    pose proof (cx_len _ _ _ _ _ C) as Hl. pose proof (cx_root _ _ _ _ _ C) as Hrc. fold rt in Hrc.
    destruct L1 as [|x0 L0 _] using rev_ind.
    - (* the root: nothing is created *)
      rewrite app_nil_r in H.
      assert (Habove : exists p m, (if tflag then render dcs else dir (render dcs)) = render p /\
                chain (s_fs s) rt p m /\ Forall nm p /\ Forall nonul p /\ (length p < rfuel)%nat).
      { destruct tflag; [exists dcs, dr; auto|].
        destruct dcs as [|y0 l0 _] using rev_ind.
        - exists [], dr. rewrite dir_render_nil. auto.
        - rewrite dir_render by auto. destruct (chain_split (s_fs s) l0 rt [y0] dr Hrc) as (m & P & _).
          apply Forall_app in Hd, Hdn. exists l0, m. repeat split; try tauto. rewrite app_length in Hl. simpl in Hl. lia. }
      destruct Habove as (p & m & Ep & Hc & Hp1 & Hp2 & Hp3). rewrite Ep in H.
      destruct (mkdir_all k c o (render p) s) as [s1 r1] eqn:E1.
      destruct (mkdir_all_above k o (s_fs s) p m s s1 _ eq_refl Hc Hp1 Hp2 Hp3 E1) as (F1 & L1 & Q1 & P1).
      destruct r1 as [cr|e]; injection H as <- <-; (split; [apply stays_same; auto|]; split; auto); [|discriminate].
      rewrite (P1 cr eq_refl). intros d1 created Hr. inversion Hr; subst.
      split; [|constructor]. apply td_root; auto. rewrite F1. apply Hroot. reflexivity.
    - (* below the root *)
      clear Hroot. rewrite removelast_last in Hlf.
      apply Forall_app in Hn. destruct Hn as [Hn0 Hx0]. inversion Hx0 as [|? ? Hx1 _]; subst.
      apply Forall_app in Hnul. destruct Hnul as [Hnul0 Hxn0]. inversion Hxn0 as [|? ? Hxn1 _]; subst.
      assert (Hdir : dir (render (dcs ++ L0 ++ [x0])) = render (dcs ++ L0)).
      { rewrite app_assoc. apply dir_render. rewrite <- app_assoc. repeat (apply Forall_app; split; auto). }
      assert (Hn1 : Forall nm (L0 ++ [x0])) by (apply Forall_app; split; auto).
      assert (Hnul1 : Forall nonul (L0 ++ [x0])) by (apply Forall_app; split; auto).
      destruct tflag; [specialize (Hlft eq_refl)|rewrite Hdir in H].
      + destruct (mkdir_all k c o (render (dcs ++ L0 ++ [x0])) s) as [s1 r1] eqn:E1.
        destruct (mkdir_all_spec c f0 dr dcs k o (L0 ++ [x0]) s s1 _ C Hn1 Hnul1 Hlft E1) as (S1 & EL1 & P1).
        destruct r1 as [cr|e]; injection H as <- <-; (split; auto; split; auto); [|discriminate].
        intros d1 created Hr. inversion Hr; subst. destruct (P1 created eq_refl) as ((d & Hcd) & Hcr).
        split; auto. destruct (chain_split (s_fs s1) L0 dr [x0] d Hcd) as (m & P & _).
        eapply (td_below _ _ _ L0 x0 m); eauto.
      + destruct (mkdir_all k c o (render (dcs ++ L0)) s) as [s1 r1] eqn:E1.
        destruct (mkdir_all_spec c f0 dr dcs k o L0 s s1 _ C Hn0 Hnul0 Hlf E1) as (S1 & EL1 & P1).
        destruct r1 as [cr|e]; injection H as <- <-; (split; auto; split; auto); [|discriminate].
        intros d1 created Hr. inversion Hr; subst. destruct (P1 created eq_refl) as ((d & Hcd) & Hcr).
        split; auto. eapply (td_below _ _ _ L0 x0 d); eauto.
  Qed.

  Lemma link_free_removelast_gen f d cs : link_free f d cs = true -> link_free f d (removelast cs) = true.
  Proof.
    intros H. destruct cs as [|y cs _] using rev_ind; [reflexivity|].
    rewrite removelast_last. eapply RootPathP.link_free_prefix; eauto.
  Qed.

  Lemma ptd_spec k o sf src cs s s' r :
    Ctx (s_fs s) -> Forall nm cs -> Forall nonul cs -> link_free (s_fs s) dr cs = true -> has_nul src = false ->
    (join2 [sep] src = [sep] -> forall ino fi, snd (sys_lstat c (s_fs s) sf) = RStat ino fi -> kind_is_dir fi = true) ->
    prepare_target_dir k c o sf src (render (dcs ++ cs)) s = (s', r) ->
    stays dr s s' /\ s_links s' = s_links s /\
    (forall d1 created, r = inl (d1, created) -> tdesc (s_fs s') sf d1 /\ Forall (created_ok (s_fs s')) created).
  Proof.
    intros C Hn Hnul Hlf Hsn Hsrc H. unfold prepare_target_dir in H.
    rewrite sys_bind, sys_lstat_fs in H.
    assert (Hdr : is_dir (s_fs s) dr = true) by (eapply chain_end_dir; apply (cx_root _ _ _ _ _ C)).
    assert (Hfail : forall s1 (r1 : (bytes * list bytes) + N), s_fs s1 = s_fs s -> s_links s1 = s_links s -> s_parents s1 = s_parents s -> (forall a, r1 <> inl a) ->
              stays dr s s1 /\ s_links s1 = s_links s /\
              (forall d1 created, r1 = inl (d1, created) -> tdesc (s_fs s1) sf d1 /\ Forall (created_ok (s_fs s1)) created)).
    { intros s1 r1 E1 E2 E3 Hr. split; [apply stays_same; auto|]. split; auto. intros d1 cr Hx. exfalso. eapply Hr; eauto. }
    destruct (snd (sys_lstat c (s_fs s) sf)) as [|e|sino sfi| | |] eqn:Esf;
      try (unfold fail in H; injection H as <- <-; apply Hfail; auto; discriminate).
    rewrite bind_run, log_read_run in H. cbn [s_fs s_links s_parents s_reads mk] in H.
    set (s1 := {| s_fs := s_fs s; s_links := s_links s; s_parents := s_parents s; s_reads := sino :: s_reads s |}) in H.
    rewrite bind_run, stat_opt_run in H. change (s_fs s1) with (s_fs s) in H.
    set (s2 := mk s1 (s_fs s)) in H.
    assert (C2 : Ctx (s_fs s2)) by exact C.
    destruct (opt_stat false (snd (sys_stat c (s_fs s) (render (dcs ++ cs))))) as [dfi|e] eqn:Est;
      cbv beta iota in H; [|injection H as <- <-; apply Hfail; auto; discriminate].
    (* Stat of the root itself finds the directory dr *)
    assert (Hdfi : cs = [] -> exists n, dfi = Some (dr, n) /\ kind_is_dir n = true).
    { intros ->. rewrite app_nil_r in Est. destruct (stat_root c f0 dr dcs (s_fs s) C) as (n' & Hk & E' & _).
      rewrite E' in Est. injection Est as <-. eauto. }
    cbv zeta in H.
    set (sdir := kind_is_dir sfi) in *.
    set (dexists := match dfi with Some _ => true | None => false end) in *.
    set (ddir := match dfi with Some (_, n) => kind_is_dir n | None => false end) in *.
    set (cond := (negb (o_dir_contents o) && sdir && dexists) || (negb sdir && dexists && ddir)) in *.
    set (tflag := o_dir_contents o && sdir && negb dexists) in *.
    destruct (join_sep_names src Hsn) as (l & El & Hl1 & Hl2). rewrite El in H.
    assert (Hall : Forall nm (dcs ++ cs)) by (apply Forall_app; split; [apply (cx_dcs _ _ _ _ _ C)|auto]).
    (* the components of dest1 below the root *)
    assert (HL : exists L1, (if cond then join2 (render (dcs ++ cs)) (base (render l)) else render (dcs ++ cs)) = render (dcs ++ L1)
              /\ Forall nm L1 /\ Forall nonul L1 /\ (L1 = cs \/ (cond = true /\ exists xb, L1 = cs ++ [xb]))
              /\ (L1 = [] -> sdir = true)).
    { assert (Hcs0 : cs = [] -> cond = false -> sdir = true).
      { intros E0 Hc0. destruct (Hdfi E0) as (n & -> & Hk). unfold cond, dexists, ddir in Hc0. rewrite Hk in Hc0.
        destruct sdir; auto. simpl in Hc0. rewrite !andb_true_r in Hc0. destruct (negb (o_dir_contents o)); discriminate. }
      destruct cond eqn:Ec.
      - destruct l as [|xb l' _] using rev_ind.
        + rewrite base_render_nil, join2_render_sep by auto. exists cs. repeat split; auto.
          intros E0. (* src is lexically the root: sf is a directory *)
          apply (Hsrc El sino sfi). reflexivity.
        + pose proof Hl1 as Hl1'. apply Forall_app in Hl1, Hl2. destruct Hl1 as [_ Hx1], Hl2 as [_ Hx2]. inversion Hx1; inversion Hx2; subst.
          rewrite base_render by exact Hl1'.
          rewrite join2_names by auto. exists (cs ++ [xb]). rewrite <- app_assoc.
          repeat split; auto; try (apply Forall_app; split; auto).
          * right. split; auto. eauto.
          * intros E0. destruct cs; discriminate.
      - exists cs. repeat split; auto. }
    destruct HL as (L1 & EL1 & HL1 & HL2 & HLc & HLr). rewrite EL1 in H.
    assert (Hlf1 : link_free (s_fs s2) dr (removelast L1) = true).
    { destruct HLc as [->|(_ & xb & ->)]; [apply link_free_removelast_gen; auto|rewrite removelast_last; auto]. }
    assert (Hlf2 : tflag = true -> link_free (s_fs s2) dr L1 = true).
    { intros Ht. destruct HLc as [->|(Hc1 & xb & ->)]; auto. exfalso.
      unfold tflag, cond in *. destruct dexists.
      - rewrite !andb_false_r in Ht. discriminate.
      - destruct (negb (o_dir_contents o)), sdir, ddir; simpl in Hc1; discriminate. }
    assert (Hroot : L1 = [] -> forall ino fi, snd (sys_lstat c (s_fs s2) sf) = RStat ino fi -> kind_is_dir fi = true).
    { intros E0 ino fi Hx. change (s_fs s2) with (s_fs s) in Hx. rewrite Esf in Hx. inversion Hx; subst. apply HLr; auto. }
    destruct (ptd_tail k o sf L1 tflag s2 s' r C2 HL1 HL2 Hlf1 Hlf2 Hroot H) as (S & EL & P).
    split; [eapply stays_trans; [exact Hdr|apply (stays_same c f0 dr dcs dr s s2); auto|exact S]|]. split; auto.
  Qed.
End Top2.
