(* C04 rerun_converges (partial): a fault-free transfer into whatever an earlier run left
   behind.  Composition of
     - the LTS theorems of C04/C08 (Proofs/LtsLive3, LtsClean5, LtsC08, LtsTok, LtsContent3)
       for the instance [rerun_params] of Model/LtsRerun.v,
     - C02 reqs_exact (Proofs/ReceiveP.v) and C01 converges_from_any_prior (Proofs/C01TopP.v)
       for the same pair of listings. *)
From Coq Require Import List NArith Arith Bool PeanoNat Lia Permutation.
From FS Require Import Sx Model.Path Model.Stat Model.Diff Model.AbsDest Model.Converge Model.ConvergeA
  Proofs.Lex Proofs.ReceiveP Proofs.ConvergeP Proofs.C01TopP.
From FS Require Import Model.Lts Model.LtsExplore Model.LtsRerun
  Proofs.LtsInv Proofs.LtsSafe Proofs.LtsTerm Proofs.LtsC08 Proofs.LtsTok
  Proofs.LtsContent3 Proofs.LtsClean1 Proofs.LtsClean3 Proofs.LtsClean5 Proofs.LtsLive3.
Import ListNotations.
Local Open Scope nat_scope.

Section Rerun.
Variable d : differ.
Variable LA : list stat.
Variable chunks : bytes -> nat.

Definition needs_b (b : stat) : bool := wants_content b && negb (unchanged_b d LA b).

Lemma rerun_kind_need : forall b, rerun_kind d LA b = ENeed <-> needs_b b = true.
Proof.
  intro b. unfold rerun_kind, needs_b.
  destruct (unchanged_b d LA b), (wants_content b); cbn; split; intro K; try reflexivity; discriminate K.
Qed.

(* the ids whose content the LTS instance needs, read as paths, are the request set of the
   destination-level model, in the same order *)
Lemma need_ids_paths : forall (suf pre : list AbsDest.entry),
  map (path_of_id (pre ++ suf)) (need_ids_from (length pre) (map (rerun_entry d LA chunks) suf))
  = map st_path (filter needs_b (map fst suf)).
Proof.
  induction suf as [|e suf IH]; intro pre; [reflexivity|].
  assert (T: map (path_of_id (pre ++ e :: suf)) (need_ids_from (S (length pre)) (map (rerun_entry d LA chunks) suf))
             = map st_path (filter needs_b (map fst suf))).
  { specialize (IH (pre ++ [e])). rewrite <- app_assoc in IH. cbn [app] in IH.
    rewrite app_length in IH. cbn [length] in IH. rewrite Nat.add_1_r in IH. exact IH. }
  assert (Hd: path_of_id (pre ++ e :: suf) (length pre) = st_path (fst e)).
  { unfold path_of_id. rewrite nth_error_app2 by apply Nat.le_refl. rewrite Nat.sub_diag. reflexivity. }
  cbn [map need_ids_from filter]. cbn [rerun_entry e_kind]. unfold rerun_kind, needs_b.
  destruct (unchanged_b d LA (fst e)), (wants_content (fst e)); try exact T.
  cbn [andb negb map]. rewrite Hd, T. reflexivity.
Qed.
End Rerun.

Lemma need_ids_rerun : forall W P C C2 capSR capRS d chunks A B,
  map (path_of_id B) (need_ids (rerun_params W P C C2 capSR capRS d chunks A B))
  = reqs_spec d (map fst A) (map fst B).
Proof.
  intros. unfold need_ids, rerun_params, reqs_spec. cbn [p_entries].
  exact (need_ids_paths d (map fst A) chunks B []).
Qed.

Lemma rerun_entry_at : forall W P C C2 capSR capRS d chunks A B i,
  entry_at (rerun_params W P C C2 capSR capRS d chunks A B) i
  = option_map (rerun_entry d (map fst A) chunks) (nth_error B i).
Proof.
  intros. unfold entry_at, rerun_params. cbn [p_entries].
  apply nth_error_map.
Qed.

Lemma rerun_wf_params : forall W P C C2 capSR capRS d chunks A B,
  sender_serves B -> wf_params (rerun_params W P C C2 capSR capRS d chunks A B).
Proof.
  intros W P C C2 capSR capRS d chunks A B HS i. unfold kind_of, is_file.
  rewrite rerun_entry_at. destruct (nth_error B i) as [[sb bb]|] eqn:E; cbn [option_map]; [|discriminate].
  cbn [rerun_entry e_kind e_file fst]. intro K.
  apply rerun_kind_need in K. unfold needs_b in K. apply andb_prop in K. destruct K as [K _].
  exact (HS sb bb (nth_error_In _ _ E) K).
Qed.

Lemma rerun_expected_chunks : forall W P C C2 capSR capRS d chunks A B id sb bb,
  nth_error B id = Some (sb, bb) ->
  expected_chunks (rerun_params W P C C2 capSR capRS d chunks A B) id
  = if wants_content sb && negb (unchanged_b d (map fst A) sb) then chunks bb else 0.
Proof.
  intros W P C C2 capSR capRS d chunks A B id sb bb E.
  unfold expected_chunks, kind_of, chunks_of. rewrite rerun_entry_at. unfold AbsDest.entry in *. rewrite E. cbn [option_map].
  cbn [rerun_entry e_kind e_chunks fst snd]. unfold rerun_kind.
  destruct (unchanged_b d (map fst A) sb), (wants_content sb); reflexivity.
Qed.

(* executable forms of the hypotheses, for the satisfiability example *)
Lemma sender_serves_b_sound : forall B, sender_serves_b B = true -> sender_serves B.
Proof.
  intros B K sb bb I W. unfold sender_serves_b in K. rewrite forallb_forall in K.
  specialize (K _ I). cbn [fst] in K. rewrite W in K. exact K.
Qed.

Lemma leftovers_distinguishable_b_sound : forall A B,
  leftovers_distinguishable_b A B = true -> leftovers_distinguishable A B.
Proof.
  intros A B K sa ba sb bb IA IB EP R. unfold leftovers_distinguishable_b in K.
  rewrite forallb_forall in K. specialize (K _ IA). rewrite forallb_forall in K. specialize (K _ IB).
  cbn [fst snd] in K. rewrite EP, R in K.
  assert (Q: bytes_eqb (st_path sb) (st_path sb) = true) by (apply Lex.bytes_eqb_eq; reflexivity).
  rewrite Q in K. cbn [negb orb] in K.
  destruct (bytes_eqb ba bb) eqn:E1; [left; apply Lex.bytes_eqb_eq; exact E1|].
  right. cbn [orb] in K.
  destruct (N.eqb (st_size sa) (st_size sb)) eqn:E2; [|left; apply N.eqb_neq; exact E2].
  right. cbn [negb orb] in K.
  destruct (N.eqb (st_mtime sa) (st_mtime sb)) eqn:E3; [|left; apply N.eqb_neq; exact E3].
  right. cbn [negb orb] in K. apply N.eqb_neq. destruct (N.eqb (st_mode sa) (st_mode sb)); [discriminate K|reflexivity].
Qed.

Lemma rerun_converges_partial_proof :
  forall (H : bytes -> bytes) (hdr : stat -> bytes) (d : differ) (chunks : bytes -> nat)
         (W P C C2 capSR capRS : nat) (D' B : list AbsDest.entry),
  W >= 1 -> wf_entries D' -> wf_entries B -> sender_serves B -> leftovers_distinguishable D' B ->
  let p := rerun_params W P C C2 capSR capRS d chunks D' B in
  let r := receive_abs H hdr Fresh d D' B in
  (forall ls st, fault_free ls -> run p (init p) ls = Some st ->
     length ls <= nu p (init p) /\
     (final st = false -> exists l, fault_free_label l = true /\ step p st l <> None) /\
     (final st = true ->
        send_ret st = Some true /\ recv_ret st = Some true /\
        Permutation (map (path_of_id B) (reqs st)) (ds_reqs r) /\
        Permutation (map (path_of_id B) (completed st)) (ds_reqs r) /\
        (forall id sb bb, nth_error B id = Some (sb, bb) ->
           count_occ Nat.eq_dec (written st) id
           = if wants_content sb && negb (unchanged_b d (map fst D') sb) then chunks bb else 0))) /\
  ds_err r = false /\ approx D' B (view_of (ds_map r)).
Proof.
  intros H hdr d chunks W P C C2 capSR capRS D' B HW HwA HwB HS HL p r.
  assert (WF: wf_params p) by (apply rerun_wf_params; exact HS).
  assert (RQ: ds_reqs r = map (path_of_id B) (need_ids p)).
  { unfold r, p. rewrite need_ids_rerun.
    destruct HwA as [HwA HlA]. destruct HwB as [HwB HlB].
    exact (reqs_exact_proof H hdr d D' B HwA HwB (links_canon_ok _ HlB) (faithful_from_stamps d D' B HL)). }
  split; [|exact (converges_from_any_prior_top H hdr d D' B HwA HwB HL)].
  intros ls st F Run.
  destruct (fault_free_completes_proof p ls st WF HW F Run) as (Hlen & Hprog & Hfin).
  split; [exact Hlen|]. split; [exact Hprog|].
  intro Fin. destruct (Hfin Fin) as [HSr HRr].
  assert (R: reachable p st) by (eapply run_reachable; [apply reach_init | exact Run]).
  split; [exact HSr|]. split; [exact HRr|].
  split; [|split].
  - rewrite RQ. apply Permutation_map. exact (success_requests_permutation_proof p st R HRr).
  - rewrite RQ. apply Permutation_map. exact (success_completed_permutation_proof p st R HRr).
  - intros id sb bb E.
    assert (OE: g_open_err st = false).
    { rewrite (open_err_run _ _ _ _ Run (fault_free_not_open ls F)). reflexivity. }
    rewrite (success_written_count_occ_proof p st R HRr OE id).
    exact (rerun_expected_chunks W P C C2 capSR capRS d chunks D' B id sb bb E).
Qed.
