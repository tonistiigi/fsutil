(* C01 — the predicted observation the harness compares the real destination with ([view_x]:
   AbsDest's map + directory mtimes + xattrs per INODE, Model/ConvergeA.v) satisfies the
   convergence relation: a directory created by the transfer has no old keys under the new ones,
   and every name of an inode created by the transfer carries the xattrs of the source's group. *)
From Coq Require Import List NArith Lia Bool Sorting.Sorted.
From FS Require Import Sx Model.Path Model.Stat Model.Diff Model.AbsDest Model.Converge Model.ConvergeA
  Proofs.Lex Proofs.PathP Proofs.DiffP Proofs.AbsDestP Proofs.ReceiveP Proofs.ApplyInoP Proofs.OracleP
  Proofs.ConvergeP Proofs.MergeP Proofs.DirTimesP.
Import ListNotations.
Open Scope N_scope.
Open Scope bool_scope.

Lemma xget_in X kv : In kv X -> xget (fst kv) X <> None.
Proof.
  unfold xget. induction X as [|y X IH]; [intros []|]. simpl. intros [->|Hin].
  - rewrite bytes_eqb_refl. discriminate.
  - destruct (bytes_eqb (fst y) (fst kv)); [discriminate|auto].
Qed.

Lemma xoverlay_same X : xoverlay X X = X.
Proof.
  unfold xoverlay.
  assert (Hf : forall Y, (forall kv, In kv Y -> In kv X) ->
             filter (fun kv => match xget (fst kv) X with Some _ => false | None => true end) Y = []).
  { induction Y as [|y Y IH]; intros Hy; [reflexivity|]. simpl.
    pose proof (xget_in X y (Hy y (or_introl eq_refl))) as Hn.
    destruct (xget (fst y) X); [|congruence]. apply IH. intros kv Hk. apply Hy. right; auto. }
  rewrite Hf; [apply app_nil_r|auto].
Qed.

Lemma xoverlay_nil X : xoverlay [] X = X.
Proof. unfold xoverlay. simpl. apply app_nil_r. Qed.

Lemma fold_overlay_const X (members : list obs) :
  (forall x, In x members -> o_xattrs x = X) ->
  fold_left (fun acc x => xoverlay acc (o_xattrs x)) members X = X.
Proof.
  induction members as [|m members IH]; intros Hm; [reflexivity|]. simpl.
  rewrite (Hm m (or_introl eq_refl)), xoverlay_same. apply IH. intros x Hx. apply Hm. right; auto.
Qed.

Lemma first_in (members : list obs) : forall m,
  In (fold_left (fun best x => if path_ltb (o_path x) (o_path best) then x else best) members m) (m :: members).
Proof.
  induction members as [|y members IH]; intros m; simpl; [auto|].
  destruct (path_ltb (o_path y) (o_path m)).
  - destruct (IH y) as [E|Hin]; [right; left; exact E|right; right; exact Hin].
  - destruct (IH m) as [E|Hin]; [left; exact E|right; right; exact Hin].
Qed.

Lemma group_xattrs_const pred m X :
  o_xattrs m = X ->
  (forall x, In x pred -> o_ino x = o_ino m -> o_xattrs x = X) ->
  group_xattrs pred m = X.
Proof.
  intros Hm Hall. unfold group_xattrs.
  set (members := filter (fun x => N.eqb (o_ino x) (o_ino m) && negb (N.eqb (o_type x) S_IFDIR)) pred).
  assert (Hmem : forall x, In x members -> o_xattrs x = X).
  { intros x Hx. apply filter_In in Hx. destruct Hx as [Hx Hc]. apply andb_true_iff in Hc. destruct Hc as [Hc _].
    apply N.eqb_eq in Hc. auto. }
  assert (Hfirst : o_xattrs (fold_left (fun best x => if path_ltb (o_path x) (o_path best) then x else best) members m) = X).
  { destruct (first_in members m) as [<-|Hin]; auto. }
  rewrite Hfirst. apply fold_overlay_const; auto.
Qed.

Lemma rex_with A pred m : exists x, rex A pred m = with_xattrs m x.
Proof. unfold rex. destruct (N.eqb (o_type m) S_IFDIR); eauto. Qed.

Lemma rex_path A pred m : o_path (rex A pred m) = o_path m.
Proof. destruct (rex_with A pred m) as [x ->]. reflexivity. Qed.

Lemma rex_ino A pred m : o_ino (rex A pred m) = o_ino m.
Proof. destruct (rex_with A pred m) as [x ->]. reflexivity. Qed.

Lemma entry_ok_rex A pred created s c dd :
  entry_ok created s c dd ->
  (created = true -> unix_type_of_gomode (st_mode s) = S_IFREG \/ unix_type_of_gomode (st_mode s) = S_IFDIR ->
   o_xattrs (rex A pred dd) = st_xattrs s) ->
  entry_ok created s c (rex A pred dd).
Proof.
  intros (H1 & H2 & H3 & H4 & H5 & H6 & H7 & H8 & H9 & H10 & H11) Hx.
  destruct (rex_with A pred dd) as [x E]. rewrite E in *.
  unfold entry_ok. cbv zeta. simpl. repeat (split; [assumption|]). exact Hx.
Qed.

Section XV.
Variable H : bytes -> bytes.
Variable hdr : stat -> bytes.
Variable now : N -> N.
Variable d : differ.
Variables A B : list AbsDest.entry.
Hypothesis HA : wf_entries A.
Hypothesis HB : wf_entries B.
Hypothesis Hfaith : AbsDest.identity_faithful d A B.

Theorem view_x_converges_proof :
  let s := receive_t now Fresh d A B in
  ts_err s = false /\ approx A B (view_x A s).
Proof.
  cbv zeta. destruct (dir_mtimes_fresh_proof H hdr now d A B HA HB Hfaith) as (Herr & Emap & Happ).
  split; [exact Herr|]. destruct HA as [HwA HlA]. destruct HB as [HwB HlB].
  set (s := receive_t now Fresh d A B) in *. set (pred := view_t s) in *.
  unfold view_x. fold pred. apply (approx_map _ (rex_path A pred) (rex_ino A pred)); [|exact Happ].
  intros st c dd Hin Hd Hok. apply entry_ok_rex; [exact Hok|].
  intros Hcr Hty.
  unfold pred, view_t in Hd. rewrite (find_obs_map _ (retime_path _)), Emap, find_obs_view_of in Hd.
  destruct (alookup (st_path st) (ds_map (receive_abs H hdr Fresh d A B))) as [x|] eqn:Hx; [|discriminate].
  simpl in Hd. inversion Hd as [Edd]. clear Hd. rewrite Edd.
  destruct Hok as (Hpath & Hty' & _ & _ & _ & _ & _ & _ & _ & _ & Hxo).
  specialize (Hxo Hcr Hty). unfold rex. rewrite Hty'.
  destruct Hty as [Hreg|Hdir].
  - (* regular file whose inode the transfer created *)
    rewrite Hreg. simpl. apply group_xattrs_const; [exact Hxo|].
    intros x' Hx' Hino.
    unfold pred, view_t in Hx'. rewrite Emap in Hx'. apply in_map_iff in Hx'. destruct Hx' as (y & <- & Hy).
    apply in_map_iff in Hy. destruct Hy as ([q v] & <- & Hqv). simpl fst in *. simpl snd in *.
    assert (Exa : forall ov o, o_xattrs (retime ov o) = o_xattrs o).
    { intros ov o. unfold retime. destruct (N.eqb (o_type o) S_IFDIR); auto. destruct (alookup (o_path o) ov); auto. }
    rewrite Exa. simpl.
    apply (fresh_group_xattrs H hdr d A B HwA HwB HlA HlB Hfaith st c x Hin) with (q := q); auto.
    + unfold Converge.is_reg. rewrite Hreg. reflexivity.
    + rewrite retime_ino in Hino. rewrite <- Edd in Hino. rewrite retime_ino in Hino. simpl in Hino. exact Hino.
  - (* directory created by the transfer: nothing was there to keep keys from *)
    rewrite Hdir. simpl. rewrite Hxo, Hpath. unfold old_dir_xattrs. rewrite efind_find_entry.
    unfold inode_created in Hcr. apply andb_true_iff in Hcr. destruct Hcr as [Hcr _].
    destruct (find_entry (st_path st) A) as [[ps pc]|] eqn:Ef; [|apply xoverlay_nil].
    rewrite (created_dir_new A st ps pc Hcr Hdir Ef). apply xoverlay_nil.
Qed.

End XV.
