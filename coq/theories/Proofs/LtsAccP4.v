(* Refinement LTS (sender side) -> sender acceptor: the worker goroutines. *)
From Coq Require Import List NArith Bool Arith PeanoNat Permutation.
From FS Require Import Model.Lts Proofs.LtsInv.
From FS Require Import Sx Model.Path Model.Stat Model.Tree Model.AccEvents Model.SenderAcc Model.LtsAcc
     Proofs.AccEventsP Proofs.LtsAccP1 Proofs.LtsAccP3.
Import ListNotations.
Local Open Scope nat_scope.

(* Global, like those of LtsInv: they reach every importing file (skipn, concat, nth are the
   standard library's). *)
Arguments tasks : simpl never.
Arguments skipn : simpl never.
Arguments concat : simpl never.
Arguments nth : simpl never.

(* the task list when worker j moves *)
Lemma tasks_setw : forall st j w, nth_error (wks st) j = Some w ->
  exists A B, tasks st = A ++ wk_task w ++ B /\ forall w', tasks (setw j w' st) = A ++ wk_task w' ++ B.
Proof.
  intros st j w H. destruct (split_nth _ _ _ _ H) as (l1 & l2 & E & F).
  exists (rq_task (rq_pc st) ++ pipe_tasks (pipe st) ++ flat_map wk_task l1), (flat_map wk_task l2).
  unfold tasks, setw. cbn. split; [|intros w'; rewrite F]; rewrite ?E, flat_map_app, <- !app_assoc; reflexivity.
Qed.

(* a worker takes the head of the pipeline *)
Lemma tasks_pop : forall st j h r st1, nth_error (wks st) j = Some WK_Idle -> pipe st = h :: r ->
  rq_pc st1 = rq_pc st -> pipe st1 = r -> wks st1 = set_nth j (WK_Ctx h) (wks st) ->
  Permutation (tasks st) (tasks st1).
Proof.
  intros st j h r st1 H Ep E1 E2 E3. destruct (split_nth _ _ _ _ H) as (l1 & l2 & E & F).
  unfold tasks. rewrite E1, E2, E3, F, Ep, E, !flat_map_app. cbn [pipe_tasks map flat_map wk_task app].
  apply Permutation_app_head. fold (pipe_tasks r). rewrite !app_assoc.
  apply Permutation_middle.
Qed.

Lemma wdone_other : forall (l : list wkpc) j w w',
  nth_error l j = Some w -> w' <> WK_Done ->
  (exists j', nth_error (set_nth j w' l) j' = Some WK_Done) -> exists j', nth_error l j' = Some WK_Done.
Proof.
  intros l j w w' H Hn [j' Hj]. rewrite (nth_error_set_nth _ l j j' w' w H) in Hj.
  destruct (j =? j'); [inversion Hj; congruence|eauto].
Qed.

Lemma unrequested_nupdate : forall a k f id,
  unrequested (set_req a (nupdate k f (s_req a))) id = unrequested a id.
Proof.
  intros. unfold unrequested. cbn.
  pose proof (nlookup_nupdate_keys _ k (N.of_nat id) f (s_req a)) as H.
  destruct (nlookup (N.of_nat id) (nupdate k f (s_req a))), (nlookup (N.of_nat id) (s_req a)); try reflexivity.
  - exfalso. apply (proj1 H); congruence.
  - exfalso. apply (proj2 H); congruence.
Qed.

Lemma nlookup_nupdate_none : forall A k k2 (f : A) m, nlookup k2 m = None -> nlookup k2 (nupdate k f m) = None.
Proof.
  intros. pose proof (nlookup_nupdate_keys _ k k2 f m) as Hk.
  destruct (nlookup k2 (nupdate k f m)) eqn:E; [|reflexivity]. exfalso. apply (proj1 Hk); congruence.
Qed.

Lemma sending_mono : forall (m : list (N * fstatus)) (T T' : list (nat * stage)) (Bad Bad' : Prop),
  (forall n rem, nlookup n m = Some (Sending rem) -> (exists id, n = N.of_nat id /\ In id (map fst T)) \/ Bad) ->
  (forall id, In id (map fst T) -> In id (map fst T')) -> (Bad -> Bad') ->
  forall n rem, nlookup n m = Some (Sending rem) -> (exists id, n = N.of_nat id /\ In id (map fst T')) \/ Bad'.
Proof.
  intros m T T' Bad Bad' H HT HB n rem Hn. destruct (H n rem Hn) as [(id & E & Hin)|Hb]; [left; exists id; auto|right; auto].
Qed.

Lemma keys_restage : forall (A B : list (nat * stage)) h s s',
  map fst (A ++ (h, s) :: B) = map fst (A ++ (h, s') :: B).
Proof. intros. rewrite !map_app. reflexivity. Qed.

Lemma keys_remove : forall (A B : list (nat * stage)) t id,
  In id (map fst (A ++ B)) -> In id (map fst (A ++ t :: B)).
Proof. intros A B t id. rewrite !map_app, !in_app_iff. cbn. tauto. Qed.

Lemma sending_update : forall (m : list (N * fstatus)) (A B : list (nat * stage)) h s s' f (Bad : Prop),
  (forall n rem, nlookup n m = Some (Sending rem) -> (exists id, n = N.of_nat id /\ In id (map fst (A ++ (h, s) :: B))) \/ Bad) ->
  forall n rem, nlookup n (nupdate (N.of_nat h) f m) = Some (Sending rem) ->
    (exists id, n = N.of_nat id /\ In id (map fst (A ++ (h, s') :: B))) \/ Bad.
Proof.
  intros m A B h s s' f Bad H n rem Hn. destruct (N.eq_dec n (N.of_nat h)) as [E|E].
  - left. exists h. split; [exact E|]. rewrite map_app, in_app_iff. right. left. reflexivity.
  - rewrite nlookup_nupdate_other in Hn by exact E. rewrite (keys_restage A B h s' s). eapply H; eauto.
Qed.

(* a clause that is a case distinction over a program counter, and at least as weak in each case *)
Ltac mono_w st := destruct (sw_pc st) as [|[]|[]|]; intuition auto.
Ltac mono_r st := destruct (rq_pc st) as [| | | | |[]|[]|]; intuition auto.

(* how the invariant of a running sender follows the moves of a worker *)
Section Live.
  Variable p : Lts.params.
  Variable exp : list Tree.entry.
  Variable ch : nat -> list bytes.
  Notation LIVE := (live_inv p exp ch).

  (* a goroutine of the errgroup returns an error that the acceptor has allowed for *)
  Lemma live_fail : forall st a, LIVE st a -> acc_bad a -> LIVE (s_fail st) a.
  Proof.
    intros st a HL Hbad. li_destruct HL. li_split; try assumption; try (intros _; exact Hbad).
    - destruct Hwalk as [Hle Hw]. split; [exact Hle|]. cbn. mono_w st.
    - unfold req_rel in *. cbn. mono_r st.
    - intros n rem _. right. left. reflexivity.
    - intros _. left. reflexivity.
    - intros _. right. reflexivity.
  Qed.

  Section Worker.
    Variables (st : Lts.state) (a : sstate) (j : nat) (w w' : wkpc).
    Hypothesis HL : LIVE st a.
    Hypothesis Ew : nth_error (wks st) j = Some w.

    Lemma live_nwk : length (wks (setw j w' st)) = p_W p.
    Proof. unfold setw. cbn. rewrite length_set_nth. apply HL. Qed.

    Lemma live_wdone : w' <> WK_Done ->
      (exists j', nth_error (wks (setw j w' st)) j' = Some WK_Done) ->
      (pipe st = [] /\ pipe_closed st = true) \/ Lts.s_err st = true.
    Proof. intros Hn Hex. apply HL. exact (wdone_other _ _ _ _ Ew Hn Hex). Qed.

    Lemma live_task : forall h s, wk_task w = [(h, s)] ->
      exists f, nlookup (N.of_nat h) (s_req a) = Some f /\ stage_ok ch h s f.
    Proof.
      intros h s Tw. li_destruct HL. destruct (tasks_setw _ _ _ Ew) as (A & B & HT & _).
      rewrite HT, Tw in Htasks. exact (tasks_ok_lookup _ _ _ _ _ _ Htasks).
    Qed.

    (* the task of h moves to another stage with the same acceptor entry *)
    Lemma live_restage : forall h s s', wk_task w = [(h, s)] -> wk_task w' = [(h, s')] ->
      (forall f, stage_ok ch h s f -> stage_ok ch h s' f) -> LIVE (setw j w' st) a.
    Proof.
      intros h s s' Tw Tw' Hs. pose proof live_nwk. pose proof live_wdone as Hwd. li_destruct HL.
      destruct (tasks_setw _ _ _ Ew) as (A & B & HT & HT'). rewrite Tw in HT. cbn [app] in HT. rewrite HT in Htasks, Hsend.
      li_split; try assumption; try rewrite (HT' w'), Tw'; cbn [app].
      - eapply tasks_ok_restage; eassumption.
      - rewrite (keys_restage A B h s' s). exact Hsend.
      - apply Hwd. intros E. rewrite E in Tw'. discriminate.
    Qed.

    (* the task of h moves to another stage, the acceptor's entry for h changes accordingly *)
    Lemma live_replace : forall h s s' f', wk_task w = [(h, s)] -> wk_task w' = [(h, s')] ->
      stage_ok ch h s' f' -> LIVE (setw j w' st) (set_req a (nupdate (N.of_nat h) f' (s_req a))).
    Proof.
      intros h s s' f' Tw Tw' Hs. pose proof live_nwk. pose proof live_wdone as Hwd. li_destruct HL.
      destruct (tasks_setw _ _ _ Ew) as (A & B & HT & HT'). rewrite Tw in HT. cbn [app] in HT. rewrite HT in Htasks, Hsend.
      li_split; try assumption; try rewrite (HT' w'), Tw'; cbn [app].
      - intros Hl. destruct (Hfiles Hl) as [HF HG]. split.
        + intros id. rewrite unrequested_nupdate. apply HF.
        + intros id Hid. apply nlookup_nupdate_none, HG, Hid.
      - eapply tasks_ok_replace; eassumption.
      - cbn. rewrite map_fst_nupdate. exact Hkeys.
      - eapply sending_update; exact Hsend.
      - apply Hwd. intros E. rewrite E in Tw'. discriminate.
    Qed.

    (* the terminator of h has been sent: its task ends *)
    Lemma live_finish : forall h, wk_task w = [(h, AtSendFin)] -> wk_task w' = [] -> w' <> WK_Done ->
      LIVE (setw j w' st) a.
    Proof.
      intros h Tw Tw' Hn. pose proof live_nwk. pose proof (live_wdone Hn). li_destruct HL.
      destruct (tasks_setw _ _ _ Ew) as (A & B & HT & HT'). rewrite Tw in HT. cbn [app] in HT. rewrite HT in Htasks, Hsend.
      li_split; try assumption; try rewrite (HT' w'), Tw'; cbn [app].
      - eapply tasks_ok_remove; exact Htasks.
      - intros n rem Hn'. destruct (Hsend n rem Hn') as [(id & En & Hin)|Hbad]; [left|right; exact Hbad].
        exists id. split; [exact En|]. rewrite map_app, in_app_iff in *. destruct Hin as [Hin|[Hin|Hin]]; auto.
        exfalso. cbn in Hin. subst id n. destruct (tasks_ok_lookup _ _ _ _ _ _ Htasks) as (f & Hl & Hf). cbn in Hf. congruence.
    Qed.

    (* the worker returns: with an error, or because the pipeline is closed and empty *)
    Lemma live_return : w' = WK_Done ->
      (pipe st = [] /\ pipe_closed st = true) \/ Lts.s_err st = true -> wk_task w = [] \/ Lts.s_err st = true ->
      LIVE (setw j w' st) a.
    Proof.
      intros Ew' Hd Ht. pose proof live_nwk. li_destruct HL. subst w'.
      destruct (tasks_setw _ _ _ Ew) as (A & B & HT & HT'). rewrite HT in Htasks, Hsend.
      li_split; try assumption; try rewrite (HT' WK_Done); cbn [wk_task app].
      - clear - Htasks. induction (wk_task w) as [|t T IH]; [exact Htasks|]. apply IH. exact (tasks_ok_remove _ _ _ _ _ Htasks).
      - destruct Ht as [Ht|Ht]; [rewrite Ht in Hsend; exact Hsend|]. intros n rem _. right. left. exact Ht.
      - intros _. exact Hd.
    Qed.
  End Worker.

  (* a worker takes the head of the pipeline *)
  Lemma live_pop : forall st a j h r, LIVE st a -> nth_error (wks st) j = Some WK_Idle -> pipe st = h :: r ->
    LIVE (setw j (WK_Ctx h) (set_pipe r st)) a.
  Proof.
    intros st a j h r HL Ew Ep. pose proof (live_nwk _ _ j (WK_Ctx h) HL). li_destruct HL.
    assert (PT : Permutation (tasks st) (tasks (setw j (WK_Ctx h) (set_pipe r st))))
      by (eapply tasks_pop; eauto; reflexivity).
    li_split; try assumption.
    - eapply tasks_ok_perm; [exact PT|exact Htasks].
    - eapply sending_mono; [exact Hsend| |auto].
      intros id Hin. eapply Permutation_in; [apply Permutation_map; exact PT|exact Hin].
    - intros Hex. eapply wdone_other in Hex; [|exact Ew|discriminate].
      destruct (Hwdone Hex) as [[E _]|E]; [congruence|right; exact E].
  Qed.
End Live.

Section SimW.
  Variable p : Lts.params.
  Variable exp : list Tree.entry.
  Variable ch : nat -> list bytes.
  Variable emsg rmsg : bytes.
  Variable fprog : N.
  Hypothesis Habs : abs_ok p exp ch.

  Notation arun := (AccEvents.run (sender_acc exp)).
  Notation evs := (sender_events exp ch emsg rmsg fprog).
  Notation INV := (inv p exp ch).
  Notation LIVE := (live_inv p exp ch).

  Lemma worker_sim : forall st st' a j, s_broken st = false -> send_ret st = None -> LIVE st a ->
    step_worker p j st = Some st' -> exists a', arun a (evs st (LWorker j)) = Some a' /\ INV st' a'.
  Proof.
    intros st st' a j Hb Eret HL H.
    unfold step_worker in H. cbn [sender_events].
    destruct (nth_error (wks st) j) as [w|] eqn:Ew; [|discriminate].
    destruct w.
    - (* WK_Idle *)
      destruct (pipe st) as [|h r] eqn:Ep.
      + destruct (pipe_closed st) eqn:Ecl; [|discriminate]. inv_some. subst st'.
        apply sim_silent; [exact Hb|exact Eret|].
        eapply live_return; [exact HL|exact Ew|reflexivity|left; split; assumption|left; reflexivity].
      + inv_some. subst st'. apply sim_silent; [exact Hb|exact Eret|]. apply live_pop; assumption.
    - (* WK_Ctx h *)
      destruct (s_cancel st) eqn:Ec; inv_some; subst st'; (apply sim_silent; [exact Hb|exact Eret|]).
      + (* cancelled: the worker returns ctx.Err() *)
        apply (live_return p exp ch (s_fail st) a j (WK_Ctx h) WK_Done);
          [|exact Ew|reflexivity|right; reflexivity|right; reflexivity].
        apply live_fail; [exact HL|]. li_destruct HL. exact (Hcancel Ec).
      + eapply live_restage; [exact HL|exact Ew|reflexivity|reflexivity|auto].
    - (* WK_Open h *)
      inv_some. subst st'. apply sim_silent; [exact Hb|exact Eret|].
      eapply live_restage; [exact HL|exact Ew|reflexivity|reflexivity|cbn].
      intros f Hf. split; [apply Nat.le_0_l|exact Hf].
    - (* WK_Read h c *)
      pose proof (abs_chunks _ _ _ Habs h) as Hch.
      destruct (Nat.ltb_spec c (chunks_of p h)) as [Hlt|Hge]; inv_some; subst st';
        (apply sim_silent; [exact Hb|exact Eret|]);
        (eapply live_restage; [exact HL|exact Ew|reflexivity|reflexivity|cbn]).
      + intros f [_ Hf]. split; [rewrite <- Hch; exact Hlt|exact Hf].
      + intros f [_ Hf]. rewrite skipn_all2 in Hf by (rewrite <- Hch; exact Hge). exact Hf.
    - (* WK_Lock h c: the mutex is taken, SendMsg(DATA) is called *)
      unfold lock_s in H. cbn in H. destruct (s_mu st); [discriminate|]. inv_some. subst st'.
      destruct (live_task _ _ _ _ _ _ _ HL Ew _ _ eq_refl) as (f & Hl & Hc & Hf). subst f.
      assert (Hne : nth c (ch h) [] <> []) by (apply (abs_nonempty _ _ _ Habs h); apply nth_In; exact Hc).
      rewrite (skipn_nth_cons _ (ch h) c [] Hc), concat_cons in Hl.
      destruct (nth c (ch h) []) as [|b d] eqn:Ed; [congruence|].
      li_destruct HL.
      eapply sim_event; [unfold sender_acc; rewrite Hret, Hfin, Hl, strip_prefix_app; reflexivity|exact Hb|exact Eret|].
      eapply live_replace; [exact HL|exact Ew|reflexivity|reflexivity|cbn]. split; [exact Hc|reflexivity].
    - (* WK_Send h c: SendMsg completes *)
      unfold send_s in H. rewrite Hb in H. destruct (room_sr p st); [|discriminate]. inv_some. subst st'.
      apply sim_silent; [exact Hb|exact Eret|].
      eapply live_restage; [exact HL|exact Ew|reflexivity|reflexivity|cbn]. auto.
    - (* WK_LockFin h: SendMsg(DATA, empty) is called *)
      unfold lock_s in H. cbn in H. destruct (s_mu st); [discriminate|]. inv_some. subst st'.
      destruct (live_task _ _ _ _ _ _ _ HL Ew _ _ eq_refl) as (f & Hl & Hf). cbn in Hf. subst f.
      li_destruct HL.
      eapply sim_event; [unfold sender_acc; rewrite Hret, Hfin, Hl; reflexivity|exact Hb|exact Eret|].
      eapply live_replace; [exact HL|exact Ew|reflexivity|reflexivity|reflexivity].
    - (* WK_SendFin h: SendMsg completes, the worker is idle again *)
      unfold send_s in H. rewrite Hb in H. destruct (room_sr p st); [|discriminate]. inv_some. subst st'.
      apply sim_silent; [exact Hb|exact Eret|].
      eapply live_finish; [exact HL|exact Ew|reflexivity|reflexivity|discriminate].
    - (* WK_Done *) discriminate.
  Qed.
End SimW.
