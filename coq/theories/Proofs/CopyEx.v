(* C13 / C15 — concrete trees and file systems for the non-vacuity examples of the property
   files, with their well-formedness, and the counterexample to the exact inode partition. *)
From Coq Require Import List NArith Bool Lia.
From FS Require Import Sx Model.Path Model.SymMode Model.Copier Model.CopySpec Proofs.Lex
  Proofs.CopierP Proofs.CopyOpsP Proofs.CopyNodeP Proofs.CopyTopP Proofs.CopyThmP.
Import ListNotations.
Open Scope N_scope.
Open Scope bool_scope.

Definition exd (mode uid gid mtime : N) (tg : list N) (x : list (list N * list N)) (ct : list N) : dent :=
  {| d_mode := mode; d_uid := uid; d_gid := gid; d_mtime := mtime; d_rdev := 0; d_target := tg;
     d_xattrs := x; d_content := ct |}.
Definition ex_rootd : dent := exd (S_IFDIR + 493) 0 0 1500 [] [] [].

Definition n_a : list N := [97].  Definition n_d : list N := [100]. Definition n_f : list N := [102].
Definition n_g : list N := [103]. Definition n_l : list N := [108]. Definition n_p : list N := [112].
Definition n_x : list N := [120]. Definition n_y : list N := [121].
Definition s_slash : list N := [47].

(* source:  d/ (02755 7:8, xattr u=\001)  d/f (0640 "hi")  d/l -> f   p (fifo) *)
Definition ex_src : snode :=
  SNode [] 0 ex_rootd
    [ SNode n_d 1 (exd (S_IFDIR + 1517) 7 8 1000 [] [([117], [1])] [])
        [ SNode n_f 2 (exd (S_IFREG + 416) 7 9 5000000001 [] [] [104; 105]) [];
          SNode n_l 3 (exd (S_IFLNK + 511) 0 0 77 n_f [] []) [] ];
      SNode n_p 4 (exd (S_IFIFO + 420) 1 1 9 [] [] []) [] ].

(* a source with a link group:  d/f, d/g and h are three names of inode 7 *)
Definition ex_lnkd : dent := exd (S_IFREG + 416) 7 9 5000000001 [] [([117], [1])] [104; 105].
Definition n_h : list N := [104].
Definition ex_src_links : snode :=
  SNode [] 0 ex_rootd
    [ SNode n_d 1 (exd (S_IFDIR + 493) 0 0 1000 [] [] [])
        [ SNode n_f 7 ex_lnkd []; SNode n_g 7 ex_lnkd []; SNode n_x 8 (exd (S_IFREG + 420) 0 0 3 [] [] [120]) [] ];
      SNode n_h 7 ex_lnkd [] ].

(* what is put into the destination first:  d/ (0700)  d/f/ (a DIRECTORY)  d/f/x  d/g ("old") *)
Definition ex_dsttree : snode :=
  SNode [] 0 ex_rootd
    [ SNode n_d 1 (exd (S_IFDIR + 448) 0 0 2000 [] [([97], [2])] [])
        [ SNode n_f 2 (exd (S_IFDIR + 493) 0 0 2001 [] [] [])
            [ SNode n_x 3 (exd (S_IFREG + 420) 0 0 2002 [] [] [120]) [] ];
          SNode n_g 4 (exd (S_IFREG + 420) 0 0 2003 [] [] [111; 108; 100]) [] ] ].

Definition fs_empty : fsys :=
  {| names := fun p => match p with [] => Some 0 | _ => None end; inodes := fun _ => ex_rootd; next := 1; dom := [[]] |}.

Definition o_plain : copts :=
  {| o_chown := None; o_mode := None; o_modestr := []; o_utime := None; o_dircontents := false;
     o_replace := false; o_wild := false; o_umask := 18 |}.
Definition o_replace_on : copts :=
  {| o_chown := None; o_mode := None; o_modestr := []; o_utime := None; o_dircontents := false;
     o_replace := true; o_wild := false; o_umask := 18 |}.
(* chown 100:200, mode 0700, utime 42 *)
Definition o_all : copts :=
  {| o_chown := Some (100, 200); o_mode := Some 448; o_modestr := []; o_utime := Some 42; o_dircontents := false;
     o_replace := false; o_wild := false; o_umask := 18 |}.
Definition o_dc : copts :=
  {| o_chown := None; o_mode := None; o_modestr := []; o_utime := None; o_dircontents := true;
     o_replace := false; o_wild := false; o_umask := 18 |}.

(* the populated destination: ex_dsttree copied into the empty file system *)
Definition ex_dst : fsys := c_fs (fst (copy_top o_plain sel_all ex_dsttree fs_empty [] s_slash)).

Lemma fs_empty_wf : wf_fs fs_empty.
Proof.
  unfold wf_fs, fs_empty; simpl. split; [|split; [|split]].
  - intros [|? ?] i H; inversion H; subst; reflexivity.
  - intros p a i H. destruct p; simpl in H; discriminate.
  - intros [|? ?] [|? ?] i H1 H2 _; try discriminate. auto.
  - exists 0. split; reflexivity.
Qed.
Lemma fs_empty_empty : forall p, p <> [] -> names fs_empty p = None.
Proof. intros [|? ?] H; [congruence|reflexivity]. Qed.

Ltac hyp_compute := let H := fresh in intro H; vm_compute in H; first [discriminate H | vm_compute; reflexivity | (exfalso; revert H; simpl; intuition discriminate)].
Ltac wf_dent_tac :=
  unfold wf_dent; split; [hyp_compute|]; split; [hyp_compute|]; split; [hyp_compute|];
  simpl; repeat split; repeat constructor.
Ltac wf_node :=
  apply wf_s_unfold; split; [wf_dent_tac|];
  split; [first [reflexivity|hyp_compute]|];
  split; [simpl; repeat constructor; hyp_compute|repeat (first [apply Forall_nil|apply Forall_cons])].
Lemma ex_src_wf : wf_src ex_src /\ no_link_groups ex_src.
Proof.
  split; [split; [|reflexivity]|].
  - unfold ex_src. repeat wf_node.
  - apply no_link_groups_of_nodup. vm_compute. repeat constructor; simpl; intuition discriminate.
Qed.
Lemma ex_dsttree_wf : wf_src ex_dsttree /\ no_link_groups ex_dsttree.
Proof.
  split; [split; [|reflexivity]|].
  - unfold ex_dsttree. repeat wf_node.
  - apply no_link_groups_of_nodup. vm_compute. repeat constructor; simpl; intuition discriminate.
Qed.

Lemma ex_dst_wf : wf_fs ex_dst.
Proof.
  destruct ex_dsttree_wf as [A B]. unfold ex_dst.
  destruct (copy_top o_plain sel_all ex_dsttree fs_empty [] s_slash) as [st' e] eqn:E.
  assert (e = None) by (apply (f_equal snd) in E; vm_compute in E; congruence). subst e.
  eapply (copy_preserves_wf_proof o_plain ex_dsttree A (links_consistent_nolinks _ B)); eauto. apply fs_empty_wf.
Qed.

Ltac cons_tac :=
  repeat (apply cons_s_unfold; split; [intros H1 H2; first [reflexivity | vm_compute in H1; discriminate H1 | vm_compute in H2; discriminate H2]|];
          repeat (first [apply Forall_nil|apply Forall_cons])).

Lemma ex_src_links_wf : wf_src ex_src_links /\ links_consistent ex_src_links.
Proof.
  split; [split; [|reflexivity]|].
  - unfold ex_src_links. repeat wf_node.
  - exists (fun _ => ex_lnkd). unfold ex_src_links. cons_tac.
Qed.

(* the first copy of a link group is overwritten (what forgetLinkSources is for):
   d1/f1 (AAA) and d2/f2 are one inode; d2/f1 (BBB) is another file.  Copy "d*/f?" (wildcards)
   to "/": d1/f1 -> /f1 is recorded as the copy of the link group, d2/f1 replaces /f1 (the record
   is forgotten), d2/f2 is copied afresh and reads AAA. *)
Definition n_d1 : list N := [100; 49]. Definition n_d2 : list N := [100; 50].
Definition n_f1 : list N := [102; 49]. Definition n_f2 : list N := [102; 50].
Definition ex_A : dent := exd (S_IFREG + 420) 0 0 10 [] [] [65; 65; 65].
Definition ex_B : dent := exd (S_IFREG + 420) 0 0 11 [] [] [66; 66; 66].
Definition ex_stale_src : snode :=
  SNode [] 0 ex_rootd
    [ SNode n_d1 1 (exd (S_IFDIR + 493) 0 0 5 [] [] []) [ SNode n_f1 3 ex_A [] ];
      SNode n_d2 2 (exd (S_IFDIR + 493) 0 0 6 [] [] []) [ SNode n_f1 4 ex_B []; SNode n_f2 3 ex_A [] ] ].
Definition o_wild_on : copts :=
  {| o_chown := None; o_mode := None; o_modestr := []; o_utime := None; o_dircontents := false;
     o_replace := false; o_wild := true; o_umask := 18 |}.
Definition stale_pat : list N := [100; 42; 47; 102; 63].   (* "d*/f?" *)

Lemma ex_stale_src_wf : wf_src ex_stale_src /\ links_consistent ex_stale_src.
Proof.
  split; [split; [|reflexivity]|].
  - unfold ex_stale_src. repeat wf_node.
  - exists (fun _ => ex_A). unfold ex_stale_src. cons_tac.
Qed.

(* what forgetLinkSources leaves: a link group spread over two inodes.
   d1/f2, f and f2 are one inode.  Copy "*" with wildcards and dir-contents to "/": the contents
   of d1 -> /f2 (recorded), f -> /f linked to /f2, f2 -> /f2 replaces it: the record is forgotten
   although /f survives, /f2 is copied afresh.  Every dentry is right; /f and /f2, one group in
   the source, are two inodes. *)
Definition ex_split_src : snode :=
  SNode [] 0 ex_rootd
    [ SNode n_d1 1 (exd (S_IFDIR + 493) 0 0 5 [] [] []) [ SNode n_f2 3 ex_A [] ];
      SNode n_f 3 ex_A []; SNode n_f2 3 ex_A [] ].
Definition o_wild_dc : copts :=
  {| o_chown := None; o_mode := None; o_modestr := []; o_utime := None; o_dircontents := true;
     o_replace := false; o_wild := true; o_umask := 18 |}.
Definition star_pat : list N := [42].

Lemma ex_split_src_wf : wf_src ex_split_src /\ links_consistent ex_split_src.
Proof.
  split; [split; [|reflexivity]|].
  - unfold ex_split_src. repeat wf_node.
  - exists (fun _ => ex_A). unfold ex_split_src. cons_tac.
Qed.

(* the exact inode partition ("same group <-> same inode") is false of the model for wildcard
   sources with a link group: [ex_split_src] copies without error and splits one *)
Lemma copy_overlay_partition_refuted_proof :
  exists o sroot fs src dst,
    wf_src sroot /\ links_consistent sroot /\ wf_fs fs /\
    match overlay_all o sroot (view_of_fs fs) src dst with
    | inl r =>
      let V := view_of_fs (c_fs (fst (copy_top o sel_all sroot fs src dst))) in
      snd (copy_top o sel_all sroot fs src dst) = None /\
      ~ (forall p q, keys_at V (xr_view r) p q = true)
    | inr _ => False
    end.
Proof.
  exists o_wild_dc, ex_split_src, fs_empty, star_pat, s_slash.
  split; [apply ex_split_src_wf|]. split; [apply ex_split_src_wf|]. split; [apply fs_empty_wf|].
  assert (Hb : match overlay_all o_wild_dc ex_split_src (view_of_fs fs_empty) star_pat s_slash,
                     copy_top o_wild_dc sel_all ex_split_src fs_empty star_pat s_slash with
               | inl r, (st, None) => negb (keys_at (view_of_fs (c_fs st)) (xr_view r) [n_f] [n_f2])
               | _, _ => false end = true) by (vm_compute; reflexivity).
  destruct (overlay_all o_wild_dc ex_split_src (view_of_fs fs_empty) star_pat s_slash) as [r|x]; [|discriminate].
  destruct (copy_top o_wild_dc sel_all ex_split_src fs_empty star_pat s_slash) as [st [e|]]; [discriminate|].
  split; [reflexivity|]. intros HK. cbn [fst] in HK. rewrite HK in Hb. discriminate.
Qed.
