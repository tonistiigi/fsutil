(* C14 — MkdirAll (mkdir.go) on a path that is symlink-free below dstRoot: it stays below dstRoot,
   leaves a chain of real directories, and the directories it reports as created are new. *)
From Coq Require Import List Arith NArith Lia Bool ZifyN ZifyNat ZifyBool.
From FS Require Import Sx Model.Path Model.Fs Model.RootPath Model.CopyFs Model.CopyFsSpec
  Proofs.Lex Proofs.PathP Proofs.FsP Proofs.RootPathStrP Proofs.FsCopyFrameP Proofs.FsCopyInvP
  Proofs.FsCopySafeP Proofs.FsCopyLinksP Proofs.FsCopySysP Proofs.CopyFsP Proofs.CopyRecP.
From FS Require Proofs.RootPathP.
Import ListNotations.
Open Scope N_scope.
Open Scope bool_scope.

Local Opaque rfuel.

(* the converse of chain_plain_dir *)
Lemma plain_dir_chain f : forall cs a e, plain_dir f a cs = Some e -> chain f a cs e.
Proof.
  induction cs as [|x cs IH]; intros a e H; unfold plain_dir in H; cbn [plain_lookup] in H;
    (destruct (dir_of f a) as [[p es]|] eqn:E; [|discriminate]).
  - cbn [l_ino] in H. destruct (is_dir f a) eqn:Ed; inversion H; subst. constructor; auto.
  - destruct (blookup x es) as [i|] eqn:Eb; [|destruct (is_nil cs); discriminate].
    (* below a name that is not a symlink the lookup goes on from its inode *)
    assert (Hc : chain f i cs e).
    { destruct cs as [|y cs].
      - destruct (get f i) as [[[]]|]; cbn [is_nil andb l_ino] in H; try discriminate;
          destruct (is_dir f i) eqn:Hi; inversion H; subst; constructor; exact Hi.
      - apply IH. destruct (get f i) as [[[]]|]; cbn [is_nil andb] in H; try discriminate; exact H. }
    econstructor; [unfold dents; rewrite E; exact Eb|eapply chain_start_dir; eauto|exact Hc].
Qed.

(* the parent path MkdirAll recurses on *)
Lemma mk_parent_render l x : Forall nm (l ++ [x]) ->
  mk_parent (render (l ++ [x])) = match l with [] => None | _ => Some (render l) end.
Proof.
  intros H. unfold mk_parent. rewrite strip_render by auto. unfold render. cbn [split_last].
  rewrite split_last_joinc by (apply Forall_nm_nosep; auto).
  destruct l as [|y l].
  - rewrite N.eqb_refl. reflexivity.
  - cbn [length]. replace (Nat.ltb 1 (S (length (joinc (y :: l) ++ [sep])))) with true.
    + change (sep :: joinc (y :: l) ++ [sep]) with ((sep :: joinc (y :: l)) ++ [sep]). rewrite removelast_last. reflexivity.
    + symmetry. apply Nat.ltb_lt. rewrite app_length. simpl. lia.
Qed.

Section Top.
  Variables (c : ctx) (f0 : fs) (dr : N) (dcs : list bytes).
  Notation Ctx := (Ctx c f0 dr dcs).
  Notation tpath := (tpath dcs).
  Notation SS := (SS f0 dr).
  Notation Tgt := (Tgt c f0 dr dcs).
  Notation names_ss := (names_ss f0 dr).
  Notation stays := (stays c f0 dr dcs).
  Notation stays_ok := (stays_ok c f0 dr dcs).
  Notation mstep := (mstep c f0 dr dcs).
  Notation lok := (lok f0 dr dcs).
  Notation keeps_new := (keeps_new dr (f_next f0)).
  Notation gnew := (gnew dr (f_next f0)).
  Let rt := c_root c.
  Let b := f_next f0.

  Lemma resolve_ino_root f fl : Ctx f -> resolve_ino c f (render dcs) fl = inl dr.
  Proof. intros C. apply resolve_ino_chain; apply C. Qed.

  Lemma stat_root f : Ctx f -> exists n, kind_is_dir n = true /\
    snd (sys_stat c f (render dcs)) = RStat dr n /\ snd (sys_lstat c f (render dcs)) = RStat dr n.
  Proof.
    intros C. destruct (is_dir_get f dr (chain_end_dir _ _ _ _ (cx_root _ _ _ _ f C))) as (n & Hg & Hk).
    exists n. unfold sys_stat, sys_lstat. rewrite !resolve_ino_root, Hg by auto. auto.
  Qed.

  Lemma stat_dir_chain f cs i n : Ctx f -> Forall nm cs -> Forall nonul cs -> link_free f dr cs = true ->
    snd (sys_stat c f (render (dcs ++ cs))) = RStat i n -> kind_is_dir n = true -> chain f dr cs i.
  Proof.
    intros C Hcs Hnul Hlf H Hk.
    pose proof (cx_root _ _ _ _ f C) as Hc. fold rt in Hc.
    pose proof (cx_dcs _ _ _ _ f C) as Hd. pose proof (cx_dnul _ _ _ _ f C) as Hn.
    pose proof (cx_len _ _ _ _ f C) as Hl.
    destruct cs as [|x cs].
    - rewrite app_nil_r in H. destruct (stat_root f C) as (n' & _ & E & _). rewrite E in H. inversion H; subst.
      constructor. eapply chain_end_dir; eauto.
    - unfold sys_stat, resolve_ino in H.
      rewrite resolve_render in H; [|apply Forall_app; auto|apply Forall_app; auto|destruct dcs; discriminate].
      destruct (walk rfuel f (c_root c) (c_root c) (dcs ++ x :: cs) true 0) as [r|e] eqn:E; [|discriminate].
      destruct (l_ino r) as [j|] eqn:Ej; [|discriminate].
      destruct (get f j) as [nn|] eqn:Eg; [|discriminate]. cbn [snd] in H. inversion H; subst j nn.
      replace rfuel with (length dcs + (rfuel - length dcs))%nat in E by lia.
      rewrite (walk_chain_prefix f dcs rt dr Hc Hd (x :: cs) ltac:(discriminate)) in E.
      eapply link_free_walk_chain; eauto.
      + eapply chain_end_dir; eauto.
      + rewrite (is_dir_kind _ _ _ Eg). exact Hk.
  Qed.

  (* a directory MkdirAll created: whatever stands at that path later was put there by the copier *)
  Definition created_ok (f : fs) (p : bytes) : Prop :=
    exists cs x, p = tpath cs x /\ Forall nm cs /\ Forall nonul cs /\ nm x /\ nonul x /\ gnew f cs x.

  Lemma created_ok_keeps f f' p : keeps_new f f' -> created_ok f p -> created_ok f' p.
  Proof. intros K (cs & x & E & H1 & H2 & H3 & H4 & G). exists cs, x. do 5 (split; [assumption|]). apply K. exact G. Qed.

  Lemma created_all_keeps f f' l : keeps_new f f' -> Forall (created_ok f) l -> Forall (created_ok f') l.
  Proof. intros K. apply Forall_impl. intros p. apply created_ok_keeps, K. Qed.

  Lemma stays_keeps d s s' : stays d s s' -> keeps_new (s_fs s) (s_fs s').
  Proof. intros (_ & _ & _ & K & _). exact K. Qed.

  Lemma chown_fixed_spec cs d x i o : MS c f0 dr dcs False cs d x i (chown_fixed c o (tpath cs x)).
  Proof.
    unfold chown_fixed. destruct (o_chown o) as [[u g]|]; [|apply MS_ret].
    apply MS_bind; [apply (MS_sys _ _ _ _ _ false); [intros f f' res; apply sys_lchown_inv|discriminate]|intros r; apply MS_expect_ok].
  Qed.

  Lemma utimes_opt_spec cs d x i tm : MS c f0 dr dcs False cs d x i (utimes_opt c (tpath cs x) tm).
  Proof.
    unfold utimes_opt. destruct tm as [t|]; [|apply MS_ret].
    apply MS_bind; [apply (MS_sys _ _ _ _ _ false); [intros f f' res; apply sys_utimens_inv|discriminate]|intros r; apply MS_expect_ok].
  Qed.

  Definition mk_post (cs : list bytes) (s s' : cst) (r : list bytes + N) : Prop :=
    stays dr s s' /\ s_links s' = s_links s /\
    (forall created, r = inl created ->
       (exists d, chain (s_fs s') dr cs d) /\ Forall (created_ok (s_fs s')) created).

  Lemma lstat_dir_chain f cs d x : Tgt f cs d x ->
    match snd (sys_lstat c f (tpath cs x)) with RStat _ n => kind_is_dir n | _ => false end = true ->
    exists i, chain f dr (cs ++ [x]) i.
  Proof.
    intros T H. pose proof (t_lstat c f0 dr dcs f cs d x T) as Hl.
    destruct (snd (sys_lstat c f (tpath cs x))) as [| |i n| | |]; try discriminate. destruct Hl as [Hb Hg].
    exists i. eapply chain_snoc; [apply T|exact Hb|]. rewrite (is_dir_kind _ _ _ Hg). exact H.
  Qed.

  (* after the parent exists: Lstat, Mkdir, Chown, Utimes *)
  Lemma mkdir_tail o cs x s s2 s' created r :
    mk_post cs s s2 (inl created) -> is_dir (s_fs s) dr = true ->
    Forall nm cs -> Forall nonul cs -> nm x -> nonul x ->
    (r1 <~ sys (fun f => sys_lstat c f (render (dcs ++ cs ++ [x]))) ;;
     if match r1 with RStat _ n1 => kind_is_dir n1 | _ => false end then ret created
     else
       r2 <~ sys (fun f => sys_mkdir c f (render (dcs ++ cs ++ [x])) (dir_mode o)) ;;
       match r2 with
       | ROk =>
         chown_fixed c o (render (dcs ++ cs ++ [x])) ;;;
         utimes_opt c (render (dcs ++ cs ++ [x])) (o_utime o) ;;;
         ret (created ++ [render (dcs ++ cs ++ [x])])
       | _ =>
         r3 <~ sys (fun f => sys_lstat c f (render (dcs ++ cs ++ [x]))) ;;
         if match r3 with RStat _ n3 => kind_is_dir n3 | _ => false end then ret created
         else fail E_SYS
       end) s2 = (s', r) ->
    mk_post (cs ++ [x]) s s' r.
  Proof.
    intros (S2 & L2 & P2) Hdr Hcs Hnul Hx Hxn H.
    destruct (P2 created eq_refl) as ((dpar & Hcp) & Hcr).
    assert (T2 : Tgt (s_fs s2) cs dpar x) by (constructor; auto; apply S2).
    change (render (dcs ++ cs ++ [x])) with (tpath cs x) in H.
    (* the ways out, from a state reached at or below the parent *)
    assert (Hfrom : forall s3, stays dpar s2 s3 -> stays dr s s3).
    { intros s3 S3. eapply stays_trans; [exact Hdr|exact S2|]. eapply (stays_below c f0 dr dcs); eauto. }
    assert (Hdone : forall s3, stays dpar s2 s3 -> s_links s3 = s_links s2 ->
              match snd (sys_lstat c (s_fs s3) (tpath cs x)) with RStat _ n => kind_is_dir n | _ => false end = true ->
              mk_post (cs ++ [x]) s s3 (inl created)).
    { intros s3 S3 L3 Hk. split; [auto|]. split; [congruence|].
      intros cr Hc. inversion Hc; subst cr. split; [eapply lstat_dir_chain; eauto; eapply tgt_stays; eauto|].
      eapply created_all_keeps; [eapply stays_keeps|]; eauto. }
    assert (Hfail : forall s3 e, stays dpar s2 s3 -> s_links s3 = s_links s2 -> mk_post (cs ++ [x]) s s3 (inr e)).
    { intros s3 e S3 L3. split; [auto|]. split; [congruence|discriminate]. }
    rewrite sys_bind, sys_lstat_fs in H.
    set (s3 := mk s2 (s_fs s2)) in H.
    assert (S3 : stays dpar s2 s3) by (apply stays_same; auto; apply T2).
    destruct (match snd (sys_lstat c (s_fs s2) (tpath cs x)) with RStat _ n1 => kind_is_dir n1 | _ => false end) eqn:Ek1.
    { injection H as <- <-. apply Hdone; auto. }
    clear Ek1.
    rewrite sys_bind in H. change (s_fs s3) with (s_fs s2) in H.
    destruct (sys_mkdir c (s_fs s2) (tpath cs x) (dir_mode o)) as [f4 r4] eqn:E4. cbn [fst snd] in H.
    destruct (t_mkdir c f0 dr dcs _ cs dpar x _ f4 r4 T2 E4) as ((C4 & A4 & P4) & G4 & K4).
    assert (S4 : stays dpar s2 (mk s3 f4)).
    { eapply stays_trans; [eapply tgt_dir; eauto|exact S3|]. apply stays_grows; auto. }
    destruct P4 as [[e ->]|[-> [Hc Hi]]].
    - (* Mkdir failed: look again *)
      cbv beta iota in H. rewrite sys_bind, sys_lstat_fs in H. change (s_fs (mk s3 f4)) with f4 in H.
      set (s5 := mk (mk s3 f4) f4) in H.
      assert (S5 : stays dpar s2 s5) by exact S4.
      destruct (match snd (sys_lstat c f4 (tpath cs x)) with RStat _ n3 => kind_is_dir n3 | _ => false end) eqn:Ek3;
        injection H as <- <-; [apply Hdone|apply Hfail]; auto.
    - (* created: Chown, Utimes *)
      set (nw := f_next (s_fs s3)) in *.
      assert (T4 : Tgt (s_fs (mk s3 f4)) cs dpar x) by (eapply tgt_stays; eauto).
      assert (N4 : names_ss (s_fs (mk s3 f4)) dpar x nw) by (split; [apply Hc|right; apply Hc]).
      assert (Hm : forall s5, mstep (mk s3 f4) s5 -> stays dpar s2 s5 /\ s_links s5 = s_links s2).
      { intros s5 M5. split; [eapply stays_trans; [eapply tgt_dir; eauto|exact S4|apply mstep_stays; exact M5]|apply M5]. }
      rewrite bind_run in H.
      destruct (chown_fixed c o (tpath cs x) (mk s3 f4)) as [s5 r5] eqn:E5.
      pose proof (chown_fixed_spec cs dpar x nw o _ _ _ T4 N4 (False_ind _) E5) as M5.
      destruct r5 as [[]|e]; [|injection H as <- <-; apply Hfail; apply Hm; exact M5].
      rewrite bind_run in H.
      destruct (utimes_opt c (tpath cs x) (o_utime o) s5) as [s6 r6] eqn:E6.
      pose proof (utimes_opt_spec cs dpar x nw _ _ _ _ (mstep_tgt c f0 dr dcs _ _ _ _ _ T4 M5) (mstep_names c f0 dr dcs _ _ _ _ _ N4 M5) (False_ind _) E6) as M6.
      assert (M46 : mstep (mk s3 f4) s6) by (eapply mstep_trans; eauto).
      destruct (Hm s6 M46) as (S6 & L6).
      destruct r6 as [[]|e]; injection H as <- <-; [|apply Hfail; auto].
      split; [auto|]. split; [congruence|].
      intros cr Hcr2. inversion Hcr2; subst cr.
      assert (T6 := mstep_tgt c f0 dr dcs _ _ _ _ _ T4 M46). assert (N6 := mstep_names c f0 dr dcs _ _ _ _ _ N4 M46).
      split.
      + exists nw. eapply chain_snoc; [apply T6|apply N6|]. destruct M46 as ((_ & _ & _ & I6 & _) & _). rewrite I6. exact Hi.
      + apply Forall_app. split.
        * eapply created_all_keeps; [eapply stays_keeps|]; eauto.
        * constructor; [|constructor]. exists cs, x. do 5 (split; [auto|]).
          intros d' Hd'. rewrite (chain_fun _ _ _ _ Hd' _ (tg_chain _ _ _ _ _ _ _ _ T6)).
          unfold bind_new. destruct N6 as [Hb6 _]. rewrite Hb6. apply Hc.
  Qed.

  Lemma mkdir_slow_spec recur o cs x s s' r :
    (forall s1 s2 r2, Ctx (s_fs s1) -> link_free (s_fs s1) dr cs = true ->
        recur (render (dcs ++ cs)) s1 = (s2, r2) -> mk_post cs s1 s2 r2) ->
    Ctx (s_fs s) -> Forall nm cs -> Forall nonul cs -> nm x -> nonul x -> link_free (s_fs s) dr (cs ++ [x]) = true ->
    mkdir_slow recur c o (render (dcs ++ cs ++ [x])) s = (s', r) -> mk_post (cs ++ [x]) s s' r.
  Proof.
    intros Hrec C Hcs Hnul Hx Hxn Hlf H. unfold mkdir_slow in H.
    assert (Hdr : is_dir (s_fs s) dr = true) by (eapply chain_end_dir; apply (cx_root _ _ _ _ _ C)).
    assert (Hall : Forall nm ((dcs ++ cs) ++ [x])).
    { apply Forall_app; split; [apply Forall_app; split; [apply (cx_dcs _ _ _ _ _ C)|auto]|constructor; auto]. }
    rewrite bind_run in H. rewrite app_assoc in H. rewrite mk_parent_render in H by auto.
    assert (Hpar : forall s2 (r2 : list bytes + N),
              (match dcs ++ cs with [] => None | _ => Some (render (dcs ++ cs)) end = None -> s2 = s /\ r2 = inl [] /\ cs = []) ->
              (match dcs ++ cs with [] => None | _ => Some (render (dcs ++ cs)) end <> None -> recur (render (dcs ++ cs)) s = (s2, r2)) ->
              mk_post cs s s2 r2).
    { intros s2 r2 H1 H2. destruct (dcs ++ cs) as [|y0 l0] eqn:El.
      - destruct (H1 eq_refl) as (-> & -> & ->). split; [apply stays_refl; auto|]. split; auto.
        intros cr Hc. inversion Hc; subst. split; [|constructor]. exists dr. constructor; auto.
      - rewrite <- El in *. apply Hrec; auto; [eapply RootPathP.link_free_prefix; eauto|apply H2; discriminate]. }
    destruct ((match dcs ++ cs with [] => None | _ => Some (render (dcs ++ cs)) end)) as [par|] eqn:Epar.
    - assert (Epp : par = render (dcs ++ cs)) by (destruct (dcs ++ cs); inversion Epar; reflexivity). subst par.
      destruct (recur (render (dcs ++ cs)) s) as [s2 [created|e]] eqn:E2.
      + assert (P2 : mk_post cs s s2 (inl created)) by (apply Hpar; [discriminate|auto]).
        eapply (mkdir_tail o cs x s s2 s' created r); eauto. rewrite <- app_assoc in H. exact H.
      + assert (P2 : mk_post cs s s2 (inr e)) by (apply Hpar; [discriminate|auto]).
        injection H as <- <-. destruct P2 as (S2 & L2 & _). split; auto. split; auto. discriminate.
    - cbn [ret] in H.
      assert (P2 : mk_post cs s s (inl [])) by (apply Hpar; [intros _; repeat split; auto; destruct (dcs ++ cs) eqn:E; [apply app_eq_nil in E; apply E|discriminate]|congruence]).
      eapply (mkdir_tail o cs x s s s' [] r); eauto. rewrite <- app_assoc in H. exact H.
  Qed.

  Lemma mkdir_all_spec : forall k o cs s s' r,
    Ctx (s_fs s) -> Forall nm cs -> Forall nonul cs -> link_free (s_fs s) dr cs = true ->
    mkdir_all k c o (render (dcs ++ cs)) s = (s', r) -> mk_post cs s s' r.
  Proof.
    induction k as [|k IH]; intros o cs s s' r C Hcs Hnul Hlf H.
    { cbn [mkdir_all] in H. unfold fail in H. injection H as <- <-.
      split; [apply stays_refl; auto|split; auto; discriminate]. }
    cbn [mkdir_all] in H. rewrite sys_bind, sys_stat_fs in H.
    assert (Hdr : is_dir (s_fs s) dr = true) by (eapply chain_end_dir; apply (cx_root _ _ _ _ _ C)).
    set (s1 := {| s_fs := s_fs s; s_links := s_links s; s_parents := s_parents s; s_reads := s_reads s |}) in H.
    assert (S1 : stays dr s s1) by (apply stays_same; auto).
    assert (Hslow : forall r0, snd (sys_stat c (s_fs s) (render (dcs ++ cs))) = r0 -> (forall i n, r0 <> RStat i n) ->
              mkdir_slow (mkdir_all k c o) c o (render (dcs ++ cs)) s1 = (s', r) -> mk_post cs s s' r).
    { intros r0 Est Hno H1.
      assert (Hne : cs <> []).
      { intros ->. rewrite app_nil_r in Est. destruct (stat_root (s_fs s) C) as (n' & _ & E' & _). rewrite E' in Est.
        subst r0. eapply Hno; reflexivity. }
      destruct (exists_last Hne) as (cs' & x & ->).
      apply Forall_app in Hcs. destruct Hcs as [Hcs' Hx]. inversion Hx as [|? ? Hx1 _]; subst.
      apply Forall_app in Hnul. destruct Hnul as [Hnul' Hxn]. inversion Hxn as [|? ? Hxn1 _]; subst.
      assert (P : mk_post (cs' ++ [x]) s1 s' r).
      { apply (mkdir_slow_spec (mkdir_all k c o) o cs' x s1 s' r); auto.
        intros sa sb rb Ca La Ha. apply (IH o cs' sa sb rb); auto. }
      destruct P as (Sa & La & Pa). split; [eapply stays_trans; [exact Hdr|exact S1|exact Sa]|]. split; [exact La|exact Pa]. }
    destruct (snd (sys_stat c (s_fs s) (render (dcs ++ cs)))) as [|e0|i n|b0|l0|i0] eqn:Est.
    3:{ destruct (kind_is_dir n) eqn:Ek.
        - cbn [ret] in H. injection H as <- <-. split; auto. split; auto. intros created Hc. inversion Hc; subst.
          split; [|constructor]. exists i. eapply stat_dir_chain; eauto.
        - unfold fail in H. injection H as <- <-. split; auto. split; auto. discriminate. }
    all: eapply Hslow; eauto; intros; discriminate.
  Qed.
End Top.
