(* C03 — DiskWriter.HandleChange (Model/DiskWriterFs.v: dw_handle) is a step that touches at most
   the entry it was given and the temporary name next to it, provided the parent chain of the
   path meets no symlink and the temporary name is free. *)
From Coq Require Import List Arith NArith Bool Lia ZifyN ZifyNat ZifyBool.
From FS Require Import Sx Model.Path Model.Stat Model.Validator Model.Fs Model.DiskWriterFs.
From FS Require Import Proofs.Lex Proofs.PathP Proofs.ValidatorP Proofs.FsP Proofs.FsReachP Proofs.FsFrameP Proofs.FsSysP.
Import ListNotations.
Open Scope N_scope.
Open Scope bool_scope.

Section Dw.
Variable D : N.
Notation reach := (reach D).
Notation wf := (wf D).
Notation step := (step D).

(* a safe parent chain stays safe with one more name whose entry, if there is one, is no symlink *)
Lemma safe_snoc g pre nm : safe g D pre ->
  (forall dd i, rwalk g D pre = Some dd -> blookup nm (ents g dd) = Some i -> is_link g i = false) ->
  safe g D (pre ++ [nm]).
Proof.
  intros Hs H. apply safe_app. split; auto. intros j Hj. apply safe_unfold.
  destruct (blookup nm (ents g j)) as [i|] eqn:Eb; auto. split; [|exact I]. apply (H j i); auto.
Qed.

Lemma safe_snoc_at g pre nm dd i : safe g D pre -> rwalk g D pre = Some dd -> blookup nm (ents g dd) = Some i ->
  is_link g i = false -> safe g D (pre ++ [nm]).
Proof. intros Hs Hw Hb Hl. apply safe_snoc; auto. intros dd' i' Hw' Hb'. congruence. Qed.

Section Meta.
Variables (b : N) (c : ctx) (p : bytes) (pre : list bytes) (n : bytes) (st : stat).
Hypothesis Hc : c_cwd c = D.
Hypothesis Hrel : relpath p (pre ++ [n]).

Definition meta_pre (f : fs) : Prop :=
  wf f /\ b <= f_next f /\ safe f D pre /\ target_ok D b f pre n
  /\ (mode_is_symlink (st_mode st) = false -> safe f D (pre ++ [n])).

(* the entry is known: it is [i], made by the running operation or a directory *)
Lemma meta_pre_at f dd i : wf f -> b <= f_next f -> safe f D pre ->
  rwalk f D pre = Some dd -> blookup n (ents f dd) = Some i -> b <= i \/ is_dir f i = true ->
  (mode_is_symlink (st_mode st) = false -> is_link f i = false) -> meta_pre f.
Proof.
  intros W Hb Hs Hw Hbl Ht Hl. refine (conj W (conj Hb (conj Hs (conj _ _)))).
  - intros dd' i' Hw' Hb'. assert (i' = i) by congruence. subst i'. exact Ht.
  - intros Hm. apply (safe_snoc_at f pre n dd i); auto.
Qed.

Lemma meta_pre_step f f' : meta_pre f -> step TNone b f f' -> meta_pre f'.
Proof.
  intros (W & Hb & Hs & Ht & Hf) S.
  split; [apply (st_wf _ _ _ _ _ S)|]. split; [pose proof (st_next _ _ _ _ _ S); lia|].
  split; [apply (quiet_safe D b f f'); auto|]. split.
  - intros dd i Hw Hbl. rewrite (quiet_rwalk D b f f' pre W S) in Hw.
    pose proof (rwalk_inside D f pre dd Hw) as Rdd.
    rewrite (quiet_blookup D b f f' dd n S (reach_lt D f dd W Rdd)) in Hbl.
    destruct (dentry_reach D f pre dd n i Hw Hbl) as [_ Ri].
    rewrite (is_dir_step D TNone b f f' i S (reach_lt D f i W Ri)). apply (Ht dd i); auto.
  - intros Hm. apply (quiet_safe D b f f'); auto.
Qed.

Lemma xattrs_step : forall xs f, meta_pre f ->
  let f' := fold_left (fun g kv => fst (sys_lsetxattr c g p (fst kv) (snd kv))) xs f in
  step TNone b f f' /\ meta_pre f'.
Proof.
  induction xs as [|kv xs IH]; intros f M; simpl.
  - split; [destruct M as (W & Hb & _); apply step_refl; auto|exact M].
  - pose proof M as (W & Hb & Hs & Ht & Hf).
    pose proof (sys_lsetxattr_step D TNone b c f p pre n W Hb Hc Hrel Hs (fst kv) (snd kv) Ht) as S1.
    pose proof (meta_pre_step f _ M S1) as M1.
    destruct (IH _ M1) as [S2 M2]. split; auto.
    apply (step_trans D TNone b f _ _ S1 S2).
Qed.

Lemma rewrite_meta_step f : meta_pre f -> step TNone b f (fst (rewrite_meta c f p st)).
Proof.
  intros M. unfold rewrite_meta.
  destruct (xattrs_step (st_xattrs st) f M) as [S1 M1]. set (f1 := fold_left _ _ f) in *.
  pose proof M1 as (W1 & Hb1 & Hs1 & Ht1 & Hf1).
  pose proof (sys_lchown_step D TNone b c f1 p pre n W1 Hb1 Hc Hrel Hs1 (st_uid st) (st_gid st) Ht1) as S2.
  destruct (sys_lchown c f1 p (st_uid st) (st_gid st)) as [f2 r2]. cbn [fst] in S2.
  pose proof (meta_pre_step f1 f2 M1 S2) as M2. pose proof (step_trans D TNone b f f1 f2 S1 S2) as S12.
  destruct (is_err r2); [exact S12|].
  pose proof M2 as (W2 & Hb2 & Hs2 & Ht2 & Hf2).
  set (r := if mode_is_symlink (st_mode st) then _ else _).
  assert (S3 : step TNone b f2 (fst r)).
  { unfold r. destruct (mode_is_symlink (st_mode st)) eqn:Em; [apply step_refl; auto|].
    apply (sys_chmod_step D TNone b c f2 p pre n W2 Hb2 Hc Hrel Hs2); auto. }
  clearbody r. destruct r as [f3 r3]. cbn [fst] in S3.
  pose proof (meta_pre_step f2 f3 M2 S3) as (W3 & Hb3 & Hs3 & Ht3 & Hf3).
  pose proof (step_trans D TNone b f f2 f3 S12 S3) as S13.
  destruct (is_err r3); [exact S13|].
  pose proof (sys_utimens_step D TNone b c f3 p pre n W3 Hb3 Hc Hrel Hs3 (st_mtime st) Ht3) as S4.
  destruct (sys_utimens c f3 p (st_mtime st)) as [f4 r4]. apply (step_trans D TNone b f f3 f4 S13 S4).
Qed.

End Meta.

Lemma is_dir_get f i nd : get f i = Some nd -> is_dir f i = match i_kind nd with KDir _ _ => true | _ => false end.
Proof. intros H. unfold is_dir, dir_of. rewrite H. destruct nd as [[] m]; reflexivity. Qed.

(* a directory entry [oi] at [pre]/[bn]: rewriteMetadata on it touches no entry *)
Lemma inplace_step c f p pre bn st dd oi : wf f -> c_cwd c = D -> relpath p (pre ++ [bn]) -> safe f D pre ->
  rwalk f D pre = Some dd -> blookup bn (ents f dd) = Some oi -> is_dir f oi = true ->
  safe f D (pre ++ [bn]) /\ step TNone (f_next f) f (fst (rewrite_meta c f p st)).
Proof.
  intros W Hc Hp Hs Hw Hbl Hdo. pose proof (dir_not_link f oi Hdo) as Hl.
  split; [apply (safe_snoc_at f pre bn dd oi); auto|].
  apply (rewrite_meta_step (f_next f) c p pre bn st Hc Hp).
  apply (meta_pre_at (f_next f) pre bn st f dd oi); auto. apply N.le_refl.
Qed.


(* the creation switch makes something that is no symlink and no hard link *)
Definition solid (st : stat) : bool :=
  let m := st_mode st in
  mode_is_dir m || ((has_bits m ModeDevice || has_bits m ModeNamedPipe) && is_nil (st_linkname st))
  || (negb (mode_is_symlink m) && is_nil (st_linkname st)).

Lemma nth_split_prefix (pre cs : list bytes) k n : firstn k cs = pre -> nth_error cs k = Some n -> is_prefix (pre ++ [n]) cs.
Proof.
  intros H1 H2. rewrite <- (firstn_skipn k cs). rewrite H1.
  assert (E : exists r, skipn k cs = n :: r).
  { clear H1. revert cs H2. induction k as [|k IH]; intros cs H2.
    - destruct cs; simpl in *; [discriminate|]. inversion H2; subst. eauto.
    - destruct cs; simpl in *; [discriminate|]. apply IH. exact H2. }
  destruct E as [r ->]. exists r. rewrite <- app_assoc. reflexivity.
Qed.

(* the creation switch takes the os.Link arm *)
Definition hardlink_branch (st : stat) : bool :=
  let m := st_mode st in
  negb (mode_is_dir m) && negb (mode_is_symlink m) && negb (is_nil (st_linkname st)).

Section Handle.
Variables (c : ctx) (f : fs) (tmp : bytes) (p : bytes) (pre : list bytes) (bn : bytes) (st : stat).
Hypothesis W : wf f.
Hypothesis Hc : c_cwd c = D.
Hypothesis Hp : relpath p (pre ++ [bn]).
Hypothesis Hnp : relpath (tmp_path p tmp) (pre ++ [tmp]).
Hypothesis Hne : tmp <> bn.
Hypothesis Hsafe : safe f D pre.
Hypothesis Hfree : forall dd, rwalk f D pre = Some dd -> blookup tmp (ents f dd) = None.

(* the source of a hard link: a path whose parent chain is safe *)
Definition linksrc : Prop := hardlink_branch st = true ->
  exists pre1 n1, relpath (st_linkname st) (pre1 ++ [n1]) /\ safe f D pre1.

Let b := f_next f.

Definition Tn (nm : bytes) : N -> bytes -> Prop :=
  fun d m => rwalk f D pre = Some d /\ is_dir f d = true /\ m = nm.
Definition Tp : N -> bytes -> Prop :=
  fun d m => rwalk f D pre = Some d /\ is_dir f d = true /\ (m = bn \/ m = tmp).

Lemma Tn_Tp nm : nm = bn \/ nm = tmp -> forall d m, Tn nm d m -> Tp d m.
Proof. intros H d m (A & B & C). subst m. split; auto. Qed.
Lemma TNone_Tp : forall d m, TNone d m -> Tp d m.
Proof. intros d m []. Qed.

Lemma pre_avoids : avoids Tp f D pre.
Proof.
  apply (avoids_own_dir D Tp f pre W). intros d m (A & B & _). auto.
Qed.

(* what holds in every intermediate state of the call *)
Record mid (g : fs) : Prop := {
  mid_step : step Tp b f g;
  mid_wf : wf g;
  mid_b : b <= f_next g;
  mid_safe : safe g D pre;
  mid_walk : rwalk g D pre = rwalk f D pre;
  mid_dir : forall dd, rwalk f D pre = Some dd -> is_dir g dd = is_dir f dd
}.

Lemma mid_of_step g : step Tp b f g -> mid g.
Proof.
  intros S. constructor; auto.
  - apply (st_wf _ _ _ _ _ S).
  - apply (st_next _ _ _ _ _ S).
  - apply (safe_step D Tp b f g W S pre D (reach_refl D f) pre_avoids Hsafe).
  - apply (rwalk_step D Tp b f g W S pre D (reach_refl D f) pre_avoids).
  - intros dd Hw. apply (is_dir_step D Tp b f g dd S). apply (reach_lt D f dd W (rwalk_inside D f pre dd Hw)).
Qed.

Lemma mid_refl : mid f.
Proof. apply mid_of_step. apply step_refl; auto. apply N.le_refl. Qed.

Lemma mid_next g g' (T' : N -> bytes -> Prop) : mid g -> (forall d m, T' d m -> Tp d m) -> step T' b g g' -> mid g'.
Proof.
  intros M HT S. apply mid_of_step. apply (step_trans D Tp b f g g'); [apply M|].
  apply (step_weaken D T' Tp b g g' HT S).
Qed.

Lemma mid_names g nm : mid g -> forall dd, rwalk g D pre = Some dd -> is_dir g dd = true -> Tn nm dd nm.
Proof.
  intros M dd Hw Hd. rewrite (mid_walk g M) in Hw. rewrite (mid_dir g M dd Hw) in Hd. repeat split; auto.
Qed.

(* an entry of the directory at [pre] is the same in g' as in g when the step did not name it *)
Lemma mid_dent g g' (T' : N -> bytes -> Prop) dd nm :
  mid g -> step T' b g g' -> rwalk f D pre = Some dd -> ~ T' dd nm ->
  blookup nm (ents g' dd) = blookup nm (ents g dd).
Proof.
  intros M S Hw HT. apply (st_dent _ _ _ _ _ S dd nm); [|exact HT].
  apply (N.lt_le_trans _ b); [apply (reach_lt D f dd W (rwalk_inside D f pre dd Hw))|apply M].
Qed.

Lemma not_Tn nm nm' dd : nm <> nm' -> ~ Tn nm dd nm'.
Proof. intros H (_ & _ & E). congruence. Qed.

Lemma not_TNone dd nm : ~ TNone dd nm.
Proof. intros []. Qed.

(* what an entry of that directory leads to stays a symlink, or none, along a step *)
Lemma islink_next g g' (T' : N -> bytes -> Prop) dd nm i : mid g -> step T' b g g' ->
  rwalk f D pre = Some dd -> blookup nm (ents g dd) = Some i -> is_link g' i = is_link g i.
Proof.
  intros M S Hw Hbl. apply (is_link_step D T' b g g' i S).
  destruct (dentry_reach D g pre dd nm i) as [_ Ri]; auto; [rewrite (mid_walk g M); auto|].
  apply (reach_lt D g i (mid_wf g M) Ri).
Qed.

(* the creation switch made, under the name [nm], an entry that is new unless it is a hard link *)
Definition made_at (nm : bytes) (f1 : fs) (mk : made) : Prop :=
  exists dd i, rwalk f D pre = Some dd /\ is_dir f dd = true /\ blookup nm (ents f1 dd) = Some i
    /\ (mk <> MHardlink -> b <= i /\ (mode_is_symlink (st_mode st) = false -> is_link f1 i = false)
                                   /\ (solid st = true -> is_link f1 i = false))
    /\ (solid st = true -> mk <> MHardlink)
    /\ (mk = MRegular -> b <= i /\ solid st = true).

(* a call that made a new inode of kind [k]: only the symlink arm makes a symlink *)
Lemma made_new nm g k mk : created D f pre nm g k -> mk <> MHardlink ->
  (ktag k = 2 -> mode_is_symlink (st_mode st) = true /\ solid st = false) ->
  (mk = MRegular -> solid st = true) -> made_at nm g mk.
Proof.
  intros (dd & m & A1 & A2 & _ & A4 & A5) Hmk Hk Hreg. exists dd, b.
  assert (Hl : ktag k <> 2 -> is_link g b = false).
  { intros H. unfold is_link, b. rewrite A5. destruct k; simpl in *; congruence. }
  split; [exact A1|]. split; [exact A2|]. split; [exact A4|]. split; [|split].
  - intros _. split; [apply N.le_refl|].
    split; intros H; apply Hl; intros E; destruct (Hk E); congruence.
  - intros _. exact Hmk.
  - intros E. split; [apply N.le_refl|auto].
Qed.

(* one arm of the switch: a call, whose success says [Q], wrapped into the triple dw_create returns *)
Lemma create_arm nm (x : fs * result) mk (Q : Prop) :
  step (Tn nm) b f (fst x) /\ (rerr (snd x) = false -> Q) -> (Q -> made_at nm (fst x) mk) ->
  let r := (let (f1, r) := x in (f1, negb (is_err r), mk)) in
  step (Tn nm) b f (fst (fst r)) /\ (snd (fst r) = true -> made_at nm (fst (fst r)) (snd r)).
Proof.
  destruct x as [g r]. cbn. intros [S P] H. split; [exact S|]. intros Hok. apply H, P, negb_true_iff, Hok.
Qed.

Lemma dw_create_spec q nm :
  relpath q (pre ++ [nm]) -> (nm = bn \/ nm = tmp) -> linksrc ->
  (forall dd i, rwalk f D pre = Some dd -> blookup nm (ents f dd) = Some i -> get f i = None) ->
  let r := dw_create c f q st in
  step (Tn nm) b f (fst (fst r)) /\ (snd (fst r) = true -> made_at nm (fst (fst r)) (snd r)).
Proof.
  intros Hq Hnm Hlink Habs. unfold dw_create.
  assert (HT : forall dd, rwalk f D pre = Some dd -> is_dir f dd = true -> Tn nm dd nm) by (intros; repeat split; auto).
  assert (Hb : b <= f_next f) by apply N.le_refl.
  destruct (mode_is_dir (st_mode st)) eqn:Edir.
  { apply (create_arm nm _ MOther _ (sys_mkdir_step D (Tn nm) b c f q pre nm W Hb Hc Hq Hsafe HT _)).
    intros [d0 Cr]. apply (made_new nm _ _ MOther Cr); simpl; discriminate. }
  destruct ((has_bits (st_mode st) ModeDevice || has_bits (st_mode st) ModeNamedPipe) && is_nil (st_linkname st)) eqn:Edev.
  { apply (create_arm nm _ MOther _ (sys_mknod_step D (Tn nm) b c f q pre nm W Hb Hc Hq Hsafe HT _ _ _)).
    intros (t0 & r0 & Cr). apply (made_new nm _ _ MOther Cr); simpl; discriminate. }
  destruct (mode_is_symlink (st_mode st)) eqn:Esym.
  { apply (create_arm nm _ MOther _ (sys_symlink_step D (Tn nm) b c f q pre nm W Hb Hc Hq Hsafe HT _)).
    intros Cr. apply (made_new nm _ _ MOther Cr); try discriminate.
    intros _. unfold solid. rewrite Edir, Edev, Esym. split; reflexivity. }
  destruct (is_nil (st_linkname st)) eqn:Eln; cbn [negb].
  - assert (Hfull : safe f D (pre ++ [nm])).
    { apply safe_snoc; auto. intros dd i Hw Hbl. unfold is_link. rewrite (Habs dd i Hw Hbl). reflexivity. }
    apply (create_arm nm _ MRegular _ (sys_open_creat_step D (Tn nm) b c f q pre nm W Hb Hc Hq HT _ Hfull)).
    intros (i & _ & [(_ & dd & nd & A1 & A2 & A3 & _)|(_ & Cr)]).
    + rewrite (Habs dd i A1 A2) in A3. discriminate.
    + apply (made_new nm _ _ MRegular Cr); try (simpl; discriminate).
      intros _. unfold solid. rewrite Edir, Esym, Eln, Edev. reflexivity.
  - assert (Hhb : hardlink_branch st = true) by (unfold hardlink_branch; rewrite Edir, Esym, Eln; reflexivity).
    destruct (Hlink Hhb) as (pre1 & n1 & Hrel1 & Hs1).
    apply (create_arm nm _ MHardlink _
             (sys_link_step D (Tn nm) b c f (st_linkname st) q pre1 n1 pre nm W Hb Hc Hrel1 Hq Hs1 Hsafe HT)).
    intros (dd & dd1 & i & A1 & Hd & _ & _ & _ & A5).
    exists dd, i. repeat split; auto; try congruence.
    unfold solid. rewrite Edir, Eln, !andb_false_r. discriminate.
Qed.


Definition tmpfree (g : fs) : Prop := forall dd, rwalk f D pre = Some dd -> blookup tmp (ents g dd) = None.

(* what a successful HandleChange leaves behind; nothing is said of the new entry after a delete *)
Definition post (kind : N) (r : fs * dwres) : Prop :=
  step Tp b f (fst r) /\
  forall a nd, snd r = DwOk a nd ->
    tmpfree (fst r)
    /\ (kind <> 2 -> solid st = true -> safe (fst r) D (pre ++ [bn]))
    /\ (a = true -> solid st = true /\ exists dd i, rwalk f D pre = Some dd /\ blookup bn (ents (fst r) dd) = Some i /\ b <= i).

Lemma post_err kind g : step Tp b f g -> post kind (g, DwErr).
Proof. intros S. split; auto. intros a nd H. discriminate. Qed.

Lemma post_ok kind g a nd : step Tp b f g -> tmpfree g ->
  (kind <> 2 -> solid st = true -> safe g D (pre ++ [bn])) ->
  (a = true -> solid st = true /\ exists dd i, rwalk f D pre = Some dd /\ blookup bn (ents g dd) = Some i /\ b <= i) ->
  post kind (g, DwOk a nd).
Proof. intros S A B C. split; [exact S|]. intros a' nd' E. injection E as <- <-. auto. Qed.

Lemma dw_delete_spec :
  let f1 := fst (sys_remove_all c f p) in step Tp b f f1 /\ tmpfree f1.
Proof.
  destruct (sys_remove_all_step D (Tn bn) b c f p pre bn W (N.le_refl _) Hc Hp Hsafe (mid_names f bn mid_refl)) as [S _].
  cbv zeta. split; [apply (step_weaken D (Tn bn) Tp); auto; apply Tn_Tp; auto|].
  intros dd Hw. rewrite (mid_dent f _ (Tn bn) dd tmp mid_refl S Hw (not_Tn bn tmp dd (not_eq_sym Hne))).
  apply Hfree. exact Hw.
Qed.

(* directory over directory: the metadata is rewritten in place *)
Lemma dw_inplace_spec dd oi :
  rwalk f D pre = Some dd -> blookup bn (ents f dd) = Some oi -> is_dir f oi = true ->
  let f1 := fst (rewrite_meta c f p st) in
  step Tp b f f1 /\ tmpfree f1 /\ safe f1 D (pre ++ [bn]).
Proof.
  intros Hw Hbl Hdo. cbv zeta.
  destruct (inplace_step c f p pre bn st dd oi W Hc Hp Hsafe Hw Hbl Hdo) as [Hfull S].
  split; [apply (step_weaken D TNone Tp); auto; apply TNone_Tp|]. split.
  - intros dd' Hw'. rewrite (mid_dent f _ TNone dd' tmp mid_refl S Hw' (not_TNone _ _)). apply Hfree. exact Hw'.
  - apply (quiet_safe D b f); auto.
Qed.

Lemma dw_meta_spec q nm f1 mk dd i :
  relpath q (pre ++ [nm]) -> mid f1 -> rwalk f D pre = Some dd -> blookup nm (ents f1 dd) = Some i ->
  (mk <> MHardlink -> b <= i /\ (mode_is_symlink (st_mode st) = false -> is_link f1 i = false)) ->
  step TNone b f1 (fst (dw_meta c f1 q st mk)).
Proof.
  intros Hq M Hw Hbl Hmk. unfold dw_meta.
  assert (R : mk <> MHardlink -> step TNone b f1 (fst (rewrite_meta c f1 q st))).
  { intros H. destruct (Hmk H) as [Hbi Hl]. apply (rewrite_meta_step b c q pre nm st Hc Hq).
    apply (meta_pre_at b pre nm st f1 dd i); auto; try apply M. rewrite (mid_walk f1 M). exact Hw. }
  destruct mk; try (apply R; discriminate). apply step_refl; apply M.
Qed.

(* the creation switch at [q] = [pre]/[nm] followed by the metadata: the other names of the
   directory keep their entries, the new entry [i] is no symlink when the stat is solid *)
Lemma dw_make_spec q nm : relpath q (pre ++ [nm]) -> (nm = bn \/ nm = tmp) -> linksrc ->
  (forall dd i, rwalk f D pre = Some dd -> blookup nm (ents f dd) = Some i -> get f i = None) ->
  let '(f1, ok, mk) := dw_create c f q st in
  mid f1 /\ (ok = true -> let f2 := fst (dw_meta c f1 q st mk) in
    mid f2
    /\ (forall dd' nm', rwalk f D pre = Some dd' -> nm' <> nm -> blookup nm' (ents f2 dd') = blookup nm' (ents f dd'))
    /\ exists dd i, rwalk f D pre = Some dd /\ is_dir f dd = true /\ blookup nm (ents f2 dd) = Some i
         /\ (mk <> MHardlink -> b <= i /\ (solid st = true -> is_link f2 i = false))
         /\ (solid st = true -> mk <> MHardlink)
         /\ (made_regular mk = true -> b <= i /\ solid st = true)).
Proof.
  intros Hq Hnm Hlink Habs.
  pose proof (dw_create_spec q nm Hq Hnm Hlink Habs) as C. cbv zeta in C.
  destruct (dw_create c f q st) as [[f1 ok] mk]. cbn [fst snd] in C. destruct C as [S1 P1].
  pose proof (mid_of_step f1 (step_weaken D (Tn nm) Tp b f f1 (Tn_Tp nm Hnm) S1)) as M1.
  split; [exact M1|]. intros ->. cbv zeta.
  destruct (P1 eq_refl) as (dd & i & Hw & Hd & Hbl & Hmk & Hsol & Hreg).
  pose proof (dw_meta_spec q nm f1 mk dd i Hq M1 Hw Hbl (fun H => let (A, B) := Hmk H in conj A (proj1 B))) as S2.
  split; [apply (mid_next f1 _ TNone M1 TNone_Tp S2)|]. split.
  - intros dd' nm' Hw' Hn. rewrite (mid_dent f1 _ TNone dd' nm' M1 S2 Hw' (not_TNone _ _)).
    apply (mid_dent f f1 (Tn nm) dd' nm' mid_refl S1 Hw' (not_Tn nm nm' dd' (not_eq_sym Hn))).
  - exists dd, i. split; [exact Hw|]. split; [exact Hd|]. split; [|split; [|split]].
    + rewrite (mid_dent f1 _ TNone dd nm M1 S2 Hw (not_TNone _ _)). exact Hbl.
    + intros H. destruct (Hmk H) as (A & _ & B). split; [exact A|]. intros Hs.
      rewrite (islink_next f1 _ TNone dd nm i M1 S2 Hw Hbl). exact (B Hs).
    + exact Hsol.
    + intros H. apply Hreg. destruct mk; try discriminate; reflexivity.
Qed.

(* no entry yet: create in place *)
Lemma dw_direct_spec kind : linksrc -> snd (sys_lstat c f p) = RErr ENOENT ->
  post kind (match dw_create c f p st with
        | (f1, false, _) => (f1, DwErr)
        | (f1, true, mk) =>
          let reg := made_regular mk in
          let (f2, ok) := dw_meta c f1 p st mk in
          if negb ok then (f2, DwErr) else (f2, DwOk reg (mode_is_dir (st_mode st) && negb reg))
        end).
Proof.
  intros Hlink Hl.
  pose proof (dw_make_spec p bn Hp (or_introl eq_refl) Hlink (lstat_enoent_dangling D c f p pre bn Hc Hp Hsafe Hl)) as C.
  destruct (dw_create c f p st) as [[f1 ok] mk]. destruct C as [M1 P].
  destruct ok; [|apply post_err; apply M1].
  destruct (P eq_refl) as (M2 & Hoth & dd & i & Hw & Hd & Hbl & Hmk & Hsol & Hreg). clear P.
  cbv zeta in *. destruct (dw_meta c f1 p st mk) as [f2 ok2]. cbn [fst] in *.
  destruct ok2; cbn [negb]; [|apply post_err; apply M2].
  apply (post_ok kind f2 _ _ (mid_step f2 M2)).
  - intros dd' Hw'. rewrite (Hoth dd' tmp Hw' Hne). apply Hfree. exact Hw'.
  - intros _ Hs. apply (safe_snoc_at f2 pre bn dd i); [apply M2|rewrite (mid_walk f2 M2); exact Hw|exact Hbl|].
    apply (Hmk (Hsol Hs)). exact Hs.
  - intros Ha. destruct (Hreg Ha) as [Hbi Hso]. split; auto. exists dd, i. repeat split; auto.
Qed.


Lemma T2_Tp dd : rwalk f D pre = Some dd -> is_dir f dd = true -> forall d m, T2 dd tmp bn d m -> Tp d m.
Proof. intros Hw Hd d m [-> H]. split; auto. split; auto. tauto. Qed.

(* RemoveAll of the old entry, done when exactly one of the old and the new entry is a directory *)
Lemma dw_clear_spec g dd oi (xdir : bool) :
  mid g -> rwalk f D pre = Some dd -> blookup bn (ents g dd) = Some oi ->
  let r := if xdir then sys_remove_all c g p else (g, ROk) in
  mid (fst r) /\ step (Tn bn) b g (fst r)
  /\ (blookup bn (ents (fst r) dd) = Some oi \/ blookup bn (ents (fst r) dd) = None).
Proof.
  intros M Hw Hbn. cbv zeta. destruct xdir; cbn [fst].
  - destruct (sys_remove_all_step D (Tn bn) b c g p pre bn (mid_wf g M) (mid_b g M) Hc Hp (mid_safe g M)
                (mid_names g bn M)) as [S Q].
    split; [apply (mid_next g _ (Tn bn) M (Tn_Tp bn (or_introl eq_refl)) S)|]. split; [exact S|].
    destruct Q as [->|Q]; [left; exact Hbn|right]. apply Q. rewrite (mid_walk g M). exact Hw.
  - split; [exact M|]. split; [apply step_refl; apply M|left; exact Hbn].
Qed.

(* an entry exists and is not handled in place: make the new one next to it, swap *)
Lemma dw_replace_spec kind dd oi ond (xdir ndir : bool) : linksrc ->
  rwalk f D pre = Some dd -> is_dir f dd = true -> blookup bn (ents f dd) = Some oi -> get f oi = Some ond ->
  post kind (match dw_create c f (tmp_path p tmp) st with
        | (f1, false, _) => (f1, DwErr)
        | (f1, true, mk) =>
          let reg := made_regular mk in
          let (f2, ok) := dw_meta c f1 (tmp_path p tmp) st mk in
          if negb ok then (f2, DwErr) else
          let (f3, r3) := if xdir then sys_remove_all c f2 p else (f2, ROk) in
          if is_err r3 then (f3, DwErr) else
          let same := match stat_ino (snd (sys_lstat c f3 (tmp_path p tmp))) with
                      | Some ni => N.eqb ni oi | None => false end in
          let (f4, r4) := if same then sys_unlink c f3 (tmp_path p tmp) else sys_rename c f3 (tmp_path p tmp) p in
          if is_err r4 then (f4, DwErr) else (f4, DwOk reg (ndir && negb reg))
        end).
Proof.
  intros Hlink Hw Hd Hbn Hgo. set (np := tmp_path p tmp) in *.
  assert (Hoi : oi < b).
  { destruct (dentry_reach D f pre dd bn oi Hw Hbn) as [_ R]. apply (reach_lt D f oi W R). }
  assert (Habs : forall dd' i, rwalk f D pre = Some dd' -> blookup tmp (ents f dd') = Some i -> get f i = None).
  { intros dd' i Hw' Hb'. rewrite (Hfree dd' Hw') in Hb'. discriminate. }
  pose proof (dw_make_spec np tmp Hnp (or_intror eq_refl) Hlink Habs) as C.
  destruct (dw_create c f np st) as [[f1 ok] mk]. destruct C as [M1 P].
  destruct ok; [|apply post_err; apply M1].
  destruct (P eq_refl) as (M2 & Hoth & dd1 & i & Hw1 & _ & Hbl2 & Hmk & Hsol & Hreg). clear P.
  rewrite Hw in Hw1. injection Hw1 as <-.
  cbv zeta in *. destruct (dw_meta c f1 np st mk) as [f2 ok2]. cbn [fst] in *.
  destruct ok2; cbn [negb]; [|apply post_err; apply M2].
  assert (Hbn2 : blookup bn (ents f2 dd) = Some oi) by (rewrite (Hoth dd bn Hw (not_eq_sym Hne)); exact Hbn).
  pose proof (dw_clear_spec f2 dd oi xdir M2 Hw Hbn2) as X. cbv zeta in X.
  destruct (if xdir then sys_remove_all c f2 p else (f2, ROk)) as [f3 r3]. cbn [fst] in X. destruct X as (M3 & S3 & Hbn3).
  destruct (is_err r3); [apply post_err; apply M3|].
  assert (Hbl3 : blookup tmp (ents f3 dd) = Some i).
  { rewrite (mid_dent f2 f3 (Tn bn) dd tmp M2 S3 Hw (not_Tn bn tmp dd (not_eq_sym Hne))). exact Hbl2. }
  assert (Hw3 : rwalk f3 D pre = Some dd) by (rewrite (mid_walk f3 M3); exact Hw).
  pose proof (islink_next f2 f3 (Tn bn) dd tmp i M2 S3 Hw Hbl2) as Hl23.
  destruct (match stat_ino (snd (sys_lstat c f3 np)) with Some ni => N.eqb ni oi | None => false end) eqn:Esame.
  - (* the old entry already names the inode of the new one, a hard link to it: drop the temporary name *)
    assert (Hnew : ~ b <= i).
    { destruct (snd (sys_lstat c f3 np)) as [| |ni nd| | |] eqn:El; simpl in Esame; try discriminate.
      apply N.eqb_eq in Esame. subst ni.
      destruct (lstat_stat D c f3 np pre tmp Hc Hnp (mid_safe f3 M3) oi nd El) as (dd3 & A1 & _ & A2 & _).
      assert (i = oi) by congruence. subst i. apply N.lt_nge. exact Hoi. }
    destruct (sys_unlink_step D (Tn tmp) b c f3 np pre tmp (mid_wf f3 M3) (mid_b f3 M3) Hc Hnp (mid_safe f3 M3)
                (mid_names f3 tmp M3)) as [S4 Q4].
    destruct (sys_unlink c f3 np) as [f4 r4]. cbn [fst snd] in *.
    pose proof (mid_next f3 f4 (Tn tmp) M3 (Tn_Tp tmp (or_intror eq_refl)) S4) as M4.
    destruct (is_err r4) eqn:Er4; [apply post_err; apply M4|].
    apply (post_ok kind f4 _ _ (mid_step f4 M4)).
    + intros dd' Hw'. apply (Q4 Er4). rewrite (mid_walk f3 M3). exact Hw'.
    + intros _ Hs. exfalso. apply Hnew. apply (Hmk (Hsol Hs)).
    + intros Ha. exfalso. apply Hnew. apply (Hreg Ha).
  - (* rename the new entry over the old one *)
    destruct (sys_rename_step D b c f3 np p pre tmp bn (mid_wf f3 M3) (mid_b f3 M3) Hc Hnp Hp (mid_safe f3 M3) Hne dd Hw3)
      as [S4 Q4].
    destruct (sys_rename c f3 np p) as [f4 r4]. cbn [fst snd] in *.
    pose proof (mid_next f3 f4 (T2 dd tmp bn) M3 (T2_Tp dd Hw Hd) S4) as M4.
    destruct (is_err r4) eqn:Er4; [apply post_err; apply M4|].
    destruct (Q4 Er4) as (i' & B1 & B2 & B3 & B4). rewrite Hbl3 in B1. injection B1 as <-.
    assert (Hio : i <> oi).
    { intro E. subst oi. pose proof (lstat_of_resolve c f3 np tmp dd i B4) as L.
      change (stat_ino_of (snd (sys_lstat c f3 np))) with (stat_ino (snd (sys_lstat c f3 np))) in L.
      rewrite L in Esame. destruct (get f3 i) eqn:Eg.
      - rewrite N.eqb_refl in Esame. discriminate.
      - pose proof (st_tag _ _ _ _ _ (mid_step f3 M3) i Hoi) as Ht. rewrite Eg, Hgo in Ht. discriminate. }
    apply (post_ok kind f4 _ _ (mid_step f4 M4)).
    + intros dd' Hw'. rewrite Hw in Hw'. injection Hw' as <-. apply B3.
      destruct Hbn3 as [E|E]; rewrite E; congruence.
    + intros _ Hs. apply (safe_snoc_at f4 pre bn dd i); [apply M4|rewrite (mid_walk f4 M4); exact Hw|exact B2|].
      rewrite (islink_next f3 f4 (T2 dd tmp bn) dd tmp i M3 S4 Hw Hbl3), Hl23. apply (Hmk (Hsol Hs)). exact Hs.
    + intros Ha. destruct (Hreg Ha) as [Hbi Hso]. split; auto. exists dd, i. repeat split; auto.
Qed.


Theorem dw_handle_spec kind : (N.eqb kind 2 = false -> linksrc) -> post kind (dw_handle c f tmp kind p st).
Proof.
  intros Hlink. unfold dw_handle. destruct (N.eqb kind 2) eqn:Ek.
  - destruct dw_delete_spec as [S F]. destruct (sys_remove_all c f p) as [f1 r]. cbn [fst] in *.
    destruct (is_err r); [apply post_err; exact S|]. apply (post_ok kind f1 _ _ S F); [|discriminate].
    intros Hk. apply N.eqb_eq in Ek. congruence.
  - specialize (Hlink eq_refl).
    assert (Herr : post kind (f, DwErr)) by (apply post_err; apply mid_refl).
    destruct (sys_lstat c f p) as [f0 rl] eqn:El.
    assert (Esnd : snd (sys_lstat c f p) = rl) by (rewrite El; reflexivity).
    destruct rl as [|e|oi ond| | |]; try exact Herr.
    + destruct e; try exact Herr.
      destruct (negb (N.eqb kind 0)); [exact Herr|].
      exact (dw_direct_spec kind Hlink Esnd).
    + destruct (lstat_stat D c f p pre bn Hc Hp Hsafe oi ond Esnd) as (dd & Hw & Hd & Hbl & Hg).
      rewrite <- (is_dir_get f oi ond Hg).
      destruct (mode_is_dir (st_mode st) && is_dir f oi) eqn:Einp.
      * apply andb_true_iff in Einp. destruct Einp as [_ Hdo].
        destruct (dw_inplace_spec dd oi Hw Hbl Hdo) as (S & F & Sf).
        destruct (rewrite_meta c f p st) as [f1 ok]. cbn [fst] in *.
        destruct ok; [|apply post_err; exact S]. apply (post_ok kind f1 _ _ S F); [auto|discriminate].
      * exact (dw_replace_spec kind dd oi ond _ _ Hlink Hw Hd Hbl Hg).
Qed.


(* paths that do not run through the two entries are left alone *)
Definition off (cs : list bytes) : Prop := ~ is_prefix (pre ++ [bn]) cs /\ ~ is_prefix (pre ++ [tmp]) cs.

Lemma off_avoids cs : off cs -> avoids Tp f D cs.
Proof.
  intros [H1 H2]. apply (avoids_by_path D Tp f W pre).
  - intros d m (A & B & _). auto.
  - intros k m (_ & _ & [->| ->]) Hk E; [apply H1|apply H2]; apply (nth_split_prefix pre cs k); auto.
Qed.

Lemma kept_path g cs : step Tp b f g -> off cs ->
  (safe f D cs -> safe g D cs) /\ rwalk g D cs = rwalk f D cs.
Proof.
  intros S Ho. pose proof (off_avoids cs Ho) as Ha. split.
  - apply (safe_step D Tp b f g W S cs D (reach_refl D f) Ha).
  - apply (rwalk_step D Tp b f g W S cs D (reach_refl D f) Ha).
Qed.

(* an entry (dd', n') met on such a path is not one of the two *)
Lemma kept_dent g pre' n' dd' : step Tp b f g -> off (pre' ++ [n']) -> rwalk f D pre' = Some dd' ->
  blookup n' (ents g dd') = blookup n' (ents f dd').
Proof.
  intros S [H1 H2] Hw. apply (st_dent _ _ _ _ _ S dd' n').
  - apply (reach_lt D f dd' W (rwalk_inside D f pre' dd' Hw)).
  - intros (A & B & C). assert (E : pre' = pre) by (apply (rwalk_unique D f W pre' pre dd'); auto). subst pre'.
    destruct C as [->| ->]; [apply H1|apply H2]; exists []; rewrite app_nil_r; reflexivity.
Qed.

End Handle.


Lemma ok_path_relpath p : ok_path p = true -> relpath p (comps p).
Proof.
  intros H. pose proof (ok_path_okc p H) as Hk. rewrite <- (joinc_comps p) at 1. apply relpath_joinc. exact Hk.
Qed.

Lemma okc_snoc_okname pre t n : okc (pre ++ [n]) -> okname t -> okc (pre ++ [t]).
Proof.
  intros (_ & Hn & Hs) [Ht1 Ht2]. apply Forall_app in Hn, Hs. destruct Hn as [Hn _], Hs as [Hs _].
  repeat split.
  - destruct pre; discriminate.
  - apply Forall_app; auto.
  - apply Forall_app; auto.
Qed.

Lemma tmp_path_joinc pre n t : okc (pre ++ [n]) -> tmp_path (joinc (pre ++ [n])) t = joinc (pre ++ [t]).
Proof.
  intros H. pose proof H as (_ & _ & Hs). unfold tmp_path, parent_of. rewrite split_last_joinc by auto.
  destruct pre as [|c0 pre0]; [reflexivity|].
  rewrite removelast_last.
  assert (Hk : okc (c0 :: pre0)) by (apply (okc_prefix _ n); [discriminate|exact H]).
  destruct (joinc (c0 :: pre0)) eqn:E.
  - exfalso. destruct (okc_not_special _ Hk) as (H1 & _). congruence.
  - rewrite <- E. rewrite joinc_snoc by discriminate. reflexivity.
Qed.

Lemma split_comps p : ok_path p = true -> comps p = removelast (comps p) ++ [last (comps p) []].
Proof.
  intros H. apply app_removelast_last. pose proof (ok_path_okc p H) as (Hne & _). exact Hne.
Qed.

(* HandleChange on a validated path: a step that touches the entry and the temporary name only;
   the hard-link source matters only when something is created *)
Theorem dw_handle_contained c f tmp kind p st :
  wf f -> c_cwd c = D -> ok_path p = true -> okname tmp -> ~ In tmp (comps p) ->
  let pre := removelast (comps p) in
  let bn := last (comps p) [] in
  safe f D pre ->
  (forall dd, rwalk f D pre = Some dd -> blookup tmp (ents f dd) = None) ->
  (N.eqb kind 2 = false -> hardlink_branch st = true ->
     ok_path (st_linkname st) = true /\ safe f D (removelast (comps (st_linkname st)))) ->
  let r := dw_handle c f tmp kind p st in
  let g := fst r in
  step (Tp f tmp pre bn) (f_next f) f g
  /\ (forall cs', off tmp pre bn cs' -> (safe f D cs' -> safe g D cs') /\ rwalk g D cs' = rwalk f D cs')
  /\ (forall pre' n' dd', off tmp pre bn (pre' ++ [n']) -> rwalk f D pre' = Some dd' ->
         blookup n' (ents g dd') = blookup n' (ents f dd'))
  /\ (forall a nd, snd r = DwOk a nd ->
        (forall dd, rwalk f D pre = Some dd -> blookup tmp (ents g dd) = None)
        /\ (kind <> 2 -> solid st = true -> safe g D (comps p))
        /\ (a = true -> solid st = true /\ exists dd i, rwalk f D pre = Some dd /\ blookup bn (ents g dd) = Some i /\ f_next f <= i)).
Proof.
  intros W Hc Hok Htmp Hnin pre bn Hsafe Hfree Hlink r g.
  pose proof (split_comps p Hok) as Ecs. fold pre bn in Ecs.
  pose proof (ok_path_okc p Hok) as Hk. rewrite Ecs in Hk.
  assert (Hp : relpath p (pre ++ [bn])) by (rewrite <- Ecs; apply ok_path_relpath; auto).
  assert (Hnp : relpath (tmp_path p tmp) (pre ++ [tmp])).
  { rewrite <- (joinc_comps p) at 1. rewrite Ecs. rewrite (tmp_path_joinc pre bn tmp Hk).
    apply relpath_joinc. apply (okc_snoc_okname pre tmp bn); auto. }
  assert (Hne : tmp <> bn).
  { intro E. apply Hnin. rewrite Ecs. apply in_or_app. right. left. auto. }
  assert (Hlink' : N.eqb kind 2 = false -> linksrc f st).
  { intros Hk2 Hb. destruct (Hlink Hk2 Hb) as [Hokl Hsl].
    exists (removelast (comps (st_linkname st))), (last (comps (st_linkname st)) []).
    rewrite <- (split_comps _ Hokl). split; auto. apply ok_path_relpath; auto. }
  pose proof (dw_handle_spec c f tmp p pre bn st W Hc Hp Hnp Hne Hsafe Hfree kind Hlink') as [S P].
  fold r in S, P. fold g in S, P.
  split; [exact S|]. split; [|split].
  - intros cs' Ho. apply (kept_path f tmp pre bn W g cs' S Ho).
  - intros pre' n' dd' Ho Hw. apply (kept_dent f tmp pre bn W g pre' n' dd' S Ho Hw).
  - intros a nd Hres. rewrite Ecs. apply (P a nd Hres).
Qed.


Lemma dw_handle_delete_res c f tmp p st a nd : snd (dw_handle c f tmp 2 p st) = DwOk a nd -> a = false.
Proof.
  unfold dw_handle. simpl. destruct (sys_remove_all c f p) as [f1 r]. simpl.
  destruct (is_err r); intros H; inversion H. reflexivity.
Qed.

Lemma is_prefix_len (a b : list bytes) : is_prefix a b -> (length a <= length b)%nat.
Proof. intros [y ->]. rewrite app_length. lia. Qed.

Lemma off_short tmp pre bn cs : (length cs <= length pre)%nat -> off tmp pre bn cs.
Proof.
  intros H. split; intro P; apply is_prefix_len in P; rewrite app_length in P; simpl in P; lia.
Qed.

Lemma off_of tmp pre bn cs : ~ is_prefix (pre ++ [bn]) cs -> ~ In tmp cs -> off tmp pre bn cs.
Proof.
  intros H1 H2. split; auto. intros [y E]. apply H2. rewrite E. apply in_or_app. left. apply in_or_app. right. left. auto.
Qed.

Lemma off_removelast tmp pre bn cs : off tmp pre bn cs -> off tmp pre bn (removelast cs).
Proof.
  intros [H1 H2].
  assert (G : forall x, is_prefix x (removelast cs) -> is_prefix x cs).
  { intros x [y E]. destruct cs as [|c0 r0] using rev_ind; [exists y; exact E|].
    rewrite removelast_last in E. exists (y ++ [c0]). rewrite E, app_assoc. reflexivity. }
  split; intro P; [apply H1|apply H2]; apply G; exact P.
Qed.


(* a directory entry that stays a directory: only its metadata is rewritten *)
Lemma dw_inplace_quiet c f tmp kind p st :
  wf f -> c_cwd c = D -> ok_path p = true ->
  let pre := removelast (comps p) in
  let bn := last (comps p) [] in
  safe f D pre -> N.eqb kind 2 = false -> mode_is_dir (st_mode st) = true ->
  (exists dd i, rwalk f D pre = Some dd /\ blookup bn (ents f dd) = Some i /\ is_dir f i = true /\ get f i <> None) ->
  step TNone (f_next f) f (fst (dw_handle c f tmp kind p st))
  /\ forall a nd, snd (dw_handle c f tmp kind p st) = DwOk a nd -> a = false.
Proof.
  intros W Hc Hok pre bn Hsafe Hk Hdir (dd & i & Hw & Hbl & Hdi & Hex).
  pose proof (split_comps p Hok) as Ecs. fold pre bn in Ecs.
  assert (Hp : relpath p (pre ++ [bn])) by (rewrite <- Ecs; apply ok_path_relpath; auto).
  unfold dw_handle. rewrite Hk.
  destruct (sys_lstat c f p) as [f0 rl] eqn:El.
  assert (Esnd : snd (sys_lstat c f p) = rl) by (rewrite El; reflexivity).
  assert (Hsame : step TNone (f_next f) f f /\ forall a nd, DwErr = DwOk a nd -> a = false).
  { split; [apply step_refl; auto; apply N.le_refl|discriminate]. }
  destruct rl as [|e|oi ond| | |]; try exact Hsame.
  - destruct e; try exact Hsame. exfalso.
    apply Hex. apply (lstat_enoent_dangling D c f p pre bn Hc Hp Hsafe Esnd dd i Hw Hbl).
  - destruct (lstat_stat D c f p pre bn Hc Hp Hsafe oi ond Esnd) as (dd' & Hw' & _ & Hbl' & Hg).
    assert (oi = i) by congruence. subst oi.
    rewrite <- (is_dir_get f i ond Hg), Hdir, Hdi. cbn [andb].
    destruct (inplace_step c f p pre bn st dd i W Hc Hp Hsafe Hw Hbl Hdi) as [_ S].
    destruct (rewrite_meta c f p st) as [f1 ok]. cbn [fst snd] in *. split; auto.
    intros a nd H. destruct ok; inversion H. reflexivity.
Qed.

End Dw.
