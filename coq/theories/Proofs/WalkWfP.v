(* C01 — composition Walk -> Diff -> AbsDest: the listing that the walk model of C09
   (Model/Walk.v: fs.Walk / mkstat / setUnixOpt transcribed) produces for ANY well-formed tree,
   paired with the contents of the inodes, satisfies the hypotheses of the convergence theorems:
   strictly ascending, ancestor-closed, canonical hard links ([wf_entries]).
   Hypotheses on the tree, beyond wf_tree: [ino_consistent] (C09: st_nlink counts every name)
   and [inode_coherent] (two non-directory names with one inode number show the same lstat
   record: one inode — this contains C09's one_fs). *)
From Coq Require Import List NArith Lia Bool Sorting.Sorted.
From FS Require Import Sx Model.Path Model.Stat Model.Tree Model.Walk Model.Diff Model.AbsDest Model.ConvergeA
  Proofs.Lex Proofs.PathP Proofs.DiffP Proofs.WalkP Proofs.AbsDestP Proofs.ReceiveP Proofs.ConvergeP.
Import ListNotations.
Open Scope N_scope.
Open Scope bool_scope.

Definition inode_coherent (t : tree) : Prop :=
  forall cs1 r1 cs2 r2, tree_at t cs1 r1 -> tree_at t cs2 r2 ->
    is_dir r1 = false -> is_dir r2 = false -> l_ino r1 = l_ino r2 -> r1 = r2.

(* the walk, every Stat paired with the bytes of its inode ([cont]: contents per lstat record;
   records of different inodes differ in l_ino / l_dev) *)
Fixpoint scanE (cont : lrec -> bytes) (seen : list (N * bytes)) (l : list (bytes * lrec)) : list (stat * bytes) :=
  match l with
  | [] => []
  | (p, r) :: l' => let (st, seen') := mkstat p r seen in (st, cont r) :: scanE cont seen' l'
  end.
Definition walk_entries (cont : lrec -> bytes) (t : tree) : list (stat * bytes) :=
  scanE cont [] (entries_root (sort_tree t)).

Lemma scanE_fst cont l : forall seen, map fst (scanE cont seen l) = scan seen l.
Proof.
  induction l as [|[p r] l IH]; intros seen; simpl; [reflexivity|].
  destruct (mkstat p r seen) as [st seen']. simpl. rewrite IH. reflexivity.
Qed.

Lemma walk_entries_fst cont t : map fst (walk_entries cont t) = walk t.
Proof. apply scanE_fst. Qed.

Lemma scanE_in cont l : forall seen st bb, In (st, bb) (scanE cont seen l) ->
  exists r, In (st_path st, r) l /\ bb = cont r.
Proof.
  induction l as [|[p r] l IH]; intros seen st bb Hin; simpl in Hin; [destruct Hin|].
  destruct (mkstat p r seen) as [st0 seen'] eqn:Em. destruct Hin as [E|Hin].
  - inversion E; subst. exists r. split; auto. left.
    pose proof (mkstat_path p r seen) as Hp. rewrite Em in Hp. simpl in Hp. rewrite Hp. reflexivity.
  - destruct (IH _ _ _ Hin) as (r' & Hr' & Eb). exists r'. split; auto. right; auto.
Qed.

Lemma mode_dir_nosock x : mode_is_dir (N.ldiff x ModeSocket) = mode_is_dir x.
Proof. apply has_bits_ldiff. reflexivity. Qed.

Lemma app_sep_split (n q r0 m : bytes) :
  nosep n -> q ++ sep :: r0 = n ++ sep :: m ->
  (q = n /\ r0 = m) \/ (exists q', q = n ++ sep :: q' /\ m = q' ++ sep :: r0).
Proof.
  revert q. induction n as [|a n IH]; intros q Hn E.
  - destruct q as [|b q]; simpl in E.
    + left. inversion E; auto.
    + right. inversion E; subst. exists q. auto.
  - destruct q as [|b q]; simpl in E.
    + inversion E; subst. exfalso. apply Hn. left; reflexivity.
    + inversion E; subst. destruct (IH q) as [[-> ->]|(q' & -> & ->)]; auto.
      * intros Hin. apply Hn. right; auto.
      * right. exists q'. auto.
Qed.

Lemma joinc_sep_split cs : forall q r0, Forall nosep cs -> joinc cs = q ++ sep :: r0 ->
  exists cs1 cs2, cs = cs1 ++ cs2 /\ cs1 <> [] /\ cs2 <> [] /\ q = joinc cs1.
Proof.
  induction cs as [|n cs IH]; intros q r0 Hns E.
  - simpl in E. destruct q; discriminate.
  - inversion Hns as [|? ? Hn Hns']; subst. destruct cs as [|n2 cs'].
    + simpl in E. exfalso. apply Hn. rewrite E. apply in_or_app. right; left; reflexivity.
    + rewrite joinc_cons in E by discriminate. symmetry in E.
      destruct (app_sep_split n q r0 _ Hn E) as [[-> _]|(q' & -> & E')].
      * exists [n], (n2 :: cs'). repeat split; auto; discriminate.
      * destruct (IH q' r0 Hns' E') as (cs1 & cs2 & Ecs & H1 & H2 & ->).
        exists (n :: cs1), cs2. rewrite Ecs. repeat split; auto; try discriminate.
        rewrite joinc_cons; auto.
Qed.

Lemma tree_at_parent_dir : forall cs1 t n rest r, wf_tree t -> tree_at t (cs1 ++ n :: rest) r ->
  exists r1, tree_at t cs1 r1 /\ is_dir r1 = true.
Proof.
  induction cs1 as [|c cs1 IH]; intros t n rest r Hwf Hat.
  - destruct t as [r0 kids]. simpl in Hat. apply tree_at_cons_inv in Hat. destruct Hat as (k & Hk & _).
    exists r0. split; [constructor|]. inversion Hwf; subst.
    destruct (is_dir r0) eqn:Ed; auto. rewrite (H1 eq_refl) in Hk. destruct Hk.
  - destruct t as [r0 kids]. simpl in Hat. apply tree_at_cons_inv in Hat. destruct Hat as (k & Hk & Hat).
    inversion Hwf; subst. rewrite Forall_forall in H4. specialize (H4 _ Hk). simpl in H4.
    destruct (IH k n rest r H4 Hat) as (r1 & H1' & Hd). exists r1. split; auto.
    econstructor; eauto.
Qed.

Section WalkWf.
Variable cont : lrec -> bytes.
Variable t : tree.
Hypothesis Hwf : wf_tree t.
Hypothesis Hic : ino_consistent t.
Hypothesis Hco : inode_coherent t.

Lemma coherent_one_fs : one_fs t.
Proof. intros cs1 r1 cs2 r2 A1 A2 D1 D2 Ei. rewrite (Hco _ _ _ _ A1 A2 D1 D2 Ei). reflexivity. Qed.

Lemma walk_node st : In st (walk t) -> exists cs r, cs <> [] /\ tree_at t cs r /\ st_path st = joinc cs.
Proof.
  intros Hin. destruct (walk_complete_once_proof t Hwf) as [Hc _].
  destruct (proj1 (Hc (st_path st)) (in_map st_path _ _ Hin)) as (cs & r & Hne & Ep & Hat). eauto.
Qed.

Lemma walk_of_node cs r : cs <> [] -> tree_at t cs r -> exists st, In st (walk t) /\ st_path st = joinc cs.
Proof.
  intros Hne Hat.
  assert (Hin : In (joinc cs) (map st_path (walk t))) by (apply (walk_complete_once_proof t Hwf); exists cs, r; auto).
  apply in_map_iff in Hin. destruct Hin as (st & E & Hst). eauto.
Qed.

Lemma walk_is_dir st cs r : In st (walk t) -> cs <> [] -> tree_at t cs r -> st_path st = joinc cs ->
  st_is_dir st = is_dir r.
Proof.
  intros Hin Hne Hat Ep. destruct (walk_stat_proof t Hwf st Hin cs r Hne Hat Ep) as (Em & _).
  unfold st_is_dir. rewrite Em, mode_dir_nosock. reflexivity.
Qed.

Lemma walk_sorted_listing : sorted (walk t).
Proof. exact (ListAux.SS_map_inv path_lt st_path _ (walk_sorted_proof t Hwf)). Qed.

Lemma walk_closed_listing : closed (walk t).
Proof.
  intros s Hs q r0 Ep. destruct (walk_node s Hs) as (cs & r & Hne & Hat & Ej).
  rewrite Ej in Ep. pose proof (tree_at_nosep t cs r Hwf Hat) as Hns.
  destruct (joinc_sep_split cs q r0 Hns Ep) as (cs1 & cs2 & -> & H1 & H2 & ->).
  destruct cs2 as [|n rest]; [congruence|].
  destruct (tree_at_parent_dir cs1 t n rest r Hwf Hat) as (r1 & Hat1 & Hd1).
  destruct (walk_of_node cs1 r1 H1 Hat1) as (s1 & Hs1 & E1). exists s1. split; auto. split; auto.
  rewrite (walk_is_dir s1 cs1 r1 Hs1 H1 Hat1 E1). exact Hd1.
Qed.

Lemma walk_entry_node st bb : In (st, bb) (walk_entries cont t) ->
  In st (walk t) /\ exists cs r, cs <> [] /\ tree_at t cs r /\ st_path st = joinc cs /\ bb = cont r.
Proof.
  intros Hin. split; [rewrite <- (walk_entries_fst cont t); apply (in_map fst _ _ Hin)|].
  apply scanE_in in Hin. destruct Hin as (r & Hr & Eb). apply entries_in in Hr.
  destruct Hr as (cs & Hne & Ep & Hat). exists cs, r. auto.
Qed.

(* ... and every node but the root has its entry *)
Lemma walk_entry_at cs r : cs <> [] -> tree_at t cs r ->
  exists st, In (st, cont r) (walk_entries cont t) /\ In st (walk t) /\ st_path st = joinc cs.
Proof.
  intros Hne Hat. destruct (walk_of_node cs r Hne Hat) as (st & Hst & E).
  rewrite <- (walk_entries_fst cont t) in Hst. apply in_map_iff in Hst. destruct Hst as ([st' b] & <- & Hin).
  destruct (walk_entry_node st' b Hin) as (Hst & cs' & r' & Hne' & Hat' & Ep' & ->). cbn [fst] in E.
  rewrite E in Ep'. destruct (node_unique t cs r cs' r' Hwf Hne Hne' Hat Hat' Ep') as [_ <-]. eauto.
Qed.

Lemma walk_links_canon : links_canon (walk_entries cont t).
Proof.
  intros sb bb Hin Hl. destruct (walk_entry_node sb bb Hin) as (Hsb & cs & r & Hne & Hat & Ep & Eb).
  destruct (is_hardlink_node _ Hl) as [Hreg Hln].
  assert (Hd : is_dir r = false).
  { rewrite <- (walk_is_dir sb cs r Hsb Hne Hat Ep). apply is_node_not_dir; auto. }
  destruct (walk_stat_proof t Hwf sb Hsb cs r Hne Hat Ep) as (Em & Eu & Eg & Es & Emt & Ex & Ema & Emi & _).
  assert (Hsym : is_symlink r = false).
  { unfold is_symlink. rewrite <- mode_symlink_nosock, <- Em.
    unfold is_node in Hreg. rewrite !andb_true_iff, !negb_true_iff in Hreg. tauto. }
  destruct (walk_hardlinks_proof t Hwf coherent_one_fs Hic sb Hsb cs r Hne Hat Ep Hd)
    as (cs0 & r0 & Hne0 & Hat0 & Hd0 & Ei0 & _ & Hleast & Eln).
  rewrite Hsym in Eln.
  destruct (bytes_eqb (joinc cs0) (joinc cs)) eqn:Ecs; [congruence|]. apply bytes_eqb_neq in Ecs.
  assert (Er : r0 = r) by (apply (Hco _ _ _ _ Hat0 Hat); auto). subst r0.
  assert (Hlt : compare_path (joinc cs0) (joinc cs) = Lt).
  { destruct (Hleast cs r Hne Hat Hd eq_refl) as [E|E]; auto. congruence. }
  (* the entry of the first name *)
  destruct (walk_entry_at cs0 r Hne0 Hat0) as (st0 & Hin0 & Hst0 & E0).
  destruct (walk_stat_proof t Hwf st0 Hst0 cs0 r Hne0 Hat0 E0) as (Em0 & Eu0 & Eg0 & Es0 & Emt0 & Ex0 & Ema0 & Emi0 & _).
  destruct (walk_hardlinks_proof t Hwf coherent_one_fs Hic st0 Hst0 cs0 r Hne0 Hat0 E0 Hd)
    as (cs00 & r00 & Hne00 & Hat00 & Hd00 & Ei00 & _ & Hleast00 & Eln0).
  rewrite Hsym in Eln0.
  assert (E00 : cs00 = cs0).
  { destruct (Hleast00 cs0 r Hne0 Hat0 Hd eq_refl) as [E|E]; auto.
    destruct (Hleast cs00 r00 Hne00 Hat00 Hd00 Ei00) as [E'|E']; auto.
    exfalso. eapply compare_path_asym; eauto. }
  subst cs00. rewrite bytes_eqb_refl in Eln0.
  exists st0, (cont r). split; auto. split; [congruence|]. split; [rewrite E0; rewrite Ep; exact Hlt|].
  split; [rewrite (is_node_mode_eq st0 sb); auto; congruence|]. split; auto.
  split; [|congruence].
  unfold link_meta_eq. rewrite Em, Eu, Eg, Es, Emt, Ema, Emi, Ex, Em0, Eu0, Eg0, Es0, Emt0, Ema0, Emi0, Ex0. tauto.
Qed.

Theorem walk_views_are_wf_proof :
  wf_entries (walk_entries cont t) /\ map fst (walk_entries cont t) = walk t.
Proof.
  split; [|apply walk_entries_fst]. split.
  - rewrite walk_entries_fst. split; [apply walk_sorted_listing|apply walk_closed_listing].
  - apply walk_links_canon.
Qed.

End WalkWf.
