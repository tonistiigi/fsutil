(* C12: the validator accepts exactly the ordered, parent-closed, contained
   sequences.  Shown for a validator on component lists (cvstep, stack invariant Inv),
   which the string-level model of validator.go refines (vstep_refines). *)
From Coq Require Import List NArith Lia Bool.
From FS Require Import Sx Model.Path Model.Validator Proofs.Lex Proofs.PathP Proofs.ListAux.
Import ListNotations.

Record item := { del : bool; ipath : cpath; isdir : bool }.
Definition entry := (list (list N) * list N)%type.

Fixpoint cpop (d : cpath) (stk : list entry) : list entry :=
  match stk with
  | [] => []
  | (d', l) :: rest => match lex d' d with Gt => cpop d rest | _ => stk end
  end.

Definition cvstep (stk : list entry) (it : item) : option (list entry) :=
  match rev (ipath it) with
  | [] => None
  | b :: rd =>
    let d := rev rd in
    match cpop d stk with
    | [] => None
    | (d', l) :: rest =>
      match lex d' d, cmpb l b with
      | Eq, Lt =>
        let stk' := (d', b) :: rest in
        Some (if negb (del it) && isdir it then (ipath it, []) :: stk' else stk')
      | _, _ => None
      end
    end
  end.

Definition spec_ok (acc : list item) (it : item) : Prop :=
  ipath it <> [] /\
  (forall q, In q acc -> lex (ipath q) (ipath it) = Lt) /\
  (removelast (ipath it) = [] \/
   exists q, In q acc /\ ipath q = removelast (ipath it) /\ del q = false /\ isdir q = true).

Definition names_ok (p : cpath) := Forall (fun n => n <> []) p.

(* stack shape, top first *)
Inductive chain : list entry -> Prop :=
| chain_root l : chain [([], l)]
| chain_push d l rest l' : chain ((d, l) :: rest) -> l <> [] -> chain ((d ++ [l], l') :: (d, l) :: rest).

Definition top_path (stk : list entry) : cpath :=
  match stk with
  | (d, []) :: _ => d
  | (d, l) :: _ => d ++ [l]
  | [] => []
  end.

Definition is_prefix (a b : cpath) := exists y, b = a ++ y.

Record Inv (stk : list entry) (acc : list item) : Prop := {
  inv_chain : chain stk;
  inv_le : forall q, In q acc -> lex (ipath q) (top_path stk) <> Gt;
  inv_last : top_path stk = [] \/ exists q, In q acc /\ ipath q = top_path stk;
  inv_dirs : forall d l, In (d, l) stk -> d <> [] ->
             exists q, In q acc /\ ipath q = d /\ del q = false /\ isdir q = true;
  inv_open : forall q, In q acc -> del q = false -> isdir q = true ->
             is_prefix (ipath q) (top_path stk) -> exists l, In (ipath q, l) stk
}.

Lemma chain_set_top d l l' rest : chain ((d, l) :: rest) -> chain ((d, l') :: rest).
Proof. intros H. inversion H; subst; constructor; auto. Qed.

Lemma chain_tail e rest : chain (e :: rest) -> rest <> [] -> chain rest.
Proof. intros H Hn. inversion H; subst; auto. exfalso; apply Hn; reflexivity. Qed.

Lemma chain_has_root stk : chain stk -> exists l, In ([], l) stk.
Proof. induction 1. - exists l. left; auto. - destruct IHchain as [l0 H1]. exists l0. right; auto. Qed.

Lemma chain_below d0 l0 rest : chain ((d0, l0) :: rest) ->
  forall d l, In (d, l) rest -> l <> [] /\ is_prefix (d ++ [l]) d0.
Proof.
  remember ((d0, l0) :: rest) as s. intros H. revert d0 l0 rest Heqs.
  induction H; intros d0 l0 rest0 E; inversion E; subst.
  - intros d l [].
  - intros d1 l1 [H1|H1].
    + inversion H1; subst. split; auto. exists []. rewrite app_nil_r. auto.
    + destruct (IHchain _ _ _ eq_refl d1 l1 H1) as [Hn [y Hy]]. split; auto.
      exists (y ++ [l]). rewrite Hy. rewrite <- !app_assoc. reflexivity.
Qed.

Lemma prefix_top_path d0 l0 rest : is_prefix d0 (top_path ((d0, l0) :: rest)).
Proof. simpl. destruct l0. - exists []. rewrite app_nil_r; auto. - exists [n :: l0]. auto. Qed.

Lemma prefix_trans a b c : is_prefix a b -> is_prefix b c -> is_prefix a c.
Proof. intros [x ->] [y ->]. exists (x ++ y). rewrite app_assoc. auto. Qed.

Lemma pop_in d stk e : In e (cpop d stk) -> In e stk.
Proof. induction stk as [|[d' l] rest IH]; simpl; auto. destruct (lex d' d); auto. Qed.

Lemma pop_top_le d stk d' l rest : cpop d stk = (d', l) :: rest -> lex d' d <> Gt.
Proof.
  induction stk as [|[d1 l1] r IH]; simpl; try discriminate.
  destruct (lex d1 d) eqn:E; intros H; try (inversion H; subst; congruence). auto.
Qed.

Lemma pop_keeps d stk e : In e stk -> lex (fst e) d <> Gt -> In e (cpop d stk).
Proof.
  induction stk as [|[d1 l1] r IH]; simpl; auto. intros [E|Hin] Hle.
  - subst e. simpl in Hle. destruct (lex d1 d); try congruence; left; auto.
  - destruct (lex d1 d); try (right; auto; fail). auto.
Qed.

Lemma pop_chain d stk : chain stk -> cpop d stk <> [] -> chain (cpop d stk).
Proof.
  induction stk as [|[d1 l1] r IH]; simpl; intros H Hn; auto.
  destruct (lex d1 d); auto. apply IH; auto. apply chain_tail in H; auto. intro; subst; simpl in Hn; congruence.
Qed.

Lemma rev_decomp {A} (p : list A) b rd : rev p = b :: rd -> p = rev rd ++ [b].
Proof. intros H. rewrite <- (rev_involutive p), H. reflexivity. Qed.

(* the step on a path given as directory and name *)
Lemma cvstep_snoc stk it d b : ipath it = d ++ [b] ->
  cvstep stk it =
  match cpop d stk with
  | [] => None
  | (d', l) :: rest =>
    match lex d' d, cmpb l b with
    | Eq, Lt => Some (if negb (del it) && isdir it then (ipath it, []) :: (d', b) :: rest else (d', b) :: rest)
    | _, _ => None
    end
  end.
Proof. intros E. unfold cvstep. rewrite E, rev_unit, rev_involutive. reflexivity. Qed.

Lemma prefix_le a b : is_prefix a b -> lex a b <> Gt.
Proof. intros [y ->]. destruct y. - rewrite app_nil_r, lex_refl. discriminate. - rewrite lex_prefix_lt; discriminate. Qed.

Lemma prefix_of_snoc (a d : cpath) b : is_prefix a (d ++ [b]) -> a <> d ++ [b] -> is_prefix a d.
Proof.
  intros [y Hy] Hne. destruct y as [|c y' _] using rev_ind.
  - rewrite app_nil_r in Hy. congruence.
  - rewrite app_assoc in Hy. apply app_inj_tail in Hy. destruct Hy as [-> _]. exists y'. auto.
Qed.

Lemma lex_cons_single l y b : lex (l :: y) [b] = Lt <-> cmpb l b = Lt.
Proof.
  unfold lex. simpl. fold cmpb. destruct (cmpb l b); [destruct y|..]; split; auto; discriminate.
Qed.

Lemma cmpb_nil_lt b : b <> [] -> cmpb [] b = Lt.
Proof. destruct b; [congruence|reflexivity]. Qed.

Lemma entry_vs_top stk d l : chain stk -> In (d, l) stk ->
  (l = [] /\ top_path stk = d) \/ (l <> [] /\ is_prefix (d ++ [l]) (top_path stk)).
Proof.
  intros Hc Hin. destruct stk as [|[d0 l0] rest]; [destruct Hin|]. destruct Hin as [E|Hin].
  - inversion E; subst. destruct l as [|n l]. + left; auto. + right. split; [discriminate|]. simpl. exists []. rewrite app_nil_r; auto.
  - right. destruct (chain_below _ _ _ Hc _ _ Hin) as [Hn Hp]. split; auto.
    eapply prefix_trans; [exact Hp|apply prefix_top_path].
Qed.

Lemma chain_dir_prefix stk : chain stk -> forall d l, In (d, l) stk -> is_prefix d (top_path stk).
Proof.
  intros H d l Hin. destruct (entry_vs_top _ _ _ H Hin) as [[_ ->]|[_ [y ->]]].
  - exists []. now rewrite app_nil_r.
  - exists (l :: y). now rewrite <- app_assoc.
Qed.

(* the new path d/b lies above the top path exactly when b lies above the last child recorded for d *)
Lemma top_lt_iff stk d l b : chain stk -> In (d, l) stk -> b <> [] ->
  (lex (top_path stk) (d ++ [b]) = Lt <-> cmpb l b = Lt).
Proof.
  intros Hc Hin Hb. destruct (entry_vs_top _ _ _ Hc Hin) as [[-> ->]|[Hn [y ->]]].
  - rewrite lex_prefix_lt, cmpb_nil_lt by (auto; discriminate). tauto.
  - rewrite <- app_assoc, lex_app_same. apply lex_cons_single.
Qed.

Lemma names_last p d b : names_ok p -> p = d ++ [b] -> b <> [].
Proof. intros H ->. unfold names_ok in H. rewrite Forall_forall in H. apply H. apply in_or_app. right. left. auto. Qed.

Lemma top_path_push p stk : top_path ((p, []) :: stk) = p. Proof. reflexivity. Qed.
Lemma top_path_set d b rest : b <> [] -> top_path ((d, b) :: rest) = d ++ [b].
Proof. destruct b; [congruence|reflexivity]. Qed.

Lemma cvstep_sound stk acc it stk' :
  Inv stk acc -> names_ok (ipath it) -> cvstep stk it = Some stk' ->
  spec_ok acc it /\ Inv stk' (acc ++ [it]).
Proof.
  intros I Hn Hs.
  destruct (snoc_cases (ipath it)) as [E|(d & b & Hp)]; [unfold cvstep in Hs; rewrite E in Hs; discriminate|].
  rewrite (cvstep_snoc _ _ _ _ Hp) in Hs.
  assert (Hb : b <> []) by (eapply names_last; eauto).
  destruct (cpop d stk) as [|[d' l] rest] eqn:Ep; [discriminate|].
  destruct (lex d' d) eqn:Ed; try discriminate. destruct (cmpb l b) eqn:El; try discriminate.
  apply lex_eq in Ed. subst d'. injection Hs as <-.
  assert (Hin : In (d, l) stk) by (apply (pop_in d); rewrite Ep; left; auto).
  assert (Htop : lex (top_path stk) (ipath it) = Lt) by (rewrite Hp; eapply top_lt_iff; eauto using inv_chain).
  assert (Hall : forall q, In q acc -> lex (ipath q) (ipath it) = Lt).
  { intros q Hq. eapply lex_le_lt_trans; [eapply inv_le; eauto|exact Htop]. }
  assert (Hchain : chain ((d, b) :: rest)).
  { assert (Hc0 : chain (cpop d stk)) by (apply pop_chain; [eapply inv_chain; eauto|rewrite Ep; discriminate]).
    rewrite Ep in Hc0. apply chain_set_top with l. exact Hc0. }
  (* every directory of the new stack other than the pushed one was on the old stack *)
  assert (Hold : forall d1 l1, In (d1, l1) ((d, b) :: rest) -> exists l', In (d1, l') stk).
  { intros d1 l1 [E|Hr]; [inversion E; subst; eauto|]. exists l1. apply (pop_in d). rewrite Ep. right; auto. }
  split.
  - split; [rewrite Hp; destruct d; discriminate|]. split; auto.
    rewrite Hp, removelast_last. destruct d as [|n0 d0] eqn:Dd; [left; auto|right].
    destruct (inv_dirs _ _ I _ _ Hin) as (q & Hq1 & Hq2 & Hq3 & Hq4); [discriminate|]. exists q. auto.
  - remember (negb (del it) && isdir it) as pushdir eqn:Epd.
    set (stk' := if pushdir then _ else _).
    assert (Htp : top_path stk' = ipath it).
    { unfold stk'. destruct pushdir; [apply top_path_push|rewrite top_path_set; auto]. }
    assert (Hsub : forall e, In e stk' -> e = (ipath it, []) /\ pushdir = true \/ In e ((d, b) :: rest)).
    { unfold stk'. intros e He. destruct pushdir; simpl in He |- *; intuition. }
    constructor.
    + unfold stk'. destruct pushdir; auto. rewrite Hp. apply chain_push; auto.
    + intros q Hq. rewrite Htp. apply in_app_or in Hq. destruct Hq as [Hq|[<-|[]]].
      * rewrite Hall; auto. discriminate. * rewrite lex_refl. discriminate.
    + right. exists it. split; [apply in_elt|auto].
    + intros d1 l1 H1 Hne. destruct (Hsub _ H1) as [[E Hpd]|Ho].
      * inversion E; subst d1 l1. exists it. rewrite Hpd in Epd. symmetry in Epd. apply andb_true_iff in Epd. destruct Epd as [Hd1 Hd2].
        apply negb_true_iff in Hd1. split; [apply in_elt|auto].
      * destruct (Hold _ _ Ho) as [l' Hl']. destruct (inv_dirs _ _ I _ _ Hl' Hne) as (q & Hq1 & Hq2).
        exists q. split; [apply in_or_app; auto|auto].
    + intros q Hq Hd1 Hd2 Hpre. rewrite Htp in Hpre. apply in_app_or in Hq. destruct Hq as [Hq|[<-|[]]].
      * assert (Hne : ipath q <> ipath it) by (intro E; specialize (Hall _ Hq); rewrite E, lex_refl in Hall; discriminate).
        rewrite Hp in Hpre, Hne. pose proof (prefix_of_snoc _ _ _ Hpre Hne) as Hpd.
        assert (Hpt : is_prefix (ipath q) (top_path stk)).
        { eapply prefix_trans; [exact Hpd|]. eapply chain_dir_prefix; eauto using inv_chain. }
        destruct (inv_open _ _ I q Hq Hd1 Hd2 Hpt) as [l1 Hl1].
        assert (Hk : In (ipath q, l1) (cpop d stk)) by (apply pop_keeps; auto; simpl; apply prefix_le; auto).
        rewrite Ep in Hk. destruct Hk as [E|Hk].
        -- injection E as <- _. exists b. unfold stk'. destruct pushdir; simpl; auto.
        -- exists l1. unfold stk'. destruct pushdir; simpl; auto.
      * exists []. unfold stk'. rewrite Epd, Hd1, Hd2. left; auto.
Qed.

Lemma lex_nil_r_not_gt (d : cpath) : lex d [] <> Gt -> d = [].
Proof. destruct d; auto. simpl. congruence. Qed.

Lemma cvstep_complete stk acc it :
  Inv stk acc -> names_ok (ipath it) -> spec_ok acc it -> cvstep stk it <> None.
Proof.
  intros I Hn (Hne & Hall & Hpar).
  destruct (snoc_cases (ipath it)) as [E|(d & b & Hp)]; [contradiction|].
  rewrite (cvstep_snoc _ _ _ _ Hp).
  assert (Hb : b <> []) by (eapply names_last; eauto).
  rewrite Hp, removelast_last in Hpar.
  pose proof (inv_chain _ _ I) as Hc.
  (* the last accepted path (top_path stk) is below the new one *)
  assert (Htop : lex (top_path stk) (d ++ [b]) = Lt).
  { destruct (inv_last _ _ I) as [E|(qL & HqL & EL)].
    - rewrite E. destruct d; reflexivity.
    - rewrite <- EL, <- Hp. auto. }
  (* step 1: d is on the stack *)
  assert (H1 : exists l0, In (d, l0) stk).
  { destruct Hpar as [->|(qd & Hqd & Eqd & Hd1 & Hd2)]; [apply chain_has_root; auto|].
    assert (Hpre : is_prefix d (top_path stk)).
    { apply (lex_interval d _ [b]); [rewrite <- Eqd; exact (inv_le _ _ I _ Hqd)|rewrite Htop; discriminate]. }
    rewrite <- Eqd in Hpre. destruct (inv_open _ _ I _ Hqd Hd1 Hd2 Hpre) as [l0 Hl0]. rewrite Eqd in Hl0. eauto. }
  destruct H1 as [l0 Hl0].
  (* step 2: after popping, d is the top *)
  assert (Hk : In (d, l0) (cpop d stk)) by (apply pop_keeps; auto; simpl; rewrite lex_refl; discriminate).
  destruct (cpop d stk) as [|[d' l] rest] eqn:Ep; [destruct Hk|].
  pose proof (pop_top_le _ _ _ _ _ Ep) as Hle.
  assert (Hc0 : chain (cpop d stk)) by (apply pop_chain; auto; rewrite Ep; discriminate).
  rewrite Ep in Hc0.
  assert (Ed : d' = d).
  { destruct Hk as [E|Hk]; [inversion E; auto|].
    destruct (chain_below _ _ _ Hc0 _ _ Hk) as [_ [y Hy]].
    exfalso. apply Hle. rewrite lex_opp. rewrite Hy, <- app_assoc, lex_prefix_lt; [reflexivity|discriminate]. }
  subst d'. rewrite lex_refl.
  (* step 3: last child < b *)
  assert (Hin : In (d, l) stk) by (apply (pop_in d); rewrite Ep; left; auto).
  rewrite (proj1 (top_lt_iff _ _ _ _ Hc Hin Hb) Htop). discriminate.
Qed.

Fixpoint crun (stk : list entry) (its : list item) (i : nat) : option nat :=
  match its with
  | [] => None
  | it :: r => match cvstep stk it with None => Some i | Some stk' => crun stk' r (S i) end
  end.

Inductive cspec_run : list item -> list item -> nat -> option nat -> Prop :=
| sr_nil acc i : cspec_run acc [] i None
| sr_bad acc it r i : ~ spec_ok acc it -> cspec_run acc (it :: r) i (Some i)
| sr_ok acc it r i res : spec_ok acc it -> cspec_run (acc ++ [it]) r (S i) res -> cspec_run acc (it :: r) i res.

Lemma inv_init : Inv [([], [])] [].
Proof.
  constructor; simpl.
  - constructor. - intros q []. - left; auto.
  - intros d l [E|[]] Hne. inversion E; congruence. - intros q [].
Qed.

Theorem validator_iff_spec_core : forall its stk acc i,
  Inv stk acc -> Forall (fun it => names_ok (ipath it)) its ->
  cspec_run acc its i (crun stk its i).
Proof.
  induction its as [|it r IH]; intros stk acc i I Hn; simpl; [constructor|].
  inversion Hn as [|? ? Hn1 Hn2]; subst.
  destruct (cvstep stk it) as [stk'|] eqn:E.
  - destruct (cvstep_sound _ _ _ _ I Hn1 E) as [Hs I']. apply sr_ok; auto.
  - apply sr_bad. intro Hs. eapply cvstep_complete; eauto.
Qed.

Corollary validator_iff_spec : forall its,
  Forall (fun it => names_ok (ipath it)) its -> cspec_run [] its 0 (crun [([], [])] its 0).
Proof. intros. apply validator_iff_spec_core; auto. apply inv_init. Qed.

Open Scope bool_scope.

Definition citem_of (it : vitem) : item :=
  {| del := vdel it; ipath := comps (vpath it); isdir := visdir it |}.

Definition ce (e : ventry) : entry := (pcomps (fst e), snd e).
Definition okdir (d : list N) : Prop := d = [] \/ okc (comps d).
Definition R (s : list ventry) : Prop := Forall (fun e => okdir (fst e)) s.

Lemma ok_path_iff p : ok_path p = true <->
  p = clean p /\ is_abs p = false /\ p <> s_dot /\ p <> s_dotdot /\ has_prefix s_dotdotsep p = false.
Proof.
  unfold ok_path. split.
  - intros H. repeat (apply andb_true_iff in H; destruct H as [H ?]).
    apply negb_true_iff in H0, H1, H2, H3. apply bytes_eqb_eq in H. apply bytes_eqb_neq in H1, H2. auto.
  - intros (H1 & H2 & H3 & H4 & H5). apply bytes_eqb_eq in H1. apply bytes_eqb_neq in H3, H4.
    rewrite H1, H2, H3, H4, H5. reflexivity.
Qed.

Lemma ok_path_okc p : ok_path p = true -> okc (comps p).
Proof. intros H. apply ok_path_iff in H. destruct H as (H1 & H2 & H3 & H4 & H5). apply clean_fixpoint_normal; congruence. Qed.

Lemma okc_ok_path cs : okc cs -> ok_path (joinc cs) = true.
Proof.
  intros H. apply ok_path_iff. destruct (okc_clean cs H), (okc_not_special cs H) as (_ & ? & ? & ?). auto.
Qed.

(* what the lexical part of HandleChange computes on an admissible path *)
Lemma vsplit_ok p : ok_path p = true ->
  exists d b, comps p = d ++ [b] /\ okc (d ++ [b]) /\ p = joinc (d ++ [b]) /\
    vsplit p = Some (joinc d, b) /\ join2 (joinc d) b = p /\ parent_of p = joinc d.
Proof.
  intros Hok. pose proof (ok_path_okc p Hok) as Hc.
  destruct (okc_snoc_split _ Hc) as (d & b & Ed). exists d, b.
  assert (Ep : p = joinc (d ++ [b])) by (rewrite <- Ed, joinc_comps; reflexivity).
  rewrite Ed in Hc. split; auto. split; auto. split; auto.
  destruct (okc_last _ _ Hc) as [(Hbne & _) _].
  assert (Hdir : dir p = match d with [] => s_dot | _ => joinc d end) by (rewrite Ep; apply dir_joinc; auto).
  assert (Hbase : base p = b) by (rewrite Ep; apply base_joinc; auto).
  (* a directory part is itself admissible, so it is neither "." nor ".." nor empty *)
  assert (Hd : d = [] \/ joinc d <> [] /\ bytes_eqb (joinc d) s_dot = false /\ bytes_eqb (joinc d) s_dotdot = false).
  { destruct (okc_dir _ _ Hc) as [->|Hokd]; [left; reflexivity|right].
    destruct (okc_not_special _ Hokd) as (H0 & H1 & H2 & _). apply bytes_eqb_neq in H1, H2. auto. }
  apply ok_path_iff in Hok. destruct Hok as (Hcl & Habs & Hpd & Hpdd & Hpre).
  split; [|split].
  - unfold vsplit. rewrite <- Hcl, bytes_eqb_refl, Habs, Hdir, Hbase, Hpre. apply bytes_eqb_neq in Hpd, Hpdd. rewrite Hpd, Hpdd.
    destruct Hd as [->|(_ & H1 & H2)]; [reflexivity|]. destruct d; [reflexivity|]. rewrite H1, H2. reflexivity.
  - unfold join2. destruct b as [|b0 b']; [congruence|]. destruct Hd as [->|(H0 & _)]; [rewrite Ep; apply (okc_clean [b0 :: b'] Hc)|].
    destruct (joinc d) eqn:Ej; [congruence|]. rewrite <- Ej, <- joinc_snoc, <- Ep by (intros ->; discriminate). congruence.
  - unfold parent_of. rewrite Ep. destruct Hc as (_ & _ & Hs). rewrite split_last_joinc by auto.
    destruct d; [reflexivity|]. apply removelast_last.
Qed.

Lemma vsplit_bad p : ok_path p = false -> vsplit p = None.
Proof.
  unfold ok_path, vsplit. intros H.
  destruct (bytes_eqb p (clean p)); [|reflexivity]. cbn [negb].
  destruct (is_abs p); [reflexivity|].
  destruct (bytes_eqb p s_dot); [reflexivity|].
  destruct (bytes_eqb p s_dotdot); [reflexivity|].
  destruct (has_prefix s_dotdotsep p); [|discriminate].
  rewrite !orb_true_r. reflexivity.
Qed.

Lemma okdir_pcomps d : okdir d -> pcomps d = [] \/ okc (pcomps d).
Proof. intros [->|H]; [left; reflexivity|]. right. destruct d; [destruct H as (_ & Hn & _); inversion Hn as [|? ? (Hx & _) _]; congruence|exact H]. Qed.

Lemma compare_path_pcomps d1 d2 : compare_path d1 d2 = lex (pcomps d1) (pcomps d2).
Proof.
  destruct d1 as [|a d1], d2 as [|b d2]; [reflexivity| | |apply compare_path_lex].
  all: unfold pcomps; destruct (comps _) eqn:E; [destruct (comps_nonempty _ E)|reflexivity].
Qed.

Lemma vpop_map d s : map ce (vpop d s) = cpop (pcomps d) (map ce s).
Proof.
  induction s as [|[d' l] r IH]; [reflexivity|].
  simpl. rewrite compare_path_pcomps. destruct (lex (pcomps d') (pcomps d)); auto.
Qed.

Lemma vpop_R d s : R s -> R (vpop d s).
Proof.
  induction s as [|[d' l] r IH]; intros H; [constructor|].
  simpl. destruct (compare_path d' d); auto. inversion H; auto.
Qed.

Lemma bytes_geb_cmpb l b : bytes_geb l b = match cmpb l b with Lt => false | _ => true end.
Proof. unfold bytes_geb. pose proof (cmpb_is_cmp_bytes l b) as E. rewrite <- E. reflexivity. Qed.

Lemma cpop_vpop d s : d = [] \/ okc d -> cpop d (map ce s) = map ce (vpop (joinc d) s).
Proof. intros Hd. rewrite vpop_map, (pcomps_joinc d Hd). reflexivity. Qed.

(* one step of the string-level validator is one step of the component-level one *)
Lemma vstep_refines s it : R s -> ok_path (vpath it) = true ->
  match vstep s it with
  | Some s' => cvstep (map ce s) (citem_of it) = Some (map ce s') /\ R s'
  | None => cvstep (map ce s) (citem_of it) = None
  end.
Proof.
  intros HR Hok. destruct (vsplit_ok _ Hok) as (d & b & Ec & Hokc & Ep & Hsp & Hj & _).
  unfold vstep. rewrite Hsp, (cvstep_snoc _ (citem_of it) d b Ec). cbn [ipath citem_of].
  pose proof (okc_dir _ _ Hokc) as Hd.
  rewrite (cpop_vpop d s Hd).
  pose proof (vpop_R (joinc d) s HR) as HR'.
  destruct (vpop (joinc d) s) as [|[d' l] rest]; [reflexivity|].
  cbn [map ce fst snd].
  destruct (bytes_eqb (joinc d) d') eqn:Ed.
  - apply bytes_eqb_eq in Ed. subst d'. rewrite (pcomps_joinc d Hd), lex_refl. cbn [negb orb].
    rewrite bytes_geb_cmpb. destruct (cmpb l b); try reflexivity.
    cbn [del isdir citem_of]. rewrite Hj.
    inversion HR' as [|? ? Hd1 Hrest]; subst.
    destruct (negb (vdel it) && visdir it).
    + split.
      * unfold ce. cbn [map fst snd]. rewrite (pcomps_joinc d Hd).
        assert (Hne : vpath it <> []) by (rewrite Ep; apply (okc_not_special _ Hokc)).
        rewrite (pcomps_nonempty _ Hne), Ec. reflexivity.
      * constructor; [|constructor; auto]. cbn [fst]. right. rewrite Ec. exact Hokc.
    + split; [unfold ce; cbn [map fst snd]; rewrite (pcomps_joinc d Hd); reflexivity|constructor; auto].
  - cbn [negb orb].
    destruct (lex (pcomps d') d) eqn:El; try reflexivity.
    apply lex_eq in El. exfalso. apply bytes_eqb_neq in Ed. apply Ed.
    rewrite <- El. apply joinc_pcomps.
Qed.

Definition okitem (it : vitem) : Prop := ok_path (vpath it) = true.

Lemma okitem_names it : okitem it -> names_ok (ipath (citem_of it)).
Proof.
  intros H. apply ok_path_okc in H. destruct H as (_ & Hn & _). unfold names_ok. cbn [ipath citem_of].
  eapply Forall_impl; [|exact Hn]. intros c (Hc & _). exact Hc.
Qed.

Lemma path_ltb_lex p q : path_ltb p q = true <-> lex (comps p) (comps q) = Lt.
Proof. unfold path_ltb. rewrite compare_path_lex. destruct (lex (comps p) (comps q)); split; congruence. Qed.

Lemma spec_reflect acc it : okitem it ->
  (spec_ok_b acc it = true <-> spec_ok (map citem_of acc) (citem_of it)).
Proof.
  intros Hok. destruct (vsplit_ok _ Hok) as (d & b & Ec & Hokc & Ep & _ & _ & Hpar).
  pose proof (okc_dir _ _ Hokc) as Hd.
  assert (Hrl : removelast (ipath (citem_of it)) = d) by (cbn [ipath citem_of]; rewrite Ec; apply removelast_last).
  unfold spec_ok_b, spec_ok. rewrite Hok, Hrl, Hpar. cbn [andb]. split.
  - intros H. apply andb_true_iff in H. destruct H as [H1 H2]. split; [|split].
    + cbn [ipath citem_of]. apply comps_nonempty.
    + intros q Hq. apply in_map_iff in Hq. destruct Hq as (q0 & <- & Hq0).
      rewrite forallb_forall in H1. cbn [ipath citem_of]. apply path_ltb_lex. auto.
    + destruct Hd as [->|Hd]; [left; reflexivity|].
      apply orb_true_iff in H2. destruct H2 as [H2|H2].
      * exfalso. apply bytes_eqb_eq in H2. eapply okc_joinc_nonempty; eauto.
      * right. apply existsb_exists in H2. destruct H2 as (q0 & Hq0 & H2).
        apply andb_true_iff in H2. destruct H2 as [H2 H3]. apply andb_true_iff in H2. destruct H2 as [H2 H4].
        apply bytes_eqb_eq in H2. apply negb_true_iff in H4.
        exists (citem_of q0). split; [apply in_map; auto|]. cbn [ipath del isdir citem_of].
        split; [|auto]. rewrite H2. apply comps_joinc; apply Hd.
  - intros (_ & H1 & H2). apply andb_true_iff. split.
    + apply forallb_forall. intros q Hq. apply path_ltb_lex.
      apply (H1 (citem_of q)). apply in_map; auto.
    + apply orb_true_iff. destruct H2 as [->|(q & Hq & Hq1 & Hq2 & Hq3)]; [left; reflexivity|].
      right. apply in_map_iff in Hq. destruct Hq as (q0 & <- & Hq0). cbn [ipath del isdir citem_of] in *.
      apply existsb_exists. exists q0. split; auto.
      rewrite Hq2, Hq3. cbn [negb andb]. rewrite !andb_true_r. apply bytes_eqb_eq.
      rewrite <- Hq1. symmetry. apply joinc_comps.
Qed.

Lemma validator_eq_spec_gen its : forall s acc i,
  R s -> Inv (map ce s) (map citem_of acc) -> vrun s its i = spec_run acc its i.
Proof.
  induction its as [|it r IH]; intros s acc i HR HI; [reflexivity|].
  cbn [vrun spec_run].
  destruct (ok_path (vpath it)) eqn:Hok.
  - pose proof (vstep_refines s it HR Hok) as Href.
    pose proof (spec_reflect acc it Hok) as Hspec.
    pose proof (okitem_names it Hok) as Hnames.
    destruct (vstep s it) as [s'|] eqn:Es.
    + destruct Href as [Hcv HR'].
      destruct (cvstep_sound _ _ _ _ HI Hnames Hcv) as [Hs HI'].
      apply Hspec in Hs. rewrite Hs. apply IH; auto. rewrite map_app. exact HI'.
    + destruct (spec_ok_b acc it) eqn:Eb; [|reflexivity].
      exfalso. destruct Hspec as [Hs1 _]. specialize (Hs1 eq_refl). eapply cvstep_complete; eauto.
  - unfold vstep. rewrite (vsplit_bad _ Hok). unfold spec_ok_b. rewrite Hok. reflexivity.
Qed.

Theorem validator_accepts_iff_spec_proof its : run_validator its = spec_first_bad its.
Proof.
  unfold run_validator, spec_first_bad. apply validator_eq_spec_gen.
  - constructor; [left; reflexivity|constructor].
  - exact inv_init.
Qed.
