(* C11 (part) — the sender-side hard-link reset computes its declarative description
   (Hardlinks.reset_spec) on every sub-sequence of a canonical walk, and the description always
   passes the receiver's hard-link validator. *)
From Coq Require Import List NArith Bool.
From FS Require Import Sx Model.Path Model.Stat Model.Hardlinks Proofs.Lex.
Import ListNotations.
Open Scope bool_scope.

Lemma mem_bytes_in p l : mem_bytes p l = true <-> In p l.
Proof.
  induction l as [|x l IH]; simpl; [split; [discriminate|tauto]|].
  rewrite orb_true_iff, IH, bytes_eqb_eq. split; intros [H|H]; auto.
Qed.

Lemma no_path_iff l p :
  existsb (fun b => bytes_eqb (st_path b) p) l = false <-> forall b, In b l -> st_path b <> p.
Proof.
  rewrite <- not_true_iff_false, existsb_exists. split.
  - intros H b Hb E. apply H. exists b. split; auto. apply bytes_eqb_eq; auto.
  - intros H (b & Hb & E). apply bytes_eqb_eq in E. exact (H b Hb E).
Qed.

Lemma existsb_path_false before p :
  existsb (fun b => bytes_eqb (st_path b) p) before = false ->
  forall b, In b before -> st_path b <> p.
Proof. apply no_path_iff. Qed.

(* what wf_links_from demands of a link member s, between the entries before it and those after *)
Definition link_ok (before r : list stat) (s : stat) : Prop :=
  st_linkname s <> st_path s /\
  (forall b, In b before -> st_path b = st_linkname s -> hl_plain b = true /\ has_link b = false) /\
  (forall a, In a r -> st_path a <> st_linkname s).

Lemma wf_links_from_cons before s r : wf_links_from before (s :: r) = true <->
  (forall b, In b before -> st_path b <> st_path s) /\ st_path s <> [] /\
  (hl_plain s = true -> has_link s = true -> link_ok before r s) /\
  wf_links_from (before ++ [s]) r = true.
Proof.
  cbn [wf_links_from]. rewrite !andb_true_iff, !negb_true_iff, no_path_iff, bytes_eqb_neq.
  assert (X : (if hl_plain s && has_link s
               then negb (bytes_eqb (st_linkname s) (st_path s))
                    && forallb (fun b => negb (bytes_eqb (st_path b) (st_linkname s))
                                         || (hl_plain b && negb (has_link b))) before
                    && negb (existsb (fun a => bytes_eqb (st_path a) (st_linkname s)) r)
               else true) = true <-> (hl_plain s = true -> has_link s = true -> link_ok before r s)).
  { destruct (hl_plain s), (has_link s); cbn [andb]; try (split; [discriminate|reflexivity]).
    unfold link_ok. rewrite !andb_true_iff, !negb_true_iff, no_path_iff, bytes_eqb_neq, forallb_forall.
    split.
    - intros [[H1 H2] H3] _ _. split; [exact H1|]. split; [|exact H3]. intros b Hb E.
      specialize (H2 b Hb). rewrite E, bytes_eqb_refl in H2. cbn [negb orb] in H2.
      apply andb_true_iff in H2. destruct H2 as [-> H2]. apply negb_true_iff in H2. auto.
    - intros H. destruct (H eq_refl eq_refl) as (H1 & H2 & H3). split; [split; [exact H1|]|exact H3].
      intros b Hb. destruct (bytes_eqb (st_path b) (st_linkname s)) eqn:E; [|reflexivity].
      apply bytes_eqb_eq in E. destruct (H2 b Hb E) as [-> ->]. reflexivity. }
  rewrite X. tauto.
Qed.

Lemma set_linkname_path s l : st_path (set_linkname s l) = st_path s. Proof. reflexivity. Qed.
Lemma set_linkname_mode s l : st_mode (set_linkname s l) = st_mode s. Proof. reflexivity. Qed.
Lemma set_linkname_link s l : st_linkname (set_linkname s l) = l. Proof. reflexivity. Qed.
Lemma hl_plain_set s l : hl_plain (set_linkname s l) = hl_plain s. Proof. reflexivity. Qed.

Lemma first_rep_app a b k :
  first_rep (a ++ b) k = match first_rep a k with Some x => Some x | None => first_rep b k end.
Proof.
  induction a as [|s a IH]; simpl; [reflexivity|].
  destruct (hl_plain s && bytes_eqb (orig_rep s) k); auto.
Qed.

Lemma first_rep_in l k v : first_rep l k = Some v ->
  exists b, In b l /\ st_path b = v /\ hl_plain b = true /\ orig_rep b = k.
Proof.
  induction l as [|s l IH]; simpl; [discriminate|].
  destruct (hl_plain s && bytes_eqb (orig_rep s) k) eqn:E.
  - intros H. inversion H; subst. apply andb_true_iff in E. destruct E as [E1 E2]. apply bytes_eqb_eq in E2.
    exists s. auto.
  - intros H. destruct (IH H) as (b & Hb & Hr). exists b. split; [right|]; auto.
Qed.

Lemma first_rep_none l k : (forall b, In b l -> hl_plain b = true -> orig_rep b <> k) -> first_rep l k = None.
Proof.
  induction l as [|s l IH]; intros H; simpl; [reflexivity|].
  destruct (hl_plain s) eqn:Hp; cbn [andb].
  - assert (E : bytes_eqb (orig_rep s) k = false) by (apply bytes_eqb_neq; apply H; [left|]; auto).
    rewrite E. apply IH. intros b Hb. apply H. right; auto.
  - apply IH. intros b Hb. apply H. right; auto.
Qed.

Lemma first_rep_some l s : In s l -> hl_plain s = true -> exists r, first_rep l (orig_rep s) = Some r.
Proof.
  induction l as [|x l IH]; intros Hin Hp; [destruct Hin|]. cbn [first_rep].
  destruct (hl_plain x && bytes_eqb (orig_rep x) (orig_rep s)) eqn:E; [eauto|].
  destruct Hin as [->|Hin]; [|auto].
  rewrite Hp, bytes_eqb_refl in E. discriminate.
Qed.

Lemma first_rep_before pre s post k r :
  hl_plain s = true -> orig_rep s = k -> first_rep (pre ++ s :: post) k = Some r ->
  r = st_path s \/ exists t, In t pre /\ st_path t = r /\ hl_plain t = true /\ orig_rep t = k.
Proof.
  intros Hp Hk H. rewrite first_rep_app in H. destruct (first_rep pre k) as [x|] eqn:E.
  - inversion H; subst x. right. destruct (first_rep_in _ _ _ E) as (b & Hb & X). exists b. auto.
  - cbn [first_rep] in H. rewrite Hp, Hk, bytes_eqb_refl in H. inversion H. left. reflexivity.
Qed.

Lemma orig_rep_link s : has_link s = true -> orig_rep s = st_linkname s.
Proof. unfold has_link, orig_rep. destruct (st_linkname s); [discriminate|reflexivity]. Qed.

Lemma orig_rep_nolink s : has_link s = false -> orig_rep s = st_path s.
Proof. unfold has_link, orig_rep. destruct (st_linkname s); [reflexivity|discriminate]. Qed.

Lemma set_linkname_same s : has_link s = false -> set_linkname s [] = s.
Proof. unfold has_link. destruct s; cbn. destruct st_linkname; [reflexivity|discriminate]. Qed.

Lemma lookup_b_cons_ne k k' v m : k <> k' -> lookup_b k ((k', v) :: m) = lookup_b k m.
Proof. intros H. simpl. apply bytes_eqb_neq in H. rewrite H. reflexivity. Qed.

Lemma lookup_b_cons_eq k v m : lookup_b k ((k, v) :: m) = Some v.
Proof. simpl. rewrite bytes_eqb_refl. reflexivity. Qed.

Definition not_link_member_path (before : list stat) (k : list N) : Prop :=
  forall b, In b before -> hl_plain b = true -> has_link b = true -> st_path b <> k.

(* the map of the filter answers with the first kept member of the group *)
Definition map_ok (before : list stat) (m : list (list N * list N)) : Prop :=
  forall k, not_link_member_path before k -> lookup_b k m = first_rep before k.

(* links of processed members never name a path still to come *)
Definition links_back (before rest : list stat) : Prop :=
  forall b x, In b before -> hl_plain b = true -> has_link b = true -> In x rest -> st_path x <> st_linkname b.

Lemma first_rep_snoc before s k : first_rep (before ++ [s]) k =
  match first_rep before k with
  | Some x => Some x
  | None => if hl_plain s && bytes_eqb (orig_rep s) k then Some (st_path s) else None
  end.
Proof. rewrite first_rep_app. reflexivity. Qed.

(* one step: the entry is emitted as the description says, and both invariants are kept *)
Lemma reset_step_spec before m s r :
  map_ok before m -> links_back before (s :: r) -> wf_links_from before (s :: r) = true ->
  links_back (before ++ [s]) r /\
  snd (reset_step m s) = reset_spec_entry (before ++ s :: r) s /\ map_ok (before ++ [s]) (fst (reset_step m s)).
Proof.
  intros H2 H3 Hwf. apply wf_links_from_cons in Hwf. destruct Hwf as (Hnew & _ & Hlk & _). split.
  { intros b x Hb Hpb Hlb Hx. apply in_app_or in Hb. destruct Hb as [Hb|[<-|[]]].
    - apply (H3 b x); auto. right; auto.
    - apply (Hlk Hpb Hlb); auto. }
  assert (H2' : forall k, not_link_member_path (before ++ [s]) k -> lookup_b k m = first_rep before k).
  { intros k Hk. apply H2. intros b Hb. apply Hk. apply in_or_app; left; auto. }
  unfold reset_step, reset_spec_entry. rewrite first_rep_app.
  destruct (hl_plain s) eqn:Hp; cbn [negb fst snd].
  2:{ split; [reflexivity|]. intros k Hk. rewrite first_rep_snoc, Hp, (H2' k Hk). destruct (first_rep before k); reflexivity. }
  cbn [first_rep]. rewrite Hp, bytes_eqb_refl. cbn [andb].
  destruct (has_link s) eqn:Hl.
  - (* link member: k names it, and no link member before it has path k *)
    destruct (Hlk eq_refl eq_refl) as (_ & Hbefore & _). rewrite (orig_rep_link s Hl).
    assert (ELF : lookup_b (st_linkname s) m = first_rep before (st_linkname s)).
    { apply H2. intros b Hb Hpb Hlb E. destruct (Hbefore b Hb E). congruence. }
    assert (Hk_ne : forall k, not_link_member_path (before ++ [s]) k -> bytes_eqb k (st_path s) = false).
    { intros k Hk. apply bytes_eqb_neq. intro E. apply (Hk s); auto. apply in_or_app; right; left; reflexivity. }
    rewrite <- ELF. destruct (lookup_b (st_linkname s) m) as [v|] eqn:Elk; cbn [fst snd].
    + destruct (first_rep_in _ _ _ (eq_sym ELF)) as (b & Hb & Eb & _).
      assert (Hv : bytes_eqb v (st_path s) = false) by (apply bytes_eqb_neq; intro E; apply (Hnew b Hb); congruence).
      rewrite Hv. cbn [fst snd]. split; [reflexivity|]. intros k Hk.
      rewrite first_rep_snoc, Hp, (orig_rep_link s Hl), <- (H2' k Hk). cbn [lookup_b andb]. rewrite (Hk_ne k Hk).
      destruct (bytes_eqb (st_linkname s) k) eqn:E2; [apply bytes_eqb_eq in E2; subst k; rewrite Elk; reflexivity|].
      destruct (lookup_b k m); reflexivity.
    + rewrite bytes_eqb_refl. split; [reflexivity|]. intros k Hk.
      rewrite first_rep_snoc, Hp, (orig_rep_link s Hl), <- (H2' k Hk). cbn [lookup_b andb]. rewrite (Hk_ne k Hk).
      destruct (bytes_eqb k (st_linkname s)) eqn:E2.
      * apply bytes_eqb_eq in E2. subst k. rewrite Elk, bytes_eqb_refl. reflexivity.
      * apply bytes_eqb_neq in E2. rewrite (proj2 (bytes_eqb_neq _ _) (fun E => E2 (eq_sym E))).
        destruct (lookup_b k m); reflexivity.
  - (* plain entry that is not a link: the first of its own group *)
    rewrite (orig_rep_nolink s Hl).
    assert (HR : first_rep before (st_path s) = None).
    { apply first_rep_none. intros b Hb Hpb E.
      destruct (has_link b) eqn:Hlb.
      - rewrite (orig_rep_link b Hlb) in E. apply (H3 b s Hb Hpb Hlb); [left; reflexivity|auto].
      - rewrite (orig_rep_nolink b Hlb) in E. apply (Hnew b Hb). auto. }
    rewrite HR, bytes_eqb_refl, (set_linkname_same s Hl). cbn [fst snd]. split; [reflexivity|]. intros k Hk.
    rewrite first_rep_snoc, Hp, (orig_rep_nolink s Hl), <- (H2' k Hk). cbn [lookup_b andb].
    destruct (bytes_eqb k (st_path s)) eqn:E2.
    + apply bytes_eqb_eq in E2. subst k. rewrite (H2' _ Hk), HR, bytes_eqb_refl. reflexivity.
    + apply bytes_eqb_neq in E2. rewrite (proj2 (bytes_eqb_neq _ _) (fun E => E2 (eq_sym E))).
      destruct (lookup_b k m); reflexivity.
Qed.

Lemma reset_eq_spec_gen l : forall before m,
  map_ok before m -> links_back before l -> wf_links_from before l = true ->
  reset_run m l = map (reset_spec_entry (before ++ l)) l.
Proof.
  induction l as [|s r IH]; intros before m H2 H3 Hwf; [reflexivity|].
  destruct (reset_step_spec before m s r H2 H3 Hwf) as (H3' & Es & H2').
  apply wf_links_from_cons in Hwf. destruct Hwf as (_ & _ & _ & Hrest).
  cbn [reset_run map]. destruct (reset_step m s) as [m' s']. cbn [fst snd] in *. rewrite Es. f_equal.
  replace (before ++ s :: r) with ((before ++ [s]) ++ r) by (rewrite <- app_assoc; reflexivity).
  apply IH; auto.
Qed.

Theorem reset_eq_spec_proof l : wf_links l = true -> hardlink_reset l = reset_spec l.
Proof.
  intros H. unfold hardlink_reset, reset_spec. apply (reset_eq_spec_gen l [] []); auto.
  - intros k _. reflexivity.
  - intros b x [].
Qed.

(* The validator accepts the description, whatever the listing: a plain entry is emitted without
   link name where its group starts, and otherwise names that entry, which came earlier. *)
Lemma spec_valid l : forall post pre seen i, l = pre ++ post ->
  (forall t, In t pre -> hl_plain t = true -> first_rep l (orig_rep t) = Some (st_path t) -> In (st_path t) seen) ->
  hl_run seen (map (reset_spec_entry l) post) i = None.
Proof.
  induction post as [|s post IH]; intros pre seen i El Hseen; [reflexivity|].
  assert (El' : l = (pre ++ [s]) ++ post) by (rewrite <- app_assoc; exact El).
  assert (Hnext : forall seen', (forall x, In x seen -> In x seen') ->
            (hl_plain s = true -> first_rep l (orig_rep s) = Some (st_path s) -> In (st_path s) seen') ->
            hl_run seen' (map (reset_spec_entry l) post) (S i) = None).
  { intros seen' Hsub Hs. apply (IH (pre ++ [s])); auto.
    intros t Ht Hpt Hft. apply in_app_or in Ht. destruct Ht as [Ht|[<-|[]]]; auto. }
  cbn [map hl_run]. unfold reset_spec_entry at 1, hl_step. destruct (hl_plain s) eqn:Hp; cbn [negb].
  2:{ rewrite Hp. apply Hnext; [auto|discriminate]. }
  destruct (first_rep_some l s) as (r & Hr); [rewrite El; apply in_or_app; right; left; reflexivity|exact Hp|].
  rewrite Hr. destruct (bytes_eqb r (st_path s)) eqn:Ers; rewrite hl_plain_set, Hp; cbn [negb].
  - apply Hnext; [intros; right; auto|left; reflexivity].
  - apply bytes_eqb_neq in Ers. destruct (has_link (set_linkname s r)).
    + assert (Hin : In r seen).
      { pose proof Hr as Hr'. rewrite El in Hr'.
        destruct (first_rep_before pre s post _ r Hp eq_refl Hr') as [X|(t & Ht & <- & Hpt & Eot)]; [congruence|].
        apply Hseen; auto. rewrite Eot. exact Hr. }
      rewrite set_linkname_link. apply mem_bytes_in in Hin. rewrite Hin. apply Hnext; [auto|congruence].
    + apply Hnext; [intros; right; auto|left; reflexivity].
Qed.

Theorem reset_links_valid_proof l : wf_links l = true -> hardlink_check (hardlink_reset l) = None.
Proof.
  intros H. rewrite (reset_eq_spec_proof l H). apply (spec_valid l l [] [] 0%nat eq_refl). intros t [].
Qed.
