(* The FollowLinks model (Model/FollowLinks.v): order and dedupe facts of the result,
   monotonicity of [resolved], termination by the measure M (candidate keys not yet resolved),
   the root request. *)
From Coq Require Import List NArith Bool Lia Arith.
From FS Require Import Sx Model.Path Model.Stat Model.Tree Model.FollowLinks Proofs.Lex Proofs.PathP.
Import ListNotations.
Open Scope N_scope.
Open Scope bool_scope.

Lemma cb_nil_le s : cmp_bytes [] s <> Gt.
Proof. destruct s; simpl; congruence. Qed.

(* a <= s < a ++ t  implies  a is a prefix of s *)
Lemma cb_between_prefix a s t :
  cmp_bytes a s <> Gt -> cmp_bytes s (a ++ t) = Lt -> exists y, s = a ++ y.
Proof.
  intros H1 H2. apply (lcmp_interval N N.compare N.compare_eq_iff N.compare_antisym a s t H1).
  change (cmp_bytes s (a ++ t) <> Gt). congruence.
Qed.

Lemma mem_In x l : mem x l = true <-> In x l.
Proof.
  induction l as [|y l IH]; simpl; [split; [discriminate|tauto]|].
  rewrite orb_true_iff, IH, bytes_eqb_eq. split; intros [H|H]; auto.
Qed.
Lemma mem_false x l : mem x l = false <-> ~ In x l.
Proof. rewrite <- mem_In. destruct (mem x l); split; congruence. Qed.

(* strictly ascending: every element is below all later ones *)
Fixpoint ssorted (l : list bytes) : Prop :=
  match l with
  | [] => True
  | a :: r => (forall b, In b r -> cmp_bytes a b = Lt) /\ ssorted r
  end.

Lemma sorted_b_ssorted l : ssorted l -> sorted_b l = true.
Proof.
  induction l as [|a r IH]; intros H; [reflexivity|].
  destruct H as [Ha Hr]. destruct r as [|b r]; [reflexivity|].
  cbn [sorted_b]. rewrite (Ha b (or_introl eq_refl)). apply IH; auto.
Qed.

Lemma ssorted_sorted_b l : sorted_b l = true -> ssorted l.
Proof.
  induction l as [|a r IH]; intros H; [exact I|].
  destruct r as [|b r]; [split; [intros ? []|exact I]|].
  cbn [sorted_b] in H. destruct (cmp_bytes a b) eqn:E; try discriminate.
  specialize (IH H). split; auto.
  intros c [<-|Hc]; auto. destruct IH as [Hb _]. eapply cmp_bytes_trans; eauto.
Qed.

Lemma insert_sorted_In x l z : In z (insert_sorted x l) <-> z = x \/ In z l.
Proof.
  induction l as [|y r IH]; simpl; [intuition|].
  destruct (cmp_bytes x y); simpl; try rewrite IH; intuition.
Qed.

Lemma insert_sorted_ssorted x l : ~ In x l -> ssorted l -> ssorted (insert_sorted x l).
Proof.
  induction l as [|y r IH]; intros Hn Hs; [simpl; split; [intros ? []|exact I]|].
  destruct Hs as [Hy Hr]. simpl. destruct (cmp_bytes x y) eqn:E.
  - apply cmp_bytes_eq in E. subst y. exfalso. apply Hn. left; reflexivity.
  - split; [|split; auto]. intros b [<-|Hb]; auto. eapply cmp_bytes_trans; eauto.
  - split.
    + intros b Hb. apply insert_sorted_In in Hb. destruct Hb as [->|Hb]; auto. apply cmp_bytes_gt_lt; auto.
    + apply IH; auto. intro; apply Hn; right; auto.
Qed.

Lemma sort_bytes_In l z : In z (sort_bytes l) <-> In z l.
Proof.
  induction l as [|x l IH]; simpl; [tauto|]. unfold sort_bytes in *. simpl.
  rewrite insert_sorted_In, IH. intuition.
Qed.

Lemma sort_bytes_ssorted l : NoDup l -> ssorted (sort_bytes l).
Proof.
  induction 1 as [|x l Hn Hd IH]; [exact I|].
  change (sort_bytes (x :: l)) with (insert_sorted x (sort_bytes l)).
  apply insert_sorted_ssorted; auto. rewrite sort_bytes_In. exact Hn.
Qed.

Lemma inside_split a b : inside a b = true -> exists r, b = a ++ sep :: r.
Proof.
  unfold inside. intros H. apply has_prefix_app in H. destruct H as [r ->].
  exists r. rewrite <- app_assoc. reflexivity.
Qed.

Lemma inside_lt a b : inside a b = true -> cmp_bytes a b = Lt.
Proof.
  intros H. apply inside_split in H. destruct H as [r ->].
  apply (lcmp_prefix_lt N N.compare N.compare_eq_iff). discriminate.
Qed.

(* [dedupe_from] by cases of a successful run: an element inside a kept one is dropped, any other is kept *)
Lemma dedupe_from_ind (Q : list bytes -> list bytes -> list bytes -> Prop) :
  (forall kept, Q kept [] []) ->
  (forall kept s r out, existsb (fun o => inside o s) kept = true ->
     dedupe_from kept r = Some out -> Q kept r out -> Q kept (s :: r) out) ->
  (forall kept s r out, bytes_eqb s s_dot = false -> existsb (fun o => inside o s) kept = false ->
     dedupe_from (s :: kept) r = Some out -> Q (s :: kept) r out -> Q kept (s :: r) (s :: out)) ->
  forall l kept out, dedupe_from kept l = Some out -> Q kept l out.
Proof.
  intros Hnil Hdrop Hkeep. induction l as [|s r IH]; intros kept out H; simpl in H.
  - inversion H; subst. apply Hnil.
  - destruct (bytes_eqb s s_dot) eqn:Ed; [discriminate|].
    destruct (existsb (fun o => inside o s) kept) eqn:Ep; [apply Hdrop; auto|].
    destruct (dedupe_from (s :: kept) r) as [o|] eqn:E; [|discriminate]. inversion H; subst. apply Hkeep; auto.
Qed.

(* the output is a sub-sequence of the input *)
Lemma dedupe_from_In kept l out : dedupe_from kept l = Some out -> forall x, In x out -> In x l.
Proof.
  intros H. pattern kept, l, out. revert l kept out H. apply dedupe_from_ind.
  - intros _ x [].
  - intros kept s r out _ _ IH x Hx. right. auto.
  - intros kept s r out _ _ _ IH x [<-|Hx]; [left|right]; auto.
Qed.

Lemma dedupe_from_ssorted kept l out : ssorted l -> dedupe_from kept l = Some out -> ssorted out.
Proof.
  intros Hs H. revert Hs. pattern kept, l, out. revert l kept out H. apply dedupe_from_ind.
  - auto.
  - intros kept s r out _ _ IH [_ Hs]. auto.
  - intros kept s r out _ _ E IH [Hs1 Hs2]. split; [|auto]. intros b Hb. apply Hs1. eapply dedupe_from_In; eauto.
Qed.

(* the nil slice exactly when "." is met *)
Lemma dedupe_from_none kept l : dedupe_from kept l = None <-> In s_dot l.
Proof.
  revert kept; induction l as [|s r IH]; intros kept; simpl; [split; [discriminate|tauto]|].
  destruct (bytes_eqb s s_dot) eqn:E; [apply bytes_eqb_eq in E; tauto|]. apply bytes_eqb_neq in E.
  destruct (existsb (fun o => inside o s) kept); [rewrite IH; tauto|].
  specialize (IH (s :: kept)). destruct (dedupe_from (s :: kept) r); simpl; [|tauto].
  split; [discriminate|]. intros [H|H]; [congruence|]. apply IH in H. discriminate.
Qed.

(* every input element is inside an element kept earlier, or kept, or inside a kept one *)
Lemma dedupe_from_covers kept l out :
  dedupe_from kept l = Some out ->
  forall x, In x l ->
    (exists o, In o kept /\ inside o x = true) \/ exists e, In e out /\ (e = x \/ inside e x = true).
Proof.
  intros H. pattern kept, l, out. revert l kept out H. apply dedupe_from_ind.
  - intros _ x [].
  - intros kept s r out Ep _ IH x [<-|Hx]; [|auto]. left. apply existsb_exists in Ep. exact Ep.
  - intros kept s r out _ _ _ IH x [<-|Hx]; [right; exists s; split; [left|]; auto|].
    destruct (IH x Hx) as [(o' & [<-|Ho] & Hi)|(e & He & Hc)].
    + right. exists s. split; [left; auto|right; auto].
    + left. exists o'. auto.
    + right. exists e. split; [right; auto|auto].
Qed.

Definition pairwise_min (l : list bytes) : Prop := forall a b, In a l -> In b l -> inside a b = false.

Lemma inside_irrefl a : inside a a = false.
Proof. destruct (inside a a) eqn:E; auto. apply inside_lt in E. rewrite cmp_bytes_refl in E. discriminate. Qed.

Lemma dedupe_from_minimal kept l out :
  ssorted l -> dedupe_from kept l = Some out ->
  (forall a b, In a kept -> In b out -> inside a b = false) /\ pairwise_min out.
Proof.
  intros Hs H. revert Hs. pattern kept, l, out. revert l kept out H. apply dedupe_from_ind.
  - intros kept _. split; [intros ? ? ? []|intros ? ? []].
  - intros kept s r out _ _ IH [_ Hs]. auto.
  - intros kept s r o _ Ep E IH [Hs1 Hs2]. destruct (IH Hs2) as [IH1 IH2].
    assert (Hor : forall b, In b o -> In b r) by (intros; eapply dedupe_from_In; eauto).
    split.
    + intros a b Ha [Hb|Hb]; [subst b|apply IH1; auto; right; auto].
      destruct (inside a s) eqn:Ea; auto.
      assert (existsb (fun o => inside o s) kept = true) by (apply existsb_exists; eauto). congruence.
    + intros a b [Ha|Ha] [Hb|Hb].
      * subst a b. apply inside_irrefl.
      * subst a. apply IH1; auto. left; auto.
      * subst b. destruct (inside a s) eqn:Ea; auto. apply inside_lt in Ea.
        pose proof (Hs1 a (Hor a Ha)) as Hlt. apply cmp_bytes_lt_gt in Hlt. congruence.
      * apply IH2; auto.
Qed.

Lemma minimal_b_pairwise l : pairwise_min l -> minimal_b l = true.
Proof.
  intros H. unfold minimal_b. apply forallb_forall. intros a Ha. apply forallb_forall. intros b Hb.
  rewrite (H a b Ha Hb). reflexivity.
Qed.

Lemma find_kid_In c kids k : find_kid c kids = Some k -> In k kids /\ node_name k = c.
Proof.
  induction kids as [|a kids IH]; simpl; [discriminate|].
  destruct (bytes_eqb (node_name a) c) eqn:E.
  - intros H; inversion H; subst. split; [left; auto|apply bytes_eqb_eq; auto].
  - intros H. destruct (IH H). split; [right|]; auto.
Qed.

Lemma node_links_eq n : node_links n = node_link n :: forest_links (node_kids n).
Proof.
  destruct n as [a s c kids]. reflexivity.
Qed.

Lemma node_cpaths_eq dirc n :
  node_cpaths dirc n = (dirc ++ [node_name n]) :: forest_cpaths (dirc ++ [node_name n]) (node_kids n).
Proof.
  destruct n as [a s c kids]. simpl. f_equal.
  induction kids as [|k r IH]; [reflexivity|]. simpl. rewrite IH. reflexivity.
Qed.

Lemma forest_links_incl k kids : In k kids -> incl (node_links k) (forest_links kids).
Proof.
  induction kids as [|a kids IH]; intros H x Hx; [destruct H|]. simpl. apply in_or_app.
  destruct H as [->|H]; [left; auto|right; apply IH; auto].
Qed.

Lemma forest_cpaths_incl dirc k kids : In k kids -> incl (node_cpaths dirc k) (forest_cpaths dirc kids).
Proof.
  induction kids as [|a kids IH]; intros H x Hx; [destruct H|]. simpl. apply in_or_app.
  destruct H as [->|H]; [left; auto|right; apply IH; auto].
Qed.

Lemma lookup_link kids cs n : lookup kids cs = Some n -> In (node_link n) (forest_links kids).
Proof.
  revert kids; induction cs as [|c r IH]; intros kids H; [discriminate|].
  simpl in H. destruct (find_kid c kids) as [k|] eqn:E; [|discriminate].
  apply find_kid_In in E. destruct E as [Hk _].
  apply (forest_links_incl k kids Hk). rewrite node_links_eq.
  destruct r as [|c2 r]; [inversion H; subst; left; auto|]. right. apply IH. exact H.
Qed.

Lemma lookup_cpath kids cs n dirc : lookup kids cs = Some n -> In (dirc ++ cs) (forest_cpaths dirc kids).
Proof.
  revert kids dirc; induction cs as [|c r IH]; intros kids dirc H; [discriminate|].
  simpl in H. destruct (find_kid c kids) as [k|] eqn:E; [|discriminate].
  apply find_kid_In in E. destruct E as [Hk Hn].
  apply (forest_cpaths_incl dirc k kids Hk). rewrite node_cpaths_eq, Hn.
  destruct r as [|c2 r]; [left; auto|]. right.
  replace (dirc ++ c :: c2 :: r) with ((dirc ++ [c]) ++ c2 :: r) by (rewrite <- app_assoc; reflexivity).
  apply IH. exact H.
Qed.

(* [comp_pool]: the components of the requests and of the link texts *)
Lemma pool_iff view reqs c : In c (comp_pool view reqs) <->
  (exists r, In r reqs /\ In c (comps r)) \/ (exists l, In l (forest_links view) /\ In c (comps l)).
Proof. unfold comp_pool. rewrite in_app_iff, !in_flat_map. reflexivity. Qed.
Lemma pool_req view reqs r c : In r reqs -> In c (comps r) -> In c (comp_pool view reqs).
Proof. intros. apply pool_iff. eauto. Qed.
Lemma pool_link view reqs l c : In l (forest_links view) -> In c (comps l) -> In c (comp_pool view reqs).
Proof. intros. apply pool_iff. eauto. Qed.

Lemma norm_clamp_forall (P : bytes -> Prop) cs : Forall P cs -> Forall P (norm_clamp cs).
Proof. intros H. unfold norm_clamp. apply Forall_rev. apply fold_cstep_forall; auto. Qed.

Lemma filter_len {A} (q : A -> bool) l : (length (filter q l) <= length l)%nat.
Proof. induction l as [|a l IH]; simpl; [lia|]. destruct (q a); simpl; lia. Qed.

Lemma filter_len_le {A} (p q : A -> bool) l :
  (forall x, q x = true -> p x = true) -> (length (filter q l) <= length (filter p l))%nat.
Proof.
  intros H. induction l as [|a l IH]; simpl; [lia|].
  destruct (q a) eqn:Eq; [rewrite (H a Eq); simpl; lia|]. destruct (p a); simpl; lia.
Qed.

Lemma filter_len_lt {A} (p q : A -> bool) l k :
  (forall x, q x = true -> p x = true) -> In k l -> p k = true -> q k = false ->
  (length (filter q l) < length (filter p l))%nat.
Proof.
  intros H Hin Hp Hq. induction l as [|a l IH]; [destruct Hin|]. simpl.
  destruct Hin as [->|Hin].
  - rewrite Hp, Hq. simpl. pose proof (filter_len_le p q l H). lia.
  - specialize (IH Hin). destruct (q a) eqn:Eq; [rewrite (H a Eq); simpl; lia|]. destruct (p a); simpl; lia.
Qed.

Definition sub (R R' : list bytes) : Prop := forall x, mem x R = true -> mem x R' = true.

Lemma sub_refl R : sub R R. Proof. intros x H; exact H. Qed.
Lemma sub_trans A B C : sub A B -> sub B C -> sub A C. Proof. intros H1 H2 x H. auto. Qed.
Lemma sub_cons k R : sub R (k :: R). Proof. intros x H. simpl. rewrite H. apply orb_true_r. Qed.

(* [resolved] only grows, and stays duplicate-free *)
Definition grows (R R' : list bytes) : Prop := sub R R' /\ (NoDup R -> NoDup R').
Lemma grows_refl R : grows R R. Proof. split; [apply sub_refl|auto]. Qed.
Lemma grows_trans A B C : grows A B -> grows B C -> grows A C.
Proof. intros [H1 D1] [H2 D2]. split; [eapply sub_trans; eauto|auto]. Qed.
Lemma grows_add k R : mem k R = false -> grows R (k :: R).
Proof. intros Hk. split; [apply sub_cons|]. intros Hd. constructor; [apply mem_false; exact Hk|exact Hd]. Qed.

Lemma resolved_note_revisit h e st : resolved (note_revisit h e st) = resolved st.
Proof. unfold note_revisit. destruct (h && negb (mem_exp e (g_expanded st))); reflexivity. Qed.

Section Resolver.
Variable gmatch : bytes -> bytes -> bool.
Variable view : list node.

(* every target is the cleaned link text of a symlink entry of the directory *)
Lemma read_symlink_In cur c t : In t (read_symlink gmatch view cur c) ->
  exists name n, lookup view (cur ++ [name]) = Some n /\ t = link_target cur (node_link n).
Proof.
  assert (H1 : forall name, In t (read_symlink1 view cur name) ->
            exists n, lookup view (cur ++ [name]) = Some n /\ t = link_target cur (node_link n)).
  { intros name. unfold read_symlink1, stat_node. destruct (lookup view (cur ++ [name])) as [n|]; [|intros []].
    destruct (node_is_symlink n); [|intros []]. intros [<-|[]]. eauto. }
  unfold read_symlink. destruct (contains_wildcards c); [|eauto].
  destruct (read_dir view cur) as [kids|]; [|intros []]. intros H. apply in_flat_map in H.
  destruct H as (k & _ & Hk). destruct (gmatch c (node_name k)); [eauto|destruct Hk].
Qed.

(* ... so a property of components that the directory and all link texts have holds of every target *)
Lemma read_symlink_forall (Q : bytes -> Prop) cur c :
  Forall Q cur -> (forall l, In l (forest_links view) -> Forall Q (comps l)) ->
  Forall (Forall Q) (read_symlink gmatch view cur c).
Proof.
  intros Hcur Hl. apply Forall_forall. intros t Ht. destruct (read_symlink_In cur c t Ht) as (name & n & Hn & ->).
  unfold link_target. apply norm_clamp_forall. apply Forall_app. split.
  - destruct (is_abs (node_link n)); [constructor|exact Hcur].
  - apply Hl. eapply lookup_link; eauto.
Qed.

(* The body of the component loop by cases: a component without targets is recorded if it is
   the last one and stepped over otherwise; one with targets is expanded unless its key is
   known.  ([note_revisit false] is the identity.) *)
Lemma loop_cons rec cur c rest st :
  loop gmatch view rec cur (c :: rest) st =
  let k := key (cur ++ [c]) in
  match read_symlink gmatch view cur c with
  | [] => match rest with
          | [] => Ok (if mem k (resolved st) then st else add_resolved k st)
          | _ => loop gmatch view rec (cur ++ [c]) rest st
          end
  | ts => if mem k (resolved st) then Ok (note_revisit true (cur, c, rest) st)
          else each_target rec rest ts (add_expanded (cur, c, rest) (add_resolved k st))
  end.
Proof.
  cbn [loop]. destruct (read_symlink gmatch view cur c), rest, (mem (key (cur ++ [c])) (resolved st)); reflexivity.
Qed.

Definition mono_rec (rec : rec_t) : Prop :=
  forall st p st', rec st p = Ok st' -> grows (resolved st) (resolved st').

Lemma each_target_mono rec rest ts : mono_rec rec -> mono_rec (fun st _ => each_target rec rest ts st).
Proof.
  intros Hrec. induction ts as [|t ts IH]; intros st p st' H; simpl in H.
  - inversion H; subst. apply grows_refl.
  - destruct (rec st (norm_clamp (t ++ rest))) as [st1|] eqn:E; [|discriminate].
    eapply grows_trans; [apply (Hrec _ _ _ E)|apply (IH st1 p st' H)].
Qed.

Lemma loop_mono rec : mono_rec rec -> forall cur, mono_rec (fun st p => loop gmatch view rec cur p st).
Proof.
  intros Hrec cur st p. revert cur st. induction p as [|c rest IH]; intros cur st st' H.
  - inversion H; subst. apply grows_refl.
  - rewrite loop_cons in H. cbv zeta in H. destruct (read_symlink gmatch view cur c) as [|t ts].
    + destruct rest; [|exact (IH _ _ _ H)]. inversion H; subst.
      destruct (mem _ (resolved st)) eqn:Em; [apply grows_refl|apply grows_add; exact Em].
    + destruct (mem _ (resolved st)) eqn:Em.
      * inversion H; subst. rewrite resolved_note_revisit. apply grows_refl.
      * eapply grows_trans; [apply grows_add; exact Em|apply (each_target_mono rec rest _ Hrec _ [] _ H)].
Qed.

Lemma append_mono fuel : mono_rec (append gmatch view fuel).
Proof.
  induction fuel as [|f IH]; intros st p st' H; [discriminate|].
  cbn [append] in H. destruct p as [|c r]; [|exact (loop_mono _ IH [] _ _ _ H)].
  inversion H; subst. cbn [add_call resolved].
  destruct (mem s_dot (resolved st)) eqn:E; [apply grows_refl|apply grows_add; exact E].
Qed.

(* the requests are handled like the targets of one link at the root with nothing behind it *)
Lemma follow_reqs_each_target fuel rs : forall st,
  follow_reqs gmatch view fuel st rs = each_target (append gmatch view fuel) [] (map comps rs) st.
Proof.
  induction rs as [|r rs IH]; intros st; [reflexivity|]. cbn [follow_reqs map each_target]. rewrite app_nil_r.
  destruct (append gmatch view fuel st (norm_clamp (comps r))); [apply IH|reflexivity].
Qed.

Lemma follow_reqs_mono fuel reqs st st' :
  follow_reqs gmatch view fuel st reqs = Ok st' -> grows (resolved st) (resolved st').
Proof. rewrite follow_reqs_each_target. apply (each_target_mono _ [] _ (append_mono fuel) st []). Qed.

Lemma follow_state_nodup fuel reqs st : follow_state gmatch view fuel reqs = Ok st -> NoDup (resolved st).
Proof. intros H. apply follow_reqs_mono in H. apply H. constructor. Qed.

Lemma finish_sorted_minimal st l : NoDup (resolved st) -> finish st = Some l ->
  sorted_b l = true /\ minimal_b l = true.
Proof.
  intros Hd H. unfold finish, dedupe_paths in H.
  pose proof (sort_bytes_ssorted _ Hd) as Hs. split.
  - apply sorted_b_ssorted. eapply dedupe_from_ssorted; eauto.
  - apply minimal_b_pairwise. eapply dedupe_from_minimal; eauto.
Qed.

Lemma finish_none_iff st : finish st = None <-> In s_dot (resolved st).
Proof. unfold finish, dedupe_paths. rewrite dedupe_from_none. apply sort_bytes_In. Qed.

Lemma finish_some_nodot st l : finish st = Some l -> ~ In s_dot (resolved st).
Proof. intros H Hd. apply finish_none_iff in Hd. congruence. Qed.

(* every resolved key is in the result or strictly inside one of its elements *)
Lemma finish_covers st l : finish st = Some l ->
  forall x, In x (resolved st) -> exists e, In e l /\ (e = x \/ inside e x = true).
Proof.
  intros H x Hx. unfold finish, dedupe_paths in H.
  destruct (dedupe_from_covers [] _ _ H x) as [(o & [] & _)|He]; [apply sort_bytes_In; auto|exact He].
Qed.

Lemma finish_subset st l : finish st = Some l -> forall x, In x l -> In x (resolved st).
Proof.
  intros H x Hx. unfold finish, dedupe_paths in H. apply sort_bytes_In. eapply dedupe_from_In; eauto.
Qed.

End Resolver.

(* Measure (DESIGN A.8): candidate keys not yet in [resolved].  A recursive call of
   append is made only after a key with a non-nil target list was inserted; such a
   key is an entry of the view, or a directory of the view (or the root) extended by
   one wildcard component, and every component that can ever appear comes from a
   request or a link target ([comp_pool]); the component loop is structural. *)
Section Termination.
Variable gmatch : bytes -> bytes -> bool.
Variable view : list node.
Variable reqs : list bytes.

Definition PC (p : list bytes) : Prop := Forall (fun c => In c (comp_pool view reqs)) p.

Lemma read_symlink_PC dirc c : PC dirc -> Forall PC (read_symlink gmatch view dirc c).
Proof.
  intros Hd. apply read_symlink_forall; [exact Hd|]. intros l Hl. apply Forall_forall. intros x Hx.
  apply (pool_link view reqs l x Hl Hx).
Qed.

Lemma read_symlink_cand cur c :
  In c (comp_pool view reqs) -> read_symlink gmatch view cur c <> [] ->
  In (key (cur ++ [c])) (cand_keys view reqs).
Proof.
  intros Hc. unfold read_symlink, cand_keys. destruct (contains_wildcards c).
  - destruct (read_dir view cur) as [kids|] eqn:E; [|congruence]. intros _.
    apply in_or_app. right. apply in_flat_map. exists cur. split.
    + unfold read_dir in E. destruct cur as [|c0 cur0]; [left; reflexivity|]. right.
      destruct (lookup view (c0 :: cur0)) as [n|] eqn:El; [|discriminate].
      apply (lookup_cpath view (c0 :: cur0) n [] El).
    + apply (in_map (fun c1 => key (cur ++ [c1]))). exact Hc.
  - intros H. apply in_or_app. left. apply in_map.
    unfold read_symlink1, stat_node in H. destruct (lookup view (cur ++ [c])) as [n|] eqn:El; [|congruence].
    apply (lookup_cpath view (cur ++ [c]) n [] El).
Qed.

Definition M (R : list bytes) : nat :=
  length (filter (fun k => negb (mem k R)) (cand_keys view reqs)).

Lemma M_mono R R' : sub R R' -> (M R' <= M R)%nat.
Proof.
  intros H. unfold M. apply filter_len_le. intros x Hx.
  destruct (mem x R) eqn:E; auto. rewrite (H x E) in Hx. discriminate.
Qed.

Lemma M_add k R : In k (cand_keys view reqs) -> mem k R = false -> (M (k :: R) < M R)%nat.
Proof.
  intros Hk Hm. unfold M. apply (filter_len_lt _ _ _ k); auto.
  - intros x Hx. simpl in Hx. destruct (mem x R); [rewrite orb_true_r in Hx; discriminate|reflexivity].
  - rewrite Hm. reflexivity.
  - simpl. rewrite bytes_eqb_refl. reflexivity.
Qed.

Definition good_rec (f : nat) (rec : rec_t) : Prop :=
  forall st p, PC p -> (M (resolved st) < f)%nat -> exists st', rec st p = Ok st'.

Lemma each_target_ok f rec rest ts st :
  mono_rec rec -> good_rec f rec -> PC rest -> Forall PC ts -> (M (resolved st) < f)%nat ->
  exists st', each_target rec rest ts st = Ok st'.
Proof.
  intros Hmono Hrec Hrest Hts. revert st. induction Hts as [|t ts Ht _ IH]; intros st HM; simpl; [eauto|].
  destruct (Hrec st (norm_clamp (t ++ rest))) as (st1 & E1); auto.
  { apply norm_clamp_forall. apply Forall_app. split; auto. }
  rewrite E1. apply IH. pose proof (M_mono _ _ (proj1 (Hmono _ _ _ E1))). lia.
Qed.

(* a recursive call is made only after a candidate key was added *)
Lemma loop_ok f rec : mono_rec rec -> good_rec f rec -> forall p cur st,
  PC cur -> PC p -> (M (resolved st) <= f)%nat -> exists st', loop gmatch view rec cur p st = Ok st'.
Proof.
  intros Hmono Hrec. induction p as [|c rest IH]; intros cur st Hcur Hp HM; [simpl; eauto|].
  inversion Hp as [|? ? Hc Hrest]; subst. rewrite loop_cons. cbv zeta.
  pose proof (read_symlink_cand cur c Hc) as Hk. pose proof (read_symlink_PC cur c Hcur) as Hts.
  destruct (read_symlink gmatch view cur c) as [|t ts].
  - destruct rest; [eauto|]. apply IH; auto. apply Forall_app; split; auto.
  - destruct (mem _ (resolved st)) eqn:Em; [eauto|].
    apply (each_target_ok f); auto. cbn [add_expanded add_resolved resolved].
    pose proof (M_add _ _ (Hk ltac:(discriminate)) Em). lia.
Qed.

Lemma append_ok fuel : good_rec fuel (append gmatch view fuel).
Proof.
  induction fuel as [|f IH]; intros st p Hp HM; [lia|].
  cbn [append]. destruct p as [|c r]; [eauto|].
  apply (loop_ok f _ (append_mono gmatch view f) IH); auto; [constructor|cbn [add_call resolved]; lia].
Qed.

Lemma follow_state_terminates fuel : (fuel_bound view reqs <= fuel)%nat ->
  exists st, follow_state gmatch view fuel reqs = Ok st.
Proof.
  intros Hf. unfold follow_state. rewrite follow_reqs_each_target.
  apply (each_target_ok fuel); [apply append_mono|apply append_ok|constructor| |].
  - apply Forall_forall. intros t Ht. apply in_map_iff in Ht. destruct Ht as (r & <- & Hr).
    apply Forall_forall. intros c. apply pool_req. exact Hr.
  - unfold fuel_bound, M in *.
    pose proof (filter_len (fun k => negb (mem k (resolved st0))) (cand_keys view reqs)). lia.
Qed.

End Termination.

Section RootRequest.
Variable gmatch : bytes -> bytes -> bool.
Variable view : list node.

Lemma append_root fuel st st' :
  append gmatch view fuel st [] = Ok st' -> mem s_dot (resolved st') = true.
Proof.
  destruct fuel as [|f]; [discriminate|]. cbn [append]. intros H. inversion H; subst. cbn [add_call resolved].
  destruct (mem s_dot (resolved st)) eqn:E; [exact E|]. simpl. reflexivity.
Qed.

Lemma follow_reqs_root fuel rs st st' r :
  In r rs -> norm_clamp (comps r) = [] -> follow_reqs gmatch view fuel st rs = Ok st' ->
  mem s_dot (resolved st') = true.
Proof.
  revert st; induction rs as [|r0 rs IH]; intros st Hin Hr H; [destruct Hin|].
  simpl in H. destruct (append gmatch view fuel st (norm_clamp (comps r0))) as [st1|] eqn:E; [|discriminate].
  destruct Hin as [->|Hin].
  - rewrite Hr in E. apply append_root in E.
    destruct (follow_reqs_mono gmatch view fuel rs st1 st' H) as [S _]. apply S. exact E.
  - eapply IH; eauto.
Qed.
End RootRequest.

Lemma follow_terminates_proof :
  forall gmatch view reqs, follow_links gmatch view (fuel_bound view reqs) reqs <> OutOfFuel.
Proof.
  intros gmatch view reqs. unfold follow_links, follow_links_opt.
  destruct (follow_state_terminates gmatch view reqs _ (le_n _)) as [st ->].
  destruct (finish st); discriminate.
Qed.

Lemma result_sorted_minimal_proof :
  forall gmatch view fuel reqs,
    (forall l, follow_links gmatch view fuel reqs = Ok l -> sorted_b l = true /\ minimal_b l = true) /\
    (forall st, follow_state gmatch view fuel reqs = Ok st ->
       (In s_dot (resolved st) <-> follow_links_opt gmatch view fuel reqs = Ok None)) /\
    (forall r l, In r reqs -> norm_clamp (comps r) = [] ->
       follow_links gmatch view fuel reqs = Ok l -> l = []).
Proof.
  intros gmatch view fuel reqs. unfold follow_links, follow_links_opt. split; [|split].
  - intros l. destruct (follow_state gmatch view fuel reqs) as [st|] eqn:E; [|discriminate].
    destruct (finish st) as [o|] eqn:Ef; intros H; inversion H; subst; [|split; reflexivity].
    eapply finish_sorted_minimal; eauto. eapply follow_state_nodup; eauto.
  - intros st E. rewrite E. split.
    + intros Hd. apply finish_none_iff in Hd. rewrite Hd. reflexivity.
    + intros Hn. apply finish_none_iff. destruct (finish st); [discriminate|reflexivity].
  - intros r l Hin Hr. destruct (follow_state gmatch view fuel reqs) as [st|] eqn:E; [|discriminate].
    unfold follow_state in E. pose proof (follow_reqs_root gmatch view fuel reqs st0 st r Hin Hr E) as Hm.
    apply mem_In in Hm. apply finish_none_iff in Hm. rewrite Hm. intros H; inversion H; reflexivity.
Qed.

Lemma result_covers_resolved_proof :
  forall gmatch view fuel reqs st l,
    follow_state gmatch view fuel reqs = Ok st -> follow_links_opt gmatch view fuel reqs = Ok (Some l) ->
    (forall x, In x (resolved st) -> exists e, In e l /\ (e = x \/ inside e x = true)) /\
    (forall e, In e l -> In e (resolved st)).
Proof.
  intros gmatch view fuel reqs st l Hs H. unfold follow_links_opt in H. rewrite Hs in H.
  inversion H as [Hf]. split; [eapply finish_covers; eauto|eapply finish_subset; eauto].
Qed.

(* the glue's fuel is the proved bound *)
Lemma length_flat_map_const {A B} (f : A -> list B) (l : list A) k :
  (forall a, length (f a) = k) -> length (flat_map f l) = (length l * k)%nat.
Proof.
  intros H. induction l as [|a l IH]; [reflexivity|]. cbn [flat_map length]. rewrite app_length, H, IH. reflexivity.
Qed.

Lemma fuel_bound_fast_eq_proof view reqs : fuel_bound_fast view reqs = fuel_bound view reqs.
Proof.
  unfold fuel_bound_fast, fuel_bound, cand_keys. rewrite app_length, map_length.
  rewrite (length_flat_map_const _ _ (length (comp_pool view reqs))); [reflexivity|].
  intros d. apply map_length.
Qed.
