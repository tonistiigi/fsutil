(* Proofs about the sender acceptor (Model/SenderAcc.v): invariants that tie the acceptor
   state to the trace read so far, and the C06 statements derived from them. *)
From Coq Require Import List Arith NArith Bool Lia Sorted.
From FS Require Import Sx Model.Path Model.Stat Model.Tree Model.AccEvents Model.SenderAcc Proofs.Lex Proofs.AccEventsP.
Import ListNotations.
Open Scope N_scope.

(* destructs every match / if in the hypothesis (an equation "step = Some s'") *)
Ltac step_inv H :=
  repeat match type of H with
         | context [match ?x with _ => _ end] => destruct x eqn:?; try discriminate H
         end;
  try (injection H as H; subst).

Ltac bool_hyps :=
  repeat match goal with
         | X : (_ && _)%bool = true |- _ => apply andb_true_iff in X; destruct X
         | X : negb _ = true |- _ => apply negb_true_iff in X
         end.

(* the hard-link reset only rewrites Linkname *)
Lemma hl_entry_same : forall seen e seen' e',
  hl_entry seen e = (seen', e') -> set_linkname (fst e') [] = set_linkname (fst e) [] /\ snd e' = snd e.
Proof.
  intros seen [st c] seen' e' H. unfold hl_entry in H. simpl in H.
  destruct (mode_is_dir (st_mode st) || mode_is_symlink (st_mode st))%bool.
  - inversion H; subst. auto.
  - destruct (st_linkname st) eqn:El.
    + inversion H; subst. auto.
    + destruct (blookup (n :: l) seen).
      * destruct (bytes_eqb l0 (st_path st)); inversion H; subst; simpl; auto.
      * inversion H; subst; simpl; auto.
Qed.

Lemma hl_reset_from_same : forall l seen,
  Forall2 (fun e e' => set_linkname (fst e') [] = set_linkname (fst e) [] /\ snd e' = snd e) l (hl_reset_from seen l).
Proof.
  induction l as [|e l IH]; intros seen; simpl; [constructor|].
  destruct (hl_entry seen e) as [seen' e'] eqn:E. constructor; [eapply hl_entry_same; eauto|apply IH].
Qed.

Lemma set_linkname_nil_fields : forall a b, set_linkname a [] = set_linkname b [] ->
  st_path a = st_path b /\ st_mode a = st_mode b /\ st_uid a = st_uid b /\ st_gid a = st_gid b /\
  st_size a = st_size b /\ st_mtime a = st_mtime b /\ st_devmajor a = st_devmajor b /\
  st_devminor a = st_devminor b /\ st_xattrs a = st_xattrs b.
Proof. intros a b H. unfold set_linkname in H. inversion H. repeat split; assumption. Qed.

Lemma sender_entries_same : forall view served,
  Forall2 (fun e e' => set_linkname (fst e') [] = set_linkname (fst e) [] /\ snd e' = served (fst e', snd e))
          (walk_root view) (sender_entries view served).
Proof.
  intros view served. unfold sender_entries, hl_reset.
  generalize (hl_reset_from_same (walk_root view) []).
  generalize (hl_reset_from [] (walk_root view)). generalize (walk_root view).
  induction l as [|e l IH]; intros l' H; inversion H; subst; simpl; constructor.
  - destruct H2 as [H2 H2']. simpl. split; [assumption|]. rewrite <- H2'. destruct y; reflexivity.
  - apply IH. assumption.
Qed.

Section SenderP.
  Variable exp : list entry.
  Notation step := (sender_acc exp).

  (* on_req touches only the request table and the latches *)
  Lemma on_req_frame : forall s n,
    let s' := on_req exp s n in
    s_k s' = s_k s /\ s_endm s' = s_endm s /\ s_fin_in s' = s_fin_in s /\ s_fin_out s' = s_fin_out s /\
    s_prog s' = s_prog s /\ s_final s' = s_final s /\ s_ret s' = s_ret s /\
    (s_err s = true -> s_err s' = true).
  Proof.
    intros s n. unfold on_req.
    repeat match goal with |- context [match ?x with _ => _ end] => destruct x end; simpl; repeat split; auto.
  Qed.

  Definition stats_inv (tr : list event) (s : sstate) : Prop :=
    (s_endm s = false /\ (s_k s <= length exp)%nat /\
     stats_out tr = map (fun e => Some (fst e)) (firstn (s_k s) exp))
    \/ (s_endm s = true /\ s_k s = length exp /\ stats_out tr = full_stats exp).

  (* only the STAT packets sent move the counter and the end mark *)
  Lemma step_stats : forall s e s', step s e = Some s' ->
    match e with
    | Out (PStat (Some st)) => s_endm s = false /\ (exists en, nth_error exp (s_k s) = Some en /\ st = fst en) /\
                               s_k s' = S (s_k s) /\ s_endm s' = false
    | Out (PStat None) => s_endm s = false /\ s_k s = length exp /\ s_k s' = s_k s /\ s_endm s' = true
    | _ => s_k s' = s_k s /\ s_endm s' = s_endm s
    end.
  Proof.
    intros s e s' H. unfold sender_acc in H. step_inv H; simpl; auto.
    - repeat split; eauto using (fun a b => proj1 (stat_eqb_eq a b)).
    - repeat split; auto. apply Nat.eqb_eq. assumption.
    - destruct (on_req_frame s id) as [Hk [He _]]. auto.
  Qed.

  Lemma stats_inv_step : forall tr s e s',
    stats_inv tr s -> step s e = Some s' -> stats_inv (tr ++ [e]) s'.
  Proof.
    intros tr s e s' I H. apply step_stats in H. unfold stats_inv in *. rewrite stats_out_app.
    destruct e as [[[st|]|n|n d| |m]|p| | |n l|b];
      try (destruct H as [-> ->]; simpl; rewrite app_nil_r; exact I);
      (destruct I as [[_ [Hk Hs]]|[C _]]; [|destruct H; congruence]).
    - destruct H as [_ [[en [En ->]] [-> ->]]].
      left. split; [reflexivity|]. split; [apply nth_error_lt in En; lia|].
      rewrite Hs, (firstn_snoc_nth _ _ _ _ En), map_app. reflexivity.
    - destruct H as [_ [Ek [-> ->]]].
      right. split; [reflexivity|]. split; [assumption|]. rewrite Hs, Ek, firstn_all. reflexivity.
  Qed.

  Definition nonempty (d : bytes) : Prop := d <> [].

  Definition data_inv (tr : list event) (s : sstate) : Prop :=
    forall n,
      match nlookup n (s_req s) with
      | None => data_out n tr = []
      | Some (Sending rem) =>
        exists c, regular_at exp (N.to_nat n) = Some c /\ Forall nonempty (data_out n tr) /\
                  concat (data_out n tr) ++ rem = c
      | Some Done =>
        exists c cs, regular_at exp (N.to_nat n) = Some c /\ data_out n tr = cs ++ [[]] /\
                     Forall nonempty cs /\ concat cs = c
      end.

  (* a request is recorded when its id is new, names a regular file and is announced (n <= k: it
     may race its own STAT); any other request is fatal *)
  Lemma on_req_spec : forall s n,
    match nlookup n (s_req s), regular_at exp (N.to_nat n) with
    | None, Some c =>
      if N.leb n (N.of_nat (s_k s))
      then on_req exp s n = set_req s ((n, Sending c) :: s_req s) \/
           on_req exp s n = set_soft (set_req s ((n, Sending c) :: s_req s))
      else on_req exp s n = set_fail s
    | _, _ => on_req exp s n = set_fail s
    end.
  Proof.
    intros s n. unfold on_req. destruct (nlookup n (s_req s)); [reflexivity|].
    destruct (N.ltb_spec n (N.of_nat (s_k s))) as [Hlt|Hge].
    - destruct (regular_at exp (N.to_nat n)); [|reflexivity]. rewrite (proj2 (N.leb_le _ _)) by lia. auto.
    - destruct (N.eqb_spec n (N.of_nat (s_k s))) as [->|Hne].
      + rewrite Nat2N.id, N.leb_refl. destruct (regular_at exp (s_k s)); auto.
      + rewrite (proj2 (N.leb_gt _ _)) by lia. destruct (regular_at exp (N.to_nat n)); reflexivity.
  Qed.

  Lemma on_req_table : forall s n,
    s_req (on_req exp s n) = s_req s \/
    (nlookup n (s_req s) = None /\ exists c, regular_at exp (N.to_nat n) = Some c /\
     s_req (on_req exp s n) = (n, Sending c) :: s_req s).
  Proof.
    intros s n. pose proof (on_req_spec s n) as H.
    destruct (nlookup n (s_req s)); [rewrite H; auto|].
    destruct (regular_at exp (N.to_nat n)) as [c|]; [|rewrite H; auto].
    destruct (N.leb n (N.of_nat (s_k s))); [|rewrite H; auto].
    right. split; [reflexivity|]. exists c. destruct H as [-> | ->]; auto.
  Qed.

  Lemma data_out_snoc : forall n tr e,
    data_out n (tr ++ [e]) = data_out n tr ++ match e with Out (PData m d) => if N.eqb m n then [d] else [] | _ => [] end.
  Proof. intros. rewrite data_out_app. unfold data_out at 2. simpl. rewrite app_nil_r. reflexivity. Qed.

  (* only DATA sent and REQ received touch the request table *)
  Lemma step_req : forall s e s', step s e = Some s' ->
    match e with
    | Out (PData n d) => exists rem, nlookup n (s_req s) = Some (Sending rem) /\
         match d with
         | [] => rem = [] /\ s_req s' = nupdate n Done (s_req s)
         | _ => exists rem', rem = d ++ rem' /\ s_req s' = nupdate n (Sending rem') (s_req s)
         end
    | Inp (PReq n) => s' = on_req exp s n
    | _ => s_req s' = s_req s
    end.
  Proof.
    intros s e s' H. unfold sender_acc in H. step_inv H; simpl; auto; eexists; (split; [reflexivity|]).
    - split; [apply is_nil_true; assumption|reflexivity].
    - match goal with E : strip_prefix _ _ = _ |- _ => apply strip_prefix_some in E end. eauto.
  Qed.

  Lemma data_inv_step : forall tr s e s',
    data_inv tr s -> step s e = Some s' -> data_inv (tr ++ [e]) s'.
  Proof.
    intros tr s e s' I H n. apply step_req in H. rewrite data_out_snoc.
    destruct e as [[o|m|m d| |msg]|[o|m|m d| |msg]| | |k l|b]; try (rewrite H, app_nil_r; apply I).
    - (* DATA m d sent *)
      destruct H as [rem [El H]]. destruct (N.eqb_spec m n) as [->|Hn].
      + assert (Hid := I n). rewrite El in Hid. destruct Hid as [c [Hc [Hne Hcat]]].
        destruct d as [|b d]; [destruct H as [-> ->]|destruct H as [rem' [-> ->]]];
          rewrite nlookup_nupdate_same by congruence.
        * exists c, (data_out n tr). rewrite app_nil_r in Hcat. auto.
        * exists c. split; [assumption|]. split.
          -- apply Forall_app. split; [assumption|]. constructor; [discriminate|constructor].
          -- rewrite concat_app. simpl. rewrite app_nil_r, <- app_assoc. exact Hcat.
      + assert (Hup : exists x, s_req s' = nupdate m x (s_req s))
          by (destruct d; [destruct H as [_ ->]|destruct H as [? [_ ->]]]; eauto).
        destruct Hup as [x ->]. rewrite nlookup_nupdate_other, app_nil_r by congruence. apply I.
    - (* REQ m received *)
      subst s'. rewrite app_nil_r. destruct (on_req_table s m) as [->|[Hnone [c [Hc ->]]]]; [apply I|].
      simpl. destruct (N.eqb_spec n m) as [->|_]; [|apply I].
      assert (Hid := I m). rewrite Hnone in Hid. exists c. rewrite Hid. simpl. auto.
  Qed.

  Lemma on_req_bad : forall s n,
    nlookup n (s_req s) <> None \/ N.of_nat (s_k s) < n \/ regular_at exp (N.to_nat n) = None ->
    on_req exp s n = set_fail s.
  Proof.
    intros s n H. pose proof (on_req_spec s n) as S.
    destruct (nlookup n (s_req s)); [assumption|]. destruct (regular_at exp (N.to_nat n)); [|assumption].
    destruct (N.leb_spec n (N.of_nat (s_k s))); [|assumption]. destruct H as [H|[H|H]]; [congruence|lia|discriminate].
  Qed.

  Lemma step_mono : forall s e s', step s e = Some s' ->
    (s_err s = true -> s_err s' = true) /\
    (s_rdclosed s = true -> s_rdclosed s' = true /\ is_in e = false) /\
    (s_fin_out s = true -> s_fin_out s' = true /\ e <> Out PFin) /\
    (s_fin_in s = true -> s_fin_in s' = true) /\
    (forall n, nlookup n (s_req s) <> None -> nlookup n (s_req s') <> None).
  Proof.
    intros s e s' H. unfold sender_acc in H. step_inv H; simpl; bool_hyps;
      try (solve [repeat split; auto; try discriminate; try congruence;
                  intros; try (apply nlookup_nupdate_keys; assumption)]).
    (* Inp (PReq id) *)
    destruct (on_req_frame s id) as [_ [_ [Hfi [Hfo [_ [_ [_ Herr]]]]]]].
    repeat split; auto; try congruence; try discriminate.
    intros n Hn. destruct (on_req_table s id) as [Hs|[_ [c [_ Hs]]]]; rewrite Hs; [assumption|].
    simpl. destruct (N.eqb n id); [discriminate|assumption].
  Qed.

  (* requested ids come from REQ events, and every REQ event is either recorded or fatal *)
  Definition req_inv (tr : list event) (s : sstate) : Prop :=
    (forall n, nlookup n (s_req s) <> None -> List.In (Inp (PReq n)) tr) /\
    (forall n, List.In (Inp (PReq n)) tr -> nlookup n (s_req s) <> None \/ (s_err s = true /\ s_rdclosed s = true)) /\
    (s_fin_in s = true <-> List.In (Inp PFin) tr) /\
    (s_fin_out s = true <-> List.In (Out PFin) tr).

  Lemma step_req_keys : forall s e s' n, step s e = Some s' ->
    nlookup n (s_req s') <> None -> nlookup n (s_req s) <> None \/ e = Inp (PReq n).
  Proof.
    intros s e s' n H. unfold sender_acc in H. step_inv H; simpl; auto;
      try (intros Hn; left; apply nlookup_nupdate_keys in Hn; assumption).
    destruct (on_req_table s id) as [Hs|[_ [c [_ Hs]]]]; rewrite Hs; [auto|].
    simpl. destruct (N.eqb n id) eqn:E; [|auto]. apply N.eqb_eq in E. subst. auto.
  Qed.

  Lemma step_fin_flags : forall s e s', step s e = Some s' ->
    (s_fin_in s' = true <-> s_fin_in s = true \/ e = Inp PFin) /\
    (s_fin_out s' = true <-> s_fin_out s = true \/ e = Out PFin).
  Proof.
    intros s e s' H. unfold sender_acc in H. step_inv H; simpl;
      try (split; split; intros; auto; repeat match goal with X : _ \/ _ |- _ => destruct X end;
           try assumption; try discriminate; try congruence; fail).
    destruct (on_req_frame s id) as [_ [_ [Hfi [Hfo _]]]]. rewrite Hfi, Hfo.
    split; split; intros; auto; repeat match goal with X : _ \/ _ |- _ => destruct X end;
      try assumption; try discriminate.
  Qed.

  Lemma step_in_req : forall s n s', step s (Inp (PReq n)) = Some s' ->
    s_rdclosed s = false /\ s' = on_req exp s n.
  Proof.
    intros s n s' H. unfold sender_acc in H. destruct (s_ret s); [discriminate|].
    destruct (s_final s); [discriminate|]. destruct (s_rdclosed s); [discriminate|].
    injection H as H. auto.
  Qed.

  Lemma req_inv_step : forall tr s e s',
    req_inv tr s -> step s e = Some s' -> req_inv (tr ++ [e]) s'.
  Proof.
    intros tr s e s' [I1 [I2 [I3 I4]]] H.
    destruct (step_mono _ _ _ H) as [Merr [Mrd [_ [_ Mreq]]]].
    destruct (step_fin_flags _ _ _ H) as [Ffi Ffo].
    split; [|split; [|split]]; try intros n; rewrite in_snoc.
    - intros Hn. destruct (step_req_keys _ _ _ n H Hn); auto.
    - intros [Hin| ->].
      + destruct (I2 n Hin) as [Hk|[He Hr]]; [auto|right]. split; [auto|apply Mrd; assumption].
      + apply step_in_req in H. destruct H as [_ ->]. pose proof (on_req_spec s n) as S.
        destruct (nlookup n (s_req s)); [rewrite S; simpl; auto|].
        destruct (regular_at exp (N.to_nat n)); [|rewrite S; simpl; auto].
        destruct (N.leb n (N.of_nat (s_k s))); [|rewrite S; simpl; auto].
        left. destruct S as [-> | ->]; simpl; rewrite N.eqb_refl; discriminate.
    - rewrite Ffi, I3. reflexivity.
    - rewrite Ffo, I4. reflexivity.
  Qed.

  (* what a successful return certifies about the final state *)
  Definition ret_inv (s : sstate) : Prop :=
    (s_ret s = Some true ->
     s_err s = false /\ s_fin_in s = true /\ s_fin_out s = true /\ s_endm s = true /\ all_done (s_req s) = true) /\
    (s_ret s = Some false -> s_err s = true \/ s_soft s = true).

  Lemma ret_inv_step : forall s e s', step s e = Some s' -> ret_inv s -> ret_inv s'.
  Proof.
    intros s e s' H _. unfold sender_acc in H. unfold ret_inv.
    step_inv H; simpl; try (solve [split; intros; congruence]).
    - (* Return true *)
      split; [intros _|intros; discriminate]. bool_hyps. repeat split; auto.
    - split; [intros; discriminate|intros _]. apply orb_true_iff. assumption.
    - destruct (on_req_frame s id) as [_ [_ [_ [_ [_ [_ [Hr _]]]]]]]. rewrite Hr. split; intros; congruence.
  Qed.

  Lemma all_done_lookup : forall r n st, all_done r = true -> nlookup n r = Some st -> st = Done.
  Proof.
    induction r as [|[k v] r IH]; simpl; intros n st H Hl; [discriminate|].
    destruct v; [discriminate|]. destruct (N.eqb n k); [congruence|eauto].
  Qed.

  Lemma ssorted_snoc : forall (l : list N) x,
    StronglySorted N.le l -> Forall (fun y => y <= x) l -> StronglySorted N.le (l ++ [x]).
  Proof.
    induction l as [|a l IH]; intros x Hs Hf; simpl.
    - constructor; constructor.
    - inversion Hs; subst. inversion Hf; subst. constructor; [apply IH; assumption|].
      apply Forall_app. split; [assumption|]. constructor; [assumption|constructor].
  Qed.

  Definition prog_inv (tr : list event) (s : sstate) : Prop :=
    StronglySorted N.le (map fst (progress_of tr)) /\
    Forall (fun v => v <= s_prog s) (map fst (progress_of tr)) /\
    (s_final s = false -> s_ret s = None /\ Forall (fun p => snd p = false) (progress_of tr)) /\
    (s_final s = true ->
     exists tr0 n, Forall (fun p => snd p = false) (progress_of tr0) /\
       ((s_ret s = None /\ tr = tr0 ++ [Progress n true]) \/
        (exists b, s_ret s = Some b /\ tr = tr0 ++ [Progress n true; Return b]))).

  Lemma step_prog_frame : forall s e s', step s e = Some s' ->
    match e with
    | Progress n l => s_final s = false /\ s_prog s <= n /\ s_prog s' = n /\ s_final s' = l /\ s_ret s' = s_ret s /\ s_ret s = None
    | Return b => s_final s = true /\ s_ret s = None /\ s_ret s' = Some b /\ s_final s' = true /\ s_prog s' = s_prog s
    | _ => s_final s = false /\ s_prog s' = s_prog s /\ s_final s' = s_final s /\ s_ret s' = s_ret s /\ s_ret s = None
    end.
  Proof.
    intros s e s' H. unfold sender_acc in H. step_inv H; simpl; try (solve [repeat split; auto]);
      try (solve [repeat split; auto; apply N.leb_le; assumption]).
    destruct (on_req_frame s id) as [_ [_ [_ [_ [Hp [Hf [Hr _]]]]]]]. rewrite Hp, Hf, Hr. repeat split; auto.
  Qed.

  Lemma prog_inv_step : forall tr s e s',
    prog_inv tr s -> step s e = Some s' -> prog_inv (tr ++ [e]) s'.
  Proof.
    intros tr s e s' [I1 [I2 [I3 I4]]] H. apply step_prog_frame in H. unfold prog_inv. rewrite progress_of_app.
    destruct e as [p|p| | |n l|b];
      try (simpl progress_of; rewrite app_nil_r; destruct H as [Hf [Hp [Hf' [Hr Hn]]]];
           rewrite Hp, Hf', Hr; split; [assumption|]; split; [assumption|]; split; [exact I3|intros C; congruence]).
    - (* Progress *)
      destruct H as [Hf [Hle [Hp [Hf' [Hr Hn]]]]]. change (progress_of [Progress n l]) with [(n, l)].
      rewrite map_app. simpl map. rewrite Hp, Hf', Hr.
      assert (Hall : Forall (fun y => y <= n) (map fst (progress_of tr))).
      { eapply Forall_impl; [|exact I2]. simpl. intros. lia. }
      destruct (I3 Hf) as [_ Hnf].
      split; [|split; [|split]].
      + apply ssorted_snoc; assumption.
      + apply Forall_app. split; [assumption|]. constructor; [lia|constructor].
      + intros ->. split; [assumption|].
        apply Forall_app. split; [assumption|]. constructor; [reflexivity|constructor].
      + intros ->. exists tr, n. split; [assumption|]. left. auto.
    - (* Return *)
      destruct H as [Hf [Hn [Hr [Hf' Hp]]]]. simpl progress_of. rewrite app_nil_r. rewrite Hp, Hf', Hr.
      split; [assumption|]. split; [assumption|]. split; [intros C; congruence|].
      intros _. destruct (I4 Hf) as [tr0 [n [H0 [[_ Ht]|[b' [C _]]]]]]; [|congruence].
      exists tr0, n. split; [assumption|]. right. exists b. split; [reflexivity|].
      rewrite Ht, <- app_assoc. reflexivity.
  Qed.

  Lemma inv_run : forall tr s, sender_run exp tr = Some s ->
    stats_inv tr s /\ data_inv tr s /\ req_inv tr s /\ ret_inv s /\ prog_inv tr s.
  Proof.
    intros tr s H. unfold sender_run in H.
    apply (run_invariant step (fun tr s => stats_inv tr s /\ data_inv tr s /\ req_inv tr s /\ ret_inv s /\ prog_inv tr s) sinit);
      [| |exact H].
    - split; [left; simpl; split; [reflexivity|]; split; [lia|reflexivity]|].
      split; [intros n; reflexivity|].
      split; [unfold req_inv; simpl; repeat split; intros; try contradiction; try discriminate; congruence|].
      split; [split; simpl; intros; discriminate|].
      unfold prog_inv. simpl. repeat split; auto; try constructor. intros; discriminate.
    - intros tr0 s0 e s1 (I1 & I2 & I3 & I4 & I5) Hs.
      eauto 10 using stats_inv_step, data_inv_step, req_inv_step, ret_inv_step, prog_inv_step.
  Qed.

  (* number of STATs sent = the counter *)
  Definition nstats (tr : list event) : nat := length (some_stats (stats_out tr)).

  Lemma some_stats_map_some : forall (l : list entry), some_stats (map (fun e => Some (fst e)) l) = map fst l.
  Proof. induction l; simpl; [reflexivity|]. f_equal. assumption. Qed.

  Lemma nstats_k : forall tr s, sender_run exp tr = Some s -> nstats tr = s_k s.
  Proof.
    intros tr s H. unfold nstats.
    destruct (inv_run _ _ H) as [[[_ [Hk Hs]]|[_ [Hk Hs]]] _]; rewrite Hs.
    - rewrite some_stats_map_some, map_length, firstn_length. lia.
    - unfold full_stats. rewrite some_stats_app, some_stats_map_some. simpl. rewrite app_nil_r, map_length. auto.
  Qed.

  Lemma firstn_full_prefix : forall k, (k <= length exp)%nat ->
    map (fun e => Some (fst e)) (firstn k exp) = firstn k (full_stats exp).
  Proof.
    intros k Hk. unfold full_stats. rewrite firstn_app, map_length. unfold entry in *.
    match goal with |- context [firstn ?x [None]] => replace x with 0%nat by lia end.
    rewrite firstn_O, app_nil_r, firstn_map. reflexivity.
  Qed.

  Lemma stat_sequence_proof : forall tr s, sender_run exp tr = Some s ->
    (exists m, stats_out tr = firstn m (full_stats exp)) /\
    (s_ret s = Some true -> stats_out tr = full_stats exp).
  Proof.
    intros tr s H. destruct (inv_run _ _ H) as (S & _ & _ & [Rok _] & _).
    destruct S as [[He [Hk Hs]]|[He [Hk Hs]]].
    - split.
      + exists (s_k s). rewrite Hs. apply firstn_full_prefix. assumption.
      + intros Hr. destruct (Rok Hr) as [_ [_ [_ [C _]]]]. congruence.
    - split; [|intros _; assumption]. exists (length (full_stats exp)). rewrite firstn_all. assumption.
  Qed.

  Lemma on_req_good : forall s n c,
    nlookup n (s_req s) = None -> regular_at exp (N.to_nat n) = Some c -> n <= N.of_nat (s_k s) ->
    s_req (on_req exp s n) = (n, Sending c) :: s_req s.
  Proof.
    intros s n c Hl Hr Hle. pose proof (on_req_spec s n) as S.
    rewrite Hl, Hr, (proj2 (N.leb_le _ _) Hle) in S. destruct S as [-> | ->]; reflexivity.
  Qed.

  Lemma data_per_request_proof : forall tr s pre n post c,
    sender_run exp tr = Some s -> tr = pre ++ Inp (PReq n) :: post ->
    regular_at exp (N.to_nat n) = Some c -> n <= N.of_nat (nstats pre) -> ~ List.In (Inp (PReq n)) pre ->
    data_out n pre = [] /\
    exists cs, Forall nonempty cs /\
      ((data_out n post = cs /\ exists rem, concat cs ++ rem = c) \/
       (data_out n post = cs ++ [[]] /\ concat cs = c)) /\
      (s_ret s = Some true -> data_out n post = cs ++ [[]] /\ concat cs = c).
  Proof.
    intros tr s pre n post c H Htr Hreg Hle Hfresh. subst tr.
    destruct (inv_run _ _ H) as (_ & Dfull & _ & [Rok _] & _).
    unfold sender_run in H. apply run_split in H. destruct H as [s1 [s2 [H1 [H2 H3]]]].
    destruct (inv_run _ _ H1) as (_ & D1 & [Q1 _] & _).
    pose proof (nstats_k _ _ H1) as Hk. rewrite Hk in Hle.
    assert (Hnone : nlookup n (s_req s1) = None).
    { destruct (nlookup n (s_req s1)) eqn:E; [|reflexivity]. exfalso. apply Hfresh. apply Q1. congruence. }
    assert (Hpre : data_out n pre = []). { specialize (D1 n). rewrite Hnone in D1. exact D1. }
    split; [assumption|].
    apply step_in_req in H2. destruct H2 as [_ H2]. subst s2.
    assert (Hin2 : nlookup n (s_req (on_req exp s1 n)) <> None).
    { rewrite (on_req_good _ _ _ Hnone Hreg Hle). simpl. rewrite N.eqb_refl. discriminate. }
    assert (Hend : nlookup n (s_req s) <> None).
    { eapply (run_preserves step (fun st => nlookup n (s_req st) <> None)); [|exact H3|exact Hin2].
      intros st e st' Hst. apply (step_mono _ _ _ Hst). }
    specialize (Dfull n). rewrite data_out_app, Hpre in Dfull. simpl in Dfull.
    destruct (nlookup n (s_req s)) as [[rem|]|] eqn:El; [| |congruence].
    - destruct Dfull as [c0 [Hc0 [Hne Hcat]]]. rewrite Hreg in Hc0. injection Hc0 as <-.
      exists (data_out n post). split; [assumption|]. split.
      + left. split; [reflexivity|]. exists rem. assumption.
      + intros Hr. destruct (Rok Hr) as [_ [_ [_ [_ Hd]]]].
        pose proof (all_done_lookup _ _ _ Hd El). discriminate.
    - destruct Dfull as [c0 [cs [Hc0 [Hd [Hne Hcat]]]]]. rewrite Hreg in Hc0. injection Hc0 as <-.
      exists cs. split; [assumption|]. split; [right; auto|auto].
  Qed.

  Lemma bad_ids_fail_proof : forall tr s pre n post,
    sender_run exp tr = Some s -> tr = pre ++ Inp (PReq n) :: post ->
    (List.In (Inp (PReq n)) pre \/ N.of_nat (nstats pre) < n \/ regular_at exp (N.to_nat n) = None) ->
    s_err s = true /\ s_ret s <> Some true /\ Forall (fun e => is_in e = false) post.
  Proof.
    intros tr s pre n post H Htr Hbad. subst tr.
    destruct (inv_run _ _ H) as (_ & _ & _ & [Rok _] & _).
    unfold sender_run in H. apply run_split in H. destruct H as [s1 [s2 [H1 [H2 H3]]]].
    destruct (inv_run _ _ H1) as (_ & _ & [_ [Q2 _]] & _). pose proof (nstats_k _ _ H1) as Hk. rewrite Hk in Hbad.
    apply step_in_req in H2. destruct H2 as [Hrd H2].
    assert (Hfail : s2 = set_fail s1).
    { subst s2. apply on_req_bad. destruct Hbad as [Hb|[Hb|Hb]]; auto.
      destruct (Q2 n Hb) as [Hq|[_ Hq]]; [auto|congruence]. }
    assert (P2 : s_err s2 = true /\ s_rdclosed s2 = true) by (rewrite Hfail; simpl; auto).
    destruct (run_forall step (fun st => s_err st = true /\ s_rdclosed st = true) (fun e => is_in e = false)) with (tr := post) (s := s2) (s' := s)
      as [Hall [He _]]; [|exact H3|exact P2|].
    - intros st e st' Hst [Pe Pr]. destruct (step_mono _ _ _ Hst) as [Me [Mr _]].
      destruct (Mr Pr) as [Mr1 Mr2]. auto.
    - split; [assumption|]. split; [|assumption]. intros Hr. destruct (Rok Hr) as [C _]. congruence.
  Qed.

  Lemma fin_echo_proof : forall tr s, sender_run exp tr = Some s -> s_ret s = Some true ->
    List.In (Inp PFin) tr /\ List.In (Out PFin) tr /\
    (forall n, List.In (Inp (PReq n)) tr ->
       exists c cs, regular_at exp (N.to_nat n) = Some c /\ data_out n tr = cs ++ [[]] /\
                    Forall nonempty cs /\ concat cs = c).
  Proof.
    intros tr s H Hr. destruct (inv_run _ _ H) as (_ & D & [_ [Q2 [Q3 Q4]]] & [Rok _] & _).
    destruct (Rok Hr) as [He [Hfi [Hfo [_ Hd]]]].
    split; [apply Q3; assumption|]. split; [apply Q4; assumption|].
    intros n Hin. destruct (Q2 n Hin) as [Hq|[C _]]; [|congruence].
    specialize (D n). destruct (nlookup n (s_req s)) as [st|] eqn:El; [|congruence].
    pose proof (all_done_lookup _ _ _ Hd El). subst st. exact D.
  Qed.

  Lemma fin_order_proof : forall tr s pre post,
    sender_run exp tr = Some s -> tr = pre ++ Out PFin :: post ->
    List.In (Inp PFin) pre /\ ~ List.In (Out PFin) pre /\ ~ List.In (Out PFin) post.
  Proof.
    intros tr s pre post H Htr. subst tr.
    unfold sender_run in H. apply run_split in H. destruct H as [s1 [s2 [H1 [H2 H3]]]].
    destruct (inv_run _ _ H1) as (_ & _ & [_ [_ [Q3 Q4]]] & _).
    unfold sender_acc in H2. destruct (s_ret s1); [discriminate|]. destruct (s_final s1); [discriminate|].
    destruct (s_fin_in s1 && negb (s_fin_out s1))%bool eqn:E; [|discriminate].
    apply andb_true_iff in E. destruct E as [E1 E2]. apply negb_true_iff in E2. injection H2 as H2. subst s2.
    split; [apply Q3; assumption|]. split; [intros C; apply Q4 in C; congruence|].
    destruct (run_forall step (fun st => s_fin_out st = true) (fun e => e <> Out PFin)) with (tr := post) (s := set_fin_out s1) (s' := s)
      as [Hall _]; [|exact H3|reflexivity|].
    - intros st e st' Hst P. destruct (step_mono _ _ _ Hst) as [_ [_ [Mf _]]]. destruct (Mf P). auto.
    - intros C. rewrite Forall_forall in Hall. apply (Hall _ C). reflexivity.
  Qed.

  Lemma progress_proof : forall tr s b, sender_run exp tr = Some s -> s_ret s = Some b ->
    StronglySorted N.le (map fst (progress_of tr)) /\
    exists tr0 n, tr = tr0 ++ [Progress n true; Return b] /\ Forall (fun p => snd p = false) (progress_of tr0).
  Proof.
    intros tr s b H Hr. destruct (inv_run _ _ H) as (_ & _ & _ & _ & I1 & _ & I3 & I4).
    split; [assumption|].
    destruct (s_final s) eqn:Ef.
    - destruct (I4 eq_refl) as [tr0 [n [H0 [[C _]|[b' [Hb Ht]]]]]]; [congruence|].
      exists tr0, n. rewrite Hr in Hb. injection Hb as <-. auto.
    - destruct (I3 eq_refl) as [C _]. congruence.
  Qed.

  Lemma return_false_latched : forall tr s, sender_run exp tr = Some s -> s_ret s = Some false ->
    s_err s = true \/ s_soft s = true.
  Proof. intros tr s H Hr. destruct (inv_run _ _ H) as (_ & _ & _ & [_ R] & _). auto. Qed.
End SenderP.
