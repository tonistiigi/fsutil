(* Both SkipDir shortcuts of filterFS.Walk are unobservable: the walk with the shortcuts
   makes exactly the calls the walk without them makes.  Uses, about the external matcher,
   only [prefix_semantics] (literal reading of the patterns filter.go calls prefix-only). *)
From Coq Require Import List NArith Bool.
From FS Require Import Sx Model.Path Model.Stat Model.Tree Model.Pattern Model.FilterWalk
  Proofs.Lex Proofs.PathP Proofs.PatternP Proofs.FilterP.
Import ListNotations.
Open Scope bool_scope.

Lemma existsb_false_forall {A} (f : A -> bool) l : existsb f l = false -> forall x, In x l -> f x = false.
Proof.
  intros H x Hin. destruct (f x) eqn:E; auto.
  assert (existsb f l = true) by (apply existsb_exists; eauto). congruence.
Qed.

Lemma below_nonempty d x : d <> [] -> below d x -> x <> [].
Proof.
  unfold below. intros Hd H ->. simpl in H. destruct d as [|a d]; [congruence|].
  simpl in H. apply andb_true_iff in H. destruct H as [_ H]. destruct d; discriminate.
Qed.

Lemma pair_fst {A B} (x : A * B) a : fst x = a -> x = (a, snd x).
Proof. intros <-. apply surjective_pairing. Qed.

(* What the shortcuts need of the matcher, for the patterns their flags rely on: a pattern
   whose literal part does not reach into d cannot start matching below d. *)
Section PruneOf.
Variable pmatch : bytes -> bytes -> bool.
Variable mapfn : bytes -> stat -> mres * stat.
Variable c : cfg.

Notation c' := (no_prune c).

(* the two matchers, named by the verdict at which their shortcut fires:
   includes at false, excludes at true *)
Definition side_pats (b : bool) : option (list pat) := if b then c_exc c else c_inc c.

Definition starts_above (P : pat) : Prop := forall d x name, below d x -> nosep name ->
  has_prefix (d ++ [sep]) (without_trailing_glob (p_str P) ++ [sep]) = false ->
  pmatch (p_str P) (x ++ sep :: name) = true -> pmatch (p_str P) x = true.

Hypothesis Hkey : forall b pats P, side_pats b = Some pats -> In P pats -> p_excl P = b ->
  prefix_only (p_str P) = true -> starts_above P.

Lemma pruned_np pd p isd : pruned pmatch c' pd p isd = false.
Proof. apply pruned_off. reflexivity. Qed.

Lemma core_np_eq pd p st isd : pruned pmatch c pd p isd = false ->
  cb_core pmatch mapfn c' pd p st isd = cb_core pmatch mapfn c pd p st isd.
Proof.
  intros Hp. destruct (is_skip pmatch c pd p) eqn:Hs.
  - rewrite (core_skip pmatch mapfn c) by auto. rewrite (core_skip pmatch mapfn c') by (auto using pruned_np). reflexivity.
  - rewrite (core_map pmatch mapfn c) by auto. rewrite (core_map pmatch mapfn c') by (auto using pruned_np). reflexivity.
Qed.

Definition side_info (b : bool) (v : vdir) : list bool := if b then vd_exc v else vd_inc v.
Definition side_eval (b : bool) (p : bytes) (pd : list vdir) : bool * list bool :=
  if b then eval_exc pmatch c' p pd else eval_inc pmatch c' p pd.

Lemma side_eval_eq b pats p A : side_pats b = Some pats ->
  side_eval b p A = incr_eval pmatch pats p (if b then top_exc A else top_inc A).
Proof. destruct b; cbn; unfold eval_exc, eval_inc; cbn; intros ->; reflexivity. Qed.

Lemma side_skip b p pd : fst (side_eval b p pd) = b -> is_skip pmatch c' pd p = true.
Proof. unfold is_skip. destruct b; cbn; intros ->; [apply orb_true_r|reflexivity]. Qed.

Lemma side_info_new_dir b pd p st : side_info b (new_dir pmatch c' pd p st) = snd (side_eval b p pd).
Proof. destruct b; reflexivity. Qed.

Lemma side_use_match b pats : side_pats b = Some pats -> use_match c' = true.
Proof. unfold use_match. destruct b; cbn; intros ->; [apply orb_true_r|reflexivity]. Qed.

(* no pattern that could turn the verdict b starts matching below d *)
Definition frozen (b : bool) (pats : list pat) (d : bytes) : Prop :=
  forall P, In P pats -> p_excl P = b -> forall x name, below d x -> nosep name ->
    pmatch (p_str P) (x ++ sep :: name) = true -> pmatch (p_str P) x = true.

Lemma frozen_of b pats d : side_pats b = Some pats ->
  (if b then only_prefix_exclude_exceptions pats else only_prefix_includes pats) = true ->
  (b = true /\ exclusions pats = false) \/ reaches_into b pats d = false ->
  frozen b pats d.
Proof.
  intros Hc Hop Hr P HP He x name Hb Hn.
  assert (Hpo : prefix_only (p_str P) = true).
  { destruct b; unfold only_prefix_exclude_exceptions, only_prefix_includes in Hop;
      rewrite forallb_forall in Hop; specialize (Hop P HP); rewrite He in Hop; exact Hop. }
  apply (Hkey b pats P Hc HP He Hpo d x name Hb Hn).
  destruct Hr as [[-> Hnx]|Hr].
  - pose proof (existsb_false_forall _ _ Hnx P HP). congruence.
  - pose proof (existsb_false_forall _ _ Hr P HP) as X. cbv beta in X. rewrite He, eqb_reflx in X. exact X.
Qed.

(* a directory below which nothing can be selected: x is d or below it, the verdict
   at x is the one at which the shortcut fired at d, v carries x's match info *)
Definition dead (d x : bytes) (v : vdir) : Prop :=
  d <> [] /\ below d x /\
  exists b pats px, side_pats b = Some pats /\ incr_eval pmatch pats x px = (b, side_info b v) /\
                    frozen b pats d.

Lemma dead_step d x v A name st :
  dead d x v -> nosep name ->
  let p := x ++ sep :: name in
  is_skip pmatch c' (v :: A) p = true /\ dead d p (new_dir pmatch c' (v :: A) p st).
Proof.
  intros (Hd & Hb & b & pats & px & Hc & Hx & Hfr) Hn p.
  assert (He : side_eval b p (v :: A) = incr_eval pmatch pats p (side_info b v)) by exact (side_eval_eq b pats p (v :: A) Hc).
  assert (Hst : fst (incr_eval pmatch pats p (side_info b v)) = b).
  { replace (side_info b v) with (snd (incr_eval pmatch pats x px)) by (rewrite Hx; reflexivity).
    apply incr_stable; [|rewrite Hx; reflexivity].
    intros P HP Hex Hm. exact (Hfr P HP Hex x name Hb Hn Hm). }
  split; [apply (side_skip b); rewrite He; exact Hst|].
  split; auto. split; [apply below_child; auto|].
  exists b, pats, (side_info b v). split; [exact Hc|]. split; [|exact Hfr].
  rewrite side_info_new_dir, He. exact (pair_fst _ _ Hst).
Qed.

Lemma dead_use_match d x v : dead d x v -> use_match c' = true.
Proof. intros (_ & _ & b & pats & _ & Hc & _). exact (side_use_match b pats Hc). Qed.

Definition dead_ok (n : node) : Prop := forall d x v A, dead d x v ->
  sw_node pmatch mapfn c' (v :: A) x n = (v :: A, [], false).

Lemma dead_forest l : Forall dead_ok l -> forall d x v A, dead d x v ->
  sw_forest pmatch mapfn c' (v :: A) x l = (v :: A, []).
Proof.
  induction 1 as [|k r Hk _ IH]; intros d x v A Hd; cbn [sw_forest]; [reflexivity|].
  rewrite (Hk d x v A Hd), (IH d x v A Hd). reflexivity.
Qed.

Lemma dead_node : forall n, wf_node n = true -> dead_ok n.
Proof.
  apply wf_node_ind. intros name st ct kids Hne Hns _ IHk d x v A Hdead.
  rewrite sw_node_eq. cbv zeta.
  assert (Hx : x <> []) by (destruct Hdead as (Hd & Hb & _); eapply below_nonempty; eauto).
  rewrite (child_path_cons x name Hx).
  set (p := x ++ sep :: name). set (st' := set_path st p).
  destruct (dead_step d x v A name st' Hdead Hns) as [Hskip Hnd]. fold p in Hskip, Hnd.
  rewrite (core_skip pmatch mapfn c') by (auto using pruned_np). cbn [r_skip r_stack r_em r_push].
  destruct (st_is_dir st) eqn:Eisd; [|reflexivity].
  unfold pushed. cbn [r_push r_stack]. unfold push_of. rewrite (dead_use_match _ _ _ Hdead). cbn [andb].
  rewrite (dead_forest kids IHk _ _ _ _ Hnd). reflexivity.
Qed.

(* a shortcut fires at p: the un-pruned callback skips p, and p is dead *)
Lemma pruned_dead A p st isd : p <> [] -> pruned pmatch c A p isd = true ->
  is_skip pmatch c' A p = true /\ dead p p (new_dir pmatch c' A p st).
Proof.
  intros Hp Epr.
  assert (X : forall b pats, side_pats b = Some pats -> fst (side_eval b p A) = b -> frozen b pats p ->
              is_skip pmatch c' A p = true /\ dead p p (new_dir pmatch c' A p st)).
  { intros b pats Hc Hv Hfr. split; [exact (side_skip b p A Hv)|].
    split; auto. split; [apply below_refl|].
    exists b, pats, (if b then top_exc A else top_inc A). split; [exact Hc|]. split; [|exact Hfr].
    rewrite side_info_new_dir. rewrite (side_eval_eq b pats p A Hc) in *. exact (pair_fst _ _ Hv). }
  unfold pruned in Epr. apply orb_true_iff in Epr. destruct Epr as [Epr|Epr].
  - unfold prune_inc in Epr. destruct (c_inc c) as [pats|] eqn:Hc; [|discriminate].
    repeat (apply andb_true_iff in Epr; destruct Epr as [Epr ?]). rewrite negb_true_iff in *.
    apply (X false pats); auto. apply frozen_of; auto.
  - unfold prune_exc in Epr. destruct (c_exc c) as [pats|] eqn:Hc; [|discriminate].
    repeat (apply andb_true_iff in Epr; destruct Epr as [Epr ?]).
    apply (X true pats); auto. apply frozen_of; auto.
    match goal with H : _ || _ = true |- _ => apply orb_true_iff in H; destruct H as [H|H];
      apply negb_true_iff in H; auto end.
Qed.

Definition prune_ok (n : node) : Prop := forall A dir,
  sw_node pmatch mapfn c A dir n = sw_node pmatch mapfn c' A dir n.

Lemma prune_sw_forest l : Forall prune_ok l -> forall A dir,
  sw_forest pmatch mapfn c A dir l = sw_forest pmatch mapfn c' A dir l.
Proof.
  induction 1 as [|k r Hk _ IH]; intros A dir; cbn [sw_forest]; [reflexivity|].
  rewrite (Hk A dir). destruct (sw_node pmatch mapfn c' A dir k) as [[a' e] cut].
  destruct cut; auto. rewrite (IH a' dir). reflexivity.
Qed.

Lemma prune_sw_node : forall n, wf_node n = true -> prune_ok n.
Proof.
  apply wf_node_ind. intros name st ct kids Hne Hns Hkids IHk A dir.
  rewrite !sw_node_eq. cbv zeta.
  set (p := child_path dir name). set (st' := set_path st p). remember (st_is_dir st) as isd eqn:Eisd.
  destruct (pruned pmatch c A p isd) eqn:Epr.
  - (* a shortcut fires: the un-pruned walk finds nothing below *)
    rewrite (core_pruned pmatch mapfn c) by auto. cbn [r_skip r_stack r_em].
    rewrite (pruned_isdir _ _ _ _ _ Epr). cbn [negb].
    destruct (pruned_dead A p st' _ (child_path_nonempty dir name Hne) Epr) as [Hskip Hdead].
    rewrite (core_skip pmatch mapfn c') by (auto using pruned_np). cbn [r_skip r_stack r_em r_push].
    unfold pushed. cbn [r_push r_stack]. unfold push_of. rewrite (dead_use_match _ _ _ Hdead). cbn [andb].
    rewrite (dead_forest kids (Forall_wf _ _ dead_node Hkids) _ _ _ _ Hdead). reflexivity.
  - rewrite (core_np_eq A p st' isd Epr).
    destruct (r_skip _); auto. destruct isd; auto.
    rewrite (prune_sw_forest kids IHk). reflexivity.
Qed.

Theorem prune_unobservable_of view : wf_view view = true ->
  filter_walk pmatch mapfn c view = filter_walk pmatch mapfn c' view.
Proof.
  intros Hwf. rewrite !filter_walk_structural by auto. unfold sw_walk.
  rewrite (prune_sw_forest view (Forall_wf _ _ prune_sw_node Hwf)). reflexivity.
Qed.

End PruneOf.

(* the literal reading of prefix-only patterns provides it *)
Theorem prune_unobservable_proof pmatch mapfn (Hsem : prefix_semantics pmatch) c (Hsafe : cfg_star_safe c = true) view :
  wf_view view = true -> filter_walk pmatch mapfn c view = filter_walk pmatch mapfn (no_prune c) view.
Proof.
  apply prune_unobservable_of. intros b pats P Hc HP He Hpo d x name Hb Hn Hr.
  apply (pmatch_key pmatch (p_str P) d x name); auto.
  unfold cfg_star_safe in Hsafe. apply andb_true_iff in Hsafe.
  assert (Hss : star_safe b pats = true) by (destruct b; cbn in Hc; rewrite Hc in Hsafe; tauto).
  unfold star_safe in Hss. rewrite forallb_forall in Hss. specialize (Hss P HP).
  rewrite He, eqb_reflx in Hss. exact Hss.
Qed.
