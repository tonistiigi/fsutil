(* C03 — the walk of the old destination (Model/DiskWriterFs.v: old_listing): mode bits tell
   directories apart, the listing is strictly ascending in path order, closed under parents, and
   every entry is a real path of the initial file system. *)
From Coq Require Import List Arith NArith Bool Lia ZifyN ZifyNat ZifyBool Sorting.Sorted.
From FS Require Import Sx Model.Path Model.Stat Model.Validator Model.Fs Model.DiskWriterFs.
From FS Require Import Proofs.Lex Proofs.PathP Proofs.ListAux Proofs.ValidatorP Proofs.FsP Proofs.FsReachP Proofs.FsSysP Proofs.FsTreeP.
Import ListNotations.
Open Scope N_scope.
Open Scope bool_scope.

Lemma has_bits_pow2 m k : has_bits m (2 ^ k) = N.testbit m k.
Proof.
  unfold has_bits. destruct (N.testbit m k) eqn:T.
  - apply negb_true_iff, N.eqb_neq. intro E.
    assert (H : N.testbit (N.land m (2 ^ k)) k = false) by (rewrite E; apply N.bits_0).
    rewrite N.land_spec, T, N.pow2_bits_true in H. discriminate.
  - apply negb_false_iff, N.eqb_eq, N.bits_inj. intros j. rewrite N.land_spec, N.bits_0, N.pow2_bits_eqb.
    destruct (N.eqb_spec k j) as [<-|]; [rewrite T; reflexivity|apply andb_false_r].
Qed.

Lemma has_bits_small x k : x < 2 ^ k -> has_bits x (2 ^ k) = false.
Proof.
  intros H. rewrite has_bits_pow2, <- (N.mod_small x (2 ^ k) H). apply N.mod_pow2_bits_high. apply N.le_refl.
Qed.

Lemma has_bits_big x k : x < 2 ^ k -> has_bits (x + 2 ^ k) (2 ^ k) = true.
Proof.
  intros H. rewrite has_bits_pow2. apply N.testbit_true.
  replace (x + 2 ^ k) with (x + 1 * 2 ^ k) by (rewrite N.mul_1_l; reflexivity).
  rewrite N.div_add by (apply N.pow_nonzero; discriminate). rewrite (N.div_small x (2 ^ k) H). reflexivity.
Qed.

Lemma mode_is_dir_small m : m < 2147483648 -> mode_is_dir m = false.
Proof. exact (has_bits_small m 31). Qed.

Lemma mode_is_dir_big m : m < 2147483648 -> mode_is_dir (m + 2147483648) = true.
Proof. exact (has_bits_big m 31). Qed.

Lemma land511 p : N.land p 511 < 512.
Proof. change 511 with (N.ones 9). rewrite N.land_ones. apply N.mod_lt. discriminate. Qed.

Lemma go_mode_dir k perm : mode_is_dir (go_mode k perm) = match k with KDir _ _ => true | _ => false end.
Proof.
  unfold go_mode. pose proof (land511 perm) as Hp.
  unfold ModeSetuid, ModeSetgid, ModeSticky, ModeDir, ModeSymlink, ModeNamedPipe, ModeDevice, ModeCharDevice.
  destruct (has_bits perm S_ISUID), (has_bits perm S_ISGID), (has_bits perm S_ISVTX);
    destruct k as [p0 es|d|t|t r]; try (apply mode_is_dir_small; lia); try (apply mode_is_dir_big; lia);
    try (destruct (N.eqb t S_IFIFO); [apply mode_is_dir_small; lia|];
         destruct (N.eqb t S_IFCHR); [apply mode_is_dir_small; lia|];
         destruct (N.eqb t S_IFBLK); apply mode_is_dir_small; lia).
Qed.

Lemma go_mode_link t perm : mode_is_symlink (go_mode (KLink t) perm) = true.
Proof.
  unfold go_mode, mode_is_symlink. pose proof (land511 perm) as Hp. apply (has_bits_big _ 27).
  unfold ModeSetuid, ModeSetgid, ModeSticky. change (2 ^ 27) with 134217728.
  destruct (has_bits perm S_ISUID), (has_bits perm S_ISGID), (has_bits perm S_ISVTX); lia.
Qed.

(* a directory's entries in the order of the walk *)
Definition name_lt {A} (a b : bytes * A) : Prop := cmpb (fst a) (fst b) = Lt.

Lemma insert_sorted_ss {A} k (v : A) l :
  StronglySorted name_lt l -> ~ In k (map fst l) -> StronglySorted name_lt (insert_sorted k v l).
Proof.
  induction l as [|[k' v'] l IH]; intros HS Hni; simpl.
  - constructor; constructor.
  - inversion HS as [|? ? HS' Hall]; subst. rewrite <- cmpb_is_cmp_bytes.
    destruct (cmpb k k') eqn:E.
    + apply cmpb_eq in E. subst. exfalso. apply Hni. left. reflexivity.
    + constructor; auto. constructor.
      * exact E.
      * rewrite Forall_forall in *. intros x Hx. unfold name_lt in *. simpl.
        apply (cmpb_trans _ k'); [exact E|apply (Hall x Hx)].
    + constructor.
      * apply IH; auto. intro H. apply Hni. right. exact H.
      * rewrite Forall_forall in *. intros x Hx. apply insert_sorted_In in Hx. destruct Hx as [->|Hx].
        -- unfold name_lt. simpl. rewrite cmpb_opp, E. reflexivity.
        -- apply Hall. exact Hx.
Qed.

Lemma sort_ents_fst {A} (l : list (bytes * A)) x : In x (map fst (sort_ents l)) -> In x (map fst l).
Proof.
  intros H. apply in_map_iff in H. destruct H as (y & <- & Hy). apply sort_ents_In in Hy. apply in_map. exact Hy.
Qed.

Lemma sort_ents_ss {A} (l : list (bytes * A)) : NoDup (map fst l) -> StronglySorted name_lt (sort_ents l).
Proof.
  unfold sort_ents. induction l as [|[k v] l IH]; simpl; intros H; [constructor|].
  inversion H; subst. apply insert_sorted_ss; auto.
  intro Hin. apply H2. apply (sort_ents_fst l k). exact Hin.
Qed.

Definition centry := (list bytes * N * inode)%type.
Definition cpre (name : bytes) (x : centry) : centry := (name :: fst (fst x), snd (fst x), snd x).

Fixpoint walkc (fuel : nat) (f : fs) (j : N) : list centry :=
  match fuel with
  | O => []
  | S k =>
    match dir_of f j with
    | None => []
    | Some (_, es) =>
      flat_map (fun e : bytes * N =>
                  match get f (snd e) with
                  | Some n => ([fst e], snd e, n) :: map (cpre (fst e)) (walkc k f (snd e))
                  | None => []
                  end) (sort_ents es)
    end
  end.

Definition cpath (rel : list bytes) (x : centry) : bytes * N * inode := (joinc (rel ++ fst (fst x)), snd (fst x), snd x).

Section Walk.
Variable D : N.
Notation reach := (reach D).
Notation wf := (wf D).

(* an entry of a directory inside D, as the walk meets it *)
Lemma walk_child f j pp es name k : wf f -> reach f j -> dir_of f j = Some (pp, es) -> In (name, k) (sort_ents es) ->
  blookup name (ents f j) = Some k /\ okname name /\ reach f k.
Proof.
  intros W Rj Ed Hk. apply sort_ents_In in Hk. rewrite <- (dir_of_ents _ _ _ _ Ed) in Hk.
  destruct (wf_names D f W j Rj) as [Hnd Hok]. split; [apply In_blookup_nodup; auto|]. split.
  - rewrite Forall_forall in Hok. apply Hok. apply (in_map fst _ _ Hk).
  - apply (reach_step D f j name k); auto.
Qed.

Lemma tree_below_walkc f : wf f -> forall fuel j relcs, reach f j -> relcs = [] \/ okc relcs ->
  tree_below fuel f j (joinc relcs) = map (cpath relcs) (walkc fuel f j).
Proof.
  intros W. induction fuel as [|fuel IH]; intros j relcs Rj Hrel; [reflexivity|].
  simpl. destruct (dir_of f j) as [[pp es]|] eqn:Ed; [|reflexivity].
  rewrite !flat_map_concat_map, concat_map, map_map. f_equal. apply map_ext_in. intros [name k] Hk. cbn [fst snd].
  destruct (walk_child f j pp es name k W Rj Ed Hk) as (_ & Hok & Rk).
  destruct (get f k) as [nk|]; [|reflexivity].
  rewrite (child_path_joinc relcs name Hrel). simpl. f_equal.
  rewrite (IH k (relcs ++ [name]) Rk) by (right; apply okc_app; auto; discriminate).
  rewrite map_map. apply map_ext. intros [[cs i] n]. unfold cpath, cpre. simpl. rewrite <- app_assoc. reflexivity.
Qed.


Definition clt (x y : centry) : Prop := lex (fst (fst x)) (fst (fst y)) = Lt.

Lemma walkc_spec f : wf f -> forall fuel j, reach f j -> forall cs i n, In (cs, i, n) (walkc fuel f j) ->
  cs <> [] /\ Forall okname cs /\ rwalk f j cs = Some i /\ get f i = Some n.
Proof.
  intros W. induction fuel as [|fuel IH]; intros j Rj cs i n Hin; [destruct Hin|].
  simpl in Hin. destruct (dir_of f j) as [[pp es]|] eqn:Ed; [|destruct Hin].
  apply in_flat_map in Hin. destruct Hin as ([name k] & Hk & Hin). cbn [fst snd] in Hin.
  destruct (walk_child f j pp es name k W Rj Ed Hk) as (Hbl & Hok & Rk).
  destruct (get f k) as [nk|] eqn:Eg; [|destruct Hin].
  destruct Hin as [Hin|Hin].
  - inversion Hin; subst. repeat split; auto; try discriminate. rewrite rwalk_unfold, Hbl. reflexivity.
  - apply in_map_iff in Hin. destruct Hin as ([[cs' i'] n'] & E & Hin). unfold cpre in E. simpl in E. inversion E; subst.
    destruct (IH k Rk cs' i n Hin) as (H1 & H2 & H3 & H4).
    repeat split; auto; try discriminate. rewrite rwalk_unfold, Hbl. exact H3.
Qed.

Lemma walkc_sorted f : wf f -> forall fuel j, reach f j -> StronglySorted clt (walkc fuel f j).
Proof.
  intros W. induction fuel as [|fuel IH]; intros j Rj; [constructor|].
  simpl. destruct (dir_of f j) as [[pp es]|] eqn:Ed; [|constructor].
  assert (Hes : ents f j = es) by (apply (dir_of_ents _ _ _ _ Ed)).
  assert (Hnd : NoDup (map fst es)) by (rewrite <- Hes; apply (wf_names D f W j Rj)).
  apply (SS_flat_map name_lt clt).
  - apply sort_ents_ss. exact Hnd.
  - intros [name k] Hk. cbn [fst snd]. destruct (walk_child f j pp es name k W Rj Ed Hk) as (_ & _ & Rk).
    destruct (get f k) as [nk|]; [|constructor]. constructor.
    + apply (SS_map clt clt); [|apply IH; exact Rk].
      intros a b _ _ H. unfold clt, cpre in *. cbn [fst snd]. rewrite lex_cons_same. exact H.
    + apply Forall_forall. intros x Hx. apply in_map_iff in Hx. destruct Hx as ([[cs' i'] n'] & <- & Hx).
      unfold clt, cpre. simpl. rewrite cmpb_refl. destruct cs'; [|reflexivity].
      exfalso. destruct (walkc_spec f W fuel k Rk [] i' n' Hx) as (H & _). congruence.
  - intros [n1 k1] [n2 k2] x y _ _ Hlt Hx Hy. cbn [fst snd] in *. unfold name_lt in Hlt. simpl in Hlt.
    assert (Hhead : forall (nm : bytes) (k : N) (z : centry),
              In z (match get f k with
                    | Some n => ([nm], k, n) :: map (cpre nm) (walkc fuel f k)
                    | None => [] end) -> exists r, fst (fst z) = nm :: r).
    { intros nm k z Hz. destruct (get f k); [|destruct Hz]. destruct Hz as [<-|Hz]; [exists []; reflexivity|].
      apply in_map_iff in Hz. destruct Hz as (w & <- & _). exists (fst (fst w)). reflexivity. }
    destruct (Hhead n1 k1 x Hx) as [r1 E1]. destruct (Hhead n2 k2 y Hy) as [r2 E2].
    unfold clt. rewrite E1, E2. simpl. rewrite Hlt. reflexivity.
Qed.

Lemma walkc_closed f : wf f -> forall fuel j, reach f j -> forall cs i n a b,
  In (cs, i, n) (walkc fuel f j) -> cs = a ++ b -> a <> [] -> b <> [] ->
  exists i' n', In (a, i', n') (walkc fuel f j).
Proof.
  intros W. induction fuel as [|fuel IH]; intros j Rj cs i n a b Hin E Ha Hb; [destruct Hin|].
  simpl in Hin |- *. destruct (dir_of f j) as [[pp es]|] eqn:Ed; [|destruct Hin].
  apply in_flat_map in Hin. destruct Hin as ([name k] & Hk & Hin). cbn [fst snd] in Hin.
  destruct (walk_child f j pp es name k W Rj Ed Hk) as (_ & _ & Rk).
  destruct (get f k) as [nk|] eqn:Eg; [|destruct Hin].
  destruct Hin as [Hin|Hin].
  - inversion Hin; subst. destruct a as [|a0 a']; [congruence|]. destruct a'; destruct b; simpl in H0; try congruence; discriminate.
  - apply in_map_iff in Hin. destruct Hin as ([[cs' i'] n'] & E' & Hin). unfold cpre in E'. simpl in E'. inversion E'; subst.
    destruct a as [|a0 a']; [congruence|]. simpl in H0. inversion H0; subst a0.
    destruct a' as [|a1 a''].
    + exists k, nk. apply in_flat_map. exists (name, k). split; auto. cbn [fst snd]. rewrite Eg. left. reflexivity.
    + destruct (IH k Rk cs' i n (a1 :: a'') b Hin H2 ltac:(discriminate) Hb) as (i2 & n2 & H).
      exists i2, n2. apply in_flat_map. exists (name, k). split; auto. cbn [fst snd]. rewrite Eg. right.
      apply in_map_iff. exists (a1 :: a'', i2, n2). split; auto.
Qed.

End Walk.

Definition is_kdir (n : inode) : bool := match i_kind n with KDir _ _ => true | _ => false end.

Lemma listing_of_shape : forall l seen,
  Forall2 (fun (s : stat) (e : bytes * N * inode) => st_path s = fst (fst e) /\ st_is_dir s = is_kdir (snd e)
                                                      /\ st_mode s = go_mode (i_kind (snd e)) (m_mode (i_meta (snd e))))
          (listing_of l seen) l.
Proof.
  induction l as [|[[p i] n] l IH]; intros seen; simpl; [constructor|].
  assert (M : forall hl, st_path (mkstat p n hl) = p /\ st_is_dir (mkstat p n hl) = is_kdir n
                         /\ st_mode (mkstat p n hl) = go_mode (i_kind n) (m_mode (i_meta n))).
  { intros hl. split; [reflexivity|]. split; [|reflexivity]. unfold st_is_dir, mkstat, is_kdir. simpl. apply go_mode_dir. }
  destruct (i_kind n) eqn:Ek; try (destruct (seen_path i seen)); constructor; auto; cbn [fst snd]; rewrite ?Ek; apply M.
Qed.

Definition plt (a b : stat) : Prop := compare_path (st_path a) (st_path b) = Lt.

Section Old.
Variable D : N.
Notation reach := (reach D).
Notation wf := (wf D).

Lemma rwalk_names f : forall cs j i, reach f j -> rwalk f j cs = Some i ->
  forall c, In c cs -> exists d, reach f d /\ blookup c (ents f d) <> None.
Proof.
  induction cs as [|c0 r IH]; intros j i Rj Hw c Hc; [destruct Hc|].
  rewrite rwalk_unfold in Hw. destruct (blookup c0 (ents f j)) as [k|] eqn:Eb; [|discriminate].
  destruct Hc as [<-|Hc].
  - exists j. split; auto. congruence.
  - apply (IH k i); auto. apply (reach_step D f j c0 k); auto. apply blookup_In. exact Eb.
Qed.

(* what the receive loop needs to know about the old listing *)
Record old_facts (f : fs) (L : list stat) : Prop := {
  of_sorted : StronglySorted plt L;
  of_entry : forall s, In s L ->
      ok_path (st_path s) = true
      /\ exists i, rwalk f D (comps (st_path s)) = Some i /\ st_is_dir s = is_dir f i /\ get f i <> None
                    /\ (is_link f i = true -> mode_is_symlink (st_mode s) = true);
  of_names : forall s c, In s L -> In c (comps (st_path s)) -> exists d, reach f d /\ blookup c (ents f d) <> None;
  of_closed : forall s a b, In s L -> comps (st_path s) = a ++ b -> a <> [] -> b <> [] ->
      exists s', In s' L /\ comps (st_path s') = a
}.

Lemma Forall2_In_l {A B} (R : A -> B -> Prop) l1 l2 a : Forall2 R l1 l2 -> In a l1 -> exists b, In b l2 /\ R a b.
Proof.
  induction 1; intros Hin; [destruct Hin|]. destruct Hin as [<-|Hin]; [exists y; split; [left|]; auto|].
  destruct (IHForall2 Hin) as (b & Hb & Hr). exists b. split; [right|]; auto.
Qed.

Lemma Forall2_In_r {A B} (R : A -> B -> Prop) l1 l2 b : Forall2 R l1 l2 -> In b l2 -> exists a, In a l1 /\ R a b.
Proof.
  induction 1; intros Hin; [destruct Hin|]. destruct Hin as [<-|Hin]; [exists x; split; [left|]; auto|].
  destruct (IHForall2 Hin) as (a & Ha & Hr). exists a. split; [right|]; auto.
Qed.

Lemma Forall2_SS {A B} (R : A -> B -> Prop) (RA : A -> A -> Prop) (RB : B -> B -> Prop) l1 l2 :
  Forall2 R l1 l2 ->
  (forall a a' b b', In b l2 -> In b' l2 -> R a b -> R a' b' -> RB b b' -> RA a a') ->
  StronglySorted RB l2 -> StronglySorted RA l1.
Proof.
  induction 1; intros Hr HS; [constructor|]. inversion HS; subst. constructor.
  - apply IHForall2; auto. intros a a' b b' Hb Hb'. apply Hr; right; auto.
  - apply Forall_forall. intros a Ha. destruct (Forall2_In_l R l l' a H0 Ha) as (b & Hb & Hab).
    rewrite Forall_forall in H4. apply (Hr x a y b); auto; [left; reflexivity|right; exact Hb].
Qed.

Lemma Forall2_map_r {A B C} (R : A -> C -> Prop) (g : B -> C) l1 l2 :
  Forall2 R l1 (map g l2) -> Forall2 (fun a b => R a (g b)) l1 l2.
Proof.
  revert l1. induction l2 as [|b l2 IH]; intros l1 H; simpl in H; inversion H; subst; constructor; auto.
Qed.

Theorem old_listing_facts f : wf f -> old_facts f (old_listing f D).
Proof.
  intros W. unfold old_listing.
  pose proof (tree_below_walkc D f W 64 D [] (reach_refl D f) (or_introl eq_refl)) as E.
  change (joinc []) with (@nil N) in E.
  rewrite E. set (LC := walkc 64 f D).
  pose proof (Forall2_map_r _ _ _ _ (listing_of_shape (map (cpath []) LC) [])) as F2.
  set (L := listing_of (map (cpath []) LC) []) in *.
  assert (Hspec : forall x, In x LC -> fst (fst x) <> [] /\ Forall okname (fst (fst x))
                             /\ rwalk f D (fst (fst x)) = Some (snd (fst x)) /\ get f (snd (fst x)) = Some (snd x)).
  { intros [[cs i] n] Hx. apply (walkc_spec D f W 64 D (reach_refl D f) cs i n Hx). }
  assert (Hokc : forall x, In x LC -> okc (fst (fst x))).
  { intros x Hx. destruct (Hspec x Hx) as (A & B & _). apply okname_forall in B. destruct B. repeat split; auto. }
  assert (Hcomps : forall x, In x LC -> comps (joinc (fst (fst x))) = fst (fst x)).
  { intros x Hx. destruct (Hokc x Hx) as (A & _ & C). apply comps_joinc; auto. }
  assert (Hs : forall s, In s L -> exists x, In x LC /\ st_path s = joinc (fst (fst x)) /\ st_is_dir s = is_kdir (snd x)
                                              /\ st_mode s = go_mode (i_kind (snd x)) (m_mode (i_meta (snd x)))).
  { intros s Hin. destruct (Forall2_In_l _ _ _ s F2 Hin) as (x & Hx & H1 & H2 & H3). exists x. split; auto. }
  assert (Hx : forall x, In x LC -> exists s, In s L /\ st_path s = joinc (fst (fst x))).
  { intros x Hin. destruct (Forall2_In_r _ _ _ x F2 Hin) as (s & Hs' & H1 & H2). exists s. split; auto. }
  constructor.
  - apply (Forall2_SS _ plt clt L LC F2); [|apply (walkc_sorted D f W 64 D (reach_refl D f))].
    intros a a' b b' Hb Hb' (Ea & _ & _) (Ea' & _ & _) Hlt. unfold plt. cbn [cpath fst snd app] in Ea, Ea'.
    rewrite Ea, Ea', compare_path_lex, (Hcomps b Hb), (Hcomps b' Hb'). exact Hlt.
  - intros s Hin. destruct (Hs s Hin) as (x & Hxin & Ep & Ed & Em). destruct (Hspec x Hxin) as (A & B & C & G).
    split; [rewrite Ep; apply okc_ok_path; apply (Hokc x Hxin)|].
    exists (snd (fst x)). rewrite Ep, (Hcomps x Hxin). split; [exact C|]. split; [|split].
    + rewrite Ed. unfold is_kdir, is_dir, dir_of. rewrite G. destruct (snd x) as [k m]. destruct k; reflexivity.
    + rewrite G. discriminate.
    + intros Hl. rewrite Em. unfold is_link in Hl. rewrite G in Hl. destruct (snd x) as [k m]. cbn [i_kind i_meta] in Hl |- *.
      destruct k; try discriminate. apply go_mode_link.
  - intros s c Hin Hc. destruct (Hs s Hin) as (x & Hxin & Ep & _ & _). destruct (Hspec x Hxin) as (_ & _ & C & _).
    rewrite Ep, (Hcomps x Hxin) in Hc. apply (rwalk_names f (fst (fst x)) D (snd (fst x)) (reach_refl D f) C c Hc).
  - intros s a b Hin Ec Ha Hb. destruct (Hs s Hin) as (x & Hxin & Ep & _ & _).
    rewrite Ep, (Hcomps x Hxin) in Ec. destruct x as [[cs i] n]. simpl in Ec.
    destruct (walkc_closed D f W 64 D (reach_refl D f) cs i n a b Hxin Ec Ha Hb) as (i' & n' & Hin').
    destruct (Hx _ Hin') as (s' & Hs' & Ep'). exists s'. split; auto. rewrite Ep'. apply (Hcomps _ Hin').
Qed.

End Old.

(* [suppressed] (a path below a removed directory, on strings) against prefixes of component
   lists; used by RecvOldP.v *)
Lemma suppressed_prefix X q : suppressed (X ++ [sep]) q = true ->
  exists y, y <> [] /\ comps q = comps X ++ y.
Proof.
  unfold suppressed. intros H. apply andb_true_iff in H. destruct H as [_ H].
  apply has_prefix_app in H. destruct H as [r ->]. rewrite <- app_assoc. simpl.
  rewrite comps_app_sep_gen. exists (comps r). split; auto. apply comps_nonempty.
Qed.

Lemma prefix_suppressed X q y : ok_path X = true -> ok_path q = true -> y <> [] -> comps q = comps X ++ y ->
  suppressed (X ++ [sep]) q = true.
Proof.
  intros HX Hq Hy E. unfold suppressed. apply andb_true_iff. split.
  - destruct X; reflexivity.
  - rewrite <- (joinc_comps q), E. rewrite joinc_app; [|apply comps_nonempty|exact Hy].
    rewrite joinc_comps. change (X ++ sep :: joinc y) with (X ++ [sep] ++ joinc y). rewrite app_assoc. apply has_prefix_app_r.
Qed.

(* between a path and one of its descendants there are only descendants *)
Lemma lex_between_prefix : forall X p y, lex X p = Lt -> lex p (X ++ y) = Lt -> is_prefix X p.
Proof. intros X p y H1 H2. apply (lex_interval X p y); congruence. Qed.
