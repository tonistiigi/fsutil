(* followlinks.go dedupePaths (two nested range loops, `continue loop` from the inner one), as translated
   from /repo on this run, equals the hand model FollowLinks.dedupe_paths.  Go's nil slice (returned when
   "." is met) and the empty slice are both the empty list in the translation; the model's None is that nil. *)
From Coq Require Import List NArith ZArith Bool Lia.
From FS Require Import Sx Model.Path Model.FollowLinks Src.Prims Proofs.ListAux Proofs.Src.PrimsP.
From FSGen Require SrcFns.
Import ListNotations.

Lemma existsb_rev {A} (f : A -> bool) l : existsb f (rev l) = existsb f l.
Proof.
  induction l as [|a l IH]; [reflexivity|]. cbn [rev existsb]. rewrite existsb_snoc, IH. apply orb_comm.
Qed.

Lemma inner_spec : forall s out,
  SrcFns.dedupePaths_loop2 s out =
  if existsb (fun o => inside o s) out then Ret NLCont else Done tt.
Proof.
  intros s out. induction out as [|o out IH]; [reflexivity|].
  cbn [SrcFns.dedupePaths_loop2 existsb]. rewrite has_prefix_bridge.
  change [47%N] with [sep]. unfold inside at 1.
  destruct (has_prefix (o ++ [sep]) s); [reflexivity|]. exact IH.
Qed.

Lemma outer_spec : forall l out,
  SrcFns.dedupePaths_loop1 l out =
  match dedupe_from (rev out) l with
  | None => Ret []
  | Some res => Done (out ++ res)
  end.
Proof.
  induction l as [|s l IH]; intros out.
  - cbn. now rewrite app_nil_r.
  - cbn [SrcFns.dedupePaths_loop1 dedupe_from]. rewrite bytes_eqb_bridge.
    change [46%N] with s_dot.
    destruct (Sx.bytes_eqb s s_dot); [reflexivity|].
    rewrite inner_spec, existsb_rev.
    destruct (existsb (fun o => inside o s) out).
    + apply IH.
    + rewrite IH. rewrite rev_app_distr. cbn [rev app].
      destruct (dedupe_from (s :: rev out) l); cbn [option_map]; [|reflexivity].
      now rewrite <- app_assoc.
Qed.

Theorem dedupePaths_src_eq :
  forall l, SrcFns.dedupePaths l = Some (match dedupe_paths l with Some r => r | None => [] end).
Proof.
  intros l. unfold SrcFns.dedupePaths, dedupe_paths. cbv zeta. rewrite outer_spec. cbn [rev].
  destruct (dedupe_from [] l); reflexivity.
Qed.
