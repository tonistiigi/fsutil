(* validator.go, method HandleChange of Validator (pointer receiver) — the centre of C12 — as translated from /repo on this run into a
   state transformer  Validator -> kind -> path -> FileInfo -> error -> option (Validator * error)
   (state = the parentDirs slice as a list of generated records, bottom first; sort.Search = Go's binary search
   transcribed in Src/Prims.v with the func literal as its predicate; ComparePath through its own translation),
   equals one step of the hand model Model/Validator.v (vstep) on every state that satisfies the
   representation invariant [vinv] (directories strictly descending from the top of the stack under
   compare_path, bottom directory ""), which every state reachable from the zero Validator satisfies.
   Folding it over a list of changes equals run_validator, so validator_accepts_iff_spec transfers. *)
From Coq Require Import List NArith ZArith Bool Lia Sorting.Sorted.
From FS Require Model.Stat.
From FS Require Import Sx Model.Path Model.Validator Src.Prims Proofs.Lex Proofs.PathP Proofs.ValidatorP.
From FS Require Proofs.Src.ComparePathEq Proofs.Src.SortSearchP Proofs.Src.PrimsP.
From FSGen Require SrcFns.
Import ListNotations.

Notation parent := SrcFns.parent.
Notation pdir := SrcFns.parent_dir.
Notation plast := SrcFns.parent_last.
Definition mk (l : list parent) : SrcFns.Validator := {| SrcFns.Validator_parentDirs := l |}.
Definition norm (l : list parent) : list parent := match l with [] => [SrcFns.parent_zero] | _ => l end.

Definition hc_pred (l : list parent) (d : list N) (i : Z) : option bool :=
  match SrcFns.ComparePath (pdir (Prims.nth_d l (Prims.slen l - 1 - i)%Z SrcFns.parent_zero)) d with
  | None => None
  | Some c => Some (c <=? 0)%Z
  end.

Definition hc_tail (l : list parent) (kind : Z) (fi : Prims.FileInfo Stat.stat) (d b : list N) : option (SrcFns.Validator * Prims.error) :=
  match Prims.sort_Search (Prims.slen l) (hc_pred l d) with
  | None => None
  | Some k =>
    let i := (Prims.slen l - 1 - k)%Z in
    let l1 := if negb (i =? Prims.slen l - 1)%Z then Prims.lslice_to l (i + 1)%Z else l in
    if (negb (Prims.bytes_eqb d (pdir (Prims.nth_d l1 (Prims.slen l1 - 1)%Z SrcFns.parent_zero)))
        || Prims.bytes_leb b (plast (Prims.nth_d l1 i SrcFns.parent_zero)))%bool
    then Some (mk l1, Prims.some_error) else
    let l2 := Prims.list_set l1 i (SrcFns.parent_set_last (Prims.nth_d l1 i SrcFns.parent_zero) b) in
    Some (mk (if (negb (kind =? 2)%Z && Prims.fi_IsDir fi)%bool
              then l2 ++ [{| SrcFns.parent_dir := Prims.filepath_Join [d; b]; SrcFns.parent_last := [] |}]
              else l2), None)
  end.

(* the generated text: the model's admission checks, then [hc_tail] (four copies of it, one per branch
   of the two ifs that precede it) *)
Lemma generated_split : forall v kind p fi,
  SrcFns.Validator_HandleChange v kind p fi None =
  match vsplit p with
  | None => Some (mk (norm (SrcFns.Validator_parentDirs v)), Prims.some_error)
  | Some (d, b) => hc_tail (norm (SrcFns.Validator_parentDirs v)) kind fi d b
  end.
Proof.
  intros [l0] kind p fi. unfold SrcFns.Validator_HandleChange, vsplit, hc_tail, mk.
  cbn [SrcFns.Validator_parentDirs Prims.err_is_nil negb]. rewrite PrimsP.has_prefix_bridge.
  change Prims.filepath_FromSlash with (fun x : list N => x). cbv beta.
  change Prims.bytes_eqb with Sx.bytes_eqb. change Prims.filepath_Clean with clean.
  change Prims.filepath_IsAbs with is_abs. change Prims.filepath_Dir with dir. change Prims.filepath_Base with base.
  change [46; 46; 47]%N with s_dotdotsep. change [46; 46]%N with s_dotdot. change [46]%N with s_dot.
  fold (hc_pred (norm l0)).
  destruct l0 as [|e0 l0]; cbn [Prims.slice_is_nil norm]; change (Prims.make_slice 1 SrcFns.parent_zero) with [SrcFns.parent_zero];
  destruct (negb (Sx.bytes_eqb p (clean p))); try reflexivity;
  destruct (is_abs p); try reflexivity;
  destruct (Sx.bytes_eqb (dir p) s_dot); cbv zeta;
  match goal with |- context [if ?c then Some (_, Prims.some_error) else _] => destruct c end; try reflexivity.
  all: unfold hc_pred; match goal with |- context [Prims.sort_Search ?n ?f] => destruct (Prims.sort_Search n f) as [k|] end; [|reflexivity].
  all: match goal with |- context [negb (?a - 1 - ?k =? ?b)%Z] => destruct (negb (a - 1 - k =? b)%Z) end.
  all: match goal with |- context [if ?c then Some (_, Prims.some_error) else _] => destruct c end; try reflexivity.
  all: match goal with |- context [if ?c then _ else _] => destruct c end; reflexivity.
Qed.

Definition ent (e : parent) : ventry := (pdir e, plast e).
Definition absl (l : list parent) : list ventry := rev (map ent l).          (* the model's stack: top first *)
Definition abs_state (v : SrcFns.Validator) : list ventry := absl (norm (SrcFns.Validator_parentDirs v)).
Definition desc (stk : list ventry) : Prop :=
  StronglySorted (fun a b => compare_path (fst b) (fst a) = Lt) stk.
Definition vinv (stk : list ventry) : Prop := desc stk /\ exists r l0, stk = r ++ [([], l0)].
Definition fi_dir (b : bool) : Prims.FileInfo Stat.stat := {| Prims.fi_IsDir := b; Prims.fi_Mode := 0; Prims.fi_Sys := None |}.
Definition item_of (kind : Z) (p : list N) (fi : Prims.FileInfo Stat.stat) : vitem :=
  {| vkind := Z.to_N kind; vpath := p; visdir := Prims.fi_IsDir fi |}.

Lemma slen_nat : forall (l : list parent), Prims.slen l = Z.of_nat (length l).
Proof. reflexivity. Qed.

Lemma nth_d_last : forall (m : list parent) x, Prims.nth_d (m ++ [x]) (Z.of_nat (length m)) SrcFns.parent_zero = x.
Proof.
  intros m x. unfold Prims.nth_d. destruct (Z.ltb_spec (Z.of_nat (length m)) 0); [lia|].
  rewrite Nat2Z.id, app_nth2 by lia. rewrite Nat.sub_diag. reflexivity.
Qed.

Lemma list_set_last : forall (m : list parent) x y, Prims.list_set (m ++ [x]) (Z.of_nat (length m)) y = m ++ [y].
Proof.
  intros m x y. unfold Prims.list_set. destruct (Z.ltb_spec (Z.of_nat (length m)) 0); [lia|].
  rewrite Nat2Z.id. clear. induction m as [|a m IH]; [reflexivity|]. cbn [length app Prims.list_set_nat]. now rewrite IH.
Qed.

Lemma absl_snoc : forall m x, absl (m ++ [x]) = ent x :: absl m.
Proof. intros. unfold absl. rewrite map_app, rev_app_distr. reflexivity. Qed.

Lemma absl_firstn : forall l k, (k <= length l)%nat -> absl (firstn (length l - k) l) = skipn k (absl l).
Proof.
  intros l k Hk. unfold absl. rewrite <- firstn_map. rewrite <- (map_length ent l).
  rewrite skipn_rev. reflexivity.
Qed.

Lemma absl_nth : forall l i, (i < length l)%nat ->
  nth i (absl l) (ent SrcFns.parent_zero) = ent (nth (length l - S i) l SrcFns.parent_zero).
Proof.
  intros l i Hi. unfold absl. rewrite rev_nth by (rewrite map_length; exact Hi).
  rewrite map_length. apply (map_nth ent).
Qed.

Definition gpred (stk : list ventry) (d : list N) (i : Z) : bool :=
  match compare_path (fst (nth (Z.to_nat i) stk (ent SrcFns.parent_zero))) d with Gt => false | _ => true end.

Lemma hc_pred_total : forall l d i, (0 <= i < Z.of_nat (length l))%Z ->
  hc_pred l d i = Some (gpred (absl l) d i).
Proof.
  intros l d i Hi. unfold hc_pred, gpred.
  rewrite absl_nth by lia. cbn [ent fst].
  replace (Prims.nth_d l (Prims.slen l - 1 - i) SrcFns.parent_zero) with (nth (length l - S (Z.to_nat i)) l SrcFns.parent_zero).
  2:{ unfold Prims.nth_d. rewrite slen_nat. destruct (Z.ltb_spec (Z.of_nat (length l) - 1 - i) 0); [lia|].
      f_equal. lia. }
  destruct (ComparePathEq.ComparePath_src_some (pdir (nth (length l - S (Z.to_nat i)) l SrcFns.parent_zero)) d) as (c & -> & ->).
  reflexivity.
Qed.

Lemma desc_mono : forall stk d x y, desc stk -> (x <= y)%nat -> (y < length stk)%nat ->
  compare_path (fst (nth x stk (ent SrcFns.parent_zero))) d <> Gt ->
  compare_path (fst (nth y stk (ent SrcFns.parent_zero))) d <> Gt.
Proof.
  intros stk d x y Hs Hxy Hy Hx. destruct (Nat.eq_dec x y) as [->|Hne]; [exact Hx|].
  assert (Hlt : compare_path (fst (nth y stk (ent SrcFns.parent_zero))) (fst (nth x stk (ent SrcFns.parent_zero))) = Lt).
  { clear Hx. revert x y Hxy Hy Hne. induction Hs as [|a stk Hs IH Hall]; intros x y Hxy Hy Hne; [cbn in Hy; lia|].
    destruct y as [|y]; [lia|]. destruct x as [|x].
    - cbn [nth]. rewrite Forall_forall in Hall. apply Hall. apply nth_In. cbn in Hy. lia.
    - cbn [nth]. apply IH; cbn in Hy; lia. }
  (* d < y-entry < x-entry *)
  intro Hgt. apply Hx. rewrite compare_path_opp in Hgt |- *.
  assert (Hd : compare_path d (fst (nth y stk (ent SrcFns.parent_zero))) = Lt)
    by (destruct (compare_path d _); (reflexivity || discriminate)).
  rewrite (compare_path_trans _ _ _ Hd Hlt). reflexivity.
Qed.

Lemma vpop_skipn : forall d stk k, (k <= length stk)%nat ->
  (forall i, (i < k)%nat -> compare_path (fst (nth i stk (ent SrcFns.parent_zero))) d = Gt) ->
  ((k < length stk)%nat -> compare_path (fst (nth k stk (ent SrcFns.parent_zero))) d <> Gt) ->
  vpop d stk = skipn k stk.
Proof.
  intros d stk. induction stk as [|[d' l] stk IH]; intros k Hk Hlo Hat.
  - destruct k; reflexivity.
  - destruct k as [|k].
    + cbn [vpop skipn]. specialize (Hat ltac:(cbn; lia)). cbn [nth fst] in Hat.
      destruct (compare_path d' d); try reflexivity. congruence.
    + cbn [vpop skipn]. pose proof (Hlo 0%nat ltac:(lia)) as H0. cbn [nth fst] in H0. rewrite H0.
      apply IH; [cbn in Hk; lia| |].
      * intros i Hi. apply (Hlo (S i)). lia.
      * intros Hl. apply Hat. cbn. lia.
Qed.

Lemma leb_geb_bridge : forall a b, Prims.bytes_leb a b = bytes_geb b a.
Proof.
  intros a b. unfold Prims.bytes_leb, bytes_geb.
  change (Prims.bytes_cmp a b) with (cmpb a b). change (cmp_bytes b a) with (cmpb b a).
  rewrite (cmpb_opp a b). destruct (cmpb a b); reflexivity.
Qed.

Lemma join2_bridge : forall d b, Prims.filepath_Join [d; b] = join2 d b.
Proof. intros [|x d] [|y b]; reflexivity. Qed.

Lemma vdel_bridge : forall kind p fi, vdel (item_of kind p fi) = (kind =? 2)%Z.
Proof. intros [|q|q] p fi; reflexivity. Qed.

Lemma absl_length : forall l, length (absl l) = length l.
Proof. intros. unfold absl. now rewrite rev_length, map_length. Qed.

Lemma bottom_pred : forall l d r l0, absl l = r ++ [([], l0)] ->
  length l = S (length r) /\ gpred (absl l) d (Z.of_nat (length r)) = true.
Proof.
  intros l d r l0 E. split; [rewrite <- absl_length, E, app_length; cbn; lia|].
  unfold gpred. rewrite E, Nat2Z.id, app_nth2, Nat.sub_diag by lia. destruct d; reflexivity.
Qed.

(* the part of the model's step after the admission checks *)
Definition vtail (stk : list ventry) (it : vitem) (d b : list N) : option (list ventry) :=
  match vpop d stk with
  | [] => None
  | (d', l) :: rest =>
    if negb (Sx.bytes_eqb d d') || bytes_geb l b then None
    else
      let stk' := (d', b) :: rest in
      Some (if negb (vdel it) && visdir it then (join2 d b, []) :: stk' else stk')
  end.

Lemma gpred_true : forall stk d i,
  gpred stk d i = true <-> compare_path (fst (nth (Z.to_nat i) stk (ent SrcFns.parent_zero))) d <> Gt.
Proof. intros. unfold gpred. destruct (compare_path _ d); split; congruence. Qed.

Lemma gpred_false : forall stk d i,
  gpred stk d i = false <-> compare_path (fst (nth (Z.to_nat i) stk (ent SrcFns.parent_zero))) d = Gt.
Proof. intros. unfold gpred. destruct (compare_path _ d); split; congruence. Qed.

(* the index that sort.Search returns is the number of entries that the model pops; the bottom entry stays *)
Lemma search_pop : forall l d, vinv (absl l) ->
  exists k, Prims.sort_Search (Prims.slen l) (hc_pred l d) = Some (Z.of_nat k) /\ (k < length l)%nat /\
            vpop d (absl l) = skipn k (absl l).
Proof.
  intros l d [Hdesc [r [l0 Hbot]]].
  destruct (SortSearchP.sort_Search_spec (gpred (absl l) d) (hc_pred l d) (Prims.slen l) ltac:(rewrite slen_nat; lia))
    as [k [Hs [Hk [Hlo Hhi]]]].
  { intros x Hx. apply hc_pred_total. exact Hx. }
  { intros x y Hxy Hy. rewrite !gpred_true. rewrite slen_nat in Hy. apply desc_mono; [exact Hdesc|lia|rewrite absl_length; lia]. }
  rewrite slen_nat in *. exists (Z.to_nat k). rewrite Z2Nat.id by lia. split; [exact Hs|].
  destruct (bottom_pred l d r l0 Hbot) as [Hl Hb].
  assert (Hkn : (k < Z.of_nat (length l))%Z).
  { destruct (Z.eq_dec k (Z.of_nat (length l))) as [E|]; [|lia]. rewrite Hlo in Hb by lia. discriminate. }
  split; [lia|]. apply vpop_skipn; [rewrite absl_length; lia| |].
  - intros i Hi. rewrite <- (Nat2Z.id i). apply gpred_false, Hlo. lia.
  - intros _. apply gpred_true, Hhi. lia.
Qed.

Lemma tail_spec : forall l kind p fi d b, l <> [] -> vinv (absl l) ->
  match hc_tail l kind fi d b with
  | None => False
  | Some (v', e) =>
    match vtail (absl l) (item_of kind p fi) d b with
    | Some stk' => e = None /\ SrcFns.Validator_parentDirs v' <> [] /\ absl (SrcFns.Validator_parentDirs v') = stk'
    | None => e <> None
    end
  end.
Proof.
  intros l kind p fi d b Hne Hinv. destruct (search_pop l d Hinv) as (kn & Hs & Hkn & Hpop).
  set (n := length l) in *.
  unfold hc_tail. rewrite Hs, slen_nat. fold n.
  (* the truncated slice *)
  set (l1 := if negb (Z.of_nat n - 1 - Z.of_nat kn =? Z.of_nat n - 1)%Z
             then Prims.lslice_to l (Z.of_nat n - 1 - Z.of_nat kn + 1) else l).
  assert (Hl1 : l1 = firstn (n - kn) l).
  { unfold l1. destruct (Z.eqb_spec (Z.of_nat n - 1 - Z.of_nat kn) (Z.of_nat n - 1)) as [E|E]; cbn [negb].
    - replace (n - kn)%nat with n by lia. unfold n. now rewrite firstn_all.
    - unfold Prims.lslice_to. f_equal. lia. }
  assert (Habs1 : absl l1 = skipn kn (absl l)) by (rewrite Hl1; apply absl_firstn; lia).
  assert (Hlen1 : length l1 = (n - kn)%nat) by (rewrite Hl1, firstn_length; lia).
  destruct (exists_last (l := l1)) as [m [x Hmx]]; [intro E; rewrite E in Hlen1; cbn in Hlen1; lia|].
  rewrite Hmx, app_length in Hlen1. cbn [length] in Hlen1.
  replace (Z.of_nat n - 1 - Z.of_nat kn)%Z with (Z.of_nat (length m)) by lia.
  replace (Prims.slen l1 - 1)%Z with (Z.of_nat (length m)) by (rewrite slen_nat, Hmx, app_length; cbn [length]; lia).
  rewrite Hmx, !nth_d_last, list_set_last.
  unfold vtail. rewrite Hpop, <- Habs1, Hmx, absl_snoc. cbn [ent].
  change Prims.bytes_eqb with Sx.bytes_eqb. rewrite leb_geb_bridge.
  destruct (negb (Sx.bytes_eqb d (pdir x)) || bytes_geb (plast x) b); [discriminate|].
  rewrite vdel_bridge, join2_bridge. cbn [visdir item_of].
  destruct (negb (kind =? 2)%Z && Prims.fi_IsDir fi); cbn [mk SrcFns.Validator_parentDirs];
    rewrite !absl_snoc; (split; [reflexivity|]); (split; [destruct m; discriminate|reflexivity]).
Qed.

Lemma vstep_tail : forall stk it,
  vstep stk it = match vsplit (vpath it) with None => None | Some (d, b) => vtail stk it d b end.
Proof. intros. reflexivity. Qed.

Lemma norm_nonempty : forall l, norm l <> [].
Proof. destruct l; discriminate. Qed.

Lemma norm_id : forall l, l <> [] -> norm l = l.
Proof. destruct l; [congruence|reflexivity]. Qed.

(* an error handed in is handed back, the state untouched *)
Theorem HandleChange_err_passthrough : forall v kind p fi m,
  SrcFns.Validator_HandleChange v kind p fi (Some m) = Some (v, Some m).
Proof. intros [l] kind p fi m. reflexivity. Qed.

(* one step: the translated method against the model's vstep, on every state satisfying the invariant *)
Theorem HandleChange_src_eq : forall v kind p fi, vinv (abs_state v) ->
  match SrcFns.Validator_HandleChange v kind p fi None with
  | None => False
  | Some (v', e) =>
    match vstep (abs_state v) (item_of kind p fi) with
    | Some stk' => e = None /\ abs_state v' = stk'
    | None => e <> None
    end
  end.
Proof.
  intros v kind p fi Hinv. rewrite generated_split, vstep_tail. cbn [vpath item_of].
  destruct (vsplit p) as [[d b]|]; [|discriminate].
  pose proof (tail_spec (norm (SrcFns.Validator_parentDirs v)) kind p fi d b (norm_nonempty _) Hinv) as H.
  destruct (hc_tail _ kind fi d b) as [[v' e]|]; [|exact H].
  unfold abs_state at 1. destruct (vtail _ _ d b) as [stk'|]; [|exact H].
  destruct H as [He [Hne Habs]]. split; [exact He|]. unfold abs_state. now rewrite norm_id.
Qed.

Definition good (s : list ventry) : Prop := R s /\ exists acc, Inv (map ce s) (map citem_of acc).

Lemma good_init : good vinit.
Proof. split; [repeat constructor|]. exists []. apply inv_init. Qed.

Lemma good_step : forall s it s', good s -> vstep s it = Some s' -> good s'.
Proof.
  intros s it s' [HR [acc HI]] Hs.
  destruct (ok_path (vpath it)) eqn:Hok.
  - pose proof (vstep_refines s it HR Hok) as Href. rewrite Hs in Href. destruct Href as [Hcv HR'].
    destruct (cvstep_sound _ _ _ _ HI (okitem_names it Hok) Hcv) as [_ HI'].
    split; [exact HR'|]. exists (acc ++ [it]). rewrite map_app. exact HI'.
  - unfold vstep in Hs. rewrite (vsplit_bad _ Hok) in Hs. discriminate.
Qed.

Definition Rl (a b : entry) : Prop := lex (fst b) (fst a) = Lt.

Lemma chain_sorted : forall cs, chain cs -> Sorted Rl cs.
Proof.
  induction 1 as [l|d l rest l' Hc IH Hl].
  - repeat constructor.
  - constructor; [exact IH|]. constructor. unfold Rl. cbn [fst]. apply lex_prefix_lt. discriminate.
Qed.

Lemma chain_bottom : forall cs, chain cs -> exists r l0, cs = r ++ [([], l0)].
Proof.
  induction 1 as [l|d l rest l' Hc IH Hl].
  - exists [], l. reflexivity.
  - destruct IH as [r [l0 E]]. exists ((d ++ [l], l') :: r), l0. rewrite E. reflexivity.
Qed.

Lemma pcomps_nil : forall p, pcomps p = [] -> p = [].
Proof. intros [|a p] H; [reflexivity|destruct (comps_nonempty _ H)]. Qed.

Lemma good_vinv : forall s, good s -> vinv s.
Proof.
  intros s [_ [acc HI]]. pose proof (inv_chain _ _ HI) as Hc. split.
  - assert (Hss : StronglySorted Rl (map ce s)).
    { apply Sorted_StronglySorted; [|apply chain_sorted; exact Hc].
      intros a b c Hab Hbc. unfold Rl in *. eapply lex_trans; eassumption. }
    clear Hc HI. unfold desc. induction s as [|e s IH]; [constructor|].
    cbn [map] in Hss. inversion Hss as [|? ? Hs' Hall]; subst. constructor; [apply IH; exact Hs'|].
    rewrite Forall_map in Hall. eapply Forall_impl; [|exact Hall].
    intros b Hb. unfold Rl, ce in Hb. cbn [fst] in Hb. rewrite compare_path_pcomps. exact Hb.
  - destruct (chain_bottom _ Hc) as [r [l0 E]].
    destruct (exists_last (l := s)) as [s0 [e Es]]; [intro E0; rewrite E0 in E; destruct r; discriminate|].
    rewrite Es, map_app in E. cbn [map] in E. apply app_inj_tail in E. destruct E as [_ E].
    unfold ce in E. injection E as E1 E2. apply pcomps_nil in E1.
    exists s0, (snd e). rewrite Es. destruct e as [d l]. cbn [fst snd] in *. now subst.
Qed.

(* the translated method folded over a sequence of changes: index of the first rejected change *)
Fixpoint run_go (v : SrcFns.Validator) (its : list vitem) (i : nat) : option (option nat) :=
  match its with
  | [] => Some None
  | it :: r =>
    match SrcFns.Validator_HandleChange v (Z.of_N (vkind it)) (vpath it) (fi_dir (visdir it)) None with
    | None => None                                  (* no result: out of fuel *)
    | Some (v', None) => run_go v' r (S i)
    | Some (_, Some _) => Some (Some i)
    end
  end.

Lemma item_of_it : forall it, item_of (Z.of_N (vkind it)) (vpath it) (fi_dir (visdir it)) = it.
Proof. intros [k p dflag]. unfold item_of. cbn. now rewrite N2Z.id. Qed.

Lemma run_go_gen : forall its v i, good (abs_state v) -> run_go v its i = Some (vrun (abs_state v) its i).
Proof.
  induction its as [|it r IH]; intros v i Hg; [reflexivity|]. cbn [run_go vrun].
  pose proof (HandleChange_src_eq v (Z.of_N (vkind it)) (vpath it) (fi_dir (visdir it)) (good_vinv _ Hg)) as H.
  rewrite item_of_it in H.
  destruct (SrcFns.Validator_HandleChange v _ _ _ None) as [[v' e]|]; [|contradiction].
  destruct (vstep (abs_state v) it) as [stk'|] eqn:Es.
  - destruct H as [-> Habs]. rewrite <- Habs. apply IH. rewrite Habs. eapply good_step; eassumption.
  - destruct e; [reflexivity|congruence].
Qed.

Theorem run_go_is_run_validator : forall its,
  run_go SrcFns.Validator_zero its 0 = Some (run_validator its).
Proof. intros its. apply (run_go_gen its SrcFns.Validator_zero 0). exact good_init. Qed.

(* C12's main theorem, for the translated code *)
Corollary translated_validator_accepts_iff_spec : forall its,
  run_go SrcFns.Validator_zero its 0 = Some (spec_first_bad its).
Proof. intros its. rewrite run_go_is_run_validator, validator_accepts_iff_spec_proof. reflexivity. Qed.
