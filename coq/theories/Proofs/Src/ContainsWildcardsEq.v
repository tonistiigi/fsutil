(* followlinks.go containsWildcards, as translated from /repo on this run (Linux: runtime.GOOS = "linux"),
   equals the hand model FollowLinks.contains_wildcards, and its loop never runs out of fuel. *)
From Coq Require Import List NArith ZArith Bool Lia.
From FS Require Import Sx Model.FollowLinks Src.Prims.
From FSGen Require SrcFns.
Import ListNotations.

(* s[i] and what follows it, for an index inside the string *)
Lemma skipn_idx : forall s i, (i < length s)%nat -> skipn i s = Prims.idx s (Z.of_nat i) :: skipn (S i) s.
Proof.
  intros s i H. unfold Prims.idx. destruct (Z.ltb_spec (Z.of_nat i) 0); [lia|]. rewrite Nat2Z.id.
  revert s H; induction i as [|i IH]; intros [|a s] H; cbn in *; try lia; [reflexivity|apply IH; lia].
Qed.

(* the loop at index i scans the suffix from i; after a trailing backslash i is one past the end *)
Lemma loop_spec : forall fuel s i, (fuel > length s - i)%nat ->
  match SrcFns.containsWildcards_loop1 fuel s false (Z.of_nat i) with
  | OutOfFuel => False
  | Ret r => r = true /\ contains_wildcards (skipn i s) = true
  | Done _ => contains_wildcards (skipn i s) = false
  end.
Proof.
  induction fuel as [|fuel IH]; intros s i Hf; [lia|]. cbn [SrcFns.containsWildcards_loop1]. unfold Prims.len.
  destruct (Z.ltb_spec (Z.of_nat i) (Z.of_nat (length s))) as [Hlt|Hge]; [|rewrite skipn_all2 by lia; reflexivity].
  rewrite (skipn_idx s i) by lia. cbn [contains_wildcards negb]. rewrite andb_true_r.
  replace (Z.of_nat i + 1)%Z with (Z.of_nat (S i)) by lia.
  destruct (N.eqb (Prims.idx s (Z.of_nat i)) 92).
  - replace (Z.of_nat (S i) + 1)%Z with (Z.of_nat (S (S i))) by lia.
    specialize (IH s (S (S i)) ltac:(lia)).
    destruct (Nat.lt_ge_cases (S i) (length s)).
    + rewrite (skipn_idx s (S i)) by lia. exact IH.
    + rewrite skipn_all2 in * by lia. exact IH.
  - destruct (_ || _); [split; reflexivity|]. apply IH. lia.
Qed.

Theorem containsWildcards_src_eq :
  forall s, SrcFns.containsWildcards s = Some (contains_wildcards s).
Proof.
  intros s. unfold SrcFns.containsWildcards.
  match goal with |- context [Prims.bytes_eqb Prims.runtime_GOOS ?w] =>
    change (Prims.bytes_eqb Prims.runtime_GOOS w) with false end.
  cbv zeta.
  pose proof (loop_spec (S (Z.to_nat (Prims.len s - 0))) s 0) as H. cbn [skipn] in H. unfold Prims.len in *.
  destruct (SrcFns.containsWildcards_loop1 _ s false _) as [|r|i].
  - destruct H. lia.
  - destruct H as [-> ->]; [lia|]. reflexivity.
  - rewrite H by lia. reflexivity.
Qed.
