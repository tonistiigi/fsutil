(* Bridges between the translator's trusted primitives (Src/Prims.v, self-contained) and the
   helper functions the hand models use for the same Go library calls.  Independent of gen/SrcFns.v. *)
From Coq Require Import List NArith ZArith Bool Lia.
From FS Require Import Sx Model.Path Model.Pattern Src.Prims Proofs.Lex Proofs.PatternP.
Import ListNotations.

Lemma bytes_eqb_bridge : forall a b, Prims.bytes_eqb a b = Sx.bytes_eqb a b.
Proof. reflexivity. Qed.

(* strings.HasPrefix(s, pre): the models' has_prefix takes the prefix first *)
Lemma has_prefix_bridge : forall pre s, Prims.strings_HasPrefix s pre = has_prefix pre s.
Proof. induction pre as [|a pre IH]; destruct s; cbn; try reflexivity; try now rewrite IH. Qed.

Lemma prims_has_prefix_iff : forall pre s, Prims.strings_HasPrefix s pre = true <-> exists r, s = pre ++ r.
Proof. intros. rewrite has_prefix_bridge. apply PathP.has_prefix_iff. Qed.

Lemma has_suffix_iff : forall suf s, Prims.strings_HasSuffix s suf = true <-> exists pre, s = pre ++ suf.
Proof.
  intros suf s. unfold Prims.strings_HasSuffix. rewrite prims_has_prefix_iff. split.
  - intros [r H]. exists (rev r). apply (f_equal (@rev N)) in H. rewrite rev_involutive, rev_app_distr, rev_involutive in H. exact H.
  - intros [pre H]. exists (rev pre). subst. now rewrite rev_app_distr.
Qed.

(* strings.TrimSuffix *)
Lemma trim_suffix_bridge : forall s suf, Prims.strings_TrimSuffix s suf = Pattern.trim_suffix s suf.
Proof.
  intros s suf. unfold Prims.strings_TrimSuffix, Pattern.trim_suffix.
  destruct (strip_suffix suf s) as [pre|] eqn:E.
  - apply strip_suffix_spec in E. subst s.
    replace (Prims.strings_HasSuffix (pre ++ suf) suf) with true by (symmetry; apply has_suffix_iff; now exists pre).
    rewrite app_length. replace (length pre + length suf - length suf)%nat with (length pre + 0)%nat by lia.
    rewrite firstn_app_2. cbn. now rewrite app_nil_r.
  - destruct (Prims.strings_HasSuffix s suf) eqn:H; [|reflexivity].
    apply has_suffix_iff in H. destruct H as [pre H].
    apply (proj1 (strip_suffix_none suf s)) with (pre := pre) in E. contradiction.
Qed.

(* filepath.Clean / Join, strings.Split with the separator *)
Lemma clean_comps_bridge : forall p, Prims.clean_comps p = comps p.
Proof. intros p. reflexivity. Qed.

Lemma clean_joinc_bridge : forall cs, Prims.clean_joinc cs = joinc cs.
Proof. intros cs. reflexivity. Qed.

Lemma clean_step_bridge : forall r stk c, Prims.clean_step r stk c = cstep r stk c.
Proof.
  intros r stk c. reflexivity.
Qed.

Lemma filepath_Clean_bridge : forall p, Prims.filepath_Clean p = clean p.
Proof. intros p. reflexivity. Qed.

Lemma has_prefix_nil : forall s, Prims.strings_HasPrefix s [] = true.
Proof. destruct s; reflexivity. Qed.

Lemma split_fuel_sep : forall n s, (length s <= n)%nat -> Prims.split_fuel n s [Prims.filepath_Separator] = comps s.
Proof.
  induction n as [|n IH]; intros s H.
  - destruct s; [reflexivity|cbn in H; lia].
  - destruct s as [|a s]; [reflexivity|]. cbn [Prims.split_fuel Prims.strings_HasPrefix comps length skipn].
    rewrite has_prefix_nil, andb_true_r. unfold Prims.filepath_Separator at 1. fold sep. rewrite N.eqb_sym.
    cbn [length] in H. destruct (N.eqb a sep).
    + rewrite IH by lia. reflexivity.
    + rewrite IH by lia. destruct (comps s); reflexivity.
Qed.

Lemma strings_Split_sep : forall s, Prims.strings_Split s [Prims.filepath_Separator] = comps s.
Proof. intros s. unfold Prims.strings_Split. apply split_fuel_sep. lia. Qed.

Definition nonempty_b (e : list N) : bool := match e with [] => false | _ => true end.

Lemma filepath_Join_nonempty : forall l, forallb nonempty_b l = true ->
  Prims.filepath_Join l = match l with [] => [] | _ => clean (joinc l) end.
Proof.
  intros l H. unfold Prims.filepath_Join.
  replace (filter (fun e => match e with [] => false | _ => true end) l) with l.
  - destruct l; [reflexivity|]. rewrite filepath_Clean_bridge, clean_joinc_bridge. reflexivity.
  - induction l as [|e l IH]; [reflexivity|]. cbn [forallb] in H. apply andb_true_iff in H. destruct H as [He Hl].
    cbn [filter]. destruct e; [discriminate|]. rewrite <- IH by exact Hl. reflexivity.
Qed.
