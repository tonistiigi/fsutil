(* fs.go: the ModTime method of StatInfo, as translated from /repo on this run — the pair (sec, nsec)
   handed to time.Unix, computed with Go's truncating / and % on the signed int64 — denotes exactly the
   instant Stat.ModTime nanoseconds after the epoch, which is what Model/TarHdr.v (h_mtime, round_ns)
   and the C05 notification model take a FileInfo's time to be.  Moreover nsec is a proper remainder
   (|nsec| < 1e9, sign of the dividend), for every int64. *)
From Coq Require Import NArith ZArith Lia.
From FS Require Import Model.Stat Model.TarHdr Src.Prims.
From FSGen Require SrcFns.

Lemma sint64_is_sint : forall n, (n < 18446744073709551616)%N -> Prims.sint64 n = sint n.
Proof.
  intros n H. unfold Prims.sint64, Prims.u_to_int, Prims.wrap, sint, two63, two64.
  change (2 ^ 64)%N with 18446744073709551616%N. rewrite N.mod_small by exact H.
  destruct (N.ltb_spec n 9223372036854775808); destruct (Z.ltb_spec (Z.of_N n) 9223372036854775808); lia.
Qed.

Lemma sint64_range : forall n, (- 9223372036854775808 <= Prims.sint64 n < 9223372036854775808)%Z.
Proof.
  intros n. unfold Prims.sint64, Prims.u_to_int, Prims.wrap. change (2 ^ 64)%N with 18446744073709551616%N.
  pose proof (N.mod_upper_bound n 18446744073709551616 ltac:(discriminate)) as H.
  set (r := (n mod 18446744073709551616)%N) in *.
  destruct (Z.ltb_spec (Z.of_N r) 9223372036854775808); lia.
Qed.

Lemma sint64_of_sint64 : forall z, (- 9223372036854775808 <= z < 9223372036854775808)%Z ->
  Prims.sint64 (Prims.of_sint64 z) = z.
Proof.
  intros z H. unfold Prims.sint64, Prims.u_to_int, Prims.of_sint64, Prims.wrap.
  change (2 ^ 64)%N with 18446744073709551616%N.
  (* z mod 2^64 is z or z + 2^64 *)
  pose proof (Z.mod_pos_bound z 18446744073709551616 ltac:(lia)).
  pose proof (Z.div_mod z 18446744073709551616 ltac:(lia)).
  rewrite N.mod_small, Z2N.id by lia.
  destruct (Z.ltb_spec (z mod 18446744073709551616) 9223372036854775808); lia.
Qed.

Theorem StatInfo_ModTime_src_eq : forall s,
  let t := SrcFns.StatInfo_ModTime s in
  let m := Prims.sint64 (st_mtime (SrcFns.StatInfo_Stat s)) in
  Prims.time_ns t = m /\
  (Z.abs (Prims.sint64 (snd t)) < 1000000000)%Z /\ (0 <= Prims.sint64 (snd t) * m)%Z.
Proof.
  intros s t m. unfold t, SrcFns.StatInfo_ModTime, Prims.time_Unix, Prims.time_ns, Prims.i64_quot, Prims.i64_rem.
  cbn [fst snd]. fold m.
  change (Prims.sint64 1000000000) with 1000000000%Z.
  pose proof (sint64_range (st_mtime (SrcFns.StatInfo_Stat s))) as Hr. fold m in Hr.
  pose proof (Z.quot_rem' m 1000000000) as Hqr.
  pose proof (Z.rem_bound_abs m 1000000000) as Hb.
  assert (Hrem : (Z.abs (Z.rem m 1000000000) < 1000000000)%Z).
  { specialize (Hb ltac:(lia)). lia. }
  assert (Hsign : (0 <= Z.rem m 1000000000 * m)%Z) by (apply Z.rem_sign_mul; lia).
  assert (Hq : (Z.abs (Z.quot m 1000000000) <= Z.abs m)%Z).
  { rewrite <- Z.quot_abs by lia. apply Z.quot_le_upper_bound; lia. }
  rewrite !sint64_of_sint64 by lia. repeat split; lia.
Qed.

(* the same, in the vocabulary of Model/TarHdr.v, for a field value as it travels (below 2^64) *)
Corollary StatInfo_ModTime_is_model_instant : forall s,
  (st_mtime (SrcFns.StatInfo_Stat s) < 18446744073709551616)%N ->
  Prims.time_ns (SrcFns.StatInfo_ModTime s) = sint (st_mtime (SrcFns.StatInfo_Stat s)).
Proof.
  intros s H. rewrite <- sint64_is_sint by exact H. apply (StatInfo_ModTime_src_eq s).
Qed.
