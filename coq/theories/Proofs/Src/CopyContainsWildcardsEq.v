(* copy/copy.go containsWildcards (a separate copy of the followlinks.go function), as translated from /repo on
   this run (Linux: runtime.GOOS = "linux"): its loop never runs out of fuel and, for ALL inputs, it computes
   the copy model's escape-aware has_wild_e (a byte after a backslash is skipped); on backslash-free inputs that is
   the escape-free has_wild (corollary, through CopyWildP.has_wild_e_plain). *)
From Coq Require Import List NArith ZArith Bool Lia.
From FS Require Import Sx Model.FollowLinks Src.Prims.
From FS Require Model.Copier Proofs.Src.ContainsWildcardsEq.
From FSGen Require SrcFns.
Import ListNotations.

(* the two Go functions have the same text, so their translations are convertible *)
Lemma copy_containsWildcards_scan :
  forall s, SrcFns.copy_containsWildcards s = Some (contains_wildcards s).
Proof. exact ContainsWildcardsEq.containsWildcards_src_eq. Qed.

(* the escape-aware scan of the copy model is that same function *)
Lemma scan_is_has_wild_e : forall c, contains_wildcards c = Copier.has_wild_e c.
Proof.
  (* a backslash skips two bytes: carry the claim for the tail along *)
  enough (H : forall c, contains_wildcards c = Copier.has_wild_e c /\
                        contains_wildcards (tl c) = Copier.has_wild_e (tl c)) by apply H.
  induction c as [|x c [IH1 IH2]]; [split; reflexivity|]. split; [|exact IH1].
  cbn [contains_wildcards Copier.has_wild_e]. rewrite IH1.
  unfold Copier.ch_bsl, Copier.ch_star, Copier.ch_qm, Copier.ch_lbr.
  destruct (N.eqb x 92); [destruct c; [reflexivity|exact IH2]|].
  destruct (N.eqb x 42 || N.eqb x 63 || N.eqb x 91); reflexivity.
Qed.

(* for ALL inputs: the copy model's escape-aware has_wild_e *)
Theorem copy_containsWildcards_src_eq :
  forall c, SrcFns.copy_containsWildcards c = Some (Copier.has_wild_e c).
Proof. intros c. rewrite copy_containsWildcards_scan, scan_is_has_wild_e. reflexivity. Qed.

(* on backslash-free input that is the escape-free has_wild *)
From FS Require Proofs.CopyWildP.
Corollary copy_containsWildcards_backslash_free :
  forall c, existsb (N.eqb Copier.ch_bsl) c = false ->
    SrcFns.copy_containsWildcards c = Some (Copier.has_wild c).
Proof. intros c H. rewrite copy_containsWildcards_src_eq, (CopyWildP.has_wild_e_plain c H). reflexivity. Qed.
