(* diff_containerd.go pathChange, as translated from /repo on this run (nil pointers = None; the
   ChangeKind iota constants read from the source; the call of ComparePath through its own translation),
   is the case distinction of the merge step of the hand model Diff.diff_loop:
     only upper -> add upper; only lower -> delete lower; both -> by compare_path: Lt delete lower,
     Gt add upper, Eq modify upper;  both nil -> panic (no result), which diff_loop never asks for.
   [diff_loop_step] restates the model's loop through that case distinction. *)
From Coq Require Import List NArith ZArith Bool Lia.
From FS Require Import Sx Model.Path Model.Stat Model.Diff Src.Prims.
From FS Require Proofs.Src.ComparePathEq.
From FSGen Require SrcFns.
Import ListNotations.

Definition kind_code (k : ckind) : Z := match k with KAdd => 0 | KModify => 1 | KDelete => 2 end.

Definition merge_step (pa pb : option bytes) : option (ckind * bytes) :=
  match pa, pb with
  | None, None => None
  | None, Some b => Some (KAdd, b)
  | Some a, None => Some (KDelete, a)
  | Some a, Some b =>
    Some (match compare_path a b with Lt => (KDelete, a) | Gt => (KAdd, b) | Eq => (KModify, b) end)
  end.

Theorem pathChange_src_eq : forall lo up,
  SrcFns.pathChange lo up =
  option_map (fun kp => (kind_code (fst kp), snd kp))
             (merge_step (option_map SrcFns.currentPath_path lo) (option_map SrcFns.currentPath_path up)).
Proof.
  intros [lo|] [up|]; cbn [SrcFns.pathChange option_map merge_step]; try reflexivity.
  destruct (ComparePathEq.ComparePath_src_some (SrcFns.currentPath_path lo) (SrcFns.currentPath_path up)) as (i & -> & ->).
  unfold ComparePathEq.sign.
  destruct (Z.compare_spec i 0) as [E|E|E]; cbn [fst snd kind_code].
  - subst. reflexivity.
  - destruct (Z.ltb_spec i 0); [reflexivity|lia].
  - destruct (Z.ltb_spec i 0); [lia|]. destruct (Z.ltb_spec 0 i); [reflexivity|lia].
Qed.

(* the same statement with the case distinction written out *)
Corollary pathChange_src_eq_cases : forall lo up,
  SrcFns.pathChange lo up =
  match option_map SrcFns.currentPath_path lo, option_map SrcFns.currentPath_path up with
  | None, None => None
  | None, Some b => Some (kind_code KAdd, b)
  | Some a, None => Some (kind_code KDelete, a)
  | Some a, Some b =>
    Some (match compare_path a b with
          | Lt => (kind_code KDelete, a)
          | Gt => (kind_code KAdd, b)
          | Eq => (kind_code KModify, b)
          end)
  end.
Proof.
  intros lo up. rewrite pathChange_src_eq.
  destruct lo, up; cbn; try reflexivity. destruct (compare_path _ _); reflexivity.
Qed.

(* the model's merge loop, read through the same case distinction on the heads of the two listings *)
Lemma diff_loop_step : forall flt d f rm A B,
  diff_loop flt d (S f) rm A B =
  match merge_step (option_map st_path (hd_error A)) (option_map st_path (hd_error B)), A, B with
  | None, _, _ => Some []
  | Some (KAdd, _), _, b :: B' => let '(o, r) := step_add b in emit o (diff_loop flt d f r A B')
  | Some (KDelete, _), a :: A', _ => let '(o, r) := step_del rm a in emit o (diff_loop flt d f r A' B)
  | Some (KModify, _), a :: A', b :: B' => let '(o, r) := step_mod flt d a b in emit o (diff_loop flt d f r A' B')
  | _, _, _ => Some []
  end.
Proof.
  intros flt d f rm [|a A] [|b B]; cbn [diff_loop hd_error option_map merge_step]; try reflexivity.
  destruct (compare_path (st_path a) (st_path b)); reflexivity.
Qed.
