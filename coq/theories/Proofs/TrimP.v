(* C11 — the walk WITH the two SkipDir shortcuts (any pattern list, no hypothesis on the external
   matcher) is the walk WITHOUT shortcuts of the view from which the pruned directories have been
   removed (with everything below them).  The prune decision is a function of the path
   ([prune_at]) because the MatchInfo handed down the stack is (RefP.info_ok).  Hence the
   filtered walk is C10's reference filter of a trimmed view — which is again a well-formed
   source and a sub-sequence of the original walk. *)
From Coq Require Import List NArith Bool Sorting.Sorted.
From FS Require Import Sx Model.Path Model.Stat Model.Tree Model.Pattern Model.FilterWalk
  Model.SenderView
  Proofs.Lex Proofs.PathP Proofs.PatternP Proofs.FilterP Proofs.PruneP Proofs.RefP Proofs.NaiveRefP
  Proofs.FlatRefP Proofs.RefValidP.
Import ListNotations.
Open Scope bool_scope.

Section Trim.
Variable pmatch : bytes -> bytes -> bool.
Variable mapfn : bytes -> stat -> mres * stat.
Variable c : cfg.
Notation c' := (no_prune c).

Definition chain_inc (p : bytes) : bool * list bool :=
  match c_inc c with Some pats => incr_chain pmatch pats (pcomps p) | None => (true, []) end.
Definition chain_exc (p : bytes) : bool * list bool :=
  match c_exc c with Some pats => incr_chain pmatch pats (pcomps p) | None => (false, []) end.
(* one of the two shortcuts fires at the directory p *)
Definition prune_at (p : bytes) : bool :=
  prune_inc c p true (fst (chain_inc p)) || prune_exc c p true (fst (chain_exc p)).

Fixpoint trim_node (dir : bytes) (n : node) {struct n} : list node :=
  match n with
  | Node name st ct kids =>
    let p := child_path dir name in
    if st_is_dir st && prune_at p then [] else [Node name st ct (flat_map (trim_node p) kids)]
  end.
Definition trim (view : list node) : list node := flat_map (trim_node []) view.

(* the MatchInfos on the stack are never touched *)
Definition infos (A : list vdir) : list (list bool * list bool) := map (fun v => (vd_inc v, vd_exc v)) A.

Lemma core_infos c0 pd1 p st isd : infos (r_stack (cb_core pmatch mapfn c0 pd1 p st isd)) = infos pd1.
Proof. apply core_stack_map; reflexivity. Qed.

Lemma infos_tl A B : infos A = infos B -> infos (tl A) = infos (tl B).
Proof. destruct A, B; try discriminate; [reflexivity|]. intros [= _ _ H]. exact H. Qed.

Lemma sw_infos_forest c0 l : Forall (fun n => forall A dir, infos (fst (fst (sw_node pmatch mapfn c0 A dir n))) = infos A) l ->
  forall A dir, infos (fst (sw_forest pmatch mapfn c0 A dir l)) = infos A.
Proof.
  induction l as [|k r IH]; intros HF A dir; [reflexivity|].
  inversion HF as [|? ? Hk Hr]; subst. cbn [sw_forest].
  specialize (Hk A dir). destruct (sw_node pmatch mapfn c0 A dir k) as [[a' e] cut]. cbn [fst] in Hk.
  destruct cut; [exact Hk|].
  specialize (IH Hr a' dir). destruct (sw_forest pmatch mapfn c0 a' dir r) as [a'' e']. cbn [fst] in *. congruence.
Qed.

Lemma sw_infos_node c0 : forall n A dir, infos (fst (fst (sw_node pmatch mapfn c0 A dir n))) = infos A.
Proof.
  induction n as [name st ct kids IH] using node_ind2. intros A dir.
  rewrite sw_node_eq. cbv zeta. set (p := child_path dir name). set (st' := set_path st p).
  pose proof (core_infos c0 A p st' (st_is_dir st)) as Hc.
  destruct (r_skip _); [exact Hc|]. destruct (st_is_dir st); [|exact Hc].
  pose proof (sw_infos_forest c0 kids IH (pushed (cb_core pmatch mapfn c0 A p st' true)) p) as Hf.
  destruct (sw_forest pmatch mapfn c0 _ p kids) as [a2 em2]. cbn [fst] in *.
  unfold pushed in Hf. destruct (r_push _) as [d|].
  - apply infos_tl in Hf. cbn [tl] in Hf. congruence.
  - congruence.
Qed.

Lemma info_ok_infos dir A B : infos A = infos B -> info_ok pmatch c dir A -> info_ok pmatch c dir B.
Proof.
  unfold info_ok. destruct A, B; try discriminate; [auto|]. intros [= E1 E2 _]. cbn [top_inc top_exc].
  rewrite E1, E2. auto.
Qed.

(* the prune decision is a function of the path *)
Lemma pruned_prune_at dir A name isd : info_ok pmatch c dir A -> name <> [] -> nosep name ->
  pruned pmatch c A (child_path dir name) isd = isd && prune_at (child_path dir name).
Proof.
  intros Hi Hne Hns. unfold pruned, prune_at, chain_inc, chain_exc.
  rewrite (eval_inc_chain pmatch c dir A name Hi Hne Hns), (eval_exc_chain pmatch c dir A name Hi Hne Hns).
  unfold chain_at, prune_inc, prune_exc.
  destruct (c_inc c), (c_exc c), isd; rewrite ?andb_false_r; cbn [andb orb]; reflexivity.
Qed.

Definition trim_ok (n : node) : Prop := forall A dir, info_ok pmatch c dir A ->
  sw_node pmatch mapfn c A dir n =
  match trim_node dir n with [] => (A, [], false) | n' :: _ => sw_node pmatch mapfn c' A dir n' end.

Lemma trim_node_eq dir name st ct kids :
  trim_node dir (Node name st ct kids) =
  if st_is_dir st && prune_at (child_path dir name) then []
  else [Node name st ct (flat_map (trim_node (child_path dir name)) kids)].
Proof. reflexivity. Qed.

Lemma trim_node_cases dir n : trim_node dir n = [] \/ exists n', trim_node dir n = [n'].
Proof. destruct n as [name st ct kids]. rewrite trim_node_eq. destruct (_ && _); eauto. Qed.

Lemma trim_sw_forest l : Forall trim_ok l -> forall A dir, info_ok pmatch c dir A ->
  sw_forest pmatch mapfn c A dir l = sw_forest pmatch mapfn c' A dir (flat_map (trim_node dir) l).
Proof.
  induction 1 as [|k r Hk _ IH]; intros A dir Hi; [reflexivity|].
  cbn [sw_forest flat_map]. pose proof (sw_infos_node c k A dir) as Hinf.
  rewrite (Hk A dir Hi) in Hinf |- *.
  destruct (trim_node_cases dir k) as [E|(k' & E)]; rewrite E in *.
  - cbn [app]. rewrite (IH A dir Hi).
    destruct (sw_forest pmatch mapfn c' A dir (flat_map (trim_node dir) r)) as [a'' e']. reflexivity.
  - cbn [app sw_forest]. destruct (sw_node pmatch mapfn c' A dir k') as [[a' e] cut]. cbn [fst] in Hinf.
    destruct cut; [reflexivity|].
    rewrite (IH a' dir); [reflexivity|]. eapply info_ok_infos; [symmetry; exact Hinf|exact Hi].
Qed.

Lemma trim_ok_all : forall n, wf_node n = true -> trim_ok n.
Proof.
  apply wf_node_ind. intros name st ct kids Hne Hns _ IH A dir Hi.
  rewrite trim_node_eq. set (p := child_path dir name).
  pose proof (pruned_prune_at dir A name (st_is_dir st) Hi Hne Hns) as Hpr. fold p in Hpr.
  rewrite <- Hpr. rewrite sw_node_eq. cbv zeta. fold p. set (st' := set_path st p).
  destruct (pruned pmatch c A p (st_is_dir st)) eqn:Ep.
  - pose proof (pruned_isdir _ _ _ _ _ Ep) as Hd. rewrite (core_pruned pmatch mapfn c) by auto.
    cbn [r_skip r_stack r_em]. rewrite Hd. reflexivity.
  - rewrite sw_node_eq. cbv zeta. fold p. fold st'.
    rewrite (core_np_eq pmatch mapfn c A p st' (st_is_dir st) Ep).
    destruct (r_skip _) eqn:Esk; [reflexivity|]. destruct (st_is_dir st) eqn:Ed; [|reflexivity].
    assert (Hpush : info_ok pmatch c p (pushed (cb_core pmatch mapfn c A p st' true))).
    { unfold pushed. rewrite core_push_of, Ep. unfold push_of. cbn [andb].
      destruct (use_match c) eqn:Eu.
      - apply info_ok_push; auto.
      - apply info_ok_nomatch; auto. }
    rewrite (trim_sw_forest kids IH _ p Hpush). reflexivity.
Qed.

Lemma trim_sw_walk view : FilterWalk.wf_view view = true ->
  sw_walk pmatch mapfn c view = sw_walk pmatch mapfn c' (trim view).
Proof.
  intros Hwf. unfold sw_walk, trim.
  rewrite (trim_sw_forest view (Forall_wf _ _ trim_ok_all Hwf) [] [] (info_ok_root pmatch c)). reflexivity.
Qed.

(* the trimmed view: a well-formed source, a sub-sequence of the walk *)
Lemma walk_forest_app dir a b : walk_forest dir (a ++ b) = walk_forest dir a ++ walk_forest dir b.
Proof. rewrite !walk_forest_flat_map. apply flat_map_app. Qed.

Lemma trim_walk_forest kids : Forall (fun n => forall dir, rsub eq (walk_forest dir (trim_node dir n)) (walk_node dir n)) kids ->
  forall p, rsub eq (walk_forest p (flat_map (trim_node p) kids)) (walk_forest p kids).
Proof.
  induction kids as [|k r IH]; intros HF p; [constructor|].
  inversion HF as [|? ? Hk Hr]; subst. cbn [flat_map walk_forest]. rewrite walk_forest_app.
  apply rsub_app; auto.
Qed.

Lemma trim_walk_node : forall n dir, rsub eq (walk_forest dir (trim_node dir n)) (walk_node dir n).
Proof.
  induction n as [name st ct kids IH] using node_ind2. intros dir.
  rewrite trim_node_eq. destruct (_ && _); [apply rsub_nil_l|].
  cbn [walk_forest]. rewrite app_nil_r, !walk_node_eq.
  apply rs_keep; [reflexivity|]. apply trim_walk_forest; auto.
Qed.

Lemma trim_walk_root view : rsub eq (walk_root (trim view)) (walk_root view).
Proof.
  unfold walk_root, trim. apply trim_walk_forest. apply Forall_all, trim_walk_node.
Qed.

Lemma trim_names kids p : rsub eq (map node_name (flat_map (trim_node p) kids)) (map node_name kids).
Proof.
  induction kids as [|k r IH]; [constructor|]. cbn [flat_map map]. rewrite map_app.
  change (node_name k :: map node_name r) with ([node_name k] ++ map node_name r).
  apply rsub_app; auto. destruct k as [name st ct kk]. rewrite trim_node_eq.
  destruct (_ && _); cbn [map node_name]; [apply rs_skip; constructor|apply rs_keep; [reflexivity|constructor]].
Qed.

Lemma trim_sorted_names kids p : sorted_names (map node_name kids) = true ->
  sorted_names (map node_name (flat_map (trim_node p) kids)) = true.
Proof.
  intros H. apply sorted_names_iff. apply sorted_names_iff in H.
  rewrite <- (map_id (map node_name (flat_map (trim_node p) kids))). rewrite <- map_id in H.
  exact (rsub_sorted eq _ _ _ _ _ (fun x y E => E) (trim_names kids p) H).
Qed.

Lemma trim_wf_forest kids : Forall (fun n => forall dir, forallb wf_source_node (trim_node dir n) = true) kids ->
  forall p, forallb wf_source_node (flat_map (trim_node p) kids) = true.
Proof.
  induction 1 as [|k r Hk _ IH]; intros p; [reflexivity|].
  cbn [flat_map]. rewrite forallb_app, (Hk p), (IH p). reflexivity.
Qed.

Lemma trim_wf_node : forall n, wf_source_node n = true -> forall dir, forallb wf_source_node (trim_node dir n) = true.
Proof.
  refine (wf_source_ind _ _). intros name st ct kids Hn Hdk Hs _ IH dir.
  rewrite trim_node_eq. destruct (_ && _); [reflexivity|].
  cbn [forallb wf_source_node]. rewrite Hn, (trim_sorted_names kids _ Hs), (trim_wf_forest kids IH).
  destruct Hdk as [Hd|Hd]; [rewrite Hd; reflexivity|].
  subst kids. cbn [flat_map is_nil]. rewrite orb_true_r. reflexivity.
Qed.

Lemma trim_wf_source view : wf_source view = true -> wf_source (trim view) = true.
Proof.
  unfold wf_source, trim. intros H. apply andb_true_iff in H. destruct H as [Hs Hk].
  rewrite (trim_sorted_names view [] Hs). cbn [andb]. apply trim_wf_forest, (Forall_wf _ _ trim_wf_node Hk).
Qed.

Theorem filter_walk_trim_reference view : wf_source view = true ->
  filter_walk pmatch mapfn c view = reference (keep_incr pmatch c) mapfn (trim view).
Proof.
  intros Hwf. pose proof (trim_wf_source view Hwf) as Hwt.
  rewrite (filter_walk_structural pmatch mapfn c view) by (apply wf_source_wf_view; auto).
  rewrite trim_sw_walk by (apply wf_source_wf_view; auto).
  rewrite <- (filter_walk_structural pmatch mapfn c' (trim view)) by (apply wf_source_wf_view; auto).
  apply filter_walk_reference_proof. apply wf_source_wf_view; auto.
Qed.

End Trim.
