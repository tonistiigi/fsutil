(* Proofs about decoding arbitrary bytes: every step consumes a non-empty prefix of its input
   and returns a suffix, the fuel of the loops is never the reason for an error, and — when
   no map entry overruns — what is decoded is no larger than the input. *)
From Coq Require Import List NArith ZArith Bool Lia ZifyN ZifyNat ZifyBool.
From FS Require Import Sx Model.Path Model.Stat Model.Varint Model.Codec Model.CodecBound
  Proofs.VarintP Proofs.CodecP.
Import ListNotations.
Open Scope N_scope.

Definition psuffix (r l : bytes) : Prop := exists p, p <> [] /\ l = p ++ r.
Definition suffix (r l : bytes) : Prop := exists p, l = p ++ r.

Lemma psuffix_suffix r l : psuffix r l -> suffix r l.
Proof. intros (p & _ & E). exists p. exact E. Qed.
Lemma suffix_refl l : suffix l l.
Proof. exists []. reflexivity. Qed.
Lemma suffix_trans a b c : suffix a b -> suffix b c -> suffix a c.
Proof. intros (p & ->) (q & ->). exists (q ++ p). rewrite app_assoc. reflexivity. Qed.
Lemma psuffix_suffix_trans a b c : suffix a b -> psuffix b c -> psuffix a c.
Proof.
  intros (p & ->) (q & Hq & ->). exists (q ++ p). split; [|rewrite app_assoc; reflexivity].
  destruct q; [congruence|discriminate].
Qed.
Lemma suffix_len r l : suffix r l -> len r <= len l.
Proof. intros (p & ->). rewrite len_app. lia. Qed.
Lemma psuffix_len r l : psuffix r l -> len r < len l.
Proof. intros (p & Hp & ->). rewrite len_app. destruct p; [congruence|]. rewrite len_cons. lia. Qed.
Lemma psuffix_length r l : psuffix r l -> (length r < length l)%nat.
Proof. intros H. apply psuffix_len in H. rewrite !len_length in H. lia. Qed.

Lemma get_varint_psuffix l v r : get_varint l = Some (v, r) -> psuffix r l.
Proof. apply get_varint_consumes. Qed.

Lemma take_n_spec n l a r : take_n n l = Some (a, r) -> l = a ++ r /\ len a = n.
Proof.
  unfold take_n. destruct (N.leb_spec n (len l)) as [H|H]; [|discriminate].
  intros E. inversion E; subst. split; [symmetry; apply firstn_skipn|].
  rewrite len_length, firstn_length. rewrite len_length in H. lia.
Qed.

Lemma take_n_suffix n l a r : take_n n l = Some (a, r) -> suffix r l.
Proof. intros H. exists a. apply (take_n_spec _ _ _ _ H). Qed.

Lemma get_bytes_spec l b r : get_bytes l = Some (b, r) -> exists p, p <> [] /\ l = p ++ b ++ r.
Proof.
  unfold get_bytes. destruct (get_varint l) as [[n r0]|] eqn:E; [|discriminate].
  intros H. apply take_n_spec in H. destruct H as [-> _].
  apply get_varint_psuffix in E. exact E.
Qed.
Lemma get_bytes_psuffix l b r : get_bytes l = Some (b, r) -> psuffix r l.
Proof.
  intros H. destruct (get_bytes_spec l b r H) as (p & Hp & ->).
  exists (p ++ b). split; [destruct p; [congruence|discriminate]|rewrite app_assoc; reflexivity].
Qed.
Lemma get_bytes_len l b r : get_bytes l = Some (b, r) -> len b + len r < len l.
Proof.
  intros H. destruct (get_bytes_spec l b r H) as (p & Hp & ->).
  rewrite !len_app. destruct p; [congruence|]. rewrite len_cons. lia.
Qed.

Lemma get_tag_psuffix l fn wt r : get_tag l = Some (fn, wt, r) -> psuffix r l.
Proof.
  unfold get_tag. destruct (get_varint l) as [[w r0]|] eqn:E; [|discriminate].
  intros H. inversion H; subst. eapply get_varint_psuffix; eauto.
Qed.

(* one record of Skip's loop: the rest and the new group depth *)
Definition skip_step (w : N) (depth : nat) (r : bytes) : option (bytes * nat) :=
  match w mod 8 with
  | 0 => match get_varint r with Some (_, r') => Some (r', depth) | None => None end
  | 1 => match take_n 8 r with Some (_, r') => Some (r', depth) | None => None end
  | 2 => match get_bytes r with Some (_, r') => Some (r', depth) | None => None end
  | 3 => Some (r, S depth)
  | 4 => match depth with O => None | S d => Some (r, d) end
  | 5 => match take_n 4 r with Some (_, r') => Some (r', depth) | None => None end
  | _ => None
  end.

Lemma skip_loop_S f d x l :
  skip_loop (S f) d (x :: l) =
  match get_varint (x :: l) with
  | None => None
  | Some (w, r) =>
    match skip_step w d r with
    | None => None
    | Some (r', O) => Some r'
    | Some (r', S d') => skip_loop f (S d') r'
    end
  end.
Proof. reflexivity. Qed.

Lemma skip_step_suffix w d r r' d' : skip_step w d r = Some (r', d') -> suffix r' r.
Proof.
  unfold skip_step. intros H.
  destruct (w mod 8) as [|p]; [|do 3 (try destruct p as [p|p|])]; cbv iota beta in H; try discriminate H;
  first
  [ injection H as <- _; apply suffix_refl
  | destruct d; [discriminate|]; injection H as <- _; apply suffix_refl
  | destruct (get_varint r) as [[? r1]|] eqn:E; [|discriminate]; injection H as <- _;
    apply psuffix_suffix, (get_varint_psuffix _ _ _ E)
  | destruct (get_bytes r) as [[? r1]|] eqn:E; [|discriminate]; injection H as <- _;
    apply psuffix_suffix, (get_bytes_psuffix _ _ _ E)
  | destruct (take_n _ r) as [[? r1]|] eqn:E; [|discriminate]; injection H as <- _;
    apply (take_n_suffix _ _ _ _ E) ].
Qed.

Lemma skip_loop_psuffix f : forall d l r, skip_loop f d l = Some r -> psuffix r l.
Proof.
  induction f; intros d l r H; [discriminate|]. destruct l as [|x l']; [discriminate|].
  rewrite skip_loop_S in H.
  destruct (get_varint (x :: l')) as [[w r0]|] eqn:Ev; [|discriminate]. apply get_varint_psuffix in Ev.
  destruct (skip_step w d r0) as [[r' [|d']]|] eqn:Es; [| |discriminate]; apply skip_step_suffix in Es.
  - injection H as <-. exact (psuffix_suffix_trans _ _ _ Es Ev).
  - apply IHf in H. eapply psuffix_suffix_trans; [|exact Ev].
    eapply suffix_trans; [apply psuffix_suffix, H|exact Es].
Qed.
Lemma skip_psuffix l r : skip l = Some r -> psuffix r l.
Proof. apply skip_loop_psuffix. Qed.

Lemma firstn_consumed (p r : bytes) : firstn (length (p ++ r) - length r) (p ++ r) = p.
Proof.
  rewrite app_length. replace (length p + length r - length r)%nat with (length p) by lia.
  rewrite firstn_app, Nat.sub_diag, firstn_all. cbn [firstn]. apply app_nil_r.
Qed.

Lemma unknown_field_spec {F} l (mk : bytes -> F) x r :
  unknown_field l mk = Some (x, r) -> exists raw, x = mk raw /\ raw <> [] /\ l = raw ++ r.
Proof.
  unfold unknown_field. destruct (skip l) as [r'|] eqn:E; [|discriminate].
  intros H. inversion H; subst. apply skip_psuffix in E. destruct E as (p & Hp & ->).
  exists p. rewrite firstn_consumed. auto.
Qed.

Lemma dec_entry_end f : forall stop cur k v k' v',
  dec_entry f stop cur k v = Some (k', v') ->
  exists e, entry_end f stop cur = Some e /\ suffix e cur /\
            len k' + len v' + len e <= len k + len v + len cur.
Proof.
  induction f; intros stop cur k v k' v' H; cbn [dec_entry] in H; cbn [entry_end].
  - destruct (len cur <=? stop); [|discriminate]. inversion H; subst.
    exists cur. split; [reflexivity|]. split; [apply suffix_refl|lia].
  - destruct (len cur <=? stop).
    { inversion H; subst. exists cur. split; [reflexivity|]. split; [apply suffix_refl|lia]. }
    destruct (get_tag cur) as [[[fn wt] r]|] eqn:Et; [|discriminate].
    pose proof (get_tag_psuffix _ _ _ _ Et) as Hr. pose proof (psuffix_len _ _ Hr) as Hrl.
    destruct (fn =? 1); [|destruct (fn =? 2)].
    1,2: destruct (get_bytes r) as [[b1 r1]|] eqn:Eb; [|discriminate];
      pose proof (get_bytes_len _ _ _ Eb); pose proof (get_bytes_psuffix _ _ _ Eb) as Hs1;
      destruct (IHf _ _ _ _ _ _ H) as (e & He & Hsuf & Hle); exists e; split; [exact He|];
      split; [|lia];
      eapply suffix_trans; [exact Hsuf|]; eapply suffix_trans; apply psuffix_suffix; eauto.
    destruct (skip cur) as [r1|] eqn:Es; [|discriminate].
    destruct (len r1 <? stop); [discriminate|].
    pose proof (skip_psuffix _ _ Es) as Hs1. pose proof (psuffix_len _ _ Hs1).
    destruct (IHf _ _ _ _ _ _ H) as (e & He & Hsuf & Hle). exists e. split; [exact He|].
    split; [|lia]. eapply suffix_trans; [exact Hsuf|apply psuffix_suffix; exact Hs1].
Qed.

(* field 10: the rest is a proper suffix; the entry's key and value fit into what followed
   the length prefix, and into the entry itself when it is contained *)
Lemma xattr_field_spec wt r f rest :
  xattr_field wt r = Some (f, rest) ->
  psuffix rest r /\
  exists k v, f = SF_xattr k v /\ len k + len v < len r /\
              (xattr_contained r = true -> len k + len v + len rest < len r).
Proof.
  unfold xattr_field, xattr_contained. destruct (wt =? 2); [|discriminate].
  destruct (get_varint r) as [[n r1]|] eqn:Ev; [|discriminate].
  pose proof (get_varint_psuffix _ _ _ Ev) as Hr1. pose proof (psuffix_len _ _ Hr1) as Hl1.
  destruct (N.leb_spec n (len r1)) as [Hn|Hn]; [|discriminate].
  destruct (dec_entry (length r1) (len r1 - n) r1 [] []) as [[k v]|] eqn:Ed; [|discriminate].
  intros H. inversion H; subst. clear H.
  destruct (dec_entry_end _ _ _ _ _ _ _ Ed) as (e & He & Hsuf & Hle). rewrite He.
  cbn [len] in Hle.
  assert (Hrest : len (skipn (N.to_nat n) r1) = len r1 - n).
  { rewrite !len_length, skipn_length. rewrite len_length in Hn. lia. }
  split.
  - eapply psuffix_suffix_trans; [|exact Hr1]. exists (firstn (N.to_nat n) r1). symmetry. apply firstn_skipn.
  - exists k, v. split; [reflexivity|]. split; [lia|].
    intros Hc. apply N.eqb_eq in Hc. rewrite Hrest. lia.
Qed.

(* The forms of a field once its tag is read, shared by both messages; [alloc] is what the
   field makes the receiver hold, [unk] the constructor that retains an unknown field. *)
Inductive fshape {F} (alloc : F -> N) (unk : bytes -> F) (wt : N) (r0 l : bytes) : option (F * bytes) -> Prop :=
| sh_bytes mk : (forall b, alloc (mk b) = len b /\ forall raw, mk b <> unk raw) ->
                fshape alloc unk wt r0 l (bytes_field wt r0 mk)
| sh_varint mk : (forall v, alloc (mk v) = 0 /\ forall raw, mk v <> unk raw) ->
                 fshape alloc unk wt r0 l (varint_field wt r0 mk)
| sh_unknown : fshape alloc unk wt r0 l (unknown_field l unk).

Lemma bytes_field_spec {F} wt r (mk : bytes -> F) x rest :
  bytes_field wt r mk = Some (x, rest) -> exists b, x = mk b /\ psuffix rest r /\ len b + len rest < len r.
Proof.
  unfold bytes_field. destruct (wt =? 2); [|discriminate].
  destruct (get_bytes r) as [[b r']|] eqn:E; [|discriminate]. intros H; inversion H; subst.
  exists b. split; [reflexivity|]. split; [eapply get_bytes_psuffix; eauto|eapply get_bytes_len; eauto].
Qed.
Lemma varint_field_spec {F} wt r (mk : N -> F) x rest :
  varint_field wt r mk = Some (x, rest) -> exists v, x = mk v /\ psuffix rest r.
Proof.
  unfold varint_field. destruct (wt =? 0); [|discriminate].
  destruct (get_varint r) as [[v r']|] eqn:E; [|discriminate]. intros H; inversion H; subst.
  exists v. split; [reflexivity|]. eapply get_varint_psuffix; eauto.
Qed.

Lemma fshape_spec {F} (alloc : F -> N) unk wt r0 l f r :
  (forall raw, alloc (unk raw) = len raw) -> (forall raw raw', unk raw = unk raw' -> raw = raw') ->
  psuffix r0 l -> fshape alloc unk wt r0 l (Some (f, r)) ->
  psuffix r l /\ alloc f + len r <= len l /\ (forall raw, f = unk raw -> l = raw ++ r).
Proof.
  intros Hunk Hinj H0 Hsh. pose proof (psuffix_len _ _ H0) as Hl0.
  inversion Hsh as [mk Hmk E|mk Hmk E|E].
  - apply bytes_field_spec in E. destruct E as (b & -> & Hs & Hlen). destruct (Hmk b) as [Ha Hu].
    split; [exact (psuffix_suffix_trans _ _ _ (psuffix_suffix _ _ Hs) H0)|].
    split; [rewrite Ha; lia|]. intros raw Hraw. destruct (Hu _ Hraw).
  - apply varint_field_spec in E. destruct E as (v & -> & Hs). destruct (Hmk v) as [Ha Hu].
    pose proof (psuffix_len _ _ Hs).
    split; [exact (psuffix_suffix_trans _ _ _ (psuffix_suffix _ _ Hs) H0)|].
    split; [rewrite Ha; lia|]. intros raw Hraw. destruct (Hu _ Hraw).
  - apply unknown_field_spec in E. destruct E as (raw & -> & Hne & El).
    split; [exists raw; auto|]. split; [rewrite Hunk, El, len_app; lia|].
    intros raw' Hraw. rewrite <- (Hinj _ _ Hraw). exact El.
Qed.

(* field 10 is the one form of its own *)
Lemma dec_sfield_shape l f r : dec_sfield l = Some (f, r) ->
  exists fn wt r0, get_tag l = Some (fn, wt, r0) /\
    (fn = 10 /\ xattr_field wt r0 = Some (f, r) \/ fshape sfield_alloc SF_unknown wt r0 l (Some (f, r))).
Proof.
  unfold dec_sfield. destruct (get_tag l) as [[[fn wt] r0]|]; [|discriminate].
  destruct (tag_ok fn wt); [|discriminate]. intros H. exists fn, wt, r0. split; [reflexivity|].
  rewrite <- H. destruct fn as [|p]; [right; apply sh_unknown|].
  destruct p as [p|p|]; [destruct p as [p|p|] | destruct p as [p|p|] | ];
    try (destruct p as [p|p|]); try (destruct p as [p|p|]);
    first [ right; apply sh_unknown
          | right; apply sh_bytes; split; [reflexivity|discriminate]
          | right; apply sh_varint; split; [reflexivity|discriminate]
          | left; split; reflexivity ].
Qed.

Lemma dec_sfield_spec l f r :
  dec_sfield l = Some (f, r) ->
  psuffix r l /\ (sfield_contained l = true -> sfield_alloc f + len r <= len l) /\
  (forall raw, f = SF_unknown raw -> l = raw ++ r).
Proof.
  intros H. destruct (dec_sfield_shape l f r H) as (fn & wt & r0 & Ht & [[Hfn E]|Hsh]).
  all: pose proof (get_tag_psuffix _ _ _ _ Ht) as H0.
  - pose proof (psuffix_len _ _ H0) as Hl0.
    apply xattr_field_spec in E. destruct E as (Hs & k & v & -> & _ & Hc).
    split; [exact (psuffix_suffix_trans _ _ _ (psuffix_suffix _ _ Hs) H0)|].
    split; [|intros raw Hraw; discriminate].
    unfold sfield_contained. rewrite Ht, Hfn. change (10 =? 10) with true. cbv iota.
    intros Hcont. specialize (Hc Hcont). cbn [sfield_alloc]. lia.
  - apply fshape_spec in Hsh; [|reflexivity|congruence|exact H0]. destruct Hsh as (Hs & Hb & Hu). auto.
Qed.

Lemma xinsert_bytes k v l : xattrs_bytes (xinsert k v l) <= xattrs_bytes l + len k + len v.
Proof.
  induction l as [|[k' v'] r IH]; cbn [xinsert xattrs_bytes]; [lia|].
  destruct (cmp_bytes k k'); cbn [xattrs_bytes]; lia.
Qed.

Lemma apply_sfield_alloc su f su' :
  apply_sfield xinsert su f = Some su' -> stat_alloc su' <= stat_alloc su + sfield_alloc f.
Proof.
  destruct su as [s u]. destruct s as [p m ui g sz mt ln dj dn xa]. unfold apply_sfield. intros H. inversion H; subst; clear H.
  destruct f; unfold stat_alloc, set_path, set_mode, set_uid, set_gid, set_size, set_mtime, set_linkname,
    set_devmajor, set_devminor, set_xattrs;
    cbn [fst snd st_path st_linkname st_xattrs sfield_alloc]; try lia.
  - pose proof (xinsert_bytes k v xa). lia.
  - rewrite len_app. lia.
Qed.

(* a decoding loop allocates no more than it reads if each field does, [no] being the loop's
   containment test *)
Section FoldAlloc.
  Context {F St : Type}.
  Variables (decf : bytes -> option (F * bytes)) (app : St -> F -> option St)
            (salloc : St -> N) (no : nat -> bytes -> bool).
  Hypothesis field_alloc : forall n x l fld r st st',
    decf (x :: l) = Some (fld, r) -> app st fld = Some st' -> no (S n) (x :: l) = true ->
    no n r = true /\ salloc st' + len r <= salloc st + len (x :: l).

  Lemma fold_alloc n : forall l st st',
    fold_fields decf app n l st = Some st' -> no n l = true -> salloc st' <= salloc st + len l.
  Proof.
    induction n; intros l st st' H Hno;
      (destruct l as [|x l']; cbn [fold_fields] in H; [injection H as <-; lia|]); [discriminate|].
    destruct (decf (x :: l')) as [[fld r]|] eqn:Ed; [|discriminate].
    destruct (app st fld) as [st1|] eqn:Ea; [|discriminate].
    destruct (field_alloc _ _ _ _ _ _ _ Ed Ea Hno) as [Hno' Hb].
    pose proof (IHn _ _ _ H Hno'). lia.
  Qed.
End FoldAlloc.

Theorem stat_into_alloc su b su' :
  decode_stat_into xinsert su b = Some su' -> no_overrun_stat b = true ->
  stat_alloc su' <= stat_alloc su + len b.
Proof.
  apply fold_alloc. clear. intros n x l fld r st st' Ed Ea Hno.
  cbn [no_overrun_f] in Hno. rewrite Ed in Hno. apply andb_true_iff in Hno. destruct Hno as [Hc Hno].
  destruct (dec_sfield_spec _ _ _ Ed) as (_ & Hb & _). specialize (Hb Hc).
  pose proof (apply_sfield_alloc _ _ _ Ea). split; [exact Hno|lia].
Qed.

Lemma dec_pfield_shape l f r : dec_pfield l = Some (f, r) ->
  exists wt r0, psuffix r0 l /\ fshape pfield_alloc PF_unknown wt r0 l (Some (f, r)).
Proof.
  unfold dec_pfield. destruct (get_tag l) as [[[fn wt] r0]|] eqn:Ht; [|discriminate].
  destruct (tag_ok fn wt); [|discriminate]. intros H. exists wt, r0.
  split; [exact (get_tag_psuffix _ _ _ _ Ht)|].
  rewrite <- H. destruct fn as [|p]; [apply sh_unknown|].
  destruct p as [p|p|]; [destruct p as [p|p|] | destruct p as [p|p|] | ];
    try (destruct p as [p|p|]);
    first [ apply sh_unknown
          | apply sh_bytes; split; [reflexivity|discriminate]
          | apply sh_varint; split; [reflexivity|discriminate] ].
Qed.

Lemma dec_pfield_spec l f r :
  dec_pfield l = Some (f, r) -> psuffix r l /\ pfield_alloc f + len r <= len l.
Proof.
  intros H. destruct (dec_pfield_shape l f r H) as (wt & r0 & H0 & Hsh).
  apply fshape_spec in Hsh; [|reflexivity|congruence|exact H0]. destruct Hsh as (Hs & Hb & _). auto.
Qed.

Lemma apply_pfield_alloc q f q' :
  apply_pfield xinsert q f = Some q' -> pfield_contained f = true ->
  pstate_alloc q' <= pstate_alloc q + pfield_alloc f.
Proof.
  destruct q as [t os i d u]. unfold apply_pfield, pstate_alloc.
  destruct f; cbn [q_type q_stat q_id q_data q_unk pfield_alloc pfield_contained]; intros H Hc.
  - inversion H; subst. cbn [q_stat q_data q_unk]. lia.
  - set (su0 := match os with Some su => su | None => (empty_stat, []) end) in *.
    destruct (decode_stat_into xinsert su0 payload) as [su'|] eqn:Ed; [|discriminate].
    inversion H; subst. cbn [q_stat q_data q_unk].
    pose proof (stat_into_alloc _ _ _ Ed Hc) as Hb.
    assert (stat_alloc su0 = match os with Some su => stat_alloc su | None => 0 end).
    { unfold su0. destruct os; reflexivity. }
    lia.
  - inversion H; subst. cbn [q_stat q_data q_unk]. lia.
  - inversion H; subst. cbn [q_stat q_data q_unk]. lia.
  - inversion H; subst. cbn [q_stat q_data q_unk]. rewrite len_app. lia.
Qed.

Lemma packet_fold_alloc f l q q' :
  fold_fields dec_pfield (apply_pfield xinsert) f l q = Some q' ->
  no_overrun_pf f l = true -> pstate_alloc q' <= pstate_alloc q + len l.
Proof.
  apply fold_alloc. clear. intros n x l fld r st st' Ed Ea Hno.
  cbn [no_overrun_pf] in Hno. rewrite Ed in Hno. apply andb_true_iff in Hno. destruct Hno as [Hc Hno].
  destruct (dec_pfield_spec _ _ _ Ed) as (_ & Hb).
  pose proof (apply_pfield_alloc _ _ _ Ea Hc). split; [exact Hno|lia].
Qed.

Lemma packet_of_alloc q : packet_alloc (packet_of q) = pstate_alloc q.
Proof.
  destruct q as [t os i d u]. unfold packet_of, packet_alloc, pstate_alloc.
  cbn [q_type q_stat q_id q_data q_unk pstat pdata].
  destruct os as [[s su]|]; reflexivity.
Qed.

Theorem decoded_size_le_input_proof :
  (forall b su, decode_stat_u b = Some su -> no_overrun_stat b = true -> stat_alloc su <= len b) /\
  (forall b x, decode_packet_u b = Some x -> no_overrun_packet b = true -> packet_alloc x <= len b).
Proof.
  split.
  - intros b su H Hno. unfold decode_stat_u in H.
    pose proof (stat_into_alloc _ _ _ H Hno) as Hb.
    change (stat_alloc (empty_stat, [])) with 0 in Hb. lia.
  - intros b x H Hno. unfold decode_packet_u in H.
    destruct (decode_packet_into xinsert empty_pstate b) as [q|] eqn:E; [|discriminate].
    inversion H; subst. rewrite packet_of_alloc.
    pose proof (packet_fold_alloc _ _ _ _ E Hno) as Hb.
    change (pstate_alloc empty_pstate) with 0 in Hb. lia.
Qed.

(* the 16-byte witness of corpus/C20/overrun.case: three nested entries whose keys run to the
   end of the message, then path "ab": 12 + 8 + 4 + 2 = 26 bytes decoded from 16 *)
Definition overrun_witness : bytes := [82; 2; 10; 12; 82; 2; 10; 8; 82; 2; 10; 4; 10; 2; 97; 98].

Theorem decoded_size_le_input_refuted_proof :
  (exists b su, decode_stat_u b = Some su /\ len b = 16 /\ stat_alloc su = 26) /\
  (exists b x, decode_packet_u b = Some x /\ len b = 18 /\ packet_alloc x = 26).
Proof.
  split.
  - exists overrun_witness. eexists. split; [vm_compute; reflexivity|]. split; vm_compute; reflexivity.
  - exists (18 :: 16 :: overrun_witness). eexists. split; [vm_compute; reflexivity|]. split; vm_compute; reflexivity.
Qed.

Section FoldFuel.
  Context {F St : Type}.
  Variable decf : bytes -> option (F * bytes).
  Variable app : St -> F -> option St.
  Hypothesis decf_psuffix : forall l f r, decf l = Some (f, r) -> psuffix r l.

  Lemma fold_fields_fuel n : forall m l st,
    (length l <= n)%nat -> (length l <= m)%nat -> fold_fields decf app n l st = fold_fields decf app m l st.
  Proof.
    induction n; intros m l st Hn Hm.
    - destruct l; [destruct m; reflexivity|cbn [length] in Hn; lia].
    - destruct l as [|x l']; [destruct m; reflexivity|].
      destruct m as [|m]; [cbn [length] in Hm; lia|]. cbn [fold_fields].
      destruct (decf (x :: l')) as [[fld r]|] eqn:E; [|reflexivity].
      destruct (app st fld) as [st'|]; [|reflexivity].
      apply decf_psuffix, psuffix_length in E. apply IHn; lia.
  Qed.
End FoldFuel.

Lemma skip_loop_fuel n : forall m d l,
  (length l <= n)%nat -> (length l <= m)%nat -> skip_loop n d l = skip_loop m d l.
Proof.
  induction n; intros m d l Hn Hm; (destruct l as [|x l']; [destruct m; reflexivity|]);
    cbn [length] in *; [lia|]. destruct m as [|m]; [lia|].
  rewrite !skip_loop_S. destruct (get_varint (x :: l')) as [[w r0]|] eqn:Ev; [|reflexivity].
  apply get_varint_psuffix in Ev.
  destruct (skip_step w d r0) as [[r' [|d']]|] eqn:Es; [reflexivity| |reflexivity].
  apply skip_step_suffix in Es.
  pose proof (psuffix_length _ _ (psuffix_suffix_trans _ _ _ Es Ev)) as Hl. cbn [length] in Hl.
  apply IHn; lia.
Qed.

Lemma dec_entry_fuel n : forall m stop cur k v,
  (length cur <= n)%nat -> (length cur <= m)%nat -> dec_entry n stop cur k v = dec_entry m stop cur k v.
Proof.
  induction n; intros m stop cur k v Hn Hm.
  - destruct cur; [|cbn [length] in Hn; lia]. destruct m; cbn [dec_entry len]; destruct (0 <=? stop) eqn:E; try reflexivity; lia.
  - destruct m as [|m].
    + destruct cur; [|cbn [length] in Hm; lia]. cbn [dec_entry len]. destruct (0 <=? stop) eqn:E; try reflexivity; lia.
    + cbn [dec_entry]. destruct (len cur <=? stop); [reflexivity|].
      destruct (get_tag cur) as [[[fn wt] r]|] eqn:Et; [|reflexivity].
      pose proof (psuffix_length _ _ (get_tag_psuffix _ _ _ _ Et)) as Hr.
      destruct (fn =? 1); [|destruct (fn =? 2)].
      1,2: destruct (get_bytes r) as [[b1 r1]|] eqn:Eb; [|reflexivity];
        pose proof (psuffix_length _ _ (get_bytes_psuffix _ _ _ Eb)); apply IHn; lia.
      destruct (skip cur) as [r1|] eqn:Es; [|reflexivity].
      destruct (len r1 <? stop); [reflexivity|].
      pose proof (psuffix_length _ _ (skip_psuffix _ _ Es)). apply IHn; lia.
Qed.

Theorem decode_total_no_overread_proof :
  (* every field decoder returns a proper suffix of its input; a retained unknown field is
     exactly the consumed prefix *)
  (forall l f r, dec_sfield l = Some (f, r) ->
     (exists p, p <> [] /\ l = p ++ r) /\ (forall raw, f = SF_unknown raw -> l = raw ++ r)) /\
  (forall l f r, dec_pfield l = Some (f, r) -> exists p, p <> [] /\ l = p ++ r) /\
  (forall l r, skip l = Some r -> exists p, p <> [] /\ l = p ++ r) /\
  (* the loops are the unbounded loops of the code: any fuel >= the input length gives the
     same result, so an error is never "out of fuel" *)
  (forall ins su b n, (length b <= n)%nat ->
     fold_fields dec_sfield (apply_sfield ins) n b su = decode_stat_into ins su b) /\
  (forall ins q b n, (length b <= n)%nat ->
     fold_fields dec_pfield (apply_pfield ins) n b q = decode_packet_into ins q b) /\
  (forall d l n, (length l <= n)%nat -> skip_loop n d l = skip_loop (length l) d l) /\
  (forall stop cur k v n, (length cur <= n)%nat ->
     dec_entry n stop cur k v = dec_entry (length cur) stop cur k v).
Proof.
  split; [|split; [|split; [|split; [|split; [|split]]]]].
  - intros l f r H. destruct (dec_sfield_spec _ _ _ H) as (Hs & _ & Hu). split; [exact Hs|exact Hu].
  - intros l f r H. apply (dec_pfield_spec _ _ _ H).
  - intros l r H. exact (skip_psuffix _ _ H).
  - intros ins su b n Hn. unfold decode_stat_into. apply fold_fields_fuel; [intros l f r H; apply (dec_sfield_spec _ _ _ H)|lia|lia].
  - intros ins q b n Hn. unfold decode_packet_into. apply fold_fields_fuel; [intros l f r H; apply (dec_pfield_spec _ _ _ H)|lia|lia].
  - intros d l n Hn. apply skip_loop_fuel; lia.
  - intros stop cur k v n Hn. apply dec_entry_fuel; lia.
Qed.

Theorem generic_agrees_proof :
  (forall s, wf_stat s -> utf8_valid_stat s = true ->
     generic_encode_stat s = Some (encode_stat s) /\
     generic_decode_stat (encode_stat s) = Some s) /\
  (forall p, wf_packet p -> utf8_valid_packet p = true ->
     generic_encode_packet p = Some (encode_packet p) /\
     generic_decode_packet (encode_packet p) = Some p).
Proof.
  split.
  - intros s Hwf Hu. unfold generic_encode_stat, generic_decode_stat.
    destruct (stat_roundtrip_proof s Hwf) as [E _]. rewrite E, Hu. split; reflexivity.
  - intros p Hwf Hu. unfold generic_encode_packet, generic_decode_packet.
    destruct (packet_roundtrip_proof p Hwf) as [E _]. rewrite E, Hu. split; reflexivity.
Qed.

(* path "a\xffb": carried by the VT codec, refused by the generic runtime in both directions *)
Definition non_utf8_stat : stat := set_path empty_stat [97; 255; 98].

Theorem generic_agrees_refuted_proof :
  exists s, wf_stat s /\ decode_stat (encode_stat s) = Some s /\
            generic_encode_stat s = None /\ generic_decode_stat (encode_stat s) = None.
Proof.
  exists non_utf8_stat. split; [vm_compute; repeat split; reflexivity|].
  split; [vm_compute; reflexivity|]. split; vm_compute; reflexivity.
Qed.
