(* C03 — the receive loop with the old content of the destination walked and diffed
   (ReceiveOpt.Merge off): the invariant of the old listing.  Entries of the initial walk that
   have not been passed yet resolve as they did at the start; entries below a removed or
   replaced directory are skipped for as long as the removed-directory prefix stands. *)
From Coq Require Import List Arith NArith Bool Lia ZifyN ZifyNat ZifyBool Sorting.Sorted.
From FS Require Import Sx Model.Path Model.Stat Model.Validator Model.Fs Model.DiskWriterFs.
From FS Require Import Proofs.Lex Proofs.PathP Proofs.ListAux Proofs.ValidatorP Proofs.FsP Proofs.FsReachP Proofs.FsFrameP
     Proofs.FsSysP Proofs.FsTreeP Proofs.DwP Proofs.RecvP Proofs.OldListP.
Import ListNotations.
Open Scope N_scope.
Open Scope bool_scope.

Lemma prefix_cmp a b : is_prefix (comps a) (comps b) -> compare_path a b <> Gt.
Proof. intros H. rewrite compare_path_lex. apply prefix_le. exact H. Qed.

Lemma cmp_lt_not_prefix a b : compare_path a b = Lt -> ~ is_prefix (comps b) (comps a).
Proof. intros H P. apply prefix_cmp in P. rewrite compare_path_opp, H in P. simpl in P. congruence. Qed.

Lemma cmp_le_lt_trans a b c : compare_path a b <> Gt -> compare_path b c = Lt -> compare_path a c = Lt.
Proof. rewrite !compare_path_lex. apply lex_le_lt_trans. Qed.

(* strictly below: the components of X are a proper prefix *)
Definition below (X q : bytes) : Prop := exists y, y <> [] /\ comps q = comps X ++ y.

Lemma below_prefix X q : below X q -> is_prefix (comps X) (comps q).
Proof. intros (y & _ & E). exists y. exact E. Qed.

Lemma below_lt X q : below X q -> compare_path X q = Lt.
Proof.
  intros (y & Hy & E). rewrite compare_path_lex, E. apply lex_prefix_lt. exact Hy.
Qed.

(* X < p < q with q below X: then p is below X too *)
Lemma between_below X p q : compare_path X p = Lt -> compare_path p q = Lt -> below X q -> below X p.
Proof.
  intros H1 H2 (y & Hy & E). rewrite compare_path_lex in H1, H2. rewrite E in H2.
  destruct (lex_between_prefix _ _ _ H1 H2) as [z Hz]. exists z. split; auto.
  intro; subst z. rewrite app_nil_r in Hz. rewrite Hz, lex_refl in H1. discriminate.
Qed.

Lemma suppressed_below X q : suppressed (X ++ [sep]) q = true -> below X q.
Proof. apply suppressed_prefix. Qed.

Lemma below_suppressed X q : ok_path X = true -> ok_path q = true -> below X q -> suppressed (X ++ [sep]) q = true.
Proof. intros HX Hq (y & Hy & E). apply (prefix_suppressed X q y); auto. Qed.

Lemma suppressed_nil q : suppressed [] q = false.
Proof. reflexivity. Qed.

Lemma prefix_proper_below X q : is_prefix (comps X) (comps q) -> X <> q -> below X q.
Proof.
  intros [y E] Hne. exists y. split; auto. intro; subst y. rewrite app_nil_r in E. apply Hne.
  apply comps_inj. symmetry. exact E.
Qed.

Lemma SS_in_lt {A} (R : A -> A -> Prop) (l1 l2 : list A) x y :
  StronglySorted R (l1 ++ l2) -> In x l1 -> In y l2 -> R x y.
Proof. intros H. apply SS_app in H. apply H. Qed.

Lemma chain_prefix_in stk : chain stk -> forall d0 l0, In (d0, l0) stk ->
  forall a, is_prefix a d0 -> exists l', In (a, l') stk.
Proof.
  induction 1 as [lr|d l rest l' Hc IH Hl]; intros d0 l0 Hin a [y Hy].
  - destruct Hin as [[= <- <-]|[]]. destruct a; [|discriminate]. exists lr. left. reflexivity.
  - destruct Hin as [[= <- <-]|Hin].
    + destruct y as [|y0 y' _] using rev_ind.
      * rewrite app_nil_r in Hy. subst a. exists l'. left. reflexivity.
      * rewrite app_assoc in Hy. apply app_inj_tail in Hy as [Hy _].
        destruct (IH d l (or_introl eq_refl) a) as [l2 H2]; [exists y'; exact Hy|]. exists l2. right. exact H2.
    + destruct (IH d0 l0 Hin a) as [l2 H2]; [exists y; exact Hy|]. exists l2. right. exact H2.
Qed.

Section RecvOld.
Variables (D root : N) (f0 : fs) (tmps0 : list bytes) (dl : bool).
Notation reach := (reach D).
Notation wf := (wf D).
Notation step := (step D).

Notation c := {| c_root := root; c_cwd := D |}.
Notation b0 := (f_next f0).

Hypothesis W0 : wf f0.
Variable fl : rfilter.
Hypothesis Hmap_mode : forall s, st_mode (f_map fl s) = st_mode s.
Hypothesis Hmap_link : forall s, st_linkname (f_map fl s) = st_linkname s.
Hypothesis Hclosed : forall p q, ok_path p = true -> ok_path q = true ->
  f_rej fl p = true -> is_prefix (comps p) (comps q) -> f_rej fl q = true.
Hypothesis tmp_ok : forall t, tmpname tmps0 t -> okname t.
Hypothesis Hunused : tmp_unused D f0 tmps0.

Let L0 : list stat := old_listing f0 D.
Let OF : old_facts D f0 L0 := old_listing_facts D f0 W0.

Notation GB := (GBase D f0 tmps0).
Notation cleanp := (clean_path tmps0).

Lemma old_entry s : In s L0 ->
  ok_path (st_path s) = true /\ cleanp (st_path s)
  /\ exists i, rwalk f0 D (comps (st_path s)) = Some i /\ st_is_dir s = is_dir f0 i /\ get f0 i <> None
                /\ (is_link f0 i = true -> mode_is_symlink (st_mode s) = true).
Proof.
  intros Hin. destruct (of_entry D f0 L0 OF s Hin) as [Hok Hi]. split; auto. split; [|exact Hi].
  intros t Ht Hc. destruct (of_names D f0 L0 OF s t Hin Hc) as (d & Rd & Hb). apply Hb. apply (Hunused d t Rd Ht).
Qed.

(* the removed-directory prefix: nothing accepted lies at or below the removed entry as a directory *)
Definition rm_ok (rm : bytes) (acc : list vitem) (rest : list stat) : Prop :=
  rm = [] \/ exists X, rm = X ++ [sep] /\ ok_path X = true
     /\ (forall s, In s rest -> compare_path X (st_path s) = Lt)
     /\ (forall it, In it acc -> vpath it = X -> visdir it = false)
     /\ (exists it, In it acc /\ compare_path X (vpath it) <> Gt).

Definition prist (f : fs) (rm : bytes) (rest : list stat) : Prop :=
  forall s, In s rest -> suppressed rm (st_path s) = false ->
    rwalk f D (comps (st_path s)) = rwalk f0 D (comps (st_path s)).

Lemma rm_ok_sub rm acc rest rest' : (forall s, In s rest' -> In s rest) -> rm_ok rm acc rest -> rm_ok rm acc rest'.
Proof.
  intros H [->|(X & E & A & B & C0 & E2)]; [left; reflexivity|right].
  exists X. repeat split; auto.
Qed.

(* no accepted path is below a dead entry *)
Lemma dead_not_below stk acc X p :
  Inv (map ce stk) (map citem_of acc) ->
  (exists l, In (removelast (comps p), l) (map ce stk)) ->
  (forall it, In it acc -> vpath it = X -> visdir it = false) ->
  ok_path p = true -> below X p -> False.
Proof.
  intros HI [l Hl] Hdead Hok (y & Hy & E).
  assert (Hpre : is_prefix (comps X) (removelast (comps p))).
  { rewrite E. destruct y as [|y0 y'] using rev_ind; [congruence|].
    rewrite app_assoc, removelast_last. exists y'. reflexivity. }
  (* the parent directory of p is on the stack, hence so is every prefix of it *)
  destruct (chain_prefix_in _ (inv_chain _ _ HI) _ _ Hl _ Hpre) as [l' Hl'].
  destruct (inv_dirs _ _ HI _ _ Hl' (comps_nonempty X)) as (q & Hq & Eq & _ & Hdir).
  apply in_map_iff in Hq. destruct Hq as (it' & <- & Hit'). cbn [ipath isdir citem_of] in Eq, Hdir.
  apply comps_inj in Eq. rewrite (Hdead it' Hit' Eq) in Hdir. discriminate.
Qed.

(* in a sorted listing the entries below a passed entry X come first *)
Lemma below_first X a b : ok_path X = true -> ok_path a = true ->
  compare_path X a = Lt -> compare_path a b = Lt ->
  suppressed (X ++ [sep]) a = false -> suppressed (X ++ [sep]) b = false.
Proof.
  intros HX Ha H1 H2 Hs. destruct (suppressed (X ++ [sep]) b) eqn:E; [|reflexivity].
  rewrite (below_suppressed X a HX Ha (between_below X a b H1 H2 (suppressed_below X b E))) in Hs. discriminate.
Qed.

Lemma rwalk_app_dir f j a b i : rwalk f j (a ++ b) = Some i -> b <> [] ->
  exists k, rwalk f j a = Some k /\ is_dir f k = true.
Proof.
  rewrite rwalk_app. destruct (rwalk f j a) as [k|]; [|discriminate]. intros H Hb. exists k. split; auto.
  destruct b as [|c0 r]; [congruence|]. simpl in H. unfold is_dir. destruct (dir_of f k); [reflexivity|discriminate].
Qed.

(* an entry of the old listing below another one: that one is a directory, and its prefix hides the entry *)
Lemma below_listed f1 s : In f1 L0 -> In s L0 -> st_path f1 <> st_path s ->
  is_prefix (comps (st_path f1)) (comps (st_path s)) ->
  st_is_dir f1 = true /\ suppressed (st_path f1 ++ [sep]) (st_path s) = true.
Proof.
  intros H1 Hs Hne Hp. destruct (old_entry f1 H1) as (Hok1 & _ & i1 & Hw1 & Hd1 & _).
  destruct (old_entry s Hs) as (Hoks & _ & i & Hw & _).
  pose proof (prefix_proper_below _ _ Hp Hne) as Hb. split; [|apply below_suppressed; auto].
  destruct Hb as (y & Hy & Ey). rewrite Ey in Hw. destruct (rwalk_app_dir f0 D _ y i Hw Hy) as (k & Hk & Hkd).
  rewrite Hw1 in Hk. injection Hk as <-. rewrite Hd1. exact Hkd.
Qed.

(* inode kinds are those of the initial file system *)
Lemma base_tag st acc i : GB st acc -> i < b0 -> itag (get (r_fs st) i) = itag (get f0 i).
Proof. intros G Hi. apply (st_tag _ _ _ _ _ (g_step D f0 tmps0 st acc G) i Hi). Qed.

Lemma base_is_dir st acc i : GB st acc -> i < b0 -> is_dir (r_fs st) i = is_dir f0 i.
Proof. intros G Hi. apply (is_dir_step D TAll b0 f0 (r_fs st) i (g_step D f0 tmps0 st acc G) Hi). Qed.

Lemma base_is_link st acc i : GB st acc -> i < b0 -> is_link (r_fs st) i = is_link f0 i.
Proof. intros G Hi. apply (is_link_step D TAll b0 f0 (r_fs st) i (g_step D f0 tmps0 st acc G) Hi). Qed.

Lemma old_ino_lt cs i : rwalk f0 D cs = Some i -> i < b0.
Proof. intros Hw. apply (reach_lt D f0 i W0), (rwalk_inside D f0 cs i Hw). Qed.


Definition inplace_pre (st : rstate) (p : bytes) : Prop :=
  ok_path p = true /\ safe (r_fs st) D (removelast (comps p))
  /\ exists dd i, rwalk (r_fs st) D (removelast (comps p)) = Some dd
                  /\ blookup (last (comps p) []) (ents (r_fs st) dd) = Some i
                  /\ is_dir (r_fs st) i = true /\ get (r_fs st) i <> None.

Lemma apply_change_inplace idx kind p s st :
  wf (r_fs st) -> N.eqb kind 2 = false -> mode_is_dir (st_mode s) = true ->
  (live st = true -> inplace_pre st p) ->
  step TNone (f_next (r_fs st)) (r_fs st) (r_fs (apply_change fl c idx kind p s st)).
Proof.
  intros Wg Hk Hdir Hpre. pose proof (step_refl D TNone _ _ Wg (N.le_refl _)) as Hsame.
  rewrite (apply_change_unfold D root fl).
  destruct (f_rej fl p); [exact Hsame|]. rewrite Hk. rewrite <- (Hmap_mode s) in Hdir. unfold apply_change0.
  destruct (live st) eqn:L; cbn [negb]; [|exact Hsame].
  destruct (Hpre eq_refl) as (Hok & Hsafe & Hex).
  destruct (spend st) as [st1|] eqn:Es; [|exact Hsame].
  destruct (spend_core st st1 Es) as (Ef & _). cbn [r_fs set_tmps]. rewrite Ef.
  destruct (dw_inplace_quiet D c (r_fs st) (hd default_tmp (r_tmps st1)) kind p _ Wg eq_refl Hok Hsafe Hk Hdir Hex) as [S Ha].
  destruct (dw_handle c (r_fs st) (hd default_tmp (r_tmps st1)) kind p (f_map fl s)) as [f' res].
  destruct res as [|async newdir]; [exact S|]. rewrite (Ha async newdir eq_refl). destruct newdir; exact S.
Qed.


Record OAlive (st : rstate) (acc : list vitem) : Prop := {
  o_suffix : exists done, L0 = done ++ r_old st
             /\ (r_closed st = false ->
                 forall s, In s done -> exists it0, In it0 acc /\ compare_path (st_path s) (vpath it0) <> Gt);
  o_gt : forall s it0, In s (r_old st) -> In it0 acc -> compare_path (vpath it0) (st_path s) = Lt;
  o_alive : r_closed st = false ->
       prist (r_fs st) (r_rmdir st) (r_old st) /\ rm_ok (r_rmdir st) acc (r_old st)
}.
Definition OInv (st : rstate) (acc : list vitem) : Prop := live st = true -> OAlive st acc.

Definition NInv (st : rstate) (acc : list vitem) : Prop := GInv D f0 tmps0 fl st acc /\ OInv st acc.

(* What both loops keep while they delete old entries the stream does not name (one STAT being
   fed, or the end of the stream).  [accG]: what the validators have accepted; [acc]: the part of
   it accepted before the packet being handled; [stin]: the state before that packet;
   [Q X]: what else is known of a directory X whose removed-directory prefix stands. *)
Section Diff.
Variables (stin : rstate) (accG acc : list vitem) (v : list ventry) (seen : list bytes) (cl : bool)
          (Q : bytes -> Prop) (idx : nat).
Hypothesis Hacc : Forall (fun it0 => ok_path (vpath it0) = true /\ cleanp (vpath it0)) acc.

Definition rmD (rm : bytes) (old : list stat) : Prop :=
  rm = [] \/ exists X, rm = X ++ [sep] /\ ok_path X = true
     /\ (forall s, In s old -> compare_path X (st_path s) = Lt) /\ Q X.

Record DJ (st : rstate) (old done : list stat) : Prop := {
  d_base : GB st accG;
  d_vstk : r_vstk st = v;
  d_seen : r_seen st = seen;
  d_pipes : forall id pp, In (id, pp) (r_pipes st) -> In (pp_path pp) (accpaths acc);
  d_closed : r_closed st = cl;
  d_old : r_old st = old;
  d_split : L0 = done ++ old;
  d_gt : forall s it0, In s old -> In it0 acc -> compare_path (vpath it0) (st_path s) = Lt;
  d_live : live st = true ->
     (forall j t, reach (r_fs st) j -> tmpname tmps0 t -> blookup t (ents (r_fs st) j) = None)
     /\ (forall q, In q (accpaths acc) -> safe (r_fs stin) D (comps q) -> safe (r_fs st) D (comps q))
     /\ prist (r_fs st) (r_rmdir st) old
     /\ rmD (r_rmdir st) old
}.

Lemma dj_in st old done s : DJ st old done -> In s old -> In s L0.
Proof. intros Jv Hs. rewrite (d_split _ _ _ Jv). apply in_or_app. right. exact Hs. Qed.

Lemma dj_sorted st old done : DJ st old done -> StronglySorted plt old.
Proof. intros Jv. apply (SS_app plt done old). rewrite <- (d_split _ _ _ Jv). apply (of_sorted D f0 L0 OF). Qed.

Lemma acc_clean q : In q (accpaths acc) -> ok_path q = true /\ cleanp q.
Proof. apply (In_accpaths_clean tmps0 acc q Hacc). Qed.

(* a skipped entry *)
Lemma skip_step st f1 rest done :
  DJ st (f1 :: rest) done -> DJ (set_diff st rest (r_rmdir st)) rest (done ++ [f1]).
Proof.
  intros Jv. constructor; cbn [r_vstk r_seen r_pipes r_closed r_old set_diff r_fs r_rmdir]; try apply Jv.
  - apply (GBase_same D f0 tmps0 st _ accG (d_base _ _ _ Jv)); reflexivity.
  - reflexivity.
  - rewrite (d_split _ _ _ Jv), <- app_assoc. reflexivity.
  - intros s it0 Hs. apply (d_gt _ _ _ Jv). right. exact Hs.
  - intros L. destruct (d_live _ _ _ Jv L) as (A1 & A2 & A3 & A4). split; [exact A1|]. split; [exact A2|]. split.
    + intros s Hs. apply A3. right. exact Hs.
    + destruct A4 as [->|(X & E & HX & Hgt & HQ)]; [left; reflexivity|right].
      exists X. repeat split; auto. intros s Hs. apply Hgt. right. exact Hs.
Qed.

Lemma rest_unsuppressed st f1 rest done s : DJ st (f1 :: rest) done -> live st = true ->
  suppressed (r_rmdir st) (st_path f1) = false -> In s rest -> suppressed (r_rmdir st) (st_path s) = false.
Proof.
  intros Jv L Hf1 Hs. destruct (d_live _ _ _ Jv L) as (_ & _ & _ & [->|(X & E & HX & Hgt & _)]); [reflexivity|].
  rewrite E in *.
  apply (below_first X (st_path f1) _ HX); [|apply Hgt, in_eq| |exact Hf1].
  - apply (old_entry f1), (dj_in _ _ _ _ Jv), in_eq.
  - apply (SS_cons_lt plt f1 rest s (dj_sorted _ _ _ Jv) Hs).
Qed.

(* an old entry that the stream does not have: RemoveAll *)
Lemma delete_step st f1 rest done :
  DJ st (f1 :: rest) done -> suppressed (r_rmdir st) (st_path f1) = false ->
  (st_is_dir f1 = true -> Q (st_path f1)) ->
  DJ (apply_change fl c idx 2 (st_path f1) f1 (set_diff st rest (rm_prefix_of f1))) rest (done ++ [f1]).
Proof.
  intros Jv Hsup HQ. pose proof (d_base _ _ _ Jv) as G. pose proof (dj_sorted _ _ _ Jv) as HSS.
  assert (Hin1 : In f1 L0) by apply (dj_in _ _ _ _ Jv), in_eq.
  destruct (old_entry f1 Hin1) as (Hok1 & Hcl1 & i1 & Hw1 & _).
  set (q1 := st_path f1) in *. set (st0 := set_diff st rest (rm_prefix_of f1)).
  assert (Hnb : forall q, In q (accpaths acc) -> ~ is_prefix (comps q1) (comps q)).
  { intros q Hq. apply in_map_iff in Hq as (x & <- & Hx). apply cmp_lt_not_prefix, (d_gt _ _ _ Jv f1 x (in_eq _ _) Hx). }
  destruct (apply_change_diff fl c idx 2 q1 f1 st0) as ((F1 & F2 & F3 & F4 & F5 & _) & Fp).
  destruct (apply_change_inv D root f0 tmps0 fl Hmap_mode Hmap_link Hclosed tmp_ok idx 2 q1 f1 st0 accG) as (G1 & Hpost).
  { apply (GBase_same D f0 tmps0 st _ accG G); reflexivity. }
  { intros L _. destruct (d_live _ _ _ Jv L) as (A1 & _ & A3 & _).
    split; [exact Hok1|]. split; [exact Hcl1|]. split; [|split; [exact A1|split; [discriminate|split; [|discriminate]]]].
    - apply (rwalk_prefix_safe (r_fs st) (comps q1) D i1). rewrite <- Hw1. apply (A3 f1 (in_eq _ _) Hsup).
    - intros id pp Hin. apply Hnb, (d_pipes _ _ _ Jv id pp Hin). }
  { intros L. apply (d_live _ _ _ Jv L). }
  constructor.
  - exact G1.
  - rewrite F1. apply Jv.
  - rewrite F2. apply Jv.
  - rewrite (Fp eq_refl). apply (d_pipes _ _ _ Jv).
  - rewrite F5. apply Jv.
  - exact F3.
  - rewrite (d_split _ _ _ Jv), <- app_assoc. reflexivity.
  - intros s it0 Hs. apply (d_gt _ _ _ Jv). right. exact Hs.
  - intros L1. destruct (Hpost L1) as (L & P1 & P2 & _). destruct (d_live _ _ _ Jv L) as (_ & A2 & A3 & _).
    rewrite F4. cbn [r_rmdir set_diff st0].
    split; [exact P1|]. split; [|split].
    + intros q Hq Hs. apply (proj1 (P2 (comps q) (Hnb q Hq) (proj2 (acc_clean q Hq)))), A2; auto.
    + (* entries not yet passed resolve as at the start; one below q1 is skipped from now on *)
      intros s Hs Hsup'. pose proof (dj_in _ _ _ s Jv (or_intror Hs)) as Hins.
      rewrite <- (A3 s (or_intror Hs) (rest_unsuppressed _ _ _ _ s Jv L Hsup Hs)).
      refine (proj2 (P2 (comps (st_path s)) _ (proj1 (proj2 (old_entry s Hins))))).
      intros Hpfx.
      destruct (below_listed f1 s Hin1 Hins (compare_path_lt_neq _ _ (SS_cons_lt plt f1 rest s HSS Hs)) Hpfx) as [Hd Hb].
      unfold rm_prefix_of in Hsup'. rewrite Hd in Hsup'. congruence.
    + unfold rm_prefix_of. destruct (st_is_dir f1) eqn:Ed; [right|left; reflexivity].
      exists q1. split; [reflexivity|]. split; [exact Hok1|]. split; [|exact (HQ eq_refl)].
      intros s Hs. apply (SS_cons_lt plt f1 rest s HSS Hs).
Qed.

End Diff.

Arguments d_base {stin accG acc v seen cl Q st old done}.
Arguments d_split {stin accG acc v seen cl Q st old done}.
Arguments d_gt {stin accG acc v seen cl Q st old done}.
Arguments d_live {stin accG acc v seen cl Q st old done}.
Arguments dj_in {stin accG acc v seen cl Q st old done}.
Arguments dj_sorted {stin accG acc v seen cl Q st old done}.

Lemma live_set_diff st old rm : live (set_diff st old rm) = live st.
Proof. reflexivity. Qed.

(* [stin]: the state when the STAT arrives (its writer alive); both validators accept the entry *)
Section Feed.
Variables (stin : rstate) (acc : list vitem) (s2 : stat) (v' : list ventry) (seen' : list bytes) (idx : nat).
Let p : bytes := st_path s2.
Let it : vitem := item_of s2.
Let acc' : list vitem := acc ++ [it].

Hypothesis G0 : GB stin acc.
Hypothesis A0 : alive_inv D tmps0 fl stin.
Hypothesis Hclp : cleanp p.
Hypothesis Hlk : link_ok fl s2.
Hypothesis Ev : vstep (r_vstk stin) it = Some v'.
Hypothesis Eh : hl_step (r_seen stin) s2 = Some seen'.

Lemma feed_sound :
  ok_path p = true /\ cvstep (map ce (r_vstk stin)) (citem_of it) = Some (map ce v') /\ R v'
  /\ spec_ok (map citem_of acc) (citem_of it) /\ Inv (map ce v') (map citem_of acc').
Proof. exact (RecvP.feed_sound D f0 tmps0 stin acc s2 v' G0 Ev). Qed.

Lemma p_ok : ok_path p = true.
Proof. apply feed_sound. Qed.
Lemma v'_inv : Inv (map ce v') (map citem_of acc').
Proof. apply feed_sound. Qed.
Lemma v'_parent : exists l, In (removelast (comps p), l) (map ce v').
Proof. apply (cvstep_shape _ _ _ (inv_chain _ _ (g_vinv D f0 tmps0 stin acc G0)) (proj1 (proj2 feed_sound))). Qed.

(* a directory removed while the entry is being diffed: nothing accepted is that directory, and
   it sorts before the entry *)
Definition dead_before (X : bytes) : Prop :=
  (forall it0, In it0 acc' -> vpath it0 = X -> visdir it0 = false) /\ compare_path X p = Lt.

Definition J (st : rstate) (old done : list stat) : Prop :=
  DJ stin acc' acc v' seen' false dead_before st old done
  /\ forall s, In s done -> compare_path (st_path s) p = Lt.

Lemma acc_lt_p it0 : In it0 acc -> compare_path (vpath it0) p = Lt.
Proof.
  intros H. destruct feed_sound as (_ & _ & _ & (_ & Hlt & _) & _).
  rewrite compare_path_lex. apply (Hlt (citem_of it0)), in_map, H.
Qed.

Lemma done_snoc done f1 : (forall s, In s done -> compare_path (st_path s) p = Lt) ->
  compare_path (st_path f1) p = Lt -> forall s, In s (done ++ [f1]) -> compare_path (st_path s) p = Lt.
Proof. intros Hd Hlt s Hs. apply in_app_or in Hs as [Hs|[<-|[]]]; auto. Qed.

Lemma feed_skip st f1 rest done :
  J st (f1 :: rest) done -> compare_path (st_path f1) p = Lt ->
  J (set_diff st rest (r_rmdir st)) rest (done ++ [f1]).
Proof. intros [Jv Hd] Hlt. split; [apply skip_step, Jv|apply done_snoc; assumption]. Qed.

(* an old entry that sorts before the current path *)
Lemma feed_delete st f1 rest done :
  J st (f1 :: rest) done -> compare_path (st_path f1) p = Lt ->
  suppressed (r_rmdir st) (st_path f1) = false ->
  J (apply_change fl c idx 2 (st_path f1) f1 (set_diff st rest (rm_prefix_of f1))) rest (done ++ [f1]).
Proof.
  intros [Jv Hd] Hlt Hsup. split; [|apply done_snoc; assumption].
  apply (delete_step stin acc' acc v' seen' false dead_before idx (g_acc D f0 tmps0 stin acc G0) st f1 rest done Jv Hsup).
  intros _. split; [|exact Hlt]. intros it0 Hin0 E0. exfalso. apply in_app_or in Hin0 as [Hin0|[<-|[]]].
  - exact (compare_path_lt_neq _ _ (d_gt Jv f1 it0 (in_eq _ _) Hin0) E0).
  - exact (compare_path_lt_neq _ _ Hlt (eq_sym E0)).
Qed.

Lemma it_in_acc' : In it acc'.
Proof. unfold acc'. apply in_or_app. right. left. reflexivity. Qed.

(* nothing at or after the path of the entry is skipped: the removed directory would lie above it *)
Lemma not_suppressed st old done s : J st old done -> live st = true -> In s old ->
  compare_path p (st_path s) <> Gt -> suppressed (r_rmdir st) (st_path s) = false.
Proof.
  intros [Jv _] L Hs Hle.
  destruct (d_live Jv L) as (_ & _ & _ & [->|(X & -> & _ & _ & Hdead & HXp)]); [reflexivity|].
  destruct (suppressed (X ++ [sep]) (st_path s)) eqn:Es; [exfalso|reflexivity].
  apply suppressed_below in Es. apply (dead_not_below v' acc' X p v'_inv v'_parent Hdead p_ok).
  destruct (compare_path p (st_path s)) eqn:E; [|apply (between_below X p (st_path s) HXp E Es)|congruence].
  apply compare_path_eq in E. rewrite E. exact Es.
Qed.

(* the old listing once p has been handled: everything read so far sorts at or before p, the
   rest after it; the only prefix that can stand is that of p, replaced by a non-directory *)
Lemma OInv_after st' done' :
  L0 = done' ++ r_old st' ->
  (forall s, In s done' -> compare_path (st_path s) p <> Gt) ->
  (forall s, In s (r_old st') -> compare_path p (st_path s) = Lt) ->
  (live st' = true -> prist (r_fs st') (r_rmdir st') (r_old st')) ->
  r_rmdir st' = [] \/ r_rmdir st' = p ++ [sep] /\ st_is_dir s2 = false ->
  OInv st' acc'.
Proof.
  intros Es Hd Ho Hp Hrm L.
  constructor.
  - exists done'. split; [exact Es|]. intros _ s Hs. exists it. split; [apply it_in_acc'|apply (Hd s Hs)].
  - intros s it0 Hs Hin0. apply in_app_or in Hin0 as [Hin0|[<-|[]]]; [|exact (Ho s Hs)].
    apply (compare_path_trans _ p); [apply acc_lt_p, Hin0|auto].
  - intros _. split; [exact (Hp L)|]. destruct Hrm as [->|[-> Hnd]]; [left; reflexivity|right].
    exists p. split; [reflexivity|]. split; [exact p_ok|]. split; [exact Ho|]. split.
    + intros it0 Hin0 E0. apply in_app_or in Hin0 as [Hin0|[<-|[]]]; [|exact Hnd].
      destruct (compare_path_lt_neq _ _ (acc_lt_p it0 Hin0) E0).
    + exists it. split; [apply it_in_acc'|]. cbn [vpath it item_of]. fold p. rewrite compare_path_refl. discriminate.
Qed.

(* HandleChange for the entry itself, from a state of the diff loop *)
Lemma feed_change kind st old done old' rm' :
  J st old done -> N.eqb kind 2 = false ->
  (live st = true -> f_rej fl p = false -> safe (r_fs st) D (removelast (comps p))) ->
  let st' := apply_change fl c idx kind p s2 (set_diff st old' rm') in
  GInv D f0 tmps0 fl st' acc' /\ r_old st' = old' /\ r_rmdir st' = rm'
  /\ (live st' = true -> live st = true /\ forall q, ~ is_prefix (comps p) (comps q) -> cleanp q ->
        rwalk (r_fs st') D (comps q) = rwalk (r_fs st) D (comps q)).
Proof.
  intros [[G E1 E2 Hp _ _ _ _ Hlv] _].
  apply (RecvP.feed_change D root f0 tmps0 fl Hmap_mode Hmap_link Hclosed tmp_ok stin acc s2 v' seen' idx
           G0 A0 Hclp Hlk Ev Eh kind st old' rm' G E1 E2 Hp).
  intros L. destruct (Hlv L) as (A1 & A2 & _). auto.
Qed.

(* the path is new: everything still unread sorts after it *)
Lemma final_add st old done :
  J st old done -> (forall s, In s old -> compare_path p (st_path s) = Lt) ->
  NInv (apply_change fl c idx 0 p s2 (set_diff st old [])) acc'.
Proof.
  intros Jv Hgt. pose proof Jv as [Dv Hd].
  destruct (feed_change 0 st old done old [] Jv eq_refl) as (GI & Eo & Er & Hpost).
  { intros L Hrj. destruct (d_live Dv L) as (_ & A2 & _).
    apply (parent_safe D f0 tmps0 fl Hclosed stin acc s2 v' G0 A0 Ev st A2 Hrj). }
  split; [exact GI|]. apply (OInv_after _ done); rewrite ?Eo, ?Er.
  - apply Dv.
  - intros s Hs. rewrite (Hd s Hs). discriminate.
  - exact Hgt.
  - intros L s Hs _. destruct (Hpost L) as [L' Hrw]. destruct (d_live Dv L') as (_ & _ & A3 & _).
    pose proof (dj_in s Dv Hs) as Hins.
    rewrite Hrw.
    + apply (A3 s Hs), (not_suppressed st old done s Jv L' Hs). rewrite (Hgt s Hs). discriminate.
    + (* an unread entry below the new path: its parent chain is in the listing, so p would be an entry *)
      intros Hpfx. destruct (prefix_proper_below p (st_path s) Hpfx (compare_path_lt_neq _ _ (Hgt s Hs))) as (y & Hy & Ey).
      destruct (of_closed D f0 L0 OF s (comps p) y Hins Ey (comps_nonempty p) Hy) as (s' & Hs' & Es').
      apply comps_inj in Es'. rewrite (d_split Dv) in Hs'. apply in_app_or in Hs' as [H|H].
      * exact (compare_path_lt_neq _ _ (Hd s' H) Es').
      * exact (compare_path_lt_neq _ _ (Hgt s' H) (eq_sym Es')).
    + apply (old_entry s Hins).
  - left. reflexivity.
Qed.

Lemma same_file_mode a b : same_file a b = true -> st_mode a = st_mode b.
Proof.
  unfold same_file. intros H. repeat (apply andb_true_iff in H; destruct H as [H ?]).
  apply N.eqb_eq. assumption.
Qed.

Lemma safe_of_rwalk_nolink f cs i : rwalk f D cs = Some i -> is_link f i = false -> safe f D cs.
Proof.
  intros Hw Hl. destruct cs as [|c0 r0] using rev_ind; [exact I|].
  apply safe_app. split.
  - pose proof (rwalk_prefix_safe f (r0 ++ [c0]) D i Hw) as H. rewrite removelast_last in H. exact H.
  - intros j Hj. apply safe_unfold. apply rwalk_snoc in Hw. destruct Hw as (d & Hd & Hb & _).
    rewrite Hj in Hd. inversion Hd; subst d. rewrite Hb. split; [exact Hl|exact I].
Qed.

(* the stream has the path of the next old entry *)
Lemma final_eq st f1 rest done :
  J st (f1 :: rest) done -> st_path f1 = p ->
  let rm := if st_is_dir f1 && negb (st_is_dir s2) then st_path f1 ++ [sep] else [] in
  let st1 := set_diff st rest rm in
  NInv (if same_file f1 (f_map fl s2) then st1 else apply_change fl c idx 1 p s2 st1) acc'.
Proof.
  intros Jv Ep rm st1. pose proof Jv as [Dv Hd]. pose proof (d_base Dv) as G.
  assert (Hin1 : In f1 L0) by apply (dj_in f1 Dv), in_eq.
  destruct (old_entry f1 Hin1) as (_ & _ & i1 & Hw1 & Hd1 & Hex1 & Hlk1). rewrite Ep in Hw1.
  pose proof (old_ino_lt _ i1 Hw1) as Hi1.
  assert (Hrest_gt : forall s, In s rest -> compare_path p (st_path s) = Lt).
  { intros s Hs. rewrite <- Ep. apply (SS_cons_lt plt f1 rest s (dj_sorted Dv) Hs). }
  assert (G1 : GB st1 acc') by (apply (GBase_same D f0 tmps0 st _ acc' G); reflexivity).
  (* while the writer is alive nothing unread is skipped: it all resolves as at the start *)
  assert (Hlive : live st = true -> forall s, In s (f1 :: rest) ->
            rwalk (r_fs st) D (comps (st_path s)) = rwalk f0 D (comps (st_path s))).
  { intros L s Hs. destruct (d_live Dv L) as (_ & _ & A3 & _).
    apply (A3 s Hs), (not_suppressed st _ done s Jv L Hs).
    destruct Hs as [<-|Hs]; [rewrite Ep, compare_path_refl|rewrite (Hrest_gt s Hs)]; discriminate. }
  assert (Hwp : live st = true -> rwalk (r_fs st) D (comps p) = Some i1).
  { intros L. rewrite <- Hw1, <- Ep. apply (Hlive L f1 (in_eq _ _)). }
  (* the old-listing part of the invariant, for any state that kept [rest] and [rm] *)
  assert (HO : forall st', r_old st' = rest -> r_rmdir st' = rm ->
            (live st' = true -> prist (r_fs st') rm rest) -> OInv st' acc').
  { intros st' E1 E2 Hp. apply (OInv_after st' (done ++ [f1])); rewrite ?E1, ?E2; auto.
    - rewrite (d_split Dv), <- app_assoc. reflexivity.
    - intros s Hs. apply in_app_or in Hs as [Hs|[<-|[]]]; [rewrite (Hd s Hs)|rewrite Ep, compare_path_refl]; discriminate.
    - unfold rm. rewrite Ep. destruct (st_is_dir f1 && negb (st_is_dir s2)) eqn:Erm; [right|left; reflexivity].
      split; [reflexivity|]. apply andb_true_iff in Erm as [_ Erm]. apply negb_true_iff in Erm. exact Erm. }
  destruct (same_file f1 (f_map fl s2)) eqn:Esame.
  - (* nothing to do *)
    pose proof (same_file_mode f1 _ Esame) as Emode. rewrite Hmap_mode in Emode.
    split; [split; [exact G1|]|apply HO; auto].
    + intros L. destruct (d_live Dv L) as (A1 & A2 & _). pose proof (Hwp L) as Hw.
      apply (alive_after D f0 tmps0 fl stin acc s2 v' seen' G0 A0 Ev Eh); try apply Dv; auto.
      intros [Hdir|[Hns _]] _.
      * apply (rwalk_dir_safe (r_fs st) (comps p) D i1 Hw).
        rewrite (base_is_dir st acc' i1 G Hi1), <- Hd1. unfold st_is_dir in *. rewrite Emode. exact Hdir.
      * apply (safe_of_rwalk_nolink (r_fs st) (comps p) i1 Hw).
        rewrite (base_is_link st acc' i1 G Hi1). destruct (is_link f0 i1) eqn:El; auto.
        pose proof (Hlk1 eq_refl) as H. rewrite Emode, Hns in H. discriminate.
    + intros L s Hs _. apply (Hlive L s (or_intror Hs)).
  - (* the entry changed *)
    destruct (feed_change 1 st (f1 :: rest) done rest rm Jv eq_refl) as (GI & Eo & Er & Hpost).
    { intros L _. apply (rwalk_prefix_safe (r_fs st) (comps p) D i1 (Hwp L)). }
    split; [exact GI|]. apply HO; [exact Eo|exact Er|].
    intros L2 s Hs Hsup'. destruct (Hpost L2) as [L Hrw]. rewrite <- (Hlive L s (or_intror Hs)).
    destruct (st_is_dir f1 && st_is_dir s2) eqn:Einp.
    + (* a directory stays a directory: its metadata is rewritten in place, no entry moves *)
      apply andb_true_iff in Einp as [Ed1 Ed2].
      apply (quiet_rwalk D (f_next (r_fs st)) (r_fs st) _ _ (g_wf D f0 tmps0 st acc' G)).
      apply (apply_change_inplace idx 1 p s2 st1 (g_wf D f0 tmps0 st acc' G) eq_refl Ed2).
      intros _. pose proof (Hwp L) as Hw.
      split; [exact p_ok|]. split; [apply (rwalk_prefix_safe (r_fs st) (comps p) D i1 Hw)|].
      rewrite (split_comps p p_ok) in Hw. apply rwalk_snoc in Hw as (dd & A & B & _).
      exists dd, i1. split; [exact A|]. split; [exact B|]. split.
      * rewrite (base_is_dir st1 acc' i1 G1 Hi1), <- Hd1. exact Ed1.
      * intro E. pose proof (base_tag st1 acc' i1 G1 Hi1) as Ht. rewrite E in Ht. simpl in Ht.
        destruct (get f0 i1); [discriminate|]. apply Hex1. reflexivity.
    + (* replaced by a new entry made next to it: what lies below was a directory's content and is skipped *)
      pose proof (dj_in s Dv (or_intror Hs)) as Hins. apply Hrw; [|apply (old_entry s Hins)].
      intros Hpfx. rewrite <- Ep in Hpfx.
      destruct (below_listed f1 s Hin1 Hins) as [Hdir Hb]; auto.
      { rewrite Ep. apply compare_path_lt_neq, Hrest_gt, Hs. }
      unfold rm in Hsup'. rewrite Hdir in Einp, Hsup'. cbn [andb] in Einp, Hsup'. rewrite Einp in Hsup'.
      cbn [negb] in Hsup'. congruence.
Qed.

(* the writer died while the old entries were being deleted *)
Lemma J_dead st old done : J st old done -> live st = false -> NInv st acc'.
Proof. intros [Jv _] L. split; [split; [apply Jv|]|]; intros H; congruence. Qed.

Theorem diff_feed_inv : forall old st done, J st old done -> NInv (diff_feed fl c idx s2 old st) acc'.
Proof.
  induction old as [|f1 rest IH]; intros st done Jv; cbn [diff_feed].
  - apply (final_add st [] done Jv). intros s [].
  - fold p. destruct (compare_path (st_path f1) p) eqn:Ecmp.
    + apply compare_path_eq in Ecmp. apply (final_eq st f1 rest done Jv Ecmp).
    + destruct (suppressed (r_rmdir st) (st_path f1)) eqn:Es.
      * apply (IH _ (done ++ [f1])). apply feed_skip; auto.
      * pose proof (feed_delete st f1 rest done Jv Ecmp Es) as J1.
        destruct (live (apply_change fl c idx 2 (st_path f1) f1 (set_diff st rest (rm_prefix_of f1)))) eqn:L1.
        -- apply (IH _ (done ++ [f1]) J1).
        -- apply (J_dead _ rest (done ++ [f1]) J1 L1).
    + apply (final_add st (f1 :: rest) done Jv).
      assert (H1 : compare_path p (st_path f1) = Lt) by (rewrite compare_path_opp, Ecmp; reflexivity).
      intros s [<-|Hs]; [exact H1|].
      apply (compare_path_trans p (st_path f1) (st_path s) H1).
      apply (SS_cons_lt plt f1 rest s (dj_sorted (proj1 Jv)) Hs).
Qed.

End Feed.


Section Flush.
Variables (stin : rstate) (acc : list vitem) (idx : nat).
Hypothesis G0 : GB stin acc.
Hypothesis A0 : alive_inv D tmps0 fl stin.

Notation FJ := (DJ stin acc acc (r_vstk stin) (r_seen stin) true (fun _ => True)).

Lemma flush_done st old done : FJ st old done -> (live st = true -> old = []) -> NInv st acc.
Proof.
  intros [G E1 E2 _ Hc Eo Es _ Hlv] Hnil. split.
  - split; [exact G|]. intros L. destruct (Hlv L) as (A1 & A2 & _). constructor.
    + exact A1.
    + intros ds l Hin Hrj. rewrite E1 in Hin.
      destruct (stack_acc D f0 tmps0 fl stin acc ds l G0 A0 Hin Hrj) as [->|(q & Hq & <- & Hs)]; [exact I|apply A2; auto].
    + intros q Hin Hrj. rewrite E2 in Hin.
      apply A2; [apply (g_seen D f0 tmps0 stin acc G0 _ Hin)|apply (a_seen D tmps0 fl stin A0 _ Hin Hrj)].
  - intros L. constructor.
    + exists done. rewrite Eo. split; [exact Es|]. intros H. congruence.
    + rewrite Eo, (Hnil L). intros s it0 [].
    + intros H. congruence.
Qed.

Theorem diff_flush_inv : forall old st done, FJ st old done -> NInv (diff_flush fl c idx old st) acc.
Proof.
  induction old as [|f1 rest IH]; intros st done Fv; cbn [diff_flush].
  - apply (flush_done _ [] done); [|auto].
    constructor; cbn [r_vstk r_seen r_pipes r_closed r_old set_diff r_fs r_rmdir]; try apply Fv.
    + apply (GBase_same D f0 tmps0 st _ acc (d_base Fv)); reflexivity.
    + reflexivity.
  - destruct (suppressed (r_rmdir st) (st_path f1)) eqn:Es.
    + apply (IH _ (done ++ [f1])). apply skip_step. exact Fv.
    + pose proof (delete_step stin acc acc _ _ true (fun _ => True) idx (g_acc D f0 tmps0 stin acc G0) st f1 rest done Fv Es (fun _ => I)) as F1.
      destruct (live (apply_change fl c idx 2 (st_path f1) f1 (set_diff st rest (rm_prefix_of f1)))) eqn:L1.
      * apply (IH _ (done ++ [f1]) F1).
      * apply (flush_done _ rest (done ++ [f1]) F1). intros H. congruence.
Qed.

End Flush.

Lemma OInv_quiet st st' acc b :
  wf (r_fs st) -> step TNone b (r_fs st) (r_fs st') ->
  r_old st' = r_old st -> r_rmdir st' = r_rmdir st -> r_closed st' = r_closed st ->
  (live st' = true -> live st = true) -> OInv st acc -> OInv st' acc.
Proof.
  intros W S E1 E2 E3 Hl O L. destruct (O (Hl L)) as [O1 O2 O3]. constructor.
  - rewrite E1, E3. exact O1.
  - rewrite E1. exact O2.
  - rewrite E1, E2, E3. intros Hc. destruct (O3 Hc) as [P Rm]. split; [|exact Rm].
    intros s Hs Hsup. rewrite (quiet_rwalk D b (r_fs st) (r_fs st') _ W S). apply (P s Hs Hsup).
Qed.

Lemma OInv_closed st st' acc :
  r_old st' = r_old st -> r_closed st' = true -> (live st' = true -> live st = true) -> OInv st acc -> OInv st' acc.
Proof.
  intros E1 E3 Hl O L. destruct (O (Hl L)) as [(done & Ed & _) O2 _]. constructor.
  - exists done. rewrite E1. split; [exact Ed|]. intros H. congruence.
  - rewrite E1. exact O2.
  - intros H. congruence.
Qed.

Lemma recv_data_ninv idx id d st acc : NInv st acc -> NInv (recv_data c idx id d st) acc.
Proof.
  intros [G O]. destruct (recv_data_dq D root f0 tmps0 W0 fl Hclosed tmp_ok idx id d st acc G) as (G' & S & Hl).
  destruct (recv_data_diff c idx id d st) as (_ & _ & E1 & E2 & E3 & _).
  split; [exact G'|].
  apply (OInv_quiet st _ acc b0 (g_wf D f0 tmps0 st acc (proj1 G)) S E1 E2 E3 Hl O).
Qed.

Lemma maybe_wait_ninv idx st acc : NInv st acc -> NInv (maybe_wait c dl idx st) acc.
Proof.
  intros [G O]. split.
  - pose proof (maybe_wait_inv D root f0 tmps0 dl fl Hclosed tmp_ok idx st acc G) as X.
    exact X.
  - destruct (maybe_wait_cases c dl idx st) as [->|[->|[[_ ->]|(st1 & Es & Ec & ->)]]].
    + exact O.
    + intros L. rewrite live_set_dead in L. discriminate.
    + intros L. rewrite live_set_out in L; discriminate.
    + destruct (spend_core st st1 Es) as (_ & _ & El & _ & _ & _ & Eo & _).
      apply (OInv_closed st _ acc); simpl; auto.
      intros L. rewrite <- El. exact L.
Qed.




(* an entry both validators have accepted is fed to the diff, whatever the bookkeeping of ids: the
   metadata branch of the receive loop (Model/RecvMeta.v) hands entries to the walker this way *)
Lemma feed_nomerge idx s st acc v' seen' files next :
  NInv st acc -> cleanp (st_path s) -> link_ok fl s ->
  vstep (r_vstk st) (item_of s) = Some v' -> hl_step (r_seen st) s = Some seen' ->
  let st1 := set_valid st v' seen' files next in
  GB st1 (acc ++ [item_of s])
  /\ (live st = true -> r_closed st = false -> NInv (diff_feed fl c idx s (r_old st1) st1) (acc ++ [item_of s])).
Proof.
  intros [[G A] O] Hcl Hlk Ev Eh. cbv zeta.
  set (it := item_of s) in *.
  destruct (vstep_sound _ _ _ _ (g_R D f0 tmps0 st acc G) (g_vinv D f0 tmps0 st acc G) Ev) as (Hok & _ & HR' & Hspec & HI').
  set (st1 := set_valid st v' seen' files next).
  assert (G1 : GB st1 (acc ++ [it])).
  { apply (GBase_ext D f0 tmps0 st st1 acc it v'); simpl; auto; intros q Hq;
      destruct (proj1 (hl_step_inv _ _ _ Eh) q Hq) as [H|[H _]]; auto. }
  split; [exact G1|]. intros L Ecl.
  destruct (A L) as [A1 A2 A3]. destruct (O L) as [(done & Esplit & Hdone) O2 O3].
  specialize (Hdone Ecl). destruct (O3 Ecl) as [Hprist Hrm].
  pose proof (acc_lt_p st acc s v' G Ev) as Hlt.
  apply (diff_feed_inv st acc s v' seen' idx G (A L) Hcl Hlk Ev Eh (r_old st1) st1 done). split.
  2:{ intros s' Hs'. destruct (Hdone s' Hs') as (it0 & Hit0 & Hle). apply (cmp_le_lt_trans _ (vpath it0)); auto. }
  constructor.
  - exact G1.
  - reflexivity.
  - reflexivity.
  - intros id pp Hin. apply (g_pipes D f0 tmps0 st acc G id pp Hin).
  - exact Ecl.
  - reflexivity.
  - exact Esplit.
  - exact O2.
  - intros _. split; [exact A1|]. split; [auto|]. split; [exact Hprist|].
    destruct Hrm as [E|(X & E & HX & Hgt & Hdead & (it1 & Hit1 & Hle))]; [left; exact E|right].
    assert (HXp : compare_path X (st_path s) = Lt) by (apply (cmp_le_lt_trans _ (vpath it1)); auto).
    exists X. split; [exact E|]. split; [exact HX|]. split; [exact Hgt|]. split; [|exact HXp].
    intros it0 Hit0 Ev0. apply in_app_or in Hit0. destruct Hit0 as [Hit0|[<-|[]]]; [apply Hdead; auto|].
    exfalso. apply (compare_path_lt_neq _ _ HXp). symmetry. exact Ev0.
Qed.


Lemma flush_ninv idx st acc :
  NInv st acc -> live st = true -> r_closed st = false ->
  NInv (diff_flush fl c idx (r_old st) (set_flags st true (r_waited st))) acc.
Proof.
  intros [[G A] O] L Ecl. destruct (A L) as [A1 A2 A3]. destruct (O L) as [(done & Esplit & _) O2 O3].
  destruct (O3 Ecl) as [Hprist Hrm].
  set (st1 := set_flags st true (r_waited st)).
  assert (G1 : GB st1 acc).
  { apply (GBase_same D f0 tmps0 st st1 acc G); reflexivity. }
  apply (diff_flush_inv st acc idx G (A L) (r_old st) st1 done).
  constructor.
  - exact G1.
  - reflexivity.
  - reflexivity.
  - intros id pp Hin. apply (g_pipes D f0 tmps0 st acc G id pp Hin).
  - reflexivity.
  - reflexivity.
  - exact Esplit.
  - exact O2.
  - intros _. split; [exact A1|]. split; [auto|]. split; [exact Hprist|].
    destruct Hrm as [E|(X & E & HX & Hgt & _)]; [left; exact E|right]. exists X. auto.
Qed.

Lemma NInv_files st acc files next :
  NInv st acc -> NInv (set_valid st (r_vstk st) (r_seen st) files next) acc.
Proof.
  intros [[G A] O]. split; [split; [apply (GBase_same D f0 tmps0 st _ acc G); reflexivity|]|]; intros L.
  - destruct (A L). constructor; assumption.
  - destruct (O L). constructor; assumption.
Qed.

Lemma NInv_init budget : NInv (rstate_init f0 D false tmps0 budget) [].
Proof.
  split; [apply (GInv_init D f0 tmps0 W0 fl false budget Hunused)|].
  intros _. constructor; simpl.
  - exists []. split; [reflexivity|]. intros _ s [].
  - intros s it0 _ [].
  - intros _. split; [intros s _ _; reflexivity|left; reflexivity].
Qed.

End RecvOld.
