(* filterFS.Walk: the parentDirs stack with prefix popping is the stack of ancestors
   (structural walk [sw_node]). *)
From Coq Require Import List NArith Bool.
From FS Require Import Sx Model.Path Model.Stat Model.Tree Model.Pattern Model.FilterWalk
  Proofs.Lex Proofs.PathP Proofs.PatternP.
Import ListNotations.
Open Scope bool_scope.

Section NodeInd.
Variable P : node -> Prop.
Hypothesis H : forall name st ct kids, Forall P kids -> P (Node name st ct kids).
Fixpoint node_ind2 (n : node) : P n :=
  match n with
  | Node name st ct kids =>
    H name st ct kids
      ((fix go (l : list node) : Forall P l :=
          match l with
          | [] => Forall_nil P
          | k :: r => Forall_cons k (node_ind2 k) (go r)
          end) kids)
  end.
End NodeInd.

Lemma wf_node_inv name st ct kids : wf_node (Node name st ct kids) = true ->
  name <> [] /\ nosep name /\ forallb wf_node kids = true.
Proof.
  cbn [wf_node]. intros H. apply andb_true_iff in H. destruct H as [H H3]. apply andb_true_iff in H. destruct H as [H1 H2].
  repeat split; auto.
  - destruct name; [discriminate|discriminate].
  - apply no_sep_nosep; auto.
Qed.

Lemma child_path_nonempty dir name : name <> [] -> child_path dir name <> [].
Proof. intros H. unfold child_path. destruct dir; auto. destruct name; [congruence|]. intro E. apply app_eq_nil in E. destruct E; discriminate. Qed.

Lemma child_path_cons dir name : dir <> [] -> child_path dir name = dir ++ sep :: name.
Proof. destruct dir; [congruence|reflexivity]. Qed.

(* siblings compare as their names do *)
Lemma child_path_prefix dir a b r r' :
  has_prefix (child_path dir a ++ r) (child_path dir b ++ r') = has_prefix (a ++ r) (b ++ r').
Proof.
  unfold child_path. destruct dir as [|x dir]; [reflexivity|].
  rewrite <- !app_assoc, has_prefix_app_same. cbn [app has_prefix]. rewrite N.eqb_refl. reflexivity.
Qed.

Lemma wf_node_ind (Q : node -> Prop) :
  (forall name st ct kids, name <> [] -> nosep name -> forallb wf_node kids = true -> Forall Q kids ->
     Q (Node name st ct kids)) ->
  forall n, wf_node n = true -> Q n.
Proof.
  intros H. induction n as [name st ct kids IH] using node_ind2. intros Hwf.
  apply wf_node_inv in Hwf. destruct Hwf as (Hne & Hns & Hk). apply H; auto.
  rewrite forallb_forall in Hk. rewrite Forall_forall in *. auto.
Qed.

Lemma Forall_wf {A} {wf : A -> bool} (Q : A -> Prop) l : (forall n, wf n = true -> Q n) -> forallb wf l = true -> Forall Q l.
Proof. rewrite forallb_forall, Forall_forall. auto. Qed.

Lemma Forall_all {A} (Q : A -> Prop) l : (forall n, Q n) -> Forall Q l.
Proof. intros H. apply Forall_forall. auto. Qed.

Section WD.
Variable S : Type.
Variable cb : S -> bytes -> stat -> bool -> S * list stat * bool.

Lemma wd_node_eq dir name st ct kids s :
  wd_node S cb dir (Node name st ct kids) s =
  let p := child_path dir name in
  let isd := st_is_dir st in
  let '(s1, em, skip) := cb s p (set_path st p) isd in
  if skip then (s1, em, negb isd)
  else if isd then let '(s2, em2) := wd_forest S cb p kids s1 in (s2, em ++ em2, false)
  else (s1, em, false).
Proof.
  cbn [wd_node]. cbv zeta.
  destruct (cb s (child_path dir name) (set_path st (child_path dir name)) (st_is_dir st)) as [[s1 em] skip].
  destruct skip; auto. destruct (st_is_dir st); auto.
  match goal with |- (let '(_, _) := ?f kids s1 in _) = _ =>
    assert (E : forall l s, f l s = wd_forest S cb (child_path dir name) l s) end.
  { induction l as [|k r IH]; intros s0; [reflexivity|]. cbn [wd_forest].
    destruct (wd_node S cb (child_path dir name) k s0) as [[s' e] rest]. destruct rest; auto. rewrite IH. reflexivity. }
  rewrite E. reflexivity.
Qed.
End WD.

(* the structural walk: the stack is the list of ancestors *)
Section SW.
Variable pmatch : bytes -> bytes -> bool.
Variable mapfn : bytes -> stat -> mres * stat.
Variable c : cfg.

Notation core := (cb_core pmatch mapfn c).

Fixpoint sw_node (anc : list vdir) (dir : bytes) (n : node) {struct n} : list vdir * list stat * bool :=
  match n with
  | Node name st _ kids =>
    let p := child_path dir name in
    let isd := st_is_dir st in
    let r := core anc p (set_path st p) isd in
    if r_skip r then (r_stack r, r_em r, negb isd)
    else if isd then
      let '(a2, em2) :=
        (fix kids_go (l : list node) (a : list vdir) : list vdir * list stat :=
           match l with
           | [] => (a, [])
           | k :: rest =>
             let '(a', e, cut) := sw_node a p k in
             if cut then (a', e) else let '(a'', e') := kids_go rest a' in (a'', e ++ e')
           end) kids (pushed r) in
      (match r_push r with Some _ => tl a2 | None => a2 end, r_em r ++ em2, false)
    else (r_stack r, r_em r, false)
  end.

Fixpoint sw_forest (anc : list vdir) (dir : bytes) (l : list node) : list vdir * list stat :=
  match l with
  | [] => (anc, [])
  | k :: rest =>
    let '(a', e, cut) := sw_node anc dir k in
    if cut then (a', e) else let '(a'', e') := sw_forest a' dir rest in (a'', e ++ e')
  end.

Lemma sw_node_eq anc dir name st ct kids :
  sw_node anc dir (Node name st ct kids) =
  let p := child_path dir name in
  let isd := st_is_dir st in
  let r := core anc p (set_path st p) isd in
  if r_skip r then (r_stack r, r_em r, negb isd)
  else if isd then
    let '(a2, em2) := sw_forest (pushed r) p kids in
    (match r_push r with Some _ => tl a2 | None => a2 end, r_em r ++ em2, false)
  else (r_stack r, r_em r, false).
Proof.
  cbn [sw_node]. cbv zeta.
  destruct (r_skip _); auto. destruct (st_is_dir st); auto.
  match goal with |- (let '(_, _) := ?f kids _ in _) = _ =>
    assert (E : forall l a0, f l a0 = sw_forest a0 (child_path dir name) l) end.
  { induction l as [|k r IH]; intros a0; [reflexivity|]. cbn [sw_forest].
    destruct (sw_node a0 (child_path dir name) k) as [[a' e] cut]. destruct cut; auto. rewrite IH. reflexivity. }
  rewrite E. reflexivity.
Qed.

Definition new_dir (pd1 : list vdir) (path : bytes) (st : stat) : vdir :=
  let ri := eval_inc pmatch c path pd1 in
  let re := eval_exc pmatch c path pd1 in
  {| vd_stat := st; vd_pws := path ++ [sep]; vd_inc := snd ri; vd_exc := snd re;
     vd_called := negb (negb (fst ri) || fst re); vd_skip := false |}.
Definition push_of (pd1 : list vdir) (path : bytes) (st : stat) (isd : bool) : option vdir :=
  if isd && use_match c then Some (new_dir pd1 path st) else None.
Definition is_skip (pd1 : list vdir) (path : bytes) : bool :=
  negb (fst (eval_inc pmatch c path pd1)) || fst (eval_exc pmatch c path pd1).
Definition pruned (pd1 : list vdir) (path : bytes) (isd : bool) : bool :=
  prune_inc c path isd (fst (eval_inc pmatch c path pd1))
  || prune_exc c path isd (fst (eval_exc pmatch c path pd1)).

Lemma core_pruned pd1 p st isd : pruned pd1 p isd = true ->
  core pd1 p st isd = {| r_stack := pd1; r_push := None; r_em := []; r_skip := true |}.
Proof.
  unfold pruned, cb_core. intros H. destruct (prune_inc c p isd _); [reflexivity|].
  simpl in H. rewrite H. reflexivity.
Qed.

Lemma core_skip pd1 p st isd : pruned pd1 p isd = false -> is_skip pd1 p = true ->
  core pd1 p st isd = {| r_stack := pd1; r_push := push_of pd1 p st isd; r_em := []; r_skip := false |}.
Proof.
  unfold pruned, is_skip, cb_core, push_of, new_dir. intros H Hs. apply orb_false_iff in H. destruct H as [H1 H2].
  cbv zeta. rewrite H1, H2, !Hs. reflexivity.
Qed.

Lemma core_map pd1 p st isd : pruned pd1 p isd = false -> is_skip pd1 p = false ->
  core pd1 p st isd =
    match mapfn p st with
    | (MSkipDir, _) => {| r_stack := pd1; r_push := push_of pd1 p st isd; r_em := []; r_skip := true |}
    | (MExclude, _) => {| r_stack := pd1; r_push := push_of pd1 p st isd; r_em := []; r_skip := false |}
    | (MKeep, st') =>
      let '(pd2, em, ab) := lazy_parents mapfn pd1 in
      if ab then {| r_stack := pd2; r_push := push_of pd1 p st isd; r_em := em; r_skip := true |}
      else {| r_stack := pd2; r_push := push_of pd1 p st isd; r_em := em ++ [st']; r_skip := false |}
    end.
Proof.
  unfold pruned, is_skip, cb_core, push_of, new_dir. intros H Hs. apply orb_false_iff in H. destruct H as [H1 H2].
  cbv zeta. rewrite H1, H2, !Hs. reflexivity.
Qed.

Lemma pruned_isdir pd1 p isd : pruned pd1 p isd = true -> isd = true.
Proof.
  unfold pruned, prune_inc, prune_exc. destruct isd; auto. intros H.
  destruct (c_inc c), (c_exc c); rewrite ?andb_false_r in H; simpl in H; rewrite ?andb_false_r in H; discriminate.
Qed.

Lemma pruned_off pd1 p isd : c_prune c = false -> pruned pd1 p isd = false.
Proof.
  unfold pruned, prune_inc, prune_exc. intros ->.
  destruct (c_inc c), (c_exc c); rewrite ?andb_false_r; reflexivity.
Qed.

Definition shape (l : list vdir) : list bytes := map vd_pws l.

(* one round of the lazy parent loop: the directory as it is left, what is reported, SkipDir *)
Definition lazy_step (v : vdir) : vdir * list stat * bool :=
  if vd_skip v then (v, [], true)
  else if vd_called v then (v, [], false)
  else match mapfn (st_path (vd_stat v)) (vd_stat v) with
       | (MExclude, _) => (v, [], false)
       | (MSkipDir, _) => (set_skip v, [], true)
       | (MKeep, s') => (set_called v, [s'], false)
       end.

Lemma lazy_go_cons v r :
  lazy_go mapfn (v :: r) =
  let '(v', em, ab) := lazy_step v in
  if ab then (v' :: r, em, true)
  else let '(r', em', ab') := lazy_go mapfn r in (v' :: r', em ++ em', ab').
Proof.
  cbn [lazy_go]. unfold lazy_step. destruct (vd_skip v); [reflexivity|].
  destruct (vd_called v); [destruct (lazy_go mapfn r) as [[? ?] ?]; reflexivity|].
  destruct (mapfn (st_path (vd_stat v)) (vd_stat v)) as [[| |] s']; try reflexivity;
    destruct (lazy_go mapfn r) as [[? ?] ?]; reflexivity.
Qed.

(* the loop changes nothing but the two flags *)
Lemma lazy_go_map {B} (f : vdir -> B) l :
  (forall v, f (set_called v) = f v) -> (forall v, f (set_skip v) = f v) ->
  map f (fst (fst (lazy_go mapfn l))) = map f l.
Proof.
  intros Hcalled Hskip. induction l as [|v r IH]; [reflexivity|]. rewrite lazy_go_cons.
  assert (Hv : f (fst (fst (lazy_step v))) = f v).
  { unfold lazy_step. destruct (vd_skip v), (vd_called v), (mapfn (st_path (vd_stat v)) (vd_stat v)) as [[| |] ?];
      cbn [fst]; auto. }
  destruct (lazy_step v) as [[v' em] ab]. cbn [fst] in Hv.
  destruct ab; [cbn [fst map]; congruence|].
  destruct (lazy_go mapfn r) as [[r' em'] ab']. cbn [fst map] in *. congruence.
Qed.

Lemma lazy_parents_map {B} (f : vdir -> B) pd :
  (forall v, f (set_called v) = f v) -> (forall v, f (set_skip v) = f v) ->
  map f (fst (fst (lazy_parents mapfn pd))) = map f pd.
Proof.
  intros Hcalled Hskip. unfold lazy_parents. pose proof (lazy_go_map f (rev pd) Hcalled Hskip) as H.
  destruct (lazy_go mapfn (rev pd)) as [[l em] ab]. cbn [fst] in *.
  rewrite map_rev, H, map_rev, rev_involutive. reflexivity.
Qed.

(* what a callback pushes: nothing when a shortcut fires, else a directory while matchers exist *)
Lemma core_push_of pd1 p st isd :
  r_push (core pd1 p st isd) = if pruned pd1 p isd then None else push_of pd1 p st isd.
Proof.
  destruct (pruned pd1 p isd) eqn:Hp; [rewrite core_pruned by auto; reflexivity|].
  destruct (is_skip pd1 p) eqn:Hs; [rewrite core_skip by auto; reflexivity|].
  rewrite core_map by auto. destruct (mapfn p st) as [[| |] st']; try reflexivity.
  destruct (lazy_parents mapfn pd1) as [[pd2 em] ab]. destruct ab; reflexivity.
Qed.

(* a callback leaves the stack as it found it or as the lazy parent loop leaves it *)
Lemma core_stack pd1 p st isd :
  r_stack (core pd1 p st isd) = pd1 \/ r_stack (core pd1 p st isd) = fst (fst (lazy_parents mapfn pd1)).
Proof.
  destruct (pruned pd1 p isd) eqn:Hp; [rewrite core_pruned by auto; auto|].
  destruct (is_skip pd1 p) eqn:Hs; [rewrite core_skip by auto; auto|].
  rewrite core_map by auto. destruct (mapfn p st) as [[| |] st']; auto.
  destruct (lazy_parents mapfn pd1) as [[pd2 em] ab]. destruct ab; auto.
Qed.

Lemma core_stack_map {B} (f : vdir -> B) pd1 p st isd :
  (forall v, f (set_called v) = f v) -> (forall v, f (set_skip v) = f v) ->
  map f (r_stack (core pd1 p st isd)) = map f pd1.
Proof.
  intros H1 H2. destruct (core_stack pd1 p st isd) as [-> | ->]; [reflexivity|apply lazy_parents_map; auto].
Qed.

Lemma core_shape pd1 p st isd : shape (r_stack (core pd1 p st isd)) = shape pd1.
Proof. apply core_stack_map; reflexivity. Qed.

Lemma core_push pd1 p st isd d : r_push (core pd1 p st isd) = Some d ->
  vd_pws d = p ++ [sep] /\ isd = true /\ use_match c = true.
Proof.
  rewrite core_push_of. unfold push_of. destruct (pruned pd1 p isd), isd, (use_match c); try discriminate.
  intros [= <-]. auto.
Qed.

Lemma core_push_none pd1 p st : r_skip (core pd1 p st true) = false ->
  r_push (core pd1 p st true) = None -> use_match c = false.
Proof.
  rewrite core_push_of. destruct (pruned pd1 p true) eqn:Hp; [rewrite core_pruned by auto; discriminate|].
  unfold push_of. destruct (use_match c); [discriminate|reflexivity].
Qed.

Lemma core_push_file pd1 p st : r_push (core pd1 p st false) = None.
Proof.
  destruct (r_push (core pd1 p st false)) eqn:E; auto. apply core_push in E. destruct E as (_ & E & _). discriminate.
Qed.

Lemma pop_junk p J A : Forall (fun v => has_prefix (vd_pws v) p = false) J -> pop p (J ++ A) = pop p A.
Proof. induction 1 as [|v J Hv _ IH]; [reflexivity|]. simpl. rewrite Hv. exact IH. Qed.

Definition top_ok (dir : bytes) (A : list vdir) : Prop :=
  match A with [] => True | v :: _ => vd_pws v = dir ++ [sep] /\ dir <> [] end.

Lemma pop_top dir name A : top_ok dir A -> pop (child_path dir name) A = A.
Proof.
  destruct A as [|v A]; [reflexivity|]. intros [H1 H2]. simpl.
  rewrite H1, child_path_cons, has_prefix_snoc_r by auto. reflexivity.
Qed.

Lemma top_ok_shape dir A A1 : shape A1 = shape A -> top_ok dir A -> top_ok dir A1.
Proof. destruct A, A1; try discriminate; auto. intros [= E _] [H1 H2]. split; congruence. Qed.

(* what finished directories leave on the real stack: paths below earlier siblings *)
Definition junk (dir : bytes) (J : list vdir) : Prop :=
  Forall (fun v => exists nm, has_prefix (child_path dir nm ++ [sep]) (vd_pws v) = true) J.

Lemma junk_not_prefix dir nm pws name : nosep name ->
  has_prefix (child_path dir nm ++ [sep]) pws = true -> has_prefix pws (child_path dir name) = false.
Proof.
  intros Hn H. destruct (has_prefix pws (child_path dir name)) eqn:E; auto. exfalso.
  pose proof (has_prefix_trans _ _ _ H E) as X.
  rewrite <- (app_nil_r (child_path dir name)), child_path_prefix, app_nil_r in X.
  apply has_prefix_iff in X. destruct X as [r ->]. apply Hn. rewrite <- app_assoc. apply in_elt.
Qed.

Lemma junk_pop dir J A name : junk dir J -> top_ok dir A -> nosep name ->
  pop (child_path dir name) (J ++ A) = A.
Proof.
  intros HJ HA Hn. rewrite pop_junk.
  - apply pop_top; auto.
  - eapply Forall_impl; [|exact HJ]. intros v [nm Hv]. eapply junk_not_prefix; eauto.
Qed.

Lemma junk_up dir name J : name <> [] -> junk (child_path dir name) J -> junk dir J.
Proof.
  intros Hne. apply Forall_impl. intros v [nm Hv]. exists name. eapply has_prefix_trans; [|exact Hv].
  rewrite (child_path_cons _ nm) by (apply child_path_nonempty; auto).
  rewrite <- app_assoc. apply has_prefix_snoc_r.
Qed.

Lemma shape_nil A : shape A = [] -> A = [].
Proof. destruct A; [auto|discriminate]. Qed.

Notation cbk := (cb pmatch mapfn c).

(* rf: real stack and calls; rs: ancestor stack and calls.  The real stack is the ancestor
   stack under junk; without matchers nothing is ever pushed. *)
Definition sim (dir : bytes) (A : list vdir) (rf rs : list vdir * list stat) : Prop :=
  snd rf = snd rs /\
  (exists J, fst rf = J ++ fst rs /\ junk dir J) /\
  shape (fst rs) = shape A /\
  (use_match c = false -> fst rf = []).

Lemma cb_unfold pd path st isd :
  cbk pd path st isd =
  let r := core (if use_match c then pop path pd else pd) path st isd in (pushed r, r_em r, r_skip r).
Proof. reflexivity. Qed.

Definition sim_ok (n : node) : Prop := forall dir J A,
  junk dir J -> top_ok dir A -> (use_match c = false -> J ++ A = []) ->
  let rf := wd_node _ cbk dir n (J ++ A) in
  let rs := sw_node A dir n in
  sim dir A (fst rf) (fst rs) /\ snd rf = snd rs.

Lemma sim_forest l : Forall sim_ok l -> forall dir J A,
  junk dir J -> top_ok dir A -> (use_match c = false -> J ++ A = []) ->
  sim dir A (wd_forest _ cbk dir l (J ++ A)) (sw_forest A dir l).
Proof.
  induction 1 as [|k rest Hk _ IHl]; intros dir J A HJ HA Hnm; cbn [wd_forest sw_forest].
  - unfold sim. cbn [fst snd]. repeat split; auto. exists J. auto.
  - specialize (Hk dir J A HJ HA Hnm). cbv zeta in Hk.
    destruct (wd_node _ cbk dir k (J ++ A)) as [[F1 e1] c1], (sw_node A dir k) as [[A1 e1'] c1'].
    unfold sim in Hk. cbn [fst snd] in Hk. destruct Hk as [(<- & (J1 & -> & HJ1) & Hsh1 & Hnm1) <-].
    destruct c1.
    + unfold sim. cbn [fst snd]. repeat split; auto. exists J1. auto.
    + specialize (IHl dir J1 A1 HJ1 (top_ok_shape _ _ _ Hsh1 HA) Hnm1).
      destruct (wd_forest _ cbk dir rest (J1 ++ A1)) as [F2 e2], (sw_forest A1 dir rest) as [A2 e2'].
      unfold sim in *. cbn [fst snd] in *. destruct IHl as (-> & HJ2 & Hsh2 & Hnm2).
      repeat split; auto. congruence.
Qed.

Lemma sim_node : forall n, wf_node n = true -> sim_ok n.
Proof.
  apply wf_node_ind. intros name st ct kids Hne Hns _ IHk dir J A HJ HA Hnm.
  cbv zeta. rewrite wd_node_eq, sw_node_eq. cbv zeta. rewrite cb_unfold. cbv zeta.
  set (p := child_path dir name). set (st' := set_path st p). set (isd := st_is_dir st).
  assert (HAnil : use_match c = false -> A = []).
  { intros Eu. apply Hnm, app_eq_nil in Eu. tauto. }
  (* popping removes the junk and nothing else *)
  replace (if use_match c then pop p (J ++ A) else J ++ A) with A.
  2:{ destruct (use_match c) eqn:Eu; [symmetry; apply junk_pop; auto|]. rewrite Hnm, HAnil; auto. }
  set (r := core A p st' isd).
  assert (Hsh : shape (r_stack r) = shape A) by apply core_shape.
  assert (Hpush_nm : use_match c = false -> pushed r = []).
  { intros Eu. unfold pushed. destruct (r_push r) eqn:Ep.
    - apply core_push in Ep. destruct Ep as (_ & _ & Ep). congruence.
    - apply shape_nil. rewrite Hsh, (HAnil Eu). reflexivity. }
  (* the callback alone: a pushed directory is junk for the siblings to come *)
  assert (Hskipcase : sim dir A (pushed r, r_em r) (r_stack r, r_em r)).
  { unfold sim. cbn [fst snd]. repeat split; auto.
    unfold pushed. destruct (r_push r) as [d|] eqn:Ep.
    - exists [d]. split; [reflexivity|]. constructor; [|constructor]. exists name.
      apply core_push in Ep. destruct Ep as (Ep & _). rewrite Ep. apply has_prefix_refl.
    - exists []. split; [reflexivity|constructor]. }
  destruct (r_skip r) eqn:Esk; [cbn [fst snd]; auto|].
  destruct isd eqn:Eisd; [|cbn [fst snd]; auto].
  (* directory whose contents are walked *)
  assert (Htop : top_ok p (pushed r)).
  { unfold pushed. destruct (r_push r) as [d|] eqn:Ep.
    - apply core_push in Ep. destruct Ep as (Ep & _). split; [exact Ep|]. apply child_path_nonempty; auto.
    - subst r. apply core_push_none in Ep; auto. rewrite (shape_nil _ (eq_trans Hsh (f_equal shape (HAnil Ep)))). exact I. }
  pose proof (sim_forest kids IHk p [] (pushed r) (Forall_nil _) Htop Hpush_nm) as Hforest.
  cbn [app] in Hforest.
  destruct (wd_forest _ cbk p kids (pushed r)) as [F2 e2], (sw_forest (pushed r) p kids) as [A2 e2'].
  unfold sim in Hforest. cbn [fst snd] in *. destruct Hforest as (-> & (J2 & HF2 & HJ2) & Hsh2 & Hnm2).
  split; auto. unfold sim. cbn [fst snd].
  apply (junk_up dir name J2 Hne) in HJ2.
  unfold pushed in *. destruct (r_push r) as [d|] eqn:Ep.
  - destruct A2 as [|d' A3]; [discriminate|]. cbn [tl]. inversion Hsh2 as [[Hd Hsh3]].
    repeat split; auto.
    + exists (J2 ++ [d']). split; [rewrite <- app_assoc; exact HF2|].
      apply Forall_app. split; auto. constructor; [|constructor]. exists name.
      apply core_push in Ep. destruct Ep as (Ep & _). rewrite Hd, Ep. apply has_prefix_refl.
    + unfold shape in *. congruence.
  - repeat split; auto.
    + exists J2. auto.
    + unfold shape in *. congruence.
Qed.

Definition sw_walk (view : list node) : list stat := snd (sw_forest [] [] view).

Theorem filter_walk_structural view : wf_view view = true ->
  filter_walk pmatch mapfn c view = sw_walk view.
Proof.
  intros Hwf. unfold filter_walk, sw_walk.
  apply (sim_forest view (Forall_wf _ _ sim_node Hwf) [] [] [] (Forall_nil _) I (fun _ => eq_refl)).
Qed.

End SW.
