(* C13 / C15 — copier.copy / copyDirectory against the overlay rules: a successful run of
   [copy_node] on a state that matches an expected view X leaves a state that matches the
   overlay of the source node over X (Model/CopySpec.v [overlay_at]), with the notifications
   of [node_notifs].  Multiply-linked source files ([multi]) go through the invariant [Lk] of
   CopyLinkP.v; every source path is selected ([Hsel]). *)
From Coq Require Import List NArith Bool Lia ZifyN ZifyNat ZifyBool.
From FS Require Import Sx Model.Path Model.SymMode Model.Copier Model.CopySpec Proofs.Lex
  Proofs.CopierP Proofs.CopyOpsP Proofs.CopyDentP Proofs.CopyLinkP.
Import ListNotations.
Open Scope N_scope.
Open Scope bool_scope.

Lemma path_tri (T q : list (list N)) : q = T \/ (exists a r, q = T ++ a :: r) \/ strip_prefix T q = None.
Proof.
  destruct (path_cases T q) as [(r & ->)|H]; auto.
  destruct r; [left; apply app_nil_r|right; left; eauto].
Qed.
Lemma strip_self (T : list (list N)) : strip_prefix T T = Some [].
Proof. apply strip_prefix_some. rewrite app_nil_r; auto. Qed.
Lemma unrel_ne T q : strip_prefix T q = None -> q <> T.
Proof. intros H E. subst. rewrite strip_self in H. discriminate. Qed.
Lemma below_ne_parent (P : list (list N)) a b r : (P ++ [a]) ++ b :: r <> P.
Proof. rewrite <- app_assoc. apply snoc_ne_self. Qed.

Section Node.
  Variable o : copts.
  Variable ms : option (list bitcmd).
  Variable multi : N -> bool.
  Variable selected : list (list N) -> bool.
  Hypothesis Hsel : forall p, selected p = true.
  Variable sdof : N -> dent.
  Variable S : Prop.              (* exact-partition mode, see CopyLinkP.v *)
  Notation Inv := (Inv o).
  Notation Lk := (Lk o ms multi sdof S).
  Notation touch := (touch o).
  Notation copied := (copied o ms multi).
  Notation new_entry := (new_entry o ms multi).

  Definition kids_loop (sc target : list (list N)) : list snode -> cstate -> R :=
    fix kids_loop (l : list snode) (s : cstate) {struct l} : R :=
    match l with
    | [] => ok s
    | k :: r => s' <~ copy_node o ms multi selected k (sc ++ [sname k]) (target ++ [sname k]) true s ;; kids_loop r s'
    end.
  Lemma kids_loop_cons sc target k r s : kids_loop sc target (k :: r) s =
    (s' <~ copy_node o ms multi selected k (sc ++ [sname k]) (target ++ [sname k]) true s ;; kids_loop sc target r s').
  Proof. reflexivity. Qed.

  Lemma copy_node_eq nm ino sd kids sc target ow st :
    copy_node o ms multi selected (SNode nm ino sd kids) sc target ow st =
      let tfi := lstat (c_fs st) target in
      let include := match sc with [] => true | _ => selected sc end in
      st1 <~ (if include then remove_target_if_needed o target sd tfi st else ok st) ;;
      if is_dir sd then
        match (if include then copy_dir_only o target sd ow st1 else (st1, None, false)) with
        | (st2, Some e, _) => (st2, Some e)
        | (st2, None, created) =>
          let st3 := if include && (created || ow) then notify target true st2 else st2 in
          st4 <~ kids_loop sc target kids st3 ;;
          let cfi := if ow then include else created in
          let restore := if ow then false else negb created in
          if cfi then (s5 <~ copy_file_info o ms sd target st4 ;; copy_xattrs sd target s5)
          else if restore && (match tfi with Some _ => true | None => false end)
               then copy_file_timestamp o sd target st4
          else ok st4
        end
      else if negb include then ok st1
      else
        st2 <~ ensure_empty_file_target target
                 (match tfi with Some _ => forget target st1 | None => st1 end) ;;
        st3 <~ (if is_reg sd then copy_regular o multi ino sd target st2
                else if is_lnk sd then sys (k_symlink target (d_target sd) (c_fs st2)) st2
                else copy_device o sd target st2) ;;
        st4 <~ copy_file_info o ms sd target st3 ;;
        st5 <~ copy_xattrs sd target st4 ;;
        ok (notify target false st5).
  Proof. reflexivity. Qed.

  Lemma include_true sc : match sc with [] => true | _ => selected sc end = true.
  Proof. destruct sc; auto. Qed.

  (* the specification, with the "named by the call" flag as a parameter *)
  Definition ov (n : snode) (T : list (list N)) (tp : bool) (X : xview) : xview := fun p =>
    match strip_prefix T p with
    | None => X p
    | Some r =>
      match s_lookup n r with
      | Some s => Some (copied s (X p) (tp && match r with [] => true | _ => false end) p)
      | None => if shadowed n r then None else X p
      end
    end.
  Lemma overlay_at_ov n L V p : overlay_at o ms multi n L V p = ov n L true V p.
  Proof. reflexivity. Qed.

  Definition ovk (l : list snode) (T : list (list N)) (X : xview) : xview := fun p =>
    match strip_prefix T p with
    | Some (a :: r) => match find_kid a l with Some k => ov k (T ++ [a]) false X p | None => X p end
    | _ => X p
    end.

  Definition res (n : snode) (T : list (list N)) (tp : bool) (X : xview) : xview :=
    if is_dir (sdent n) && x_isdir (X T) then ov n T tp X else touch (parent T) (ov n T tp X).

  Lemma ov_at_T n T tp X : ov n T tp X T = Some (copied n (X T) tp T).
  Proof. unfold ov. rewrite strip_self. simpl. rewrite andb_true_r. auto. Qed.
  Lemma ov_unrel n T tp X q : strip_prefix T q = None -> ov n T tp X q = X q.
  Proof. unfold ov. intros ->. auto. Qed.
  Lemma ov_ext n T tp X X' q : X q = X' q -> ov n T tp X q = ov n T tp X' q.
  Proof. unfold ov. intros ->. auto. Qed.
  Lemma ov_below_dir nm ino sd kids T tp X a r : is_dir sd = true ->
    ov (SNode nm ino sd kids) T tp X (T ++ a :: r) =
    match find_kid a kids with Some k => ov k (T ++ [a]) false X (T ++ a :: r) | None => X (T ++ a :: r) end.
  Proof.
    intro Hd. unfold ov at 1. rewrite strip_prefix_app. cbn [s_lookup skids shadowed sdent]. rewrite Hd. cbn [negb].
    destruct (find_kid a kids) as [k|] eqn:E; auto.
    unfold ov. rewrite strip_snoc_below, bytes_eqb_refl, andb_false_r. cbn [andb]. auto.
  Qed.
  Lemma ov_below_file nm ino sd T tp X a r : is_dir sd = false ->
    ov (SNode nm ino sd []) T tp X (T ++ a :: r) = None.
  Proof.
    intro Hd. unfold ov. rewrite strip_prefix_app. cbn [s_lookup skids find_kid shadowed sdent]. rewrite Hd. auto.
  Qed.

  Lemma touch_ext P Y Y' q : Y P = Y' P -> Y q = Y' q -> touch P Y q = touch P Y' q.
  Proof.
    intros H1 H2. destruct (path_dec q P) as [->|H].
    - rewrite !touch_same, H1. auto.
    - rewrite !touch_other; auto.
  Qed.
  Lemma xrm_unrel T Y q : strip_prefix T q = None -> xrm T Y q = Y q.
  Proof. intro H. unfold xrm. rewrite is_prefix_strip, H. auto. Qed.
  Lemma xrm_below T Y r : xrm T Y (T ++ r) = None.
  Proof. unfold xrm. rewrite is_prefix_app. auto. Qed.

  (* clearing the target P ++ [a]: nothing at or below it, its parent touched, the rest as before *)
  Lemma clr_facts P a Y : x_isdir (Y P) = true ->
    let Z := touch P (xrm (P ++ [a]) Y) in
    x_isdir (Z P) = true /\ (forall r, Z ((P ++ [a]) ++ r) = None) /\
    (forall q, strip_prefix (P ++ [a]) q = None -> touch P Z q = touch P Y q).
  Proof.
    intros HP Z. unfold Z. split; [|split].
    - rewrite touch_isdir, xrm_unrel; auto. apply strip_snoc_self.
    - intro r. rewrite touch_other by (rewrite <- app_assoc; apply snoc_ne_self). apply xrm_below.
    - intros q Hq. rewrite touch_idem. apply touch_ext; apply xrm_unrel; auto. apply strip_snoc_self.
  Qed.

  Definition nc (X : xview) (T : list (list N)) (n : snode) : Prop :=
    o_replace o = false -> first_conflict X T n = None.

  Lemma first_conflict_ext V V' : forall n p, (forall r, V (p ++ r) = V' (p ++ r)) ->
    first_conflict V p n = first_conflict V' p n.
  Proof.
    induction n as [nm ino sd kids IH] using snode_ind2. intros p H. cbn [first_conflict].
    assert (E0 : V p = V' p) by (specialize (H []); rewrite app_nil_r in H; auto).
    rewrite E0. destruct (V' p) as [e|]; auto.
    destruct (is_dir sd && negb (is_dir (x_d e))); auto. destruct (negb (is_dir sd) && is_dir (x_d e)); auto.
    destruct (is_dir sd); auto.
    induction kids as [|k r IHr]; auto. inversion IH as [|? ? Hk Hr]; subst.
    rewrite (Hk (p ++ [sname k])); [|intro r0; rewrite <- !app_assoc; apply H].
    destruct (first_conflict V' (p ++ [sname k]) k); auto.
  Qed.

  Lemma first_conflict_dir V p nm ino sd kids e :
    first_conflict V p (SNode nm ino sd kids) = None -> V p = Some e -> is_dir sd = true ->
    is_dir (x_d e) = true /\ forall k, In k kids -> first_conflict V (p ++ [sname k]) k = None.
  Proof.
    cbn [first_conflict]. intros H He Hd. rewrite He, Hd in H. cbn [andb negb] in H.
    destruct (is_dir (x_d e)); [|discriminate]. split; auto. cbn [negb] in H.
    induction kids as [|k r IH]; intros k' Hin; [destruct Hin|].
    destruct (first_conflict V (p ++ [sname k]) k) eqn:E; [discriminate|].
    destruct Hin as [<-|Hin]; auto.
  Qed.

  Lemma first_conflict_kind V p nm ino sd kids e :
    first_conflict V p (SNode nm ino sd kids) = None -> V p = Some e -> is_dir (x_d e) = is_dir sd.
  Proof.
    cbn [first_conflict]. intros H He. rewrite He in H.
    destruct (is_dir sd), (is_dir (x_d e)); auto; discriminate.
  Qed.

  Lemma node_notifs_nontop V V' : forall n p, node_notifs V false p n = node_notifs V' false p n.
  Proof.
    induction n as [nm ino sd kids IH] using snode_ind2. intros p. cbn [node_notifs andb].
    destruct (is_dir sd); auto. f_equal.
    induction kids as [|k r IHr]; auto. inversion IH; subst. f_equal; auto.
  Qed.

  Fixpoint kids_notifs (V : xview) (T : list (list N)) (l : list snode) : list (list (list N) * bool) :=
    match l with [] => [] | k :: r => node_notifs V false (T ++ [sname k]) k ++ kids_notifs V T r end.
  Lemma node_notifs_dir V tp T nm ino sd kids : is_dir sd = true ->
    node_notifs V tp T (SNode nm ino sd kids) =
    (if tp && x_isdir (V T) then [] else [(T, true)]) ++ kids_notifs V T kids.
  Proof.
    intro Hd. cbn [node_notifs]. rewrite Hd. f_equal. induction kids; simpl; auto. f_equal; auto.
  Qed.
  Lemma kids_notifs_ext V V' T l : kids_notifs V T l = kids_notifs V' T l.
  Proof. induction l; simpl; auto. f_equal; auto. apply node_notifs_nontop. Qed.

  Definition tok (X : xview) (T : list (list N)) (sd : dent) : Prop :=
    (T = [] /\ is_dir sd = true /\ x_isdir (X []) = true) \/
    (exists P a, T = P ++ [a] /\ x_isdir (X P) = true).

  Definition node_ok (n : snode) : Prop :=
    forall sc T ow st X, Inv (c_fs st) X -> Lk (c_fs st) X (c_imap st) -> (S -> PC T (c_imap st)) ->
      tok X T (sdent n) -> nc X T n ->
    exists st', copy_node o ms multi selected n sc T ow st = (st', None) /\
                Inv (c_fs st') (res n T (negb ow) X) /\
                Lk (c_fs st') (res n T (negb ow) X) (c_imap st') /\
                IM (c_imap st) (c_imap st') T /\
                c_notifs st' = rev (node_notifs X (negb ow) T n) ++ c_notifs st.

  (* every multiply-linked regular file of the tree carries the dentry [sdof] gives for its inode *)
  Fixpoint cons_s (n : snode) {struct n} : Prop :=
    match n with
    | SNode _ ino d kids =>
      (is_reg d = true -> multi ino = true -> d = sdof ino) /\
      (fix all (l : list snode) : Prop := match l with [] => True | k :: r => cons_s k /\ all r end) kids
    end.
  Lemma cons_s_unfold nm ino d kids :
    cons_s (SNode nm ino d kids) <-> (is_reg d = true -> multi ino = true -> d = sdof ino) /\ Forall cons_s kids.
  Proof. simpl. rewrite (all_Forall cons_s). tauto. Qed.
  Lemma cons_s_kid n k : cons_s n -> In k (skids n) -> cons_s k.
  Proof. destruct n. intro H. apply cons_s_unfold in H. destruct H as (_ & Hall). rewrite Forall_forall in Hall. apply Hall. Qed.

  Lemma IM_refl im T : IM im im T.
  Proof. intros s l i H. auto. Qed.

  Lemma forget_fs T st : c_fs (forget T st) = c_fs st. Proof. reflexivity. Qed.
  Lemma forget_imap T st : c_imap (forget T st) = imap_forget T (c_imap st). Proof. reflexivity. Qed.
  Lemma forget_notifs T st : c_notifs (forget T st) = c_notifs st. Proof. reflexivity. Qed.

  Lemma step_remove nm ino sd kids P a st X :
    let T := P ++ [a] in
    Inv (c_fs st) X -> Lk (c_fs st) X (c_imap st) -> (S -> PC T (c_imap st)) -> x_isdir (X P) = true ->
    nc X T (SNode nm ino sd kids) -> is_dir sd && x_isdir (X T) = false ->
    exists st1 X1, remove_target_if_needed o T sd (lstat (c_fs st) T) st = (st1, None) /\
      Inv (c_fs st1) X1 /\ Lk (c_fs st1) X1 (c_imap st1) /\
      IM (c_imap st) (c_imap st1) T /\ (S -> PC T (c_imap st1)) /\ c_notifs st1 = c_notifs st /\
      x_isdir (X1 P) = true /\ (forall q, strip_prefix T q = None -> touch P X1 q = touch P X q) /\
      (forall b r, X1 (T ++ b :: r) = None) /\
      (X1 T = None \/ exists e, X1 T = Some e /\ X T = Some e /\ is_dir (x_d e) = false /\ is_dir sd = false).
  Proof.
    intros T I L Hpc HP Hnc Hm. pose proof (inv_lstat _ _ _ T I) as HL.
    (* under the last hypothesis, whatever is at T is removed when always-replace is set *)
    assert (Er : remove_target_if_needed o T sd (lstat (c_fs st) T) st =
                 if o_replace o && x_exists (X T)
                 then ok (with_fs (forget T st) (k_remove_all T (c_fs (forget T st)))) else ok st).
    { unfold remove_target_if_needed. destruct (o_replace o); auto. cbn [negb andb].
      destruct (lstat (c_fs st) T) as [td|], (X T) as [e|]; try contradiction; auto.
      cbn [x_isdir] in Hm. rewrite (dm_is_dir _ _ _ HL), Hm. reflexivity. }
    rewrite Er. destruct (o_replace o && x_exists (X T)) eqn:Erm.
    - apply andb_true_iff in Erm as [_ Ex]. destruct (X T) as [e|] eqn:EX; [|discriminate].
      destruct (clr_facts P a X HP) as (Z1 & Z2 & Z3).
      eexists. exists (touch P (xrm T X)). split; [reflexivity|].
      cbn [with_fs c_fs c_imap c_notifs]. rewrite forget_fs, forget_imap, forget_notifs.
      pose proof (lk_nodup _ _ _ _ _ _ _ _ L) as Hnd.
      split; [eapply inv_k_remove_all; eauto|]. split.
      { apply (Lk_removed o ms multi sdof S (c_fs st)); auto; [apply Lk_forget; auto|apply PC_forget; auto|].
        intro q. apply k_remove_all_names. destruct (inv_x_some _ _ _ _ _ I EX) as (i & Hi & _). fold T. congruence. }
      split; [apply IM_forget; auto|]. split; [intros _; apply PC_forget; auto|]. do 3 (split; [auto|]).
      split; [intros b r; apply Z2|]. left. generalize (Z2 []). rewrite app_nil_r. auto.
    - (* nothing is removed: what is at T has the kind of the source, so neither is a directory *)
      assert (Hk : forall e, X T = Some e -> is_dir (x_d e) = false /\ is_dir sd = false).
      { intros e He. rewrite He, andb_true_r in Erm.
        pose proof (first_conflict_kind _ _ _ _ _ _ _ (Hnc Erm) He) as Hk.
        unfold x_isdir in Hm. rewrite He, <- Hk, andb_diag in Hm. rewrite <- Hk. auto. }
      exists st, X. do 3 (split; [auto|]). split; [apply IM_refl|]. do 4 (split; [auto|]). split.
      + intros b r. destruct (X T) as [e|] eqn:EX; [|apply (x_none_below o _ _ _ _ I EX)].
        apply (x_none_below_nondir o _ _ _ _ b r I EX), (Hk e eq_refl).
      + destruct (X T) as [e|] eqn:EX; auto. right. exists e. destruct (Hk e eq_refl). auto.
  Qed.

  (* forgetLinkSources (if the call found something at the target) and ensureEmptyFileTarget *)
  Lemma step_empty P a (tfi : option dent) st1 X1 :
    let T := P ++ [a] in
    Inv (c_fs st1) X1 -> Lk (c_fs st1) X1 (c_imap st1) -> (S -> PC T (c_imap st1)) -> x_isdir (X1 P) = true ->
    (forall b r, X1 (T ++ b :: r) = None) ->
    (X1 T = None \/ exists e, X1 T = Some e /\ is_dir (x_d e) = false /\ tfi <> None) ->
    exists st2 X2,
      ensure_empty_file_target T (match tfi with Some _ => forget T st1 | None => st1 end) = (st2, None) /\
      Inv (c_fs st2) X2 /\ Lk (c_fs st2) X2 (c_imap st2) /\ IM (c_imap st1) (c_imap st2) T /\
      c_notifs st2 = c_notifs st1 /\
      x_isdir (X2 P) = true /\ (forall r, X2 (T ++ r) = None) /\
      (forall q, strip_prefix T q = None -> touch P X2 q = touch P X1 q).
  Proof.
    intros T I1 L1 Hpc1 F1 F3 F2.
    set (st1' := match tfi with Some _ => forget T st1 | None => st1 end).
    pose proof (lk_nodup _ _ _ _ _ _ _ _ L1) as Hnd1.
    assert (I1' : Inv (c_fs st1') X1) by (unfold st1'; destruct tfi; auto).
    assert (L1' : Lk (c_fs st1') X1 (c_imap st1')).
    { unfold st1'. destruct tfi; auto. rewrite forget_fs, forget_imap. apply Lk_forget; auto. }
    assert (M1' : IM (c_imap st1) (c_imap st1') T) by (unfold st1'; destruct tfi; [apply IM_forget; auto|apply IM_refl]).
    assert (N1' : c_notifs st1' = c_notifs st1) by (unfold st1'; destruct tfi; auto).
    unfold ensure_empty_file_target. pose proof (inv_lstat _ _ _ T I1') as HL.
    destruct F2 as [F2|(e & F2 & Fd & Ht)]; rewrite F2 in HL.
    - destruct (lstat (c_fs st1') T); [contradiction|]. exists st1', X1. do 6 (split; [auto|]). split; auto.
      intros [|b r]; [rewrite app_nil_r; auto|apply F3].
    - destruct (lstat (c_fs st1') T) as [td|]; [|contradiction]. rewrite (dm_is_dir _ _ _ HL), Fd.
      destruct (inv_k_unlink o _ _ P a e I1' F2 Fd F1) as (fs2 & U1 & U2 & U3). fold T in U1, U2, U3. rewrite U1.
      destruct (clr_facts P a X1 F1) as (Z1 & Z2 & Z3).
      exists (with_fs st1' fs2), (touch P (xrm T X1)). cbn [sys ok with_fs c_fs c_imap c_notifs].
      do 2 (split; [auto|]). split; [|auto].
      apply (Lk_removed o ms multi sdof S (c_fs st1')); auto.
      unfold st1'. destruct tfi; [|congruence]. rewrite forget_imap. apply PC_forget; auto.
  Qed.

  Lemma bind_assoc (m : R) (f g : cstate -> R) : bind (bind m f) g = bind m (fun x => bind (f x) g).
  Proof. destruct m as [s [e|]]; reflexivity. Qed.

  Lemma bind_ret s (k : cstate -> R) : bind (s, None) k = k s.
  Proof. reflexivity. Qed.

  Lemma new_dent_lnk_mode pd rdev tg ct : d_mode (new_dent 0 pd S_IFLNK 511 rdev tg ct) = N.lor S_IFLNK 511.
  Proof. reflexivity. Qed.

  Lemma type_facts sd :
    (is_reg sd = true -> is_lnk sd = false /\ is_dev sd = false /\ copy_type sd = S_IFREG) /\
    (is_lnk sd = true -> is_reg sd = false /\ is_dev sd = false /\ copy_type sd = S_IFLNK) /\
    (is_dir sd = true -> is_reg sd = false /\ is_lnk sd = false /\ is_dev sd = false /\ is_sock sd = false /\ copy_type sd = S_IFDIR).
  Proof.
    unfold is_reg, is_lnk, is_dir, is_dev, is_sock, copy_type, is_sock.
    split; [|split]; intro H; apply N.eqb_eq in H; rewrite H; repeat split; reflexivity.
  Qed.

  Lemma new_entry_key s T :
    x_key (new_entry s T) = if is_reg (sdent s) && multi (sino s) then KSrc (sino s) else KNew T.
  Proof. reflexivity. Qed.

  (* creation of a non-directory (fresh inode) + metadata phase + notification *)
  Lemma file_tail s P a um typ m12 rdev tg ct st2 X2 :
    wf_dent (sdent s) -> N.land typ S_IFMT = typ -> typ = copy_type (sdent s) ->
    (is_lnk (sdent s) = true -> um = 0 /\ typ = S_IFLNK /\ m12 = 511) ->
    rdev = (if is_dev (sdent s) then d_rdev (sdent s) else 0) -> tg = d_target (sdent s) ->
    ct = (if is_reg (sdent s) then d_content (sdent s) else []) ->
    Inv (c_fs st2) X2 -> X2 (P ++ [a]) = None -> x_isdir (X2 P) = true ->
    exists fs5,
      (st3 <~ sys (k_new um (P ++ [a]) typ m12 rdev tg ct (c_fs st2)) st2 ;;
       st4 <~ copy_file_info o ms (sdent s) (P ++ [a]) st3 ;;
       st5 <~ copy_xattrs (sdent s) (P ++ [a]) st4 ;;
       ok (notify (P ++ [a]) false st5)) = (notify (P ++ [a]) false (with_fs st2 fs5), None) /\
      Inv fs5 (xupd (P ++ [a]) (Some (new_entry s (P ++ [a]))) (touch P X2)) /\
      (forall q, q <> P ++ [a] -> names fs5 q = names (c_fs st2) q) /\
      names fs5 (P ++ [a]) = Some (next (c_fs st2)).
  Proof.
    intros Hwf Hty Hct Hl Hr Htg Hc I HT HP. set (T := P ++ [a]) in *. set (sd := sdent s) in *.
    destruct (inv_k_new o _ _ P a um typ m12 rdev tg ct I HT HP)
      as (fs3 & j & E3 & Hj & Hjd & Hn3 & Hi3 & Hu3 & Hf3 & I3).
    fold T in E3, Hn3, Hu3, Hf3, I3. rewrite E3. cbn [sys ok bind].
    set (newd := new_dent um (inodes (c_fs st2) j) typ m12 rdev tg ct) in *.
    assert (Hkey : x_key (new_entry s T) = KNew T \/ exists s0, x_key (new_entry s T) = KSrc s0).
    { rewrite new_entry_key. destruct (is_reg (sdent s) && multi (sino s)); eauto. }
    specialize (I3 (xex newd (x_key (new_entry s T)) false) (dm_xex _ _ _ _) Hkey).
    destruct (meta_phase o ms sd T (with_fs st2 fs3) _ Hn3) as (fs5 & E5 & V5).
    rewrite <- (bind_assoc (copy_file_info o ms sd T (with_fs st2 fs3)) (fun x => copy_xattrs sd T x)
                  (fun x => ok (notify T false x))).
    rewrite E5. cbn [bind ok with_fs c_fs c_imap c_notifs c_split].
    exists fs5. split; [reflexivity|]. cbn [with_fs c_fs] in V5. split; [|split].
    - eapply Inv_fs_ext; [apply fs_eqv_sym; exact V5|].
      eapply Inv_ext; [intro q; symmetry; apply xupd_xupd|].
      eapply (inv_upd1 o fs3 _ T _ (finfo o ms sd) (xex newd (x_key (new_entry s T)) false) (new_entry s T) I3 Hn3 Hu3).
      + apply xupd_same.
      + apply ftype_finfo.
      + rewrite Hi3. apply dm_finfo_fresh; fold sd; auto.
        * unfold newd. rewrite ftype_new_dent; auto.
        * intro El. destruct (Hl El) as (-> & -> & ->). reflexivity.
      + reflexivity.
    - intros q Hq. rewrite (fe_names _ _ V5). simpl names. auto.
    - rewrite (fe_names _ _ V5). simpl names. auto.
  Qed.

  Lemma dm_shape d e e' : x_d e' = x_d e -> x_known e' = x_known e -> x_mk e' = x_mk e -> dm o d e -> dm o d e'.
  Proof. unfold dm, eff_known. intros -> -> ->. auto. Qed.

  (* a further member of a link group: link(2) to the recorded first copy + metadata phase *)
  Lemma file_tail_link s P a st2 X2 l id :
    wf_dent (sdent s) -> is_reg (sdent s) = true -> multi (sino s) = true -> sdent s = sdof (sino s) ->
    Inv (c_fs st2) X2 -> Lk (c_fs st2) X2 (c_imap st2) -> X2 (P ++ [a]) = None -> x_isdir (X2 P) = true ->
    imap_find (sino s) (c_imap st2) = Some (l, id) ->
    exists fs5,
      (st3 <~ sys (k_link l (P ++ [a]) (c_fs st2)) st2 ;;
       st4 <~ copy_file_info o ms (sdent s) (P ++ [a]) st3 ;;
       st5 <~ copy_xattrs (sdent s) (P ++ [a]) st4 ;;
       ok (notify (P ++ [a]) false st5)) = (notify (P ++ [a]) false (with_fs st2 fs5), None) /\
      Inv fs5 (xupd (P ++ [a]) (Some (new_entry s (P ++ [a]))) (touch P X2)) /\
      Lk fs5 (xupd (P ++ [a]) (Some (new_entry s (P ++ [a]))) (touch P X2)) (c_imap st2).
  Proof.
    intros Hwf Hreg Hmul Hsd I L HT HP Hrec. set (T := P ++ [a]) in *. set (sd := sdent s) in *.
    destruct (lk_rec _ _ _ _ _ _ _ _ L _ _ _ Hrec) as (Hl & _ & _).
    destruct (lk_mem _ _ _ _ _ _ _ _ L _ _ _ _ Hrec Hl) as (el & El1 & El2 & El3 & El4 & El5).
    destruct (inv_at _ _ _ _ _ _ I Hl El1) as (Hdm & _).
    assert (Hnd : is_dir (inodes (c_fs st2) id) = false).
    { rewrite (dm_is_dir _ _ _ Hdm), El3. apply ne_d_nondir. rewrite <- Hsd. auto. }
    set (eT := new_entry s T).
    assert (KT : x_key eT = KSrc (sino s)) by (unfold eT; rewrite new_entry_key; fold sd; rewrite Hreg, Hmul; auto).
    assert (DT : x_d eT = ne_d o ms (sdof (sino s))) by (unfold eT; rewrite new_entry_d, <- Hsd; auto).
    assert (HdmT : dm o (inodes (c_fs st2) id) eT).
    { apply (dm_shape _ el); auto; try (rewrite El4; reflexivity); try (rewrite El5; reflexivity). congruence. }
    destruct (inv_k_link o _ _ P a l id eT I HT HP Hl Hnd HdmT) as (fs3 & E3 & Hn3 & I3); eauto.
    { intros p e0 Hp He0. destruct (lk_mem _ _ _ _ _ _ _ _ L _ _ _ _ Hrec Hp) as (e1 & A1 & A2 & _).
      rewrite He0 in A1. inversion A1; subst. eauto. }
    fold T in E3, Hn3, I3. rewrite E3. cbn [sys ok bind].
    assert (HnT0 : names (c_fs st2) T = None) by (eapply inv_x_none; eauto).
    assert (L3 : Lk fs3 (xupd T (Some eT) (touch P X2)) (c_imap st2)).
    { eapply (Lk_link o ms multi sdof S (c_fs st2)); eauto. }
    assert (HnT3 : names fs3 T = Some id) by (rewrite Hn3, path_eqb_refl; auto).
    destruct (meta_phase o ms sd T (with_fs st2 fs3) _ HnT3) as (fs5 & E5 & V5).
    rewrite <- (bind_assoc (copy_file_info o ms sd T (with_fs st2 fs3)) (fun x => copy_xattrs sd T x)
                  (fun x => ok (notify T false x))).
    rewrite E5. cbn [bind ok with_fs c_fs c_imap c_notifs c_split].
    exists fs5. split; [reflexivity|]. cbn [with_fs c_fs] in V5. split.
    - eapply Inv_fs_ext; [apply fs_eqv_sym; exact V5|].
      eapply (inv_upd o fs3 _ _ id (finfo o ms sd) I3).
      + apply ftype_finfo.
      + intros p e Hp He. exists e. split; auto. split; auto.
        assert (Hrec3 : names fs3 l = Some id).
        { destruct (lk_rec _ _ _ _ _ _ _ _ L3 _ _ _ Hrec); auto. }
        destruct (lk_mem _ _ _ _ _ _ _ _ L3 _ _ _ _ Hrec Hp) as (e1 & A1 & A2 & A3 & A4 & A5).
        rewrite He in A1. inversion A1; subst e1.
        destruct (inv_at _ _ _ _ _ _ I3 Hp He) as (B2 & _).
        destruct Hwf as (_ & _ & _ & Hx). destruct (proj1 (type_facts sd) Hreg) as (Hlnk & _).
        apply (finfo_fix o ms sd); auto. rewrite A3, <- Hsd; auto.
      + auto.
    - eapply Lk_names_ext; [|exact L3]. intro q. rewrite (fe_names _ _ V5). reflexivity.
  Qed.

  Lemma IM_trans im1 im2 im3 T : IM im1 im2 T -> IM im2 im3 T -> IM im1 im3 T.
  Proof. intros H1 H2 s l i H. destruct (H2 _ _ _ H) as [H3|H3]; auto. Qed.

  (* the creation of a non-directory is one k_new call, made after the link record if there is one *)
  Definition rec_st (ino : N) (T : list (list N)) (st : cstate) : cstate :=
    {| c_fs := c_fs st; c_imap := (ino, (T, next (c_fs st))) :: c_imap st;
       c_notifs := c_notifs st; c_split := c_split st |}.

  Lemma create_as_new ino sd T st2 :
    wf_dent sd -> (is_reg sd && multi ino = true -> imap_find ino (c_imap st2) = None) ->
    exists um typ m12 rdev tg ct,
      (if is_reg sd then copy_regular o multi ino sd T st2
       else if is_lnk sd then sys (k_symlink T (d_target sd) (c_fs st2)) st2
       else copy_device o sd T st2) =
      sys (k_new um T typ m12 rdev tg ct (c_fs st2)) (if is_reg sd && multi ino then rec_st ino T st2 else st2) /\
      N.land typ S_IFMT = typ /\ typ = copy_type sd /\
      (is_lnk sd = true -> um = 0 /\ typ = S_IFLNK /\ m12 = 511) /\
      rdev = (if is_dev sd then d_rdev sd else 0) /\ tg = d_target sd /\
      ct = (if is_reg sd then d_content sd else []).
  Proof.
    intros (Hz & Hl & Ht & Hx) Hno. destruct (type_facts sd) as (TR & TL & _).
    destruct (is_reg sd) eqn:Ereg; [|destruct (is_lnk sd) eqn:Elnk]; cbn [andb].
    - destruct (TR eq_refl) as (A1 & A2 & A3). rewrite A1, A2, (Ht A1), A3.
      exists (o_umask o), S_IFREG, 438, 0, [], (d_content sd). split; [|repeat split; auto; congruence].
      unfold copy_regular. destruct (multi ino); [rewrite Hno by auto|]; reflexivity.
    - destruct (TL eq_refl) as (A1 & A2 & A3). rewrite A2, A3.
      exists 0, S_IFLNK, 511, 0, (d_target sd), []. repeat split; auto.
    - unfold copy_device, k_mknod. set (mode := if is_sock sd then andnot (d_mode sd) S_IFSOCK else d_mode sd).
      rewrite (Ht eq_refl). do 6 eexists. split; [reflexivity|]. repeat split; auto; try discriminate.
      + destruct (N.eqb (N.land mode S_IFMT) 0); [reflexivity|apply land_idem2].
      + unfold mode, copy_type. destruct (is_sock sd) eqn:Es.
        * unfold andnot. rewrite land_ldiff_comm. fold (ftype sd). apply N.eqb_eq in Es. rewrite Es. reflexivity.
        * fold (ftype sd). apply N.eqb_neq in Hz. rewrite Hz. auto.
  Qed.

  Lemma step_create nm ino sd P a st2 X2 :
    let T := P ++ [a] in
    let X5 := xupd T (Some (new_entry (SNode nm ino sd []) T)) (touch P X2) in
    wf_dent sd -> is_dir sd = false -> (is_reg sd = true -> multi ino = true -> sd = sdof ino) ->
    Inv (c_fs st2) X2 -> Lk (c_fs st2) X2 (c_imap st2) -> X2 T = None -> x_isdir (X2 P) = true ->
    exists st5,
      (st3 <~ (if is_reg sd then copy_regular o multi ino sd T st2
               else if is_lnk sd then sys (k_symlink T (d_target sd) (c_fs st2)) st2
               else copy_device o sd T st2) ;;
       st4 <~ copy_file_info o ms sd T st3 ;; st5 <~ copy_xattrs sd T st4 ;; ok (notify T false st5))
      = (notify T false st5, None) /\
      Inv (c_fs st5) X5 /\ Lk (c_fs st5) X5 (c_imap st5) /\ IM (c_imap st2) (c_imap st5) T /\
      c_notifs st5 = c_notifs st2.
  Proof.
    intros T X5 Hwf Hd Hcons I2 L2 G2 G1. set (n := SNode nm ino sd []) in *.
    assert (Hkey : x_key (new_entry n T) = if is_reg sd && multi ino then KSrc ino else KNew T) by reflexivity.
    destruct (is_reg sd && multi ino) eqn:Ek; [apply andb_true_iff in Ek as [Ereg Emul]|].
    destruct (imap_find ino (c_imap st2)) as [[l id]|] eqn:Eim.
    - (* a further link to the recorded copy *)
      rewrite Ereg. unfold copy_regular. rewrite Emul, Eim.
      destruct (file_tail_link n P a st2 X2 l id) as (fs5 & Q1 & Q2 & Q3); auto.
      fold T in Q1, Q2, Q3. cbn [sdent n] in Q1. rewrite Q1. eexists. split; [reflexivity|].
      cbn [with_fs c_fs c_imap c_notifs]. split; auto. split; auto. split; [apply IM_refl|auto].
    - (* the first copy of a link group, recorded *)
      destruct (create_as_new ino sd T st2 Hwf) as (um & typ & m12 & rdev & tg & ct & Ec & C1 & C2 & C3 & C4 & C5 & C6); auto.
      rewrite Ec, Ereg, Emul. cbn [andb].
      destruct (file_tail n P a um typ m12 rdev tg ct (rec_st ino T st2) X2) as (fs5 & Q1 & Q2 & Q3 & Q4); auto.
      fold T in Q1, Q2, Q3, Q4. cbn [sdent n] in Q1. change (c_fs (rec_st ino T st2)) with (c_fs st2) in Q1, Q3, Q4. rewrite Q1. eexists. split; [reflexivity|].
      cbn [with_fs rec_st c_fs c_imap c_notifs]. split; auto. split; [|split; auto].
      + apply (Lk_record o ms multi sdof S (c_fs st2)); auto; rewrite <- (Hcons Ereg Emul); auto.
      + intros s l i. cbn [imap_find]. destruct (N.eqb s ino); auto.
        intro H; inversion H; subst. right. apply is_prefix_refl.
    - (* a fresh inode with a per-path key *)
      destruct (create_as_new ino sd T st2 Hwf) as (um & typ & m12 & rdev & tg & ct & Ec & C1 & C2 & C3 & C4 & C5 & C6);
        [rewrite Ek; discriminate|].
      rewrite Ec, Ek.
      destruct (file_tail n P a um typ m12 rdev tg ct st2 X2) as (fs5 & Q1 & Q2 & Q3 & Q4); auto.
      fold T in Q1, Q2, Q3, Q4. cbn [sdent n] in Q1. rewrite Q1. eexists. split; [reflexivity|].
      cbn [with_fs c_fs c_imap c_notifs]. split; auto. split; [|split; [apply IM_refl|auto]].
      apply (Lk_new o ms multi sdof S (c_fs st2)); auto.
  Qed.

  Lemma copy_file_ok nm ino sd :
    wf_dent sd -> is_dir sd = false -> (is_reg sd = true -> multi ino = true -> sd = sdof ino) ->
    node_ok (SNode nm ino sd []).
  Proof.
    intros Hwf Hd Hcons sc T0 ow st X I L0 Hpc Htok Hnc. cbn [sdent] in Htok.
    destruct Htok as [(_ & Hd' & _)|(P & a & -> & HP)]; [congruence|].
    rewrite copy_node_eq. cbv zeta. rewrite include_true, Hd. cbn [negb].
    destruct (step_remove nm ino sd [] P a st X I L0 Hpc HP Hnc)
      as (st1 & X1 & E1 & I1 & L1 & M1 & Hpc1 & N1 & F1 & F4 & F3 & F2); [rewrite Hd; auto|].
    rewrite E1. cbn [bind]. set (T := P ++ [a]) in *.
    destruct (step_empty P a (lstat (c_fs st) T) st1 X1 I1 L1 Hpc1 F1 F3)
      as (st2 & X2 & E2 & I2 & L2 & M2 & N2 & G1 & G3 & G4).
    { destruct F2 as [F2|(e & F2 & FX & Fd & _)]; auto. right. exists e. split; auto. split; auto.
      pose proof (inv_lstat _ _ _ T I) as HL. rewrite FX in HL. destruct (lstat (c_fs st) T); [discriminate|contradiction]. }
    fold T in E2, G3, G4. rewrite E2. cbn [bind].
    destruct (step_create nm ino sd P a st2 X2 Hwf Hd Hcons I2 L2) as (st5 & E3 & I5 & L5 & M5 & N5); auto.
    { generalize (G3 []). rewrite app_nil_r. auto. }
    fold T in E3, I5, L5, M5. rewrite E3. set (n := SNode nm ino sd []) in *.
    assert (EX : forall q, xupd T (Some (new_entry n T)) (touch P X2) q = res n T (negb ow) X q).
    { intro q. unfold res. cbn [sdent n]. rewrite Hd. cbn [andb].
      assert (Hpar : parent T = P) by apply parent_snoc. rewrite Hpar.
      destruct (path_tri T q) as [->|[(b & r & ->)|Hq]].
      + rewrite xupd_same, touch_other, ov_at_T by apply snoc_ne_self. unfold CopySpec.copied. cbn [sdent n]. rewrite Hd.
        destruct (X T); auto.
      + rewrite xupd_other by apply snoc_ne_self. rewrite !touch_other by apply below_ne_parent.
        unfold n. rewrite ov_below_file by auto. apply G3.
      + rewrite xupd_other by (apply unrel_ne; auto). rewrite G4, F4 by auto. symmetry.
        apply touch_ext; [apply ov_unrel, strip_snoc_self|apply ov_unrel; auto]. }
    eexists. split; [reflexivity|]. cbn [notify c_fs c_imap c_notifs].
    split; [eapply Inv_ext; [|exact I5]; intro q; symmetry; apply EX|].
    split; [eapply Lk_ext; [|exact L5]; intro q; symmetry; apply EX|].
    split; [eapply IM_trans; [exact M1|eapply IM_trans; eauto]|].
    unfold n. cbn [node_notifs]. rewrite Hd, N5, N2, N1. reflexivity.
  Qed.


  Notation touched := (touched o).

  Lemma res_T_isdir k T a tp Xc : x_isdir (res k (T ++ [a]) tp Xc T) = x_isdir (Xc T).
  Proof.
    unfold res. rewrite parent_snoc. destruct (_ && _); [|rewrite touch_isdir]; rewrite ov_unrel by apply strip_snoc_self; auto.
  Qed.
  Lemma res_kid_other k T a tp Xc q : q <> T -> strip_prefix (T ++ [a]) q = None ->
    res k (T ++ [a]) tp Xc q = Xc q.
  Proof.
    intros H1 H2. unfold res. rewrite parent_snoc. destruct (_ && _); [|rewrite touch_other by auto]; apply ov_unrel; auto.
  Qed.
  Lemma res_kid_below k T a tp Xc r :
    res k (T ++ [a]) tp Xc ((T ++ [a]) ++ r) = ov k (T ++ [a]) tp Xc ((T ++ [a]) ++ r).
  Proof.
    unfold res. rewrite parent_snoc. destruct (_ && _); auto. apply touch_other.
    rewrite <- app_assoc. apply snoc_ne_self.
  Qed.
  Lemma res_kid_T k T a tp Xc : option_map touched (res k (T ++ [a]) tp Xc T) = option_map touched (Xc T).
  Proof.
    unfold res. rewrite parent_snoc. destruct (_ && _).
    - rewrite ov_unrel by apply strip_snoc_self. auto.
    - rewrite touch_same, ov_unrel by apply strip_snoc_self. destruct (Xc T); simpl; auto. rewrite touched_idem. auto.
  Qed.

  Lemma ovk_nil T X q : ovk [] T X q = X q.
  Proof. unfold ovk. destruct (strip_prefix T q) as [[|b r]|]; auto. Qed.

  Lemma prefix_snoc_up T a l : is_prefix (T ++ [a]) l = true -> is_prefix T l = true.
  Proof. intro H. apply is_prefix_true in H as (r & ->). rewrite <- app_assoc. apply is_prefix_app. Qed.
  Lemma prefix_disjoint T a b l : is_prefix (T ++ [a]) l = true -> a <> b -> is_prefix (T ++ [b]) l = false.
  Proof.
    intros H Hab. apply is_prefix_true in H as (r & ->). rewrite <- app_assoc. simpl.
    rewrite is_prefix_strip, strip_snoc_below. apply bytes_eqb_neq in Hab.
    assert (bytes_eqb b a = false) as ->; auto. apply bytes_eqb_neq. apply bytes_eqb_neq in Hab. congruence.
  Qed.
  Lemma PC_kid T a im : PC T im -> PC (T ++ [a]) im.
  Proof.
    intros H s l i Hr. destruct (is_prefix (T ++ [a]) l) eqn:E; auto.
    apply prefix_snoc_up in E. rewrite (H _ _ _ Hr) in E. discriminate.
  Qed.
  Lemma IM_sub im im1 im2 T a : IM im im1 (T ++ [a]) -> IM im1 im2 T -> IM im im2 T.
  Proof.
    intros H1 H2 s l i Hr. destruct (H2 _ _ _ Hr) as [Hr1|Hu]; auto.
    destruct (H1 _ _ _ Hr1) as [Hr0|Hu]; auto. right. eapply prefix_snoc_up; eauto.
  Qed.

  Lemma res_kid_sibling k T tp Xc b r : bytes_eqb (sname k) b = false ->
    res k (T ++ [sname k]) tp Xc (T ++ b :: r) = Xc (T ++ b :: r).
  Proof. intro Hb. apply res_kid_other; [apply snoc_ne_self|]. rewrite strip_snoc_below, Hb. auto. Qed.

  Lemma notin_neqb (a b : list N) l : ~ In a l -> In b l -> bytes_eqb a b = false.
  Proof. intros Ha Hb. apply bytes_eqb_neq. intro E. subst. auto. Qed.

  (* the records made below one child do not lie below its siblings *)
  Lemma PC_sibling T k r im im1 : ~ In (sname k) (map sname r) ->
    (forall k2, In k2 (k :: r) -> PC (T ++ [sname k2]) im) -> IM im im1 (T ++ [sname k]) ->
    forall k2, In k2 r -> PC (T ++ [sname k2]) im1.
  Proof.
    intros Hni Hpc M1 k2 Hin s l i Hrec. destruct (M1 _ _ _ Hrec) as [Hold|Hu].
    - eapply Hpc; eauto. right; auto.
    - eapply prefix_disjoint; eauto. apply bytes_eqb_neq, (notin_neqb _ _ _ Hni), in_map, Hin.
  Qed.

  Lemma kids_ok l : Forall node_ok l -> forall sc T st Xc,
    NoDup (map sname l) -> Inv (c_fs st) Xc -> Lk (c_fs st) Xc (c_imap st) ->
    (S -> forall k, In k l -> PC (T ++ [sname k]) (c_imap st)) -> x_isdir (Xc T) = true ->
    (forall k, In k l -> nc Xc (T ++ [sname k]) k) ->
    exists st', kids_loop sc T l st = (st', None) /\ Inv (c_fs st') (touch T (ovk l T Xc)) /\
      Lk (c_fs st') (touch T (ovk l T Xc)) (c_imap st') /\ IM (c_imap st) (c_imap st') T /\
      c_notifs st' = rev (kids_notifs Xc T l) ++ c_notifs st.
  Proof.
    induction 1 as [|k r Hk Hr IH]; intros sc T st Xc Hnd I L Hpc HT Hnc.
    - exists st. simpl. split; auto.
      assert (E : forall q, touch T (ovk [] T Xc) q = touch T Xc q) by (intro q; apply touch_ext; apply ovk_nil).
      split; [eapply Inv_ext; [exact E|apply inv_touch_weak; eauto]|].
      split; [eapply Lk_ext; [exact E|apply Lk_touch; auto]|]. split; [apply IM_refl|auto].
    - simpl in Hnd. inversion Hnd as [|? ? Hni Hnd']; subst.
      rewrite kids_loop_cons.
      destruct (Hk (sc ++ [sname k]) (T ++ [sname k]) true st Xc I L) as (st1 & E1 & I1 & L1 & M1 & N1).
      { intro HS. apply Hpc; auto. left; auto. }
      { right. exists T, (sname k). auto. }
      { apply Hnc. left; auto. }
      rewrite E1, bind_ret. cbn [negb] in I1, L1, N1.
      set (Xc' := res k (T ++ [sname k]) false Xc) in *.
      pose proof (res_kid_sibling k T false Xc) as Hoth. fold Xc' in Hoth.
      destruct (IH sc T st1 Xc') as (st2 & E2 & I2 & L2 & M2 & N2); auto.
      { intro HS. eapply PC_sibling; eauto. }
      { unfold Xc'. rewrite res_T_isdir. auto. }
      { intros k2 Hin Hr0. rewrite (first_conflict_ext Xc' Xc).
        - apply Hnc; auto. right; auto.
        - intro r0. rewrite <- app_assoc. apply Hoth, (notin_neqb _ _ _ Hni), in_map, Hin. }
      assert (EV : forall q, touch T (ovk (k :: r) T Xc) q = touch T (ovk r T Xc') q).
      { intro q.
        destruct (path_dec q T) as [->|Hq].
        * rewrite !touch_same. unfold ovk. rewrite strip_self. symmetry. apply res_kid_T.
        * rewrite !touch_other by auto. destruct (path_tri T q) as [->|[(b & r0 & ->)|Hu]]; [congruence| |].
          -- unfold ovk. rewrite strip_prefix_app. cbn [find_kid].
             destruct (bytes_eqb (sname k) b) eqn:Eb.
             ++ apply bytes_eqb_eq in Eb. subst b. rewrite (find_kid_none _ _ Hni).
                rewrite (app_snoc_assoc T (sname k) r0). symmetry. apply res_kid_below.
             ++ rewrite (Hoth _ _ Eb). destruct (find_kid b r); auto. apply ov_ext. symmetry. apply Hoth; auto.
          -- unfold ovk. rewrite Hu. symmetry. apply res_kid_other; auto. apply strip_snoc_unrel; auto. }
      exists st2. split; auto.
      split; [eapply Inv_ext; [exact EV|exact I2]|].
      split; [eapply Lk_ext; [exact EV|exact L2]|].
      split; [eapply IM_sub; eauto|].
      rewrite N2, N1. simpl kids_notifs. rewrite rev_app_distr, <- app_assoc.
      rewrite (kids_notifs_ext Xc' Xc). auto.
  Qed.

  Lemma res_dir_at nm ino sd kids T tp X q :
    (x_isdir (X T) = true \/ exists P a, T = P ++ [a]) -> is_dir sd = true ->
    (q = T \/ exists b r, q = T ++ b :: r) ->
    res (SNode nm ino sd kids) T tp X q = ov (SNode nm ino sd kids) T tp X q.
  Proof.
    intros HT Hd Hq. unfold res. cbn [sdent]. rewrite Hd. cbn [andb].
    destruct (x_isdir (X T)) eqn:E; auto. destruct HT as [HT|(P & a & ->)]; [discriminate|].
    rewrite parent_snoc. apply touch_other. destruct Hq as [->|(b & r & ->)].
    - apply snoc_ne_self.
    - apply below_ne_parent.
  Qed.

  (* The children of a directory whose entry e2 is in place, and what is left to do: one update of
     the directory's inode that brings its entry to what the overlay says. *)
  Lemma dir_kids nm ino sd kids sc T tp X st3 X2 e2 :
    let n := SNode nm ino sd kids in
    Forall node_ok kids -> NoDup (map sname kids) -> is_dir sd = true ->
    (x_isdir (X T) = true \/ exists P a, T = P ++ [a]) ->
    Inv (c_fs st3) X2 -> Lk (c_fs st3) X2 (c_imap st3) -> (S -> PC T (c_imap st3)) ->
    X2 T = Some e2 -> is_dir (x_d e2) = true ->
    (forall b r, X2 (T ++ b :: r) = X (T ++ b :: r)) ->
    (forall q, strip_prefix T q = None -> X2 q = res n T tp X q) ->
    (forall k, In k kids -> nc X (T ++ [sname k]) k) ->
    exists st4 i,
      kids_loop sc T kids st3 = (st4, None) /\ names (c_fs st4) T = Some i /\
      dm o (inodes (c_fs st4) i) (touched e2) /\ IM (c_imap st3) (c_imap st4) T /\
      c_notifs st4 = rev (kids_notifs X T kids) ++ c_notifs st3 /\
      forall f, ftype (f (inodes (c_fs st4) i)) = ftype (inodes (c_fs st4) i) ->
        dm o (f (inodes (c_fs st4) i)) (copied n (X T) tp T) -> x_key (copied n (X T) tp T) = x_key e2 ->
        Inv (upd_inode i f (c_fs st4)) (res n T tp X) /\
        Lk (upd_inode i f (c_fs st4)) (res n T tp X) (c_imap st4).
  Proof.
    intros n IH Hnd Hd HTok I3 L3 Hpc H2 Hd2 Hb Hu Hnc.
    destruct (kids_ok kids IH sc T st3 X2 Hnd I3 L3) as (st4 & E4 & I4 & L4 & M4 & N4).
    { intros HS k Hin. apply PC_kid; auto. }
    { rewrite H2. auto. }
    { intros k Hin Hr. rewrite (first_conflict_ext X2 X); [apply Hnc; auto|].
      intro r. rewrite <- app_assoc. apply Hb. }
    assert (H4 : touch T (ovk kids T X2) T = Some (touched e2)).
    { rewrite touch_same. unfold ovk. rewrite strip_self, H2. auto. }
    destruct (inv_x_some _ _ _ _ _ I4 H4) as (i & Hi & Hm & Hk).
    assert (Hdi : is_dir (inodes (c_fs st4) i) = true).
    { rewrite (dm_is_dir _ _ _ Hm), touched_d. auto. }
    exists st4, i. rewrite (kids_notifs_ext X X2). do 5 (split; [auto|]).
    intros f Hft Hdm Hkey. set (e5 := copied n (X T) tp T) in *.
    assert (EV : forall q, res n T tp X q = xupd T (Some e5) (touch T (ovk kids T X2)) q).
    { intro q. destruct (path_tri T q) as [->|[(b & r & ->)|Hq]].
      + rewrite xupd_same. unfold n. rewrite res_dir_at, ov_at_T; auto.
      + rewrite xupd_other, touch_other by apply snoc_ne_self. unfold n. rewrite res_dir_at, ov_below_dir; eauto.
        unfold ovk. rewrite strip_prefix_app, Hb. destruct (find_kid b kids); auto. apply ov_ext. symmetry. apply Hb.
      + rewrite xupd_other, touch_other by (apply unrel_ne; auto). unfold ovk. rewrite Hq. symmetry. apply Hu. auto. }
    split.
    - eapply Inv_ext; [exact EV|].
      eapply (inv_upd1 o _ _ T i f (touched e2) e5 I4 Hi (dir_unique _ _ _ _ _ I4 Hi Hdi) H4 Hft Hdm).
      rewrite touched_key. auto.
    - eapply Lk_ext; [exact EV|].
      eapply (Lk_upd o ms multi sdof S (c_fs st4) _ _ _ T (touched e2) e5 L4); auto; intros s Hs.
      + pose proof (lk_src_not_dir _ _ _ _ _ _ _ _ _ _ _ L4 H4 Hs) as Hx. rewrite touched_d in Hx. congruence.
      + pose proof (lk_src_not_dir _ _ _ _ _ _ _ _ _ _ _ L4 H4 (eq_trans (eq_trans (touched_key _ _) (eq_sym Hkey)) Hs)) as Hx.
        rewrite touched_d in Hx. congruence.
  Qed.

  (* copyDirectoryOnly on an existing directory: with ow its permission bits are set, nothing else *)
  Lemma dir_only_merge sd T ow st X e :
    Inv (c_fs st) X -> Lk (c_fs st) X (c_imap st) -> X T = Some e -> is_dir (x_d e) = true ->
    exists fs2 e2, copy_dir_only o T sd ow st = (with_fs st fs2, None, false) /\
      Inv fs2 (xupd T (Some e2) X) /\ Lk fs2 (xupd T (Some e2) X) (c_imap st) /\
      x_key e2 = x_key e /\ x_mk e2 = x_mk e /\
      x_d e2 = (if ow then set_perm (perm12 sd) (x_d e) else x_d e) /\ is_dir (x_d e2) = true.
  Proof.
    intros I L HXT Hde. pose proof (inv_lstat _ _ _ T I) as HL. rewrite HXT in HL.
    destruct (inv_x_some _ _ _ _ _ I HXT) as (i & Hi & Hm & Hk).
    unfold copy_dir_only. destruct (lstat (c_fs st) T) as [td|]; [|contradiction].
    rewrite (dm_is_dir _ _ _ HL), Hde. cbn [negb]. destruct ow.
    - rewrite (upd_path_some _ _ _ _ Hi).
      set (e2 := {| x_d := set_perm (perm12 sd) (x_d e); x_known := x_known e; x_key := x_key e; x_mk := x_mk e |}).
      assert (Hns : forall s, x_key e <> KSrc s).
      { intros s Hs. pose proof (lk_src_not_dir _ _ _ _ _ _ _ _ _ _ _ L HXT Hs). congruence. }
      assert (Hdi : is_dir (inodes (c_fs st) i) = true) by (rewrite (dm_is_dir _ _ _ Hm); auto).
      exists (upd_inode i (set_perm (perm12 sd)) (c_fs st)), e2. split; auto. split; [|split; [|repeat split]].
      + apply (inv_upd1 o _ _ T i _ e e2 I Hi (dir_unique o _ _ _ _ I Hi Hdi) HXT);
          [apply ftype_set_perm|apply dm_set_perm; auto|reflexivity].
      + eapply (Lk_upd o ms multi sdof S (c_fs st) _ _ _ T e e2 L); auto.
      + rewrite <- Hde. apply is_dir_ftype, ftype_set_perm.
    - assert (EX : forall q, xupd T (Some e) X q = X q).
      { intro q. unfold xupd. destruct (path_eqb q T) eqn:E; auto. apply path_eqb_eq in E. congruence. }
      exists (c_fs st), e. split; [destruct st; auto|].
      split; [eapply Inv_ext; eauto|]. split; [eapply Lk_ext; eauto|auto].
  Qed.

  Lemma copy_dir_ok nm ino sd kids :
    wf_dent sd -> is_dir sd = true -> NoDup (map sname kids) -> Forall node_ok kids ->
    node_ok (SNode nm ino sd kids).
  Proof.
    intros Hwf Hd Hnd IH sc T ow st X I L0 Hpc Htok Hnc. cbn [sdent] in Htok.
    rewrite copy_node_eq. cbv zeta. rewrite include_true, Hd.
    set (n := SNode nm ino sd kids) in *.
    destruct (type_facts sd) as (_ & _ & TD). destruct (TD Hd) as (C1 & C2 & C3 & C4 & C5).
    destruct (x_isdir (X T)) eqn:Em.
    - (* merged into the directory at T *)
      pose proof (inv_lstat _ _ _ T I) as HL.
      unfold x_isdir in Em. destruct (X T) as [e|] eqn:HXT; [|discriminate].
      destruct (lstat (c_fs st) T) as [td|] eqn:ELs; [|contradiction].
      assert (E1 : remove_target_if_needed o T sd (Some td) st = (st, None)).
      { unfold remove_target_if_needed. destruct (o_replace o); cbn [negb]; auto.
        rewrite Hd, (dm_is_dir _ _ _ HL), Em. auto. }
      rewrite E1, bind_ret.
      destruct (dir_only_merge sd T ow st X e I L0 HXT Em) as (fs2 & e2 & E2 & I2 & L2 & K1 & K2 & K3 & Hd2).
      rewrite E2. cbv beta iota.
      set (st3 := if true && (false || ow) then notify T true (with_fs st fs2) else with_fs st fs2).
      destruct (dir_kids nm ino sd kids sc T (negb ow) X st3 (xupd T (Some e2) X) e2)
        as (st4 & i & E4 & Hi & Hm & M4 & N4 & Fin); auto; try (unfold st3; destruct ow; auto; fail).
      { left. unfold x_isdir. rewrite HXT. auto. }
      { apply xupd_same. }
      { intros b r. apply xupd_other, snoc_ne_self. }
      { intros q Hq. rewrite xupd_other by (apply unrel_ne; auto). unfold res. cbn [sdent]. rewrite Hd.
        unfold x_isdir. rewrite HXT, Em. cbn [andb]. symmetry. apply ov_unrel; auto. }
      { intros k Hin Hr. destruct (first_conflict_dir X T nm ino sd kids e (Hnc Hr) HXT Hd) as (_ & Hc). auto. }
      rewrite E4, bind_ret.
      fold n in Fin. rewrite HXT, (copied_merged o ms multi n e (negb ow) T Hd Em) in Fin. cbn [sdent n] in Fin.
      assert (Hnot : c_notifs st4 = rev (node_notifs X (negb ow) T n) ++ c_notifs st).
      { rewrite N4. unfold n. rewrite node_notifs_dir by auto. unfold x_isdir. rewrite HXT, Em.
        unfold st3. destruct ow; cbn [negb andb orb notify with_fs c_notifs]; rewrite rev_app_distr, <- app_assoc; reflexivity. }
      unfold st3 in M4. destruct ow; cbn [negb andb orb] in *.
      + destruct (meta_phase o ms sd T st4 i Hi) as (fs5 & Q1 & Q2). rewrite Q1.
        eexists. split; [reflexivity|]. cbn [with_fs c_fs c_imap c_notifs].
        destruct (Fin (finfo o ms sd)) as (F1 & F2); [apply ftype_finfo| |auto|].
        { destruct Hm as (B1 & _ & _ & _ & B5 & B6 & B7 & B8). rewrite touched_d, K3 in B1, B5, B6, B7, B8.
          apply dm_finfo_merge; auto. rewrite (ftype_mode _ _ B1). apply ftype_set_perm. }
        split; [eapply Inv_fs_ext; [apply fs_eqv_sym; exact Q2|exact F1]|].
        split; [eapply Lk_fs_ext; [apply fs_eqv_sym; exact Q2|exact F2]|]. auto.
      + rewrite (time_phase o sd T st4 i Hi).
        eexists. split; [reflexivity|]. cbn [with_fs c_fs c_imap c_notifs].
        destruct (Fin (set_mtime (info_time o sd))) as (F1 & F2); [apply ftype_set_mtime| |auto|auto].
        rewrite <- K3, <- (touched_d o e2). apply dm_set_mtime, Hm.
    - (* the directory is created by this call *)
      destruct Htok as [(-> & _ & H0)|(P & a & -> & HP)]; [congruence|].
      destruct (step_remove nm ino sd kids P a st X I L0 Hpc HP Hnc)
        as (st1 & X1 & E1 & I1 & L1 & M1 & Hpc1 & N1 & F1 & F4 & F3' & F2); [rewrite Hd, Em; auto|].
      set (T := P ++ [a]) in *. rewrite E1, bind_ret.
      destruct F2 as [F2|(e & _ & _ & _ & Hd')]; [|congruence].
      assert (F3 : forall b r, X (T ++ b :: r) = None).
      { intros b r. destruct (X T) as [e|] eqn:EX.
        - apply (x_none_below_nondir o _ _ _ _ b r I EX Em).
        - apply (x_none_below o _ _ _ _ I EX). }
      set (fs1 := c_fs st1) in *.
      pose proof (inv_lstat _ _ _ T I1) as HL1. rewrite F2 in HL1.
      unfold copy_dir_only. fold fs1. destruct (lstat fs1 T) eqn:ELs; [contradiction|].
      unfold k_mkdir.
      destruct (inv_k_new o _ _ P a (o_umask o) S_IFDIR (N.land (perm12 sd) 1023) 0 [] [] I1 F2 F1)
        as (fs2 & j & E2 & Hj & Hjd & Hn2 & Hi2 & Hu2 & Hf2 & I2).
      fold T in E2, Hn2, Hu2, Hf2, I2. rewrite E2. cbv beta iota. cbn [andb orb].
      set (newd := new_dent (o_umask o) (inodes fs1 j) S_IFDIR (N.land (perm12 sd) 1023) 0 [] []) in *.
      set (e2 := xex newd (KNew T) false).
      specialize (I2 e2 (dm_xex _ _ _ _) (or_introl eq_refl)).
      assert (L2 : Lk fs2 (xupd T (Some e2) (touch P X1)) (c_imap st1)).
      { eapply (Lk_new o ms multi sdof S fs1); eauto. }
      assert (Hty : ftype newd = S_IFDIR) by (apply ftype_new_dent; reflexivity).
      destruct (dir_kids nm ino sd kids sc T (negb ow) X (notify T true (with_fs st1 fs2))
                  (xupd T (Some e2) (touch P X1)) e2) as (st4 & i & E4 & Hi & Hm & M4 & N4 & Fin); auto.
      { right. exists P, a. auto. }
      { apply xupd_same. }
      { apply N.eqb_eq. exact Hty. }
      { intros b r. rewrite xupd_other by apply snoc_ne_self. rewrite touch_other by apply below_ne_parent.
        rewrite F3, F3'. auto. }
      { intros q Hq. rewrite xupd_other by (apply unrel_ne; auto). rewrite F4 by auto.
        unfold res. cbn [sdent]. rewrite Hd, Em. cbn [andb]. fold T.
        assert (Hpar : parent T = P) by apply parent_snoc. rewrite Hpar. symmetry.
        apply touch_ext; [apply ov_unrel, strip_snoc_self|apply ov_unrel; auto]. }
      { intros k Hin Hr. rewrite (first_conflict_ext X (fun _ => None)).
        * destruct k; reflexivity.
        * intro r. rewrite <- app_assoc. apply F3. }
      rewrite E4, bind_ret.
      assert ((if ow then true else true) = true) as -> by (destruct ow; auto).
      destruct (meta_phase o ms sd T st4 i Hi) as (fs5 & Q1 & Q2). rewrite Q1.
      eexists. split; [reflexivity|]. cbn [with_fs c_fs c_imap c_notifs].
      fold n in Fin. rewrite copied_unmerged in Fin by (rewrite Em; apply andb_false_r).
      destruct (Fin (finfo o ms sd)) as (Q3 & Q4); [apply ftype_finfo| | |].
      { destruct Hm as (B1 & _ & _ & _ & B5 & B6 & B7 & B8). rewrite touched_d in *.
        apply (dm_finfo_fresh o ms multi n T); cbn [sdent n]; auto.
        + rewrite C5, (ftype_mode _ _ B1). exact Hty.
        + intro; congruence.
        + rewrite C3. exact B5.
        + destruct Hwf as (_ & _ & Ht & _). rewrite Ht by auto. exact B6.
        + rewrite C1. exact B8. }
      { rewrite new_entry_key. cbn [sdent n]. rewrite C1. auto. }
      split; [eapply Inv_fs_ext; [apply fs_eqv_sym; exact Q2|exact Q3]|].
      split; [eapply Lk_fs_ext; [apply fs_eqv_sym; exact Q2|exact Q4]|].
      split; [eapply IM_trans; eauto|].
      rewrite N4. unfold n. rewrite node_notifs_dir, Em, andb_false_r by auto.
      cbn [notify c_notifs with_fs]. rewrite rev_app_distr, <- app_assoc, N1. reflexivity.
  Qed.

  Theorem copy_node_ok : forall n, wf_s n -> cons_s n -> node_ok n.
  Proof.
    induction n as [nm ino sd kids IH] using snode_ind2. intros Hwf Hcs.
    apply wf_s_unfold in Hwf. destruct Hwf as (Hwd & Hk & Hnd & Hall).
    apply cons_s_unfold in Hcs. destruct Hcs as (Hc1 & Hc2).
    destruct (is_dir sd) eqn:Hd.
    - apply copy_dir_ok; auto. rewrite Forall_forall in *. auto.
    - rewrite (Hk eq_refl). apply copy_file_ok; auto.
  Qed.
End Node.
