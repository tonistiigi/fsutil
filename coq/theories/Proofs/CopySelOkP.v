(* The copier's selection side never fails on a type-compatible destination: every source path
   that exists in the destination has the same kind (directory / non-directory) there.  In
   particular a mkdir / create never misses its parent directory (ENoParent): creating parents on
   demand is enough.  Independent of the patterns and of the matcher. *)
From Coq Require Import List NArith Lia Bool.
From FS Require Import Sx Model.Path Model.Stat Model.Tree Model.Pattern Model.FilterWalk Model.CopierSel
  Proofs.Lex Proofs.PathP Proofs.ListAux Proofs.PatternP Proofs.FilterP Proofs.RefValidP Proofs.FlatRefP Proofs.CopySelP.
Import ListNotations.
Open Scope bool_scope.

Section Ok.
Variable view : list node.
Hypothesis Hwf : wf_tree view = true.
Notation all := (walk_root view).

(* every destination entry at a source path has the kind of the source entry *)
Definition compat (fs : dfs) : Prop :=
  forall e o, In e all -> fs (epath e) = Some o -> e_dir o = st_is_dir (fst e).

(* fs' differs from fs only at source paths, where it holds entries of the source's kind *)
Definition ext (fs fs' : dfs) : Prop :=
  forall q, fs' q = fs q \/ exists x o, In x all /\ epath x = q /\ fs' q = Some o /\ e_dir o = st_is_dir (fst x).

Lemma ext_refl fs : ext fs fs.
Proof. intros q. left. reflexivity. Qed.

Lemma ext_trans a b c' : ext a b -> ext b c' -> ext a c'.
Proof.
  intros H1 H2 q. destruct (H2 q) as [E|X]; [|right; exact X].
  rewrite E. apply H1.
Qed.

Lemma same_path_same_entry e x : In e all -> In x all -> epath e = epath x -> e = x.
Proof.
  intros He Hx E. eapply (NoDup_map_inj (fun y : Tree.entry => st_path (fst y))); eauto. apply walk_root_nodup; auto.
Qed.

Lemma ext_compat fs fs' : compat fs -> ext fs fs' -> compat fs'.
Proof.
  intros HG Hx e o He Ho. destruct (Hx (epath e)) as [E|(x & o' & Hxin & Ex & Eo & Ed)].
  - rewrite E in Ho. eapply HG; eauto.
  - rewrite Eo in Ho. inversion Ho; subst o'. rewrite (same_path_same_entry e x He Hxin (eq_sym Ex)). exact Ed.
Qed.

Lemma ext_root fs fs' : parent_ok [] fs = true -> ext fs fs' -> parent_ok [] fs' = true.
Proof.
  intros H Hx. unfold parent_ok in *. destruct (Hx []) as [E|(x & o' & Hxin & Ex & _)].
  - rewrite E. exact H.
  - exfalso. exact (walk_root_nonempty view x Hwf Hxin Ex).
Qed.

Lemma ext_pok fs fs' st ct : In (st, ct) all -> st_is_dir st = true ->
  parent_ok (st_path st) fs = true -> ext fs fs' -> parent_ok (st_path st) fs' = true.
Proof.
  intros Hin Hd H Hx. unfold parent_ok in *. destruct (Hx (st_path st)) as [E|(x & o' & Hxin & Ex & Eo & Ed)].
  - rewrite E. exact H.
  - rewrite Eo. rewrite Ed. rewrite <- (same_path_same_entry (st, ct) x Hin Hxin (eq_sym Ex)). exact Hd.
Qed.

Lemma ext_put fs X p e st ct : In (st, ct) all -> st_path st = p -> e_dir e = st_is_dir st ->
  (forall q, q <> p -> X q = fs q) -> ext fs (fput p e X).
Proof.
  intros Hin Hp He HX q. rewrite fput_at. destruct (bytes_eqb q p) eqn:Eq.
  - apply bytes_eqb_eq in Eq. subst q. right. exists (st, ct), e. auto.
  - left. apply HX. apply bytes_eqb_neq. exact Eq.
Qed.

Lemma ext_meta fs p st ct : In (st, ct) all -> st_path st = p ->
  (forall o, fs p = Some o -> e_dir o = st_is_dir st) -> ext fs (copy_meta st p fs).
Proof.
  intros Hin Hp Ho q. rewrite copy_meta_at. destruct (bytes_eqb q p) eqn:Eq; [|left; reflexivity].
  apply bytes_eqb_eq in Eq. subst q. destruct (fs p) as [o|] eqn:E; [|left; reflexivity].
  right. exists (st, ct), (xattr_entry st (info_entry st o)). cbn [option_map]. repeat split; auto.
  rewrite e_dir_meta. apply Ho. reflexivity.
Qed.

Definition item_ok (d : pdir) : Prop := In (pd_st d, pd_ct d) all /\ st_is_dir (pd_st d) = true.
Definition items_ok (S : list pdir) : Prop := Forall item_ok S.
Definition exist_copied (S : list pdir) (fs : dfs) : Prop :=
  Forall (fun d => pd_copied d = true -> parent_ok (st_path (pd_st d)) fs = true) S.
Definition exist_all (S : list pdir) (fs : dfs) : Prop :=
  Forall (fun d => parent_ok (st_path (pd_st d)) fs = true) S.

Fixpoint linked (prev : bytes) (S : list pdir) (dir : bytes) : Prop :=
  match S with
  | [] => prev = dir
  | d :: r => pd_dir d = prev /\ linked (st_path (pd_st d)) r dir
  end.

Lemma linked_mark S : forall prev dir, linked prev S dir -> linked prev (mark S) dir.
Proof. induction S as [|d r IH]; intros prev dir H; [exact H|]. destruct H as [H1 H2]. split; [exact H1|]. apply IH. exact H2. Qed.

Lemma linked_snoc S : forall prev dir d, linked prev S dir -> pd_dir d = dir -> linked prev (S ++ [d]) (st_path (pd_st d)).
Proof.
  induction S as [|x r IH]; intros prev dir d H Hd.
  - cbn in *. subst. auto.
  - destruct H as [H1 H2]. split; [exact H1|]. eapply IH; eauto.
Qed.

Lemma items_ok_mark S : items_ok S -> items_ok (mark S).
Proof. apply Forall_mark. auto. Qed.

Lemma exist_all_ext S fs fs' : items_ok S -> exist_all S fs -> ext fs fs' -> exist_all S fs'.
Proof.
  unfold items_ok, exist_all. intros HI HE Hx. rewrite Forall_forall in *. intros d Hd.
  destruct (HI d Hd) as [Hin Hdir]. eapply ext_pok; eauto.
Qed.

Lemma exist_copied_ext S fs fs' : items_ok S -> exist_copied S fs -> ext fs fs' -> exist_copied S fs'.
Proof.
  unfold items_ok, exist_copied. intros HI HE Hx. rewrite Forall_forall in *. intros d Hd Hc.
  destruct (HI d Hd) as [Hin Hdir]. eapply ext_pok; eauto.
Qed.

Lemma exist_all_copied S fs : exist_all S fs -> exist_copied (mark S) fs.
Proof. intros H. apply Forall_map. exact (Forall_impl _ (fun d Hd _ => Hd) H). Qed.

Lemma exist_all_mark S fs : exist_all S fs -> exist_all (mark S) fs.
Proof. apply Forall_mark. auto. Qed.

Lemma copy_dir_only_ok dirp st ct fs :
  In (st, ct) all -> st_is_dir st = true -> compat fs -> parent_ok dirp fs = true ->
  exists fs2 cr, copy_dir_only dirp (st_path st) st fs = (fs2, None, cr) /\ ext fs fs2
                 /\ parent_ok (st_path st) fs2 = true
                 /\ ext fs (if cr then copy_meta st (st_path st) fs2 else fs2)
                 /\ parent_ok (st_path st) (if cr then copy_meta st (st_path st) fs2 else fs2) = true.
Proof.
  intros Hin Hd HG Hp. unfold copy_dir_only.
  destruct (fs (st_path st)) as [o|] eqn:E.
  - pose proof (HG (st, ct) o Hin E) as Ho. cbn [fst] in Ho. rewrite Hd in Ho. rewrite Ho.
    assert (Hx : ext fs (fput (st_path st) (chmod_stat st (fst o), snd o) fs)).
    { apply (ext_put fs fs _ _ st ct Hin eq_refl); [|reflexivity].
      unfold e_dir. cbn [fst]. rewrite isdir_chmod. rewrite Hd. exact Ho. }
    assert (Hk : parent_ok (st_path st) (fput (st_path st) (chmod_stat st (fst o), snd o) fs) = true).
    { unfold parent_ok. rewrite fput_at, bytes_eqb_refl. unfold e_dir. cbn [fst]. rewrite isdir_chmod. exact Ho. }
    eexists. exists false. repeat split; auto.
  - rewrite Hp.
    assert (Hx : ext fs (fput (st_path st) (blank_dir (st_path st)) fs)).
    { apply (ext_put fs fs _ _ st ct Hin eq_refl); [rewrite Hd|]; reflexivity. }
    assert (Hk : parent_ok (st_path st) (fput (st_path st) (blank_dir (st_path st)) fs) = true).
    { unfold parent_ok. rewrite fput_at, bytes_eqb_refl. reflexivity. }
    assert (Hx2 : ext (fput (st_path st) (blank_dir (st_path st)) fs)
                      (copy_meta st (st_path st) (fput (st_path st) (blank_dir (st_path st)) fs))).
    { apply (ext_meta _ _ st ct Hin eq_refl).
      intros o. rewrite fput_at, bytes_eqb_refl. intros X. inversion X; subst. rewrite Hd. reflexivity. }
    eexists. exists true. repeat split; auto.
    + eapply ext_trans; eauto.
    + eapply ext_pok; eauto.
Qed.

Lemma create_parents_succeeds S : forall prev dir fs fs' S' em err,
  create_parents S fs = (fs', S', em, err) ->
  items_ok S -> linked prev S dir -> parent_ok prev fs = true -> exist_copied S fs -> compat fs ->
  err = None /\ ext fs fs' /\ exist_all S fs' /\ parent_ok dir fs' = true.
Proof.
  induction S as [|d r IH]; intros prev dir fs fs' S' em err H HI HL Hp HE HG.
  - cbn in H. inversion H; subst. cbn in HL. subst. repeat split; auto using ext_refl. constructor.
  - inversion HI as [|? ? [Hin Hd] HIr]; subst. destruct HL as [HL1 HL2]. inversion HE as [|? ? HEd HEr]; subst.
    cbn [create_parents] in H. destruct (pd_copied d) eqn:Ec.
    + destruct (create_parents r fs) as [[[f1 r1] e1] er] eqn:E1. inversion H; subst.
      destruct (IH _ _ _ _ _ _ _ E1 HIr HL2 (HEd eq_refl) HEr HG) as (-> & Hx & Ha & Hdir).
      repeat split; auto. constructor; auto. eapply ext_pok; eauto.
    + destruct (copy_dir_only_ok (pd_dir d) (pd_st d) (pd_ct d) fs Hin Hd HG Hp) as (fs2 & cr & E0 & Hx0 & Hk0 & Hx1 & Hk1).
      rewrite E0 in H.
      destruct (create_parents r (if cr then copy_meta (pd_st d) (st_path (pd_st d)) fs2 else fs2)) as [[[f3 r3] e3] er] eqn:E1.
      inversion H; subst.
      destruct (IH _ _ _ _ _ _ _ E1 HIr HL2 Hk1 (exist_copied_ext _ _ _ HIr HEr Hx1) (ext_compat _ _ HG Hx1)) as (-> & Hx & Ha & Hdir).
      repeat split; auto.
      * eapply ext_trans; eauto.
      * constructor; auto. eapply ext_pok; eauto.
Qed.

Variable pmatch : bytes -> bytes -> bool.
Variable c : cfg.
Variable repl : bool.
Notation cnode := (copy_node pmatch c repl).
Notation cforest := (copy_forest pmatch c repl).

(* on a compatible destination always-replace removes nothing but non-directories that are
   about to be re-created *)
Lemma rm_dir_noop fs st ct (x : dfs) : compat fs -> In (st, ct) all -> st_is_dir st = true ->
  remove_target (st_path st) true (fs (st_path st)) x = x.
Proof.
  intros HG Hin Hd. unfold remove_target. destruct (fs (st_path st)) as [o|] eqn:E; [|reflexivity].
  rewrite (HG (st, ct) o Hin E). cbn [fst]. rewrite Hd. reflexivity.
Qed.

Lemma rm_nondir_cases fs st ct (x : dfs) : compat fs -> In (st, ct) all -> st_is_dir st = false ->
  remove_target (st_path st) false (fs (st_path st)) x = x \/
  remove_target (st_path st) false (fs (st_path st)) x = fdel (st_path st) x.
Proof.
  intros HG Hin Hd. unfold remove_target. destruct (fs (st_path st)) as [o|] eqn:E; [|left; reflexivity].
  right. cbn [andb]. unfold remove_all. rewrite (HG (st, ct) o Hin E). cbn [fst]. rewrite Hd. reflexivity.
Qed.

Record inv (S : list pdir) (dir : bytes) (fs : dfs) : Prop := {
  inv_items : items_ok S;
  inv_linked : linked [] S dir;
  inv_root : parent_ok [] fs = true;
  inv_exist : exist_copied S fs;
  inv_compat : compat fs
}.

Definition after (S S' : list pdir) (fs' : dfs) : Prop := S' = S \/ (S' = mark S /\ exist_all S fs').

Lemma inv_step S dir fs fs' S' : inv S dir fs -> ext fs fs' -> after S S' fs' -> inv S' dir fs'.
Proof.
  intros [H1 H2 H3 H4 H5] Hx [->|[-> Ha]].
  - constructor; auto. eapply ext_root; eauto. eapply exist_copied_ext; eauto. eapply ext_compat; eauto.
  - constructor.
    + apply items_ok_mark; auto.
    + apply linked_mark; auto.
    + eapply ext_root; eauto.
    + apply exist_all_copied; auto.
    + eapply ext_compat; eauto.
Qed.

Lemma inv_push S dir fs d : inv S dir fs -> pd_dir d = dir -> item_ok d ->
  (pd_copied d = true -> parent_ok (st_path (pd_st d)) fs = true) -> inv (S ++ [d]) (st_path (pd_st d)) fs.
Proof.
  intros [H1 H2 H3 H4 H5] Hd Hi Hc. constructor; auto.
  - apply Forall_app. split; [exact H1|]. constructor; [exact Hi|constructor].
  - eapply linked_snoc; eauto.
  - apply Forall_app. split; [exact H4|]. constructor; [exact Hc|constructor].
Qed.

Definition succ_node (n : node) : Prop :=
  forall dir pinc pexc S fs fs' S' em err,
    cnode dir n pinc pexc S fs = (fs', S', em, err) ->
    (forall e, In e (walk_node dir n) -> In e all) -> inv S dir fs ->
    err = None /\ ext fs fs' /\ after S S' fs'.

Lemma succ_forest l : Forall succ_node l ->
  forall dir pinc pexc S fs fs' S' em err,
    cforest dir l pinc pexc S fs = (fs', S', em, err) ->
    (forall e, In e (walk_forest dir l) -> In e all) -> inv S dir fs ->
    err = None /\ ext fs fs' /\ after S S' fs'.
Proof.
  induction 1 as [|k r Hk _ IH]; intros dir pinc pexc S fs fs' S' em err H Hall HI.
  - cbn in H. inversion H; subst. repeat split; auto using ext_refl. left. reflexivity.
  - cbn [copy_forest] in H.
    destruct (cnode dir k pinc pexc S fs) as [[[f1 S1] e1] x1] eqn:E1.
    destruct (Hk _ _ _ _ _ _ _ _ _ E1) as (-> & Hx1 & Ha1); auto.
    { intros e He. apply Hall. cbn [walk_forest]. apply in_or_app. left; auto. }
    destruct (cforest dir r pinc pexc S1 f1) as [[[f2 S2] e2] x2] eqn:E2. inversion H; subst.
    pose proof (inv_step _ _ _ _ _ HI Hx1 Ha1) as HI1.
    destruct (IH _ _ _ _ _ _ _ _ _ E2) as (-> & Hx2 & Ha2); auto.
    { intros e He. apply Hall. cbn [walk_forest]. apply in_or_app. right; auto. }
    repeat split; auto. { eapply ext_trans; eauto. }
    destruct Ha1 as [->|[-> Ha1]]; [exact Ha2|].
    right. destruct Ha2 as [->|[-> Ha2]].
    + split; [reflexivity|]. eapply exist_all_ext; eauto. apply (inv_items _ _ _ HI).
    + rewrite mark_idem. split; [reflexivity|].
      unfold exist_all, mark in Ha2. rewrite Forall_map in Ha2. exact Ha2.
Qed.

Lemma child_ne_dir dir name : name <> [] -> bytes_eqb dir (child_path dir name) = false.
Proof.
  intros Hne. apply bytes_eqb_neq. unfold child_path. destruct dir as [|a d]; [congruence|].
  intros E. apply (f_equal (@length N)) in E. rewrite app_length in E. cbn in E. lia.
Qed.

Lemma linked_last_exists S : forall prev dir fs, linked prev S dir -> parent_ok prev fs = true -> exist_all S fs ->
  parent_ok dir fs = true.
Proof.
  induction S as [|d r IH]; intros prev dir fs HL Hp Ha.
  - cbn in HL. subst. exact Hp.
  - destruct HL as [_ HL]. inversion Ha; subst. eapply IH; eauto.
Qed.

Lemma succ_node_all : forall n, wf_tree_node n = true -> succ_node n.
Proof.
  refine (wf_tree_ind _ _). intros name st0 ct kids Hne Hns _ _ IHk dir pinc pexc S fs fs' S' em err H Hall HI.
  rewrite copy_node_eq_r in H. cbv zeta in H.
  set (p := child_path dir name) in *.
  set (incl := fst (sel_inc pmatch c p pinc) && negb (fst (sel_exc pmatch c p pexc))) in *.
  assert (Hself : In (set_path st0 p, ct) all) by (apply Hall; rewrite walk_node_eq; left; reflexivity).
  assert (Hkidsall : forall e, In e (walk_forest p kids) -> In e all) by (intros e He; apply Hall; rewrite walk_node_eq; right; exact He).
  pose proof HI as [H1 H2 H3 H4 H5].
  destruct incl eqn:Einc.
  - (* selected *)
    destruct (create_parents S fs) as [[[fs1 S1] em1] er] eqn:E1.
    destruct (create_parents_succeeds S [] dir _ _ _ _ _ E1 H1 H2 H3 H4 H5) as (-> & Hx1 & Ha1 & Hdir1).
    destruct (create_parents_ok _ _ _ _ _ (Forall_impl _ (fun d (X : item_ok d) => proj2 X) H1) E1) as (-> & _ & _).
    pose proof (ext_compat _ _ H5 Hx1) as HG1.
    rewrite andb_true_r in H.
    destruct (st_is_dir st0) eqn:Ed.
    + assert (Hrm : (if repl then remove_target p true (fs p) fs1 else fs1) = fs1).
      { destruct repl; [|reflexivity]. exact (rm_dir_noop fs (set_path st0 p) ct fs1 H5 Hself Ed). }
      rewrite Hrm in H. clear Hrm.
      destruct (copy_dir_only_ok dir (set_path st0 p) ct fs1 Hself Ed HG1 Hdir1) as (fs2 & cr & E2 & Hx2 & Hk2 & _ & _).
      cbn [st_path set_path] in E2, Hk2. rewrite E2 in H.
      set (d := {| pd_st := set_path st0 p; pd_ct := ct; pd_dir := dir; pd_copied := true |}) in *.
      destruct (cforest p kids _ _ (mark S ++ [d]) fs2) as [[[fs3 S3] em3] e3] eqn:E3.
      assert (HI2 : inv (mark S ++ [d]) p fs2).
      { apply (inv_push (mark S) dir fs2 d); [|reflexivity|exact (conj Hself Ed)|intros _; exact Hk2].
        apply (inv_step S dir fs fs2 (mark S) HI); [eapply ext_trans; eauto|].
        right. split; [reflexivity|]. eapply exist_all_ext; eauto. }
      destruct (succ_forest kids IHk _ _ _ _ _ _ _ _ _ E3 Hkidsall HI2) as (-> & Hx3 & Ha3).
      inversion H; subst; clear H.
      assert (HS3 : removelast S3 = mark S).
      { destruct Ha3 as [->|[-> _]]; [apply removelast_last|].
        rewrite mark_app, mark_idem. cbn [mark map]. apply removelast_last. }
      rewrite HS3.
      assert (Hx4 : ext fs3 (copy_meta (set_path st0 p) p fs3)).
      { apply (ext_meta fs3 p (set_path st0 p) ct Hself eq_refl). intros o Ho.
        pose proof (ext_compat _ _ (ext_compat _ _ HG1 Hx2) Hx3) as HG3. exact (HG3 _ o Hself Ho). }
      assert (Hxall : ext fs (copy_meta (set_path st0 p) p fs3)) by (repeat (eapply ext_trans; eauto)).
      repeat split; auto. right. split; [reflexivity|].
      eapply exist_all_ext; [exact H1|exact Ha1|]. repeat (eapply ext_trans; eauto).
    + cbn [negb] in H.
      set (X := if repl then remove_target p false (fs p) fs1 else fs1) in H.
      assert (HX : X = fs1 \/ X = fdel p fs1).
      { unfold X. destruct repl; [|left; reflexivity]. exact (rm_nondir_cases fs (set_path st0 p) ct fs1 H5 Hself Ed). }
      (* either way the slot at p is cleared without error, and nothing else has changed *)
      assert (Hcl : exists fs2, match X p with Some e => if e_dir e then None else Some (fdel p X) | None => Some X end = Some fs2
                                /\ forall q, q <> p -> fs2 q = fs1 q).
      { assert (Hoff : forall q, q <> p -> fdel p fs1 q = fs1 q).
        { intros q Hq. unfold fdel. apply bytes_eqb_neq in Hq. rewrite Hq. reflexivity. }
        destruct HX as [->| ->].
        - destruct (fs1 p) as [o|] eqn:Ep; [|eauto].
          pose proof (HG1 _ o Hself Ep) as Ho. cbn [fst] in Ho. change (st_is_dir (set_path st0 p)) with (st_is_dir st0) in Ho.
          rewrite Ho, Ed. eauto.
        - unfold fdel at 1. rewrite bytes_eqb_refl. eauto. }
      destruct Hcl as (fs2 & E2 & Hoff). rewrite E2 in H.
      assert (Hp2 : parent_ok dir fs2 = true).
      { unfold parent_ok. rewrite Hoff; [exact Hdir1|]. apply bytes_eqb_neq. exact (child_ne_dir dir name Hne). }
      rewrite Hp2 in H. inversion H; subst; clear H.
      assert (Hx2 : ext fs1 (fput p (set_path st0 p, ct) fs2))
        by exact (ext_put fs1 fs2 p (set_path st0 p, ct) (set_path st0 p) ct Hself eq_refl eq_refl Hoff).
      repeat split; auto. { eapply ext_trans; eauto. }
      right. split; [reflexivity|]. eapply exist_all_ext; eauto.
  - (* not selected *)
    rewrite andb_false_r in H.
    destruct (st_is_dir st0) eqn:Ed.
    + set (d := {| pd_st := set_path st0 p; pd_ct := ct; pd_dir := dir; pd_copied := false |}) in *.
      destruct (cforest p kids _ _ (S ++ [d]) fs) as [[[fs3 S3] em3] e3] eqn:E3.
      assert (HI2 : inv (S ++ [d]) p fs)
        by (apply (inv_push S dir fs d HI eq_refl (conj Hself Ed)); intros X; discriminate X).
      destruct (succ_forest kids IHk _ _ _ _ _ _ _ _ _ E3 Hkidsall HI2) as (-> & Hx3 & Ha3).
      inversion H; subst; clear H. repeat split; auto.
      destruct Ha3 as [->|[-> Ha3]].
      * left. apply removelast_last.
      * right. rewrite mark_app. cbn [mark map]. rewrite removelast_last. split; [reflexivity|].
        unfold exist_all in *. apply Forall_app in Ha3. tauto.
    + cbn [negb] in H. inversion H; subst. repeat split; auto using ext_refl. left. reflexivity.
Qed.

Theorem copy_succeeds_proof rootst fs0 :
  compat fs0 -> (forall o, fs0 [] = Some o -> e_dir o = true) ->
  exists fs' log, copy_sel pmatch c repl (SrcDir rootst view) fs0 = (fs', log, None).
Proof.
  intros HG Hroot. cbn [copy_sel]. unfold copy_dir_top.
  assert (Hr0 : (if repl then remove_target [] true (fs0 []) fs0 else fs0) = fs0).
  { destruct repl; [|reflexivity]. unfold remove_target. destruct (fs0 []) as [o|] eqn:E; [|reflexivity].
    rewrite (Hroot o eq_refl). reflexivity. }
  rewrite Hr0. cbv beta iota zeta.
  assert (Hw : forallb wf_tree_node view = true).
  { unfold wf_tree in Hwf. apply andb_true_iff in Hwf. tauto. }
  pose proof (Forall_wf _ _ succ_node_all Hw) as HF.
  assert (Hall : forall e, In e (walk_forest [] view) -> In e all) by (intros e He; exact He).
  destruct (fs0 []) as [o|] eqn:E0.
  - rewrite (Hroot o eq_refl).
    destruct (cforest [] view [] [] [] fs0) as [[[fs2 S2] em] er] eqn:E.
    assert (HI : inv [] [] fs0).
    { constructor; auto; try constructor. unfold parent_ok. rewrite E0. apply Hroot. reflexivity. }
    destruct (succ_forest view HF _ _ _ _ _ _ _ _ _ E Hall HI) as (-> & _ & _). eauto.
  - destruct (cforest [] view [] [] [] (fput [] (blank_dir []) fs0)) as [[[fs2 S2] em] er] eqn:E.
    assert (HI : inv [] [] (fput [] (blank_dir []) fs0)).
    { constructor; auto; try constructor.
      intros e o He Ho. rewrite fput_at in Ho. destruct (bytes_eqb (st_path (fst e)) []) eqn:Eq.
      - apply bytes_eqb_eq in Eq. exfalso. exact (walk_root_nonempty view e Hwf He Eq).
      - eapply HG; eauto. }
    destruct (succ_forest view HF _ _ _ _ _ _ _ _ _ E Hall HI) as (-> & _ & _). eauto.
Qed.
End Ok.
