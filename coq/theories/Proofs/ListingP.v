(* Byte-level round trip of the metadata listing (Model/Listing.v): what receive.go records,
   pushed through the chunked buffer and written out, is parsed back record by record. *)
From Coq Require Import List NArith ZArith Bool Lia ZifyN ZifyNat ZifyBool Permutation.
From FS Require Import Sx Model.Stat Model.Varint Model.Codec Model.MetaBuffer Model.Listing
  Proofs.VarintP Proofs.CodecP Proofs.FramingP.
Import ListNotations.
Open Scope N_scope.

Lemma le32_roundtrip n : n < two32 -> le32_dec (le32 n) = n.
Proof. exact (base256_4 n). Qed.
Lemma le32_length n : length (le32 n) = 4%nat.
Proof. reflexivity. Qed.

Lemma decode_listing_records stats : forall recs fuel,
  Forall listable stats -> Forall2 lrecord_of stats recs ->
  (length (concat recs) <= fuel)%nat ->
  decode_listing_f fuel (concat recs) = Some stats.
Proof.
  induction stats as [|s stats IH]; intros recs fuel Hl Hr Hfuel.
  - inversion Hr; subst. destruct fuel; reflexivity.
  - inversion Hr as [|? rec ? recs' (xs & HP & Hrec) Hr']; subst.
    inversion Hl as [|? ? (Hwf & Hsz) Hl']; subst.
    set (body := encode_stat_ord xs s) in *.
    assert (Hlen : len body = size_stat s) by (apply size_stat_any_order; exact HP).
    cbn [concat] in *. unfold lframe in *. rewrite <- app_assoc in *.
    rewrite !app_length, le32_length in Hfuel.
    destruct fuel as [|fuel]; [lia|].
    remember (body ++ concat recs') as tl eqn:Etl.
    assert (Hcons : le32 (len body) ++ tl =
                    len body mod 256 :: (len body / 256) mod 256 :: (len body / 65536) mod 256 ::
                    (len body / 16777216) mod 256 :: tl) by reflexivity.
    rewrite Hcons. cbn [decode_listing_f].
    change [len body mod 256; (len body / 256) mod 256; (len body / 65536) mod 256; (len body / 16777216) mod 256]
      with (le32 (len body)).
    rewrite le32_roundtrip by (rewrite Hlen; exact Hsz).
    subst tl. rewrite take_n_app.
    pose proof (stat_roundtrip_any_order s xs Hwf HP) as Hrt. fold body in Hrt.
    unfold decode_stat. rewrite Hrt. cbn [option_map fst].
    rewrite (IH recs' fuel Hl' Hr'); [reflexivity|lia].
Qed.

Theorem listing_roundtrip_any_order_proof stats recs :
  Forall listable stats -> Forall2 lrecord_of stats recs ->
  decode_listing (concat recs) = Some stats.
Proof. intros Hl Hr. unfold decode_listing. apply decode_listing_records; auto. Qed.

Lemma lrecord_of_canonical stats : Forall2 lrecord_of stats (map lframe (map encode_stat stats)).
Proof.
  induction stats as [|s stats IH]; cbn [map]; constructor; [|exact IH].
  exists (st_xattrs s). split; [apply Permutation_refl|reflexivity].
Qed.

Theorem listing_roundtrip_proof stats :
  Forall listable stats ->
  decode_listing (concat (map lframe (map encode_stat stats))) = Some stats.
Proof. intros Hl. apply listing_roundtrip_any_order_proof; [exact Hl|apply lrecord_of_canonical]. Qed.

(* through the chunked buffer of buffer.go *)
Theorem listing_file_roundtrip_proof stats recs :
  Forall listable stats -> Forall2 lrecord_of stats recs ->
  decode_listing (write_to (alloc_all recs)) = Some stats.
Proof. intros Hl Hr. rewrite buffer_is_concat. apply listing_roundtrip_any_order_proof; assumption. Qed.
