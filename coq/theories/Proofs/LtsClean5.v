(* A fault-free run from the initial state keeps [scal] and [wq], so a complete one returns nil on both sides
   (safety half of C04 fault_free_completes); with that, C08 outcome_deterministic in full. *)
From Coq Require Import List Arith Bool PeanoNat Lia ZifyBool Permutation.
From FS Require Import Model.Lts Model.LtsExplore Proofs.LtsInv Proofs.LtsSafe Proofs.LtsTerm Proofs.LtsC08 Proofs.LtsTok Proofs.LtsContent Proofs.LtsContent3.
From FS Require Import Proofs.LtsClean1 Proofs.LtsClean2 Proofs.LtsClean3 Proofs.LtsClean4.
Import ListNotations.

Lemma inv_rs_reachable : forall p st, reachable p st -> inv_rs st.
Proof. induction 1. unfold inv_rs; cbn. apply Nat.le_refl. eapply inv_rs_step; eauto. Qed.

(* a call that returned an error has its error flag set *)
Definition inv_ret (st : state) : Prop :=
  (send_ret st = Some false -> s_err st = true) /\ (recv_ret st = Some false -> r_err st = true).
Lemma inv_ret_step : forall p st l st', inv_ret st -> step p st l = Some st' -> inv_ret st'.
Proof.
  intros p st l st' (A & B) H.
  step_cases H l; split; try assumption; cbn; intro X; try reflexivity;
  first [ apply A; congruence
        | injection X as X; destruct (s_err st); [reflexivity | discriminate X]
        | injection X as X; destruct (r_err st); [reflexivity | discriminate X] ].
Qed.
Lemma inv_ret_reachable : forall p st, reachable p st -> inv_ret st.
Proof. induction 1. split; intro X; discriminate X. eapply inv_ret_step; eauto. Qed.

Lemma scal_init : forall p, scal (init p).
Proof. intro p. constructor; cbn; auto; intro X; discriminate X. Qed.

Lemma sumf_wsel_nil : forall c id, sumf (wsel c id) [] = 0.
Proof. reflexivity. Qed.

Lemma wq_init : forall p id, wq p id (init p).
Proof.
  intros p id. constructor; unfold wsum, tok, down, sw_bound, dl_bound; cbn;
  rewrite ?sumf_repeat_idle; unfold cnt, cntE, cntQ; cbn; intros; try lia; try reflexivity;
  try (destruct (is_file p id); reflexivity);
  unfold sumf in *; cbn in *; lia.
Qed.

Definition fault_free (ls : list label) : Prop := forallb fault_free_label ls = true.

Lemma ff_run_from : forall p ls st st', wf_params p ->
  reachable p st -> scal st -> (forall id, wq p id st) ->
  fault_free ls -> run p st ls = Some st' -> scal st' /\ (forall id, wq p id st').
Proof.
  induction ls; intros st st' WF R K W F H; cbn in H.
  - injection H as H. subst. auto.
  - destruct (step p st a) as [s1|] eqn:E; try discriminate.
    apply andb_prop in F. destruct F as [F1 F2].
    pose proof (inv_reachable _ _ R) as J. destruct J.
    pose proof (inv7_reachable _ _ R) as J7. destruct J7.
    assert (K1: scal s1).
    { exact (scal_step p st WF K i_1 i_2 i_3 (inv_fin_reachable _ _ R) (inv9a_reachable _ _ R)
                (inv_rs_reachable _ _ R) i_7a (tokinv_reachable _ _ R) W
                (fun id => cinv_reachable p id st R) (fun id N => ninv_reachable p id st N R) a s1 F1 E). }
    apply (IHls s1 st' WF); auto.
    + econstructor; eauto.
    + intro id. exact (wq_step p id st a s1 K K1 (inv9a_reachable _ _ R) i_1 i_3 (W id) E).
Qed.

Lemma fault_free_clean : forall p ls st, wf_params p -> fault_free ls -> run p (init p) ls = Some st -> scal st.
Proof.
  intros p ls st WF F H.
  destruct (ff_run_from p ls (init p) st WF (reach_init p) (scal_init p) (wq_init p) F H). auto.
Qed.

Lemma clean_final_success : forall p st, reachable p st -> scal st -> final st = true ->
  send_ret st = Some true /\ recv_ret st = Some true.
Proof.
  intros p st R K Fin. destruct (inv_ret_reachable _ _ R) as [A B].
  unfold final in Fin. apply andb_prop in Fin. destruct Fin as [Fin R2]. apply andb_prop in Fin. destruct Fin as [_ R1].
  split.
  - destruct (send_ret st) as [[]|]; auto; [|discriminate R1]. rewrite (k_se st K) in A. specialize (A eq_refl). discriminate.
  - destruct (recv_ret st) as [[]|]; auto; [|discriminate R2]. rewrite (k_re st K) in B. specialize (B eq_refl). discriminate.
Qed.

(* fault_free_completes, safety half: a complete fault-free run returns nil on both sides *)
Lemma fault_free_success_proof : forall p ls st, wf_params p -> fault_free ls ->
  run p (init p) ls = Some st -> final st = true ->
  send_ret st = Some true /\ recv_ret st = Some true.
Proof.
  intros p ls st WF F H. apply (clean_final_success p).
  - eapply run_reachable; [apply reach_init | exact H].
  - exact (fault_free_clean p ls st WF F H).
Qed.

Lemma fault_free_not_open : forall ls, fault_free ls -> forallb not_open_err ls = true.
Proof.
  induction ls; intro F; [reflexivity|]. apply andb_prop in F. destruct F as [F1 F2].
  apply andb_true_intro. split; [destruct a; try reflexivity; discriminate F1 | exact (IHls F2)].
Qed.

(* outcome_deterministic, in full *)
Lemma outcome_deterministic_proof : forall p ls1 ls2 st1 st2,
  wf_params p -> fault_free ls1 -> fault_free ls2 ->
  run p (init p) ls1 = Some st1 -> run p (init p) ls2 = Some st2 ->
  final st1 = true -> final st2 = true ->
  send_ret st1 = send_ret st2 /\ recv_ret st1 = recv_ret st2 /\
  Permutation (completed st1) (completed st2) /\
  Permutation (reqs st1) (reqs st2) /\
  Permutation (written st1) (written st2).
Proof.
  intros p ls1 ls2 st1 st2 WF F1 F2 R1 R2 E1 E2.
  destruct (fault_free_success_proof p ls1 st1 WF F1 R1 E1) as [S1 O1].
  destruct (fault_free_success_proof p ls2 st2 WF F2 R2 E2) as [S2 O2].
  split; [congruence|]. split; [congruence|].
  apply (outcome_deterministic_runs_proof p ls1 ls2); auto using fault_free_not_open.
Qed.
