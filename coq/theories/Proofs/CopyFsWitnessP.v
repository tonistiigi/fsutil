(* C14 — two concrete file systems with a run of the copier model on each (the non-vacuity
   witnesses, evaluated in Properties/C14.v), and two facts about a symlink met at a target name. *)
From Coq Require Import List Arith NArith Lia Bool ZifyN ZifyNat ZifyBool.
From FS Require Import Sx Model.Path Model.Fs Model.RootPath Model.CopyFs Model.CopyFsSpec
  Proofs.Lex Proofs.PathP Proofs.FsP Proofs.RootPathStrP Proofs.FsCopyFrameP Proofs.FsCopyInvP
  Proofs.FsCopySafeP Proofs.FsCopyLinksP Proofs.FsCopySysP Proofs.CopyFsP Proofs.CopyRecP Proofs.CopyFsTopP
  Proofs.CopyContainedP Proofs.RootPathWitnessP.
Import ListNotations.
Open Scope N_scope.
Open Scope bool_scope.

Definition w_link (f : fs) (o p : bytes) : fs := fst (sys_link ctx_init f o p).
Definition w_write (f : fs) (p d : bytes) : fs :=
  match sys_open_wronly ctx_init f p true 420 with (f1, RFd i) => fst (fd_pwrite f1 i 0 d) | (f1, _) => f1 end.
Definition w_chmod (f : fs) (p : bytes) (m : N) : fs := fst (sys_chmod ctx_init f p m).

(* the witness of the hard-link-path escape: /o/h (0600) outside; /s/p/h with two links (also
   /s/r/g); /s/q/h -> /o/h; /d the empty destination root *)
Definition wC : fs :=
  let f := w_mkdir fs_init [47;111] in
  let f := w_write f [47;111;47;104] [83] in
  let f := w_chmod f [47;111;47;104] 384 in
  let f := w_mkdir f [47;115] in
  let f := w_mkdir f [47;100] in
  let f := w_mkdir f [47;115;47;112] in
  let f := w_write f [47;115;47;112;47;104] [120] in
  let f := w_mkdir f [47;115;47;113] in
  let f := w_symlink f [47;111;47;104] [47;115;47;113;47;104] in
  let f := w_mkdir f [47;115;47;114] in
  w_link f [47;115;47;112;47;104] [47;115;47;114;47;103].
Definition wC_opts : copts :=
  {| o_follow := false; o_always_replace := false; o_dir_contents := false; o_chown := None; o_utime := None; o_mode := None |}.
(* Copy(srcRoot "/s", "?/?", dstRoot "/d", "/") with the matches p/h, q/h, r/g *)
Definition wC_run : cst * (unit + N) :=
  copy_top 16 ctx_init wC_opts (Some sel_all) [47;115] [63;47;63] [47;100] [47]
    (Some [[112;47;104]; [113;47;104]; [114;47;103]]) (cst_init wC).

(* the witness of the deferred-parent escape: /o/d/a outside; /s/b/a the source; /d/b -> /o/d.
   Copy(srcRoot "/s", "/", dstRoot "/d", "/") with IncludePatterns ["b/a"], AlwaysReplaceExistingDestPaths,
   CopyDirContents: the parent b is deferred until b/a is selected; with createParentDirs before
   removeTargetIfNeeded the conflict at /d/b is reported and nothing outside is removed. *)
Definition wD : fs :=
  let f := w_mkdir fs_init [47;111] in
  let f := w_mkdir f [47;111;47;100] in
  let f := w_write f [47;111;47;100;47;97] [79] in
  let f := w_mkdir f [47;115] in
  let f := w_mkdir f [47;100] in
  let f := w_mkdir f [47;115;47;98] in
  let f := w_write f [47;115;47;98;47;97] [120] in
  w_symlink f [47;111;47;100] [47;100;47;98].
Definition wD_opts : copts :=
  {| o_follow := false; o_always_replace := true; o_dir_contents := true; o_chown := None; o_utime := None; o_mode := None |}.
Definition wD_sel : selector :=
  {| sl_inc := fun p _ => (bytes_eqb p [98;47;97], []); sl_exc := fun _ _ => (false, []) |}.
Definition wD_run : cst * (unit + N) :=
  copy_top 16 ctx_init wD_opts (Some wD_sel) [47;115] [47] [47;100] [47] None (cst_init wD).

Section DestLink.
  Variables (c : ctx) (f0 : fs) (dr : N) (dcs cs : list bytes) (x : bytes) (d i : N) (t : bytes) (m : meta).
  Hypothesis W : fs_wf f0.
  Hypothesis Hdn : forallb name_ok dcs = true.
  Hypothesis Hdc : chain f0 (c_root c) dcs dr.
  Hypothesis Hdl : (length dcs < rfuel)%nat.
  Hypothesis Hcn : forallb name_ok cs = true.
  Hypothesis Hxn : name_ok x = true.
  Hypothesis Hc : chain f0 dr cs d.
  Hypothesis Hb : blookup x (dents f0 d) = Some i.
  Hypothesis Hi : get f0 i = Some {| i_kind := KLink t; i_meta := m |}.

  Lemma dl_tgt : Tgt c f0 dr dcs (s_fs (cst_init f0)) cs d x.
  Proof.
    pose proof (wf_ctx c f0 dr dcs W Hdn Hdc Hdl) as C.
    apply forallb_name_ok in Hcn. destruct Hcn as [Hc1 Hc2].
    destruct (name_ok_nm x Hxn). constructor; auto.
  Qed.

  (* ensureEmptyFileTarget: on success the name is gone and the link inode itself is as before *)
  Lemma dest_symlink_unlinked s' r :
    ensure_empty_file_target c (render (dcs ++ cs ++ [x])) (cst_init f0) = (s', r) ->
    r = inl tt -> blookup x (dents (s_fs s') d) = None /\ get (s_fs s') i = get f0 i.
  Proof.
    intros H ->. pose proof dl_tgt as T. unfold ensure_empty_file_target in H. rewrite bind_run in H.
    change (render (dcs ++ cs ++ [x])) with (tpath dcs cs x) in H.
    destruct (lstat_opt c (tpath dcs cs x) (cst_init f0)) as [s1 [o|e]] eqn:E1; [|inversion H].
    destruct (lstat_opt_spec c f0 dr dcs _ s1 _ cs d x T E1) as (F1 & L1 & _ & P1).
    destruct o as [[j n]|].
    - destruct P1 as [Pb Pg]. cbn [s_fs cst_init] in Pb, Pg. rewrite Hb in Pb. inversion Pb; subst j.
      rewrite Hi in Pg. inversion Pg; subst n. cbn [kind_is_dir i_kind] in H.
      assert (T1 : Tgt c f0 dr dcs (s_fs s1) cs d x) by (rewrite F1; exact T).
      assert (Hf1 : forgotten s1 (tpath dcs cs x)) by (intros e He; rewrite L1 in He; destruct He).
      destruct (os_remove_spec c f0 dr dcs s1 s' _ cs d x T1 Hf1 H) as ((C' & _) & _ & P2).
      split; [apply P2; reflexivity|].
      (* the link inode itself is not a directory below dstRoot: untouched *)
      assert (Hlt : i < f_next f0).
      { apply (exists_lt_next f0 i (wf_alloc f0 W)). rewrite Hi. discriminate. }
      apply (inv_frame f0 dr (s_fs s') (cx_inv _ _ _ _ _ C')); auto.
      intros (cs' & Hc'). apply chain_end_dir in Hc'. unfold is_dir, dir_of in Hc'. rewrite Hi in Hc'. discriminate.
    - exfalso. unfold absent in P1. cbn [s_fs cst_init] in P1. rewrite Hb, Hi in P1. discriminate.
  Qed.

  (* copyDirectoryOnly: "cannot copy to non-directory" — reported, nothing touched *)
  Lemma dest_symlink_reported fi ow s' r :
    copy_directory_only c (render (dcs ++ cs ++ [x])) fi ow (cst_init f0) = (s', r) ->
    (exists e, r = inr e) /\ s_fs s' = f0.
  Proof.
    intros H. pose proof dl_tgt as T. unfold copy_directory_only in H. rewrite bind_run in H.
    change (render (dcs ++ cs ++ [x])) with (tpath dcs cs x) in H.
    destruct (lstat_opt c (tpath dcs cs x) (cst_init f0)) as [s1 [o|e]] eqn:E1.
    - destruct (lstat_opt_spec c f0 dr dcs _ s1 _ cs d x T E1) as (F1 & L1 & _ & P1).
      destruct o as [[j n]|].
      + destruct P1 as [Pb Pg]. cbn [s_fs cst_init] in Pb, Pg. rewrite Hb in Pb. inversion Pb; subst j.
        rewrite Hi in Pg. inversion Pg; subst n. cbn [kind_is_dir i_kind negb] in H. unfold fail in H. inversion H; subst.
        split; eauto.
      + exfalso. unfold absent in P1. cbn [s_fs cst_init] in P1. rewrite Hb, Hi in P1. discriminate.
    - destruct (lstat_opt_spec c f0 dr dcs _ s1 _ cs d x T E1) as (F1 & _).
      inversion H; subst. split; eauto.
  Qed.
End DestLink.
