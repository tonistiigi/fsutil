(* Fault-free runs never fail (C08 outcome_deterministic in full; safety half of C04 fault_free_completes):
   building blocks — fault-free labels, per-id sums over the writers, the scalar "no error" predicate and the
   per-id token / request accounting equations. *)
From Coq Require Import List Arith Bool PeanoNat Lia ZifyBool.
From FS Require Import Model.Lts Model.LtsExplore Proofs.LtsInv Proofs.LtsSafe Proofs.LtsTerm Proofs.LtsC08 Proofs.LtsTok Proofs.LtsContent Proofs.LtsContent3.
Import ListNotations.

Definition fault_free_label (l : label) : bool :=
  match l with
  | LSWalkErr | LWorkerOpenErr _ | LWorkerReadErr _ | LDiffCbErr | LWriterCbErr _
  | LEnvCancelS | LEnvCancelR | LEnvBreakS | LEnvBreakR | LEnvTearDown => false
  | _ => true
  end.

(* rl_i + STATs in flight never exceeds what the walker has sent *)
Definition inv_rs (st : state) : Prop := rl_i st + count_stat (buf_sr st) <= sw_i st.
Lemma inv_rs_step : forall p st l st', inv_rs st -> step p st l = Some st' -> inv_rs st'.
Proof.
  intros p st l st' I H.
  step_cases H l; try assumption; unfold inv_rs in *; cbn;
  repeat match goal with E : buf_sr _ = _ |- _ => rewrite E in I end;
  rewrite ?count_stat_cons in I; rewrite ?count_stat_app; cbn [is_stat b2n] in *; lia.
Qed.

Definition wsel (c : wrpc -> bool) (id : nat) (w : writer) : nat := b2n (Nat.eqb id (wr_id w) && c (wr_pc w)).
Definition cAll (pc : wrpc) : bool := true.
Definition cS (pc : wrpc) : bool := match pc with WR_Start => true | _ => false end.
Definition cL (pc : wrpc) : bool := match pc with WR_Lock | WR_Send => true | _ => false end.
Definition cW (pc : wrpc) : bool := match pc with WR_Wait => true | _ => false end.
Definition cN (pc : wrpc) : bool := match pc with WR_Notify => true | _ => false end.
Definition cD (pc : wrpc) : bool := match pc with WR_Done => true | _ => false end.
Lemma wsel_mk : forall c id i pc,
  wsel c id {| wr_id := i; wr_pc := pc |} = if c pc then b2n (id =? i) else 0.
Proof.
  intros. unfold wsel. cbn. destruct (c pc); [apply f_equal, andb_true_r | rewrite andb_false_r; reflexivity].
Qed.
Definition wsum (c : wrpc -> bool) (id : nat) (st : state) : nat := sumf (wsel c id) (wrs st).

Lemma wsum_split : forall id l,
  sumf (wsel cAll id) l = sumf (wsel cS id) l + sumf (wsel cL id) l + sumf (wsel cW id) l
                          + sumf (wsel cN id) l + sumf (wsel cD id) l.
Proof.
  induction l; [reflexivity|]. unfold sumf in *; cbn [fold_right]. rewrite IHl.
  unfold wsel. destruct a as [i pc]; cbn. destruct (Nat.eqb id i); destruct pc; cbn; lia.
Qed.

Definition down (id : nat) (st : state) : nat :=
  rq_h id (rq_pc st) + cnt id (pipe st) + sumf (held id) (wks st)
  + cntE id (buf_sr st) + rl_h id (rl_pc st) + cnt id (completed st).

Definition is_perr (pk : packet) : bool := match pk with PErr => true | _ => false end.
(* The scalar part: no error flag, no error path, no cancellation before the returns. *)
Record scal (st : state) : Prop := {
  k_se : s_err st = false; k_re : r_err st = false; k_de : d_err st = false; k_ee : eg_err st = false;
  k_sb : s_broken st = false; k_rb : r_broken st = false;
  k_dw : dw_cancel st = false; k_eg : eg_cancel st = false; k_cc : close_ch st = false;
  k_sc : s_cancel st = negb (is_none (send_ret st));
  k_rc : r_cancel st = negb (is_none (recv_ret st));
  k_dc : d_cancel st = true -> do_pc st <> DO_WaitDiff;
  k_p1 : existsb is_perr (buf_sr st) = false;
  k_p2 : existsb is_perr (buf_rs st) = false;
  k_sw : match sw_pc st with SW_Lock KErr | SW_Send KErr => False | _ => True end;
  k_rq : match rq_pc st with RQ_Close false | RQ_Ret false => False | _ => True end;
  k_fl : match fl_pc st with FL_Close false | FL_Ret false => False | _ => True end;
  k_do : match do_pc st with DO_LockErr | DO_SendErr => False | _ => True end
}.

(* The per-id equations: token conservation, request accounting. *)
Record wq (p : params) (id : nat) (st : state) : Prop := {
  w_u : wsum cAll id st <= 1;
  w_b : dl_bound st <= id -> wsum cAll id st = 0;
  w_S : tok id st = b2n (is_file p id && (id <? sw_bound st));
  w_Q : cntQ id (buf_rs st) + down id st = wsum cW id st + wsum cN id st + wsum cD id st;
  w_R : cnt id (rfiles st) + (wsum cL id st + wsum cW id st + wsum cN id st + wsum cD id st)
        = b2n (is_file p id && (id <? rl_i st));
  w_P : cnt id (pipes st) = wsum cL id st + wsum cW id st + wsum cN id st;
  w_C : wsum cN id st + wsum cD id st >= 1 -> cnt id (completed st) >= 1;
  (* once the receiver has sent FIN nothing of this id is on its way any more *)
  w_F : g_fin_rs st = true ->
        cntQ id (buf_rs st) + rq_h id (rq_pc st) + cnt id (pipe st) + sumf (held id) (wks st)
        + cntE id (buf_sr st) + rl_h id (rl_pc st) = 0
}.

Lemma alldone_wsum : forall id l, forallb wr_done l = true ->
  sumf (wsel cS id) l = 0 /\ sumf (wsel cL id) l = 0 /\ sumf (wsel cW id) l = 0 /\ sumf (wsel cN id) l = 0.
Proof.
  induction l; intro H; [repeat split; reflexivity|].
  change (forallb wr_done (a :: l)) with (wr_done a && forallb wr_done l) in H.
  apply andb_prop in H. destruct H as [H1 H2]. destruct (IHl H2) as (A & B & C & D).
  unfold sumf in *; cbn [fold_right]. rewrite A, B, C, D.
  destruct a as [i pc]. unfold wr_done in H1. cbn in H1. destruct pc; try discriminate H1.
  unfold wsel; cbn. rewrite !andb_false_r. repeat split; reflexivity.
Qed.
