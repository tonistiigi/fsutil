(* Generic lexicographic order on lists + its instances for byte strings (cmpb)
   and component lists (lex); the boolean equalities on byte strings and stats. *)
From Coq Require Import List NArith Lia Bool.
From FS Require Import Sx Model.Path Model.Stat.
Import ListNotations.

Section Lex.
Variable A : Type.
Variable cmp : A -> A -> comparison.
Hypothesis cmp_eq : forall a b, cmp a b = Eq <-> a = b.
Hypothesis cmp_opp : forall a b, cmp b a = CompOpp (cmp a b).
Hypothesis cmp_trans : forall a b c, cmp a b = Lt -> cmp b c = Lt -> cmp a c = Lt.

Fixpoint lcmp (x y : list A) : comparison :=
  match x, y with
  | [], [] => Eq | [], _ => Lt | _, [] => Gt
  | a :: x', b :: y' => match cmp a b with Eq => lcmp x' y' | c => c end
  end.

Lemma cmp_refl a : cmp a a = Eq.
Proof. apply cmp_eq; reflexivity. Qed.

Lemma lcmp_eq x y : lcmp x y = Eq <-> x = y.
Proof.
  revert y; induction x as [|a x IH]; intros [|b y]; simpl; split; intros H; try discriminate; auto.
  - destruct (cmp a b) eqn:E; try discriminate. apply cmp_eq in E. apply IH in H. congruence.
  - inversion H; subst. rewrite cmp_refl. apply IH; auto.
Qed.

Lemma lcmp_refl x : lcmp x x = Eq.
Proof. apply lcmp_eq; auto. Qed.

Lemma lcmp_opp x y : lcmp y x = CompOpp (lcmp x y).
Proof.
  revert y; induction x as [|a x IH]; intros [|b y]; simpl; auto.
  rewrite (cmp_opp a b). destruct (cmp a b); simpl; auto.
Qed.

Lemma lcmp_trans x y z : lcmp x y = Lt -> lcmp y z = Lt -> lcmp x z = Lt.
Proof.
  revert y z; induction x as [|a x IH]; intros [|b y] [|c z]; simpl; auto; try discriminate.
  destruct (cmp a b) eqn:E1; try discriminate; destruct (cmp b c) eqn:E2; try discriminate; intros H1 H2.
  - apply cmp_eq in E1, E2. subst. rewrite cmp_refl. eauto.
  - apply cmp_eq in E1. subst. rewrite E2. auto.
  - apply cmp_eq in E2. subst. rewrite E1. auto.
  - rewrite (cmp_trans _ _ _ E1 E2). auto.
Qed.

Lemma lcmp_app_same d a b : lcmp (d ++ a) (d ++ b) = lcmp a b.
Proof. induction d as [|c d IH]; simpl; auto. rewrite cmp_refl. auto. Qed.

Lemma lcmp_prefix_lt d x : x <> [] -> lcmp d (d ++ x) = Lt.
Proof. intros H. rewrite <- (app_nil_r d) at 1. rewrite lcmp_app_same. destruct x; [congruence|reflexivity]. Qed.

(* a <= s <= a ++ t implies that a is a prefix of s *)
Lemma lcmp_interval a : forall s t, lcmp a s <> Gt -> lcmp s (a ++ t) <> Gt -> exists y, s = a ++ y.
Proof.
  induction a as [|h a IH]; intros s t H1 H2; [exists s; reflexivity|].
  destruct s as [|x s]; [exfalso; apply H1; reflexivity|].
  simpl in H1, H2. destruct (cmp h x) eqn:E.
  - apply cmp_eq in E. subst x. rewrite cmp_refl in H2. destruct (IH s t H1 H2) as [y ->]. exists y. reflexivity.
  - rewrite (cmp_opp h x), E in H2. exfalso. apply H2. reflexivity.
  - exfalso. apply H1. reflexivity.
Qed.

Lemma lcmp_lt_neq x y : lcmp x y = Lt -> x <> y.
Proof. intros H E. subst. rewrite lcmp_refl in H. discriminate. Qed.

Lemma lcmp_le_lt_trans x y z : lcmp x y <> Gt -> lcmp y z = Lt -> lcmp x z = Lt.
Proof.
  intros H1 H2. destruct (lcmp x y) eqn:E; try congruence.
  - apply lcmp_eq in E. subst. auto.
  - eapply lcmp_trans; eauto.
Qed.
End Lex.

Notation name := (list N) (only parsing).
Notation cpath := (list (list N)) (only parsing).

Definition cmpb : name -> name -> comparison := lcmp N N.compare.
Definition lex : cpath -> cpath -> comparison := lcmp name cmpb.
Lemma Ncmp_trans a b c : N.compare a b = Lt -> N.compare b c = Lt -> N.compare a c = Lt.
Proof. rewrite !N.compare_lt_iff. apply N.lt_trans. Qed.

Lemma cmpb_eq a b : cmpb a b = Eq <-> a = b. Proof. apply lcmp_eq, N.compare_eq_iff. Qed.
Lemma cmpb_opp a b : cmpb b a = CompOpp (cmpb a b). Proof. apply lcmp_opp, N.compare_antisym. Qed.
Lemma cmpb_trans a b c : cmpb a b = Lt -> cmpb b c = Lt -> cmpb a c = Lt.
Proof. apply lcmp_trans; [apply N.compare_eq_iff|apply Ncmp_trans]. Qed.

Lemma lex_eq a b : lex a b = Eq <-> a = b. Proof. apply lcmp_eq, cmpb_eq. Qed.
Lemma lex_refl a : lex a a = Eq. Proof. apply lex_eq; auto. Qed.
Lemma lex_opp a b : lex b a = CompOpp (lex a b). Proof. apply lcmp_opp, cmpb_opp. Qed.
Lemma lex_trans a b c : lex a b = Lt -> lex b c = Lt -> lex a c = Lt.
Proof. apply lcmp_trans; [apply cmpb_eq|apply cmpb_trans]. Qed.
Lemma lex_cons n a m b : lex (n :: a) (m :: b) = match cmpb n m with Eq => lex a b | c => c end.
Proof. reflexivity. Qed.
Lemma lex_app_same d a b : lex (d ++ a) (d ++ b) = lex a b. Proof. apply lcmp_app_same, cmpb_eq. Qed.
Lemma lex_cons_same n a b : lex (n :: a) (n :: b) = lex a b. Proof. exact (lex_app_same [n] a b). Qed.
Lemma lex_prefix_lt d x : x <> [] -> lex d (d ++ x) = Lt. Proof. apply lcmp_prefix_lt, cmpb_eq. Qed.
Lemma lex_interval a s t : lex a s <> Gt -> lex s (a ++ t) <> Gt -> exists y, s = a ++ y.
Proof. apply lcmp_interval; [apply cmpb_eq|apply cmpb_opp]. Qed.
Lemma lex_le_lt_trans x y z : lex x y <> Gt -> lex y z = Lt -> lex x z = Lt.
Proof. apply lcmp_le_lt_trans; [apply cmpb_eq|apply cmpb_trans]. Qed.

(* the model's two comparison functions are these instances, with the same text *)
Lemma cmpb_is_cmp_bytes a b : cmpb a b = cmp_bytes a b.
Proof. reflexivity. Qed.

Lemma lex_is_lex_cmp a b : lex a b = lex_cmp a b.
Proof. reflexivity. Qed.

Lemma cmpb_refl a : cmpb a a = Eq. Proof. apply cmpb_eq; auto. Qed.

Lemma cmp_bytes_eq a b : cmp_bytes a b = Eq <-> a = b. Proof. exact (cmpb_eq a b). Qed.
Lemma cmp_bytes_refl a : cmp_bytes a a = Eq. Proof. exact (cmpb_refl a). Qed.
Lemma cmp_bytes_opp a b : cmp_bytes b a = CompOpp (cmp_bytes a b). Proof. exact (cmpb_opp a b). Qed.
Lemma cmp_bytes_trans a b c : cmp_bytes a b = Lt -> cmp_bytes b c = Lt -> cmp_bytes a c = Lt.
Proof. exact (cmpb_trans a b c). Qed.
Lemma cmp_bytes_gt_lt a b : cmp_bytes a b = Gt -> cmp_bytes b a = Lt.
Proof. intros H. rewrite cmp_bytes_opp, H. reflexivity. Qed.
Lemma cmp_bytes_lt_gt a b : cmp_bytes a b = Lt -> cmp_bytes b a = Gt.
Proof. intros H. rewrite cmp_bytes_opp, H. reflexivity. Qed.

Lemma bytes_eqb_eq a b : bytes_eqb a b = true <-> a = b.
Proof.
  revert b; induction a as [|x a IH]; intros [|y b]; simpl; split; intros H; try discriminate; auto.
  - apply andb_true_iff in H. destruct H as [H1 H2]. apply N.eqb_eq in H1. apply IH in H2. congruence.
  - inversion H; subst. rewrite N.eqb_refl. simpl. apply IH. auto.
Qed.

Lemma bytes_eqb_refl a : bytes_eqb a a = true. Proof. apply bytes_eqb_eq; auto. Qed.

Lemma bytes_eqb_neq a b : bytes_eqb a b = false <-> a <> b.
Proof.
  split; intros H.
  - intros E. apply bytes_eqb_eq in E. congruence.
  - destruct (bytes_eqb a b) eqn:E; auto. apply bytes_eqb_eq in E. congruence.
Qed.

Lemma bytes_eqb_sym a b : bytes_eqb a b = bytes_eqb b a.
Proof.
  destruct (bytes_eqb a b) eqn:E.
  - apply bytes_eqb_eq in E. subst. symmetry. apply bytes_eqb_refl.
  - apply bytes_eqb_neq in E. symmetry. apply bytes_eqb_neq. congruence.
Qed.

Lemma xattrs_eqb_eq a b : xattrs_eqb a b = true <-> a = b.
Proof.
  revert b; induction a as [|[k v] a IH]; intros [|[k' v'] b]; simpl; split; intros H; try discriminate; auto.
  - rewrite !andb_true_iff in H. destruct H as [[H1 H2] H3].
    apply bytes_eqb_eq in H1, H2. apply IH in H3. congruence.
  - inversion H; subst. rewrite !bytes_eqb_refl. simpl. apply IH. reflexivity.
Qed.

Lemma xattrs_eqb_refl a : xattrs_eqb a a = true. Proof. apply xattrs_eqb_eq; auto. Qed.

Lemma stat_eqb_eq a b : stat_eqb a b = true <-> a = b.
Proof.
  split.
  - unfold stat_eqb. rewrite !andb_true_iff.
    intros [[[[[[[[[H1 H2] H3] H4] H5] H6] H7] H8] H9] H10].
    apply bytes_eqb_eq in H1, H7. apply N.eqb_eq in H2, H3, H4, H5, H6, H8, H9. apply xattrs_eqb_eq in H10.
    destruct a, b; simpl in *; subst; reflexivity.
  - intros ->. unfold stat_eqb. rewrite !bytes_eqb_refl, !N.eqb_refl. apply xattrs_eqb_refl.
Qed.

Lemma stat_eqb_refl a : stat_eqb a a = true. Proof. apply stat_eqb_eq; auto. Qed.
