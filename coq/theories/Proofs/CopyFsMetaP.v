(* C14 — metadata calls: the model's lchown, utimens and lsetxattr change at most the inode the path names
   without following a final symlink; copy_file_info for a symlink source issues no chmod (which would follow),
   and copy_directory_only fails without changing anything when the destination is a symlink. *)
From Coq Require Import List NArith Bool.
From FS Require Import Sx Model.Path Model.Fs Model.RootPath Model.CopyFs Model.CopyFsSpec Model.CopyFsMeta
  Proofs.FsP Proofs.FsCopyFrameP.
Import ListNotations.
Open Scope N_scope.

Lemma meta_update_nofollow c f p f' r : meta_update c f p false f' r -> nofollow_call c f p f'.
Proof.
  intros [[-> _]|(i & n & m & E & _ & _ & ->)]; [left; auto|].
  right. exists i. split; auto. intros j Hj. apply get_put_other; auto.
Qed.

Lemma copy_file_info_of_link c o fi name : kind_is_link fi = true ->
  forall s, copy_file_info c o fi name s = copy_file_info_link c o fi name s.
Proof.
  intros H s. unfold copy_file_info, copy_file_info_link. rewrite H.
  destruct (match o_chown o with Some ug => ug | None => (m_uid (i_meta fi), m_gid (i_meta fi)) end) as [u g].
  unfold bind, ret. destruct (sys (fun f => sys_lchown c f name u g) s) as [s1 [a|e]]; [|reflexivity].
  destruct (expect_ok a s1) as [s2 [[]|e]]; reflexivity.
Qed.

(* chmod on an existing destination directory (copyDirectoryOnly with overwrite): only after Lstat said
   "directory"; a symlink there is reported, nothing is changed *)
Lemma copy_directory_only_link c dst fi ow s i t m :
  snd (sys_lstat c (s_fs s) dst) = RStat i {| i_kind := KLink t; i_meta := m |} ->
  exists e, copy_directory_only c dst fi ow s =
            ({| s_fs := s_fs s; s_links := s_links s; s_parents := s_parents s; s_reads := s_reads s |}, inr e).
Proof.
  intros H. unfold copy_directory_only, lstat_opt, bind, sys.
  pose proof (sys_lstat_fs c (s_fs s) dst) as Hf.
  destruct (sys_lstat c (s_fs s) dst) as [f1 r1]. cbn [fst snd] in *. subst f1 r1.
  cbn. eexists. reflexivity.
Qed.

Theorem metadata_calls_nofollow_proof :
  (forall c f p u g f' r, sys_lchown c f p u g = (f', r) -> nofollow_call c f p f') /\
  (forall c f p t f' r, sys_utimens c f p t = (f', r) -> nofollow_call c f p f') /\
  (forall c f p k v f' r, sys_lsetxattr c f p k v = (f', r) -> nofollow_call c f p f') /\
  (forall c o fi name, kind_is_link fi = true ->
     forall s, copy_file_info c o fi name s = copy_file_info_link c o fi name s) /\
  (forall c dst fi ow s i t m,
     snd (sys_lstat c (s_fs s) dst) = RStat i {| i_kind := KLink t; i_meta := m |} ->
     exists e, copy_directory_only c dst fi ow s =
               ({| s_fs := s_fs s; s_links := s_links s; s_parents := s_parents s; s_reads := s_reads s |}, inr e)).
Proof.
  split; [intros; eapply meta_update_nofollow, sys_lchown_inv; eauto|].
  split; [intros; eapply meta_update_nofollow, sys_utimens_inv; eauto|].
  split; [intros; eapply meta_update_nofollow, sys_lsetxattr_inv; eauto|].
  split; [exact copy_file_info_of_link|exact copy_directory_only_link].
Qed.
