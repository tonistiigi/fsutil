(* Refinement LTS (sender side) -> sender acceptor: the request loop, the return of
   Send, the theorem, and an instance of the abstraction for every expectation. *)
From Coq Require Import List NArith Bool Arith PeanoNat Lia ZifyN ZifyNat ZifyBool Permutation.
From FS Require Import Model.Lts Proofs.LtsInv.
From FS Require Import Sx Model.Path Model.Stat Model.Tree Model.AccEvents Model.SenderAcc Model.LtsAcc
     Proofs.AccEventsP Proofs.LtsAccP1 Proofs.LtsAccP3 Proofs.LtsAccP4.
Import ListNotations.
Local Open Scope nat_scope.

Lemma N_ltb_of_nat : forall a b, N.ltb (N.of_nat a) (N.of_nat b) = (a <? b).
Proof. intros. destruct (N.ltb_spec (N.of_nat a) (N.of_nat b)), (Nat.ltb_spec a b); try lia; reflexivity. Qed.
Lemma N_eqb_of_nat : forall a b, N.eqb (N.of_nat a) (N.of_nat b) = (a =? b).
Proof. intros. destruct (N.eqb_spec (N.of_nat a) (N.of_nat b)), (Nat.eqb_spec a b); try lia; reflexivity. Qed.

Section SimR.
  Variable p : Lts.params.
  Variable exp : list Tree.entry.
  Variable ch : nat -> list bytes.
  Variable emsg rmsg : bytes.
  Variable fprog : N.
  Hypothesis Habs : abs_ok p exp ch.

  Notation arun := (AccEvents.run (sender_acc exp)).
  Notation evs := (sender_events exp ch emsg rmsg fprog).
  Notation INV := (inv p exp ch).
  Notation LIVE := (live_inv p exp ch).

  Lemma is_file_regular : forall id, is_file p id = true -> exists c, regular_at exp id = Some c /\ concat (ch id) = c.
  Proof.
    intros id H. rewrite (abs_file _ _ _ Habs) in H.
    destruct (regular_at exp id) as [c|] eqn:E; [|discriminate]. exists c. split; [reflexivity|].
    exact (abs_concat _ _ _ Habs id c E).
  Qed.
  Lemma not_file_not_regular : forall id, is_file p id = false -> regular_at exp id = None.
  Proof.
    intros id H. rewrite (abs_file _ _ _ Habs) in H. destruct (regular_at exp id); [discriminate|reflexivity].
  Qed.

  (* the LTS accepts REQ id (files[id] exists): the acceptor takes it too *)
  Lemma on_req_accept : forall a id,
    nlookup (N.of_nat id) (s_req a) = None -> is_file p id = true -> id <= s_k a ->
    let r := (N.of_nat id, Sending (concat (ch id))) :: s_req a in
    on_req exp a (N.of_nat id) = set_req a r \/ on_req exp a (N.of_nat id) = set_soft (set_req a r).
  Proof.
    intros a id Hn Hf Hle r. unfold on_req. rewrite Hn, N_ltb_of_nat, N_eqb_of_nat, Nat2N.id.
    destruct (is_file_regular _ Hf) as (c & Hr & Hc).
    destruct (Nat.ltb_spec id (s_k a)).
    - rewrite Hr. left. unfold r. rewrite Hc. reflexivity.
    - assert (id = s_k a) by lia. subst id. rewrite Nat.eqb_refl, Hr. right. unfold r. rewrite Hc. reflexivity.
  Qed.

  (* the LTS refuses REQ id (no files[id]): the acceptor fails, or - the id is the STAT being
     sent - treats it as a request that raced its STAT *)
  Lemma on_req_refuse : forall a id k reg,
    s_k a = k -> k <= reg ->
    (id <? reg) && is_file p id && unrequested a id = false ->
    on_req exp a (N.of_nat id) = set_fail a \/
    (nlookup (N.of_nat id) (s_req a) = None /\
     exists c, on_req exp a (N.of_nat id) = set_soft (set_req a ((N.of_nat id, Sending c) :: s_req a))).
  Proof.
    intros a id k rg Hk Hle Hm. unfold on_req, unrequested in *. rewrite N_ltb_of_nat, N_eqb_of_nat, Nat2N.id, Hk.
    destruct (nlookup (N.of_nat id) (s_req a)) eqn:En; [left; reflexivity|].
    rewrite andb_true_r in Hm.
    destruct (Nat.ltb_spec id k).
    - destruct (Nat.ltb_spec id rg); [|lia]. cbn in Hm. rewrite (not_file_not_regular _ Hm). left; reflexivity.
    - destruct (Nat.eqb_spec id k); [|left; reflexivity].
      subst id. destruct (regular_at exp k) as [c|]; [|left; reflexivity].
      right. split; [reflexivity|]. exists c. reflexivity.
  Qed.

  Lemma unrequested_cons : forall a id f x,
    unrequested (set_req a ((N.of_nat id, f) :: s_req a)) x = negb (id =? x) && unrequested a x.
  Proof.
    intros. unfold unrequested. cbn. rewrite N_eqb_of_nat, Nat.eqb_sym.
    destruct (id =? x); reflexivity.
  Qed.
  Lemma unrequested_soft : forall a x, unrequested (set_soft a) x = unrequested a x.
  Proof. reflexivity. Qed.

  (* a request that raced its STAT only adds a reason to fail *)
  Lemma live_soft : forall st a, LIVE st a -> LIVE st (set_soft a).
  Proof.
    intros st a HL. li_destruct HL. li_split; try assumption; try (intros; right; reflexivity).
    - destruct Hwalk as [Hle Hw]. split; [exact Hle|]. unfold acc_bad in *. cbn. mono_w st.
    - unfold req_rel, acc_bad in *. cbn. mono_r st.
  Qed.

  Lemma req_sim : forall st st' a, s_broken st = false -> send_ret st = None -> LIVE st a ->
    step_req p st = Some st' -> exists a', arun a (evs st LReq) = Some a' /\ INV st' a'.
  Proof.
    intros st st' a Hb Eret HI H. li_destruct HI. pose proof Hwalk as [Hle Hw].
    unfold step_req in H. cbn [sender_events].
    destruct (rq_pc st) eqn:Erq.
    - (* RQ_Top *)
      inv_some. subst st'. apply sim_silent; [exact Hb|exact Eret|].
      destruct (s_cancel st) eqn:Ec; li_step Erq.
    - (* RQ_Recv *)
      rewrite Hb in H |- *. destruct (buf_rs st) as [|pk r] eqn:Ebuf; [discriminate|]. inv_some. subst st'.
      unfold req_rel in Hreq. rewrite Erq in Hreq. destruct Hreq as (Hrd & Hfi & Hfo).
      assert (Hlive : rq_live st = true) by (unfold rq_live; rewrite Erq; reflexivity).
      destruct (Hfiles Hlive) as [HF HG].
      destruct pk as [| |h|h|id| |]; cbn [abs_in]; try destruct (memb id (sfiles st)) eqn:Em;
        (eapply sim_event; [unfold sender_acc; rewrite Hret, Hfin, Hrd; reflexivity|exact Hb|exact Eret|]).
      5: { (* REQ id, files[id] exists: queued *)
        rewrite HF in Em. apply andb_true_iff in Em. destruct Em as [Em Hu].
        apply andb_true_iff in Em. destruct Em as [Hlt Hf]. apply Nat.ltb_lt in Hlt.
        assert (Hn : nlookup (N.of_nat id) (s_req a) = None)
          by (unfold unrequested in Hu; destruct (nlookup (N.of_nat id) (s_req a)); [discriminate|reflexivity]).
        assert (Hidk : id <= s_k a).
        { rewrite Hk. clear - Hlt. unfold acc_k, reg in *. destruct (sw_pc st) as [|[]|[]|]; auto using Nat.lt_le_incl, (proj1 (Nat.lt_succ_r id (sw_i st))). }
        set (m := (N.of_nat id, Sending (concat (ch id))) :: s_req a).
        set (st' := set_sfiles (remb id (sfiles st)) (set_rq_pc (RQ_Push id) (set_buf_rs r st))).
        assert (HT : tasks st' = (id, Full) :: tasks st) by (unfold tasks; cbn; rewrite Erq; reflexivity).
        assert (Hbad : lts_bad st -> lts_bad st')
          by (unfold lts_bad, rq_failed; rewrite Erq; intros [X|X]; [left; exact X|discriminate]).
        assert (HA : LIVE st' (set_req a m)).
        { li_split; try assumption; rewrite ?HT.
          - exact (conj Hrd (conj Hfi Hfo)).
          - intros _. split.
            + intros x. change (memb x (remb id (sfiles st)) = (x <? reg st) && is_file p x && unrequested (set_req a m) x).
              unfold m. rewrite memb_remb, HF, unrequested_cons. ring.
            + intros x Hx. cbn. rewrite N_eqb_of_nat.
              destruct (Nat.eqb_spec x id) as [->|]; [exfalso; exact (Nat.lt_irrefl _ (Nat.lt_le_trans _ _ _ Hlt Hx))|exact (HG x Hx)].
          - apply tasks_ok_add; auto.
          - constructor; [apply nlookup_none_notin; exact Hn|exact Hkeys].
          - intros n rem Hn'. cbn in Hn'. destruct (N.eqb_spec n (N.of_nat id)).
            + left. exists id. split; [assumption|left; reflexivity].
            + destruct (Hsend n rem Hn') as [(id0 & E0 & Hin)|X]; [left; exists id0; split; [exact E0|right; exact Hin]|auto].
          - intros X. exact (Hbad (Haerr X)). }
        destruct (on_req_accept a id Hn Hf Hidk) as [E|E]; rewrite E; [exact HA|exact (live_soft _ _ HA)]. }
      5: { (* REQ id, no files[id]: the reader fails *)
        assert (Hkr : acc_k st <= reg st) by (clear; unfold acc_k, reg; destruct (sw_pc st) as [|[]|[]|]; auto).
        rewrite HF in Em.
        destruct (on_req_refuse a id _ _ Hk Hkr Em) as [E|(Hn & c & E)]; rewrite E.
        - li_step Erq.
          all: try (intros; left; reflexivity).
          destruct (sw_pc st) as [|[]|[]|]; auto; left; reflexivity.
        - li_step Erq.
          all: try (intros; right; reflexivity).
          + destruct (sw_pc st) as [|[]|[]|]; auto; right; reflexivity.
          + apply tasks_ok_cons_other; [exact Htasks|exact Hn].
          + constructor; [apply nlookup_none_notin; exact Hn|exact Hkeys]. }
      (* STAT or DATA from the receiver: ignored; FIN; ERR *)
      all: li_step Erq.
      all: try (intros; left; reflexivity).
      destruct (sw_pc st) as [|[]|[]|]; auto; left; reflexivity.
    - (* RQ_Push id: queue() *)
      destruct (room_pipe p st); [|discriminate]. inv_some. subst st'.
      apply sim_silent; [exact Hb|exact Eret|].
      assert (PT : Permutation (tasks st) (tasks (set_pipe (pipe st ++ [id]) (set_rq_pc RQ_Top st)))).
      { unfold tasks. cbn. rewrite Erq. cbn. unfold pipe_tasks. rewrite map_app, <- app_assoc. cbn.
        apply Permutation_middle. }
      li_step Erq.
      + eapply tasks_ok_perm; [exact PT|exact Htasks].
      + eapply sending_mono; [exact Hsend| |auto].
        intros id0 Hin. eapply Permutation_in; [apply Permutation_map; exact PT|exact Hin].
      + intros Hex. destruct (Hwdone Hex) as [[_ E]|E]; [exfalso; auto|right; exact E].
    - (* RQ_LockFin: the mutex is taken, SendMsg(FIN) is called *)
      unfold lock_s in H. cbn in H. destruct (s_mu st); [discriminate|]. inv_some. subst st'.
      unfold req_rel in Hreq. rewrite Erq in Hreq. destruct Hreq as (Hfi & Hfo).
      eapply sim_event; [unfold sender_acc; rewrite Hret, Hfin, Hfi, Hfo; reflexivity|exact Hb|exact Eret|].
      li_step Erq.
    - (* RQ_SendFin: SendMsg(FIN) completes *)
      unfold send_s in H. rewrite Hb in H. destruct (room_sr p st); [|discriminate]. inv_some. subst st'.
      apply sim_silent; [exact Hb|exact Eret|].
      li_step Erq.
    - (* RQ_Close ok: close(sendpipeline) *)
      inv_some. subst st'. apply sim_silent; [exact Hb|exact Eret|].
      destruct ok; li_step Erq.
      all: intros Hex; destruct (Hwdone Hex) as [[E _]|E]; [left; split; [exact E|reflexivity]|right; exact E].
    - (* RQ_Ret ok: the goroutine returns to the errgroup *)
      inv_some. subst st'. apply sim_silent; [destruct ok; exact Hb|destruct ok; exact Eret|].
      destruct ok; li_split; try assumption; unf_all; unfold s_fail; cbn; rewrite ?Erq in *; fin.
      mono_w st.
    - (* RQ_Done *) discriminate.
  Qed.

  (* queue(): the ctx.Done branch *)
  Lemma reqctx_sim : forall st st' a, s_broken st = false -> send_ret st = None -> LIVE st a ->
    step_req_ctx p st = Some st' -> exists a', arun a (evs st LReqCtx) = Some a' /\ INV st' a'.
  Proof.
    intros st st' a Hb Eret HI H. li_destruct HI. destruct Hwalk as [Hle Hw].
    unfold step_req_ctx in H. cbn [sender_events].
    destruct (rq_pc st) eqn:Erq; try discriminate.
    destruct (s_cancel st) eqn:Ec; [|discriminate]. destruct (p_old_queue p); [discriminate|]. cbn in H. inv_some. subst st'.
    apply sim_silent; [exact Hb|exact Eret|].
    assert (HT : tasks st = (id, Full) :: tasks (set_rq_pc (RQ_Close false) st))
      by (unfold tasks; cbn; rewrite Erq; reflexivity).
    rewrite HT in Htasks.
    li_step Erq.
    apply (tasks_ok_remove ch _ [] _ _ Htasks).
  Qed.

  Lemma all_done_no_tasks : forall l, forallb wk_done l = true -> flat_map wk_task l = [].
  Proof.
    induction l as [|w l IH]; [reflexivity|]. unfold forallb. fold (forallb wk_done l). intros H.
    apply andb_true_iff in H. destruct H as [H1 H2]. destruct w; try discriminate. cbn. apply IH. exact H2.
  Qed.

  (* g.Wait() returns: the deferred final progress call, then Send returns *)
  Lemma sendret_sim : forall st st' a, s_broken st = false -> send_ret st = None -> LIVE st a ->
    step_send_ret st = Some st' -> exists a', arun a (evs st LSendRet) = Some a' /\ INV st' a'.
  Proof.
    intros st st' a Hb Eret HI H. unfold step_send_ret in H.
    destruct (sender_quiet st) eqn:Hq; [|discriminate].
    rewrite Eret in H. cbn in H. inv_some. subst st'. li_destruct HI. destruct Hwalk as [_ Hw].
    set (a1 := set_prog a fprog true).
    enough (Hacc : sender_acc exp a1 (Return (negb (Lts.s_err st))) = Some (set_ret a1 (negb (Lts.s_err st)))).
    { exists (set_ret a1 (negb (Lts.s_err st))). split.
      - cbn [sender_events AccEvents.run]. unfold sender_acc at 1.
        rewrite Hret, Hfin, Hp0, (proj2 (N.leb_le 0 fprog) (N.le_0_l _)). fold a1. rewrite Hacc. reflexivity.
      - split; [exact Hb|]. cbn. split; [reflexivity|exact Hq]. }
    unfold sender_acc, a1. cbn [s_ret s_final SenderAcc.s_err s_soft s_fin_in s_fin_out s_endm s_req set_prog]. rewrite Hret.
    unfold sender_quiet, sw_is_done, rq_is_done in Hq.
    apply andb_true_iff in Hq. destruct Hq as [Hq Hwk]. apply andb_true_iff in Hq. destruct Hq as [Hsw Hrq].
    destruct (sw_pc st); try discriminate. destruct (rq_pc st) eqn:Erq; try discriminate.
    unfold req_rel in Hreq. rewrite Erq in Hreq.
    assert (Hnf : rq_failed st = false) by (unfold rq_failed; rewrite Erq; reflexivity).
    destruct (Lts.s_err st) eqn:Ee; cbn [negb].
    - (* Send fails *)
      destruct (Herr eq_refl) as [E|E]; rewrite E, ?orb_true_r; reflexivity.
    - (* Send succeeds: nothing has failed, and no request is on its way or unfinished *)
      assert (He : SenderAcc.s_err a = false).
      { destruct (SenderAcc.s_err a); [|reflexivity]. destruct (Haerr eq_refl); congruence. }
      assert (Hendm : s_endm a = true) by (destruct Hw as [X|X]; [exact X|congruence]).
      destruct Hreq as [[Hfi Hfo]|X]; [|congruence].
      assert (Hpipe : pipe st = []).
      { destruct (wks st) as [|w l] eqn:Ewks;
          [exfalso; pose proof (abs_workers _ _ _ Habs) as HW; rewrite <- Hnwk in HW; exact (Nat.lt_irrefl _ HW)|].
        apply andb_true_iff in Hwk. destruct Hwk as [X _]. destruct w; try discriminate.
        destruct (Hwdone (ex_intro _ 0 eq_refl)) as [[X' _]|X']; [exact X'|congruence]. }
      assert (Hall : SenderAcc.all_done (s_req a) = true).
      { apply nlookup_all_done; [exact Hkeys|]. intros n rem Hn.
        destruct (Hsend n rem Hn) as [(id & _ & Hin)|[X|X]]; try congruence.
        unfold tasks in Hin. rewrite Erq, Hpipe, (all_done_no_tasks _ Hwk) in Hin. exact Hin. }
      rewrite He, Hfi, Hfo, Hendm, Hall. reflexivity.
  Qed.
End SimR.

Section Main.
  Variable p : Lts.params.
  Variable exp : list Tree.entry.
  Variable ch : nat -> list bytes.
  Variable emsg rmsg : bytes.
  Variable fprog : N.
  Hypothesis Habs : abs_ok p exp ch.

  Notation arun := (AccEvents.run (sender_acc exp)).
  Notation evs := (sender_events exp ch emsg rmsg fprog).
  Notation INV := (inv p exp ch).

  Lemma idle_no_tasks : forall n, flat_map wk_task (repeat WK_Idle n) = [].
  Proof. induction n; cbn; auto. Qed.

  Lemma inv_init : INV (init p) sinit.
  Proof.
    split; [reflexivity|]. cbn [send_ret init].
    assert (HT : tasks (init p) = []) by (unfold tasks; cbn; apply idle_no_tasks).
    li_split; rewrite ?HT; unf_all; cbn; fin.
    - split; [constructor|constructor].
    - constructor.
    - intros [j Hj]. apply nth_error_repeat in Hj. discriminate.
    - apply repeat_length.
  Qed.

  Lemma step_sim : forall st l st' a, INV st a -> sender_fault l = false -> Lts.step p st l = Some st' ->
    exists a', arun a (evs st l) = Some a' /\ INV st' a'.
  Proof.
    intros st l st' a HI Hf H.
    destruct l; try discriminate Hf;
      try (exists a; split; [reflexivity|]; eapply inv_frame; [eapply other_step_same_sender; [|exact H]; reflexivity|exact HI]);
      cbn [Lts.step] in H.
    all: destruct (send_ret st) eqn:Eret;
      [destruct (returned_stuck _ _ _ _ _ _ HI Eret) as (S1 & S2 & S3 & S4 & S5); congruence|].
    all: destruct HI as [Hb HL]; rewrite Eret in HL.
    - eapply walker_sim; eauto.
    - eapply worker_sim; eauto.
    - eapply req_sim; eauto.
    - eapply reqctx_sim; eauto.
    - eapply sendret_sim; eauto.
  Qed.

  Lemma run_sim : forall ls st0 a0 st, INV st0 a0 -> sender_fault_free ls = true -> Lts.run p st0 ls = Some st ->
    exists a, arun a0 (lts_trace p exp ch emsg rmsg fprog st0 ls) = Some a /\ INV st a.
  Proof.
    induction ls as [|l ls IH]; intros st0 a0 st HI Hff H; cbn in H.
    - inversion H; subst. exists a0. split; [reflexivity|exact HI].
    - cbn [lts_trace]. destruct (Lts.step p st0 l) as [st1|] eqn:E; [|discriminate].
      cbn in Hff. apply andb_true_iff in Hff. destruct Hff as [Hf Hff]. apply negb_true_iff in Hf.
      destruct (step_sim _ _ _ _ HI Hf E) as (a1 & R1 & HI1).
      destruct (IH _ _ _ HI1 Hff H) as (a & R & HIa).
      exists a. split; [|exact HIa]. rewrite run_app, R1. exact R.
  Qed.

  (* every boundary trace of a run of the LTS without sender-side faults is followed by the
     acceptor, and when Send has returned in the LTS the acceptor has seen the same return *)
  Lemma sender_lts_refines_acc_proof : forall ls st,
    sender_fault_free ls = true -> Lts.run p (init p) ls = Some st ->
    exists a, sender_run exp (lts_trace p exp ch emsg rmsg fprog (init p) ls) = Some a /\ s_ret a = send_ret st.
  Proof.
    intros ls st Hff H. destruct (run_sim ls _ _ _ inv_init Hff H) as (a & R & [_ HI]).
    exists a. split; [exact R|]. destruct (send_ret st).
    - apply HI.
    - apply HI.
  Qed.
End Main.

(* the abstraction exists for every expectation (one chunk per non-empty file) *)
Lemma nth_lts_entries_from : forall exp l i0 k,
  nth_error (lts_entries_from exp i0 l) k =
  match nth_error l k with Some e => Some (lts_entry_of exp (i0 + k) e) | None => None end.
Proof.
  induction l as [|e l IH]; intros i0 k; destruct k; try reflexivity.
  - rewrite Nat.add_0_r. reflexivity.
  - rewrite <- Nat.add_succ_comm. exact (IH (S i0) k).
Qed.

Lemma length_lts_entries_from : forall exp l i0, length (lts_entries_from exp i0 l) = length l.
Proof. induction l; intros; cbn; auto. Qed.

Lemma abs_ok_params_of_proof : forall exp capSR capRS, abs_ok (lts_params_of exp capSR capRS) exp (one_chunk exp).
Proof.
  intros exp cs cr. unfold abs_ok.
  assert (Hnth : forall i, entry_at (lts_params_of exp cs cr) i =
            match nth_error exp i with Some e => Some (lts_entry_of exp i e) | None => None end)
    by (intros i; unfold entry_at; cbn; apply nth_lts_entries_from).
  repeat split.
  - cbn. apply length_lts_entries_from.
  - intros i. unfold is_file. rewrite Hnth. unfold regular_at.
    destruct (nth_error exp i) as [e|]; [|reflexivity]. cbn. destruct (mode_is_regular (st_mode (fst e))); reflexivity.
  - intros i c H. unfold one_chunk. rewrite H. destruct c; [reflexivity|]. exact (app_nil_r _).
  - intros i. unfold Lts.chunks_of. rewrite Hnth. destruct (nth_error exp i) as [e|] eqn:E; [reflexivity|].
    unfold one_chunk, regular_at. rewrite E. reflexivity.
  - intros i c H. unfold one_chunk in H. destruct (regular_at exp i) as [[|b r]|]; cbn in H; try tauto.
    destruct H as [H|[]]. subst c. discriminate.
  - cbn. lia.
Qed.
