(* C19 — the receiver's hard-link validator accepts the stream of a canonical listing
   (links_canon: every link entry names an EARLIER node entry without Linkname), also after the
   listing-name entry was skipped, provided no entry depends on the skipped entry.  Together with
   receiver_accepts_wf and link_closed_accepts: every link-closed selection of a well-formed source
   is accepted (recv_accepts), which meta_transfer_converges / meta_req_ids / projection_wf /
   forwarded_valid take as their hypothesis. *)
From Coq Require Import List NArith Bool Lia Sorted.
From FS Require Import Sx Model.Path Model.Stat Model.Validator Model.Hardlinks Model.Diff Model.AbsDest
  Model.ConvergeA Model.MetaOnly
  Proofs.Lex Proofs.PathP Proofs.ListAux Proofs.DiffP Proofs.MetaOnlyP Proofs.MetaAcceptP Proofs.MetaTransferP.
Import ListNotations.
Open Scope bool_scope.

(* the hard-link validator accepts a sequence in which every link names an earlier plain non-link
   entry (or a path already seen) *)
Lemma mem_bytes_cons_mono p q seen : mem_bytes p seen = true -> mem_bytes p (q :: seen) = true.
Proof. intros H. cbn [mem_bytes]. rewrite H. apply orb_true_r. Qed.

Lemma hl_run_sourced l : forall seen i,
  (forall pre x post, l = pre ++ x :: post -> hl_plain x = true -> has_link x = true ->
     mem_bytes (st_linkname x) seen = true \/
     exists u, In u pre /\ hl_plain u = true /\ has_link u = false /\ st_path u = st_linkname x) ->
  hl_run seen l i = None.
Proof.
  induction l as [|s r IH]; intros seen i H; [reflexivity|]. cbn [hl_run].
  assert (Hstep : exists seen', hl_step seen s = Some seen' /\
            (forall p, mem_bytes p seen = true -> mem_bytes p seen' = true) /\
            (hl_plain s = true -> has_link s = false -> mem_bytes (st_path s) seen' = true)).
  { unfold hl_step. destruct (hl_plain s) eqn:Ep; cbn [negb].
    - destruct (has_link s) eqn:El.
      + destruct (H [] s r eq_refl Ep El) as [Hm|(u & [] & _)]. rewrite Hm.
        exists seen. split; [reflexivity|]. split; [auto|discriminate].
      + exists (st_path s :: seen). split; [reflexivity|]. split; [intros p Hp; apply mem_bytes_cons_mono; exact Hp|].
        intros _ _. cbn [mem_bytes]. rewrite bytes_eqb_refl. reflexivity.
    - exists seen. split; [reflexivity|]. split; [auto|discriminate]. }
  destruct Hstep as (seen' & E & Hmono & Hself). rewrite E. apply IH.
  intros pre x post Er Hp Hl. destruct (H (s :: pre) x post) as [Hm|(u & Hu & Hpu & Hlu & Eu)]; auto.
  - rewrite Er. reflexivity.
  - destruct Hu as [<-|Hu].
    + left. rewrite <- Eu. apply Hself; auto.
    + right. exists u. auto.
Qed.

(* in a sorted sequence an entry strictly below x lies before x *)
Lemma sorted_before pre x post u :
  sorted (pre ++ x :: post) -> In u (pre ++ x :: post) -> plt u x -> In u pre.
Proof.
  intros Hs Hu Hlt. apply sorted_app_inv in Hs. destruct Hs as (_ & Hs2 & _).
  apply in_app_or in Hu. destruct Hu as [Hu|[<-|Hu]]; [exact Hu| |].
  - unfold plt in Hlt. rewrite compare_path_refl in Hlt. discriminate.
  - apply sorted_inv in Hs2. destruct Hs2 as [_ Hx]. specialize (Hx u Hu).
    pose proof (plt_trans _ _ _ Hx Hlt) as Hxx. unfold plt in Hxx. rewrite compare_path_refl in Hxx. discriminate.
Qed.

Lemma is_node_plain s : is_node s = hl_plain s.
Proof. reflexivity. Qed.

Lemma has_link_nonempty s : has_link s = negb (is_empty (st_linkname s)).
Proof. unfold has_link. destruct (st_linkname s); reflexivity. Qed.

(* a selection of a canonical source listing that keeps the source of every link it keeps passes the
   hard-link validator: the source is an earlier node entry without Linkname *)
Lemma canon_filter_hardlink_check (f : stat -> bool) B :
  sorted (map fst B) -> links_canon B ->
  (forall x st, In x (map fst B) -> f x = true -> hl_plain x = true -> st_path st = st_linkname x -> f st = true) ->
  hardlink_check (filter f (map fst B)) = None.
Proof.
  intros Hs Hc Hf. apply hl_run_sourced. intros pre x post E Hp Hl. right.
  assert (Hx : In x (filter f (map fst B))) by (rewrite E; apply in_or_app; right; left; reflexivity).
  apply filter_In in Hx. destruct Hx as [Hx Hfx].
  pose proof Hx as Hx'. apply in_map_iff in Hx'. destruct Hx' as ([sb bb] & Ex & Hin). cbn [fst] in Ex. subst sb.
  assert (Hh : is_hardlink x = true).
  { unfold is_hardlink. rewrite is_node_plain, Hp, <- has_link_nonempty, Hl. reflexivity. }
  destruct (Hc x bb Hin Hh) as (st & bt & Hst & Epath & Hlt & Hnode & Elink & _).
  exists st. split.
  - apply (sorted_before pre x post st); [rewrite <- E; apply sorted_filter; exact Hs| |exact Hlt].
    rewrite <- E. apply filter_In. split; [apply in_map_iff; exists (st, bt); auto|]. apply (Hf x st); auto.
  - split; [exact Hnode|]. split; [|exact Epath]. unfold has_link. rewrite Elink. reflexivity.
Qed.

Theorem canon_hardlink_check_proof B :
  sorted (map fst B) -> links_canon B -> hardlink_check (map fst B) = None.
Proof.
  intros Hs Hc. rewrite <- (filter_all (fun _ => true) (map fst B)) by reflexivity.
  apply canon_filter_hardlink_check; auto.
Qed.

(* the source of a kept link is not the skipped entry: the link would depend on it *)
Theorem canon_recv_hardlink_check_proof B :
  sorted (map fst B) -> links_canon B -> listing_dependents (map fst B) = false ->
  hardlink_check (recv_stream (map fst B)) = None.
Proof.
  intros Hs Hc Hnd. apply canon_filter_hardlink_check; auto.
  intros x st Hx _ Hp E. apply negb_true_iff, bytes_eqb_neq. rewrite E. apply (no_dep_link _ Hnd x Hx Hp).
Qed.

(* every link-closed selection of a well-formed source is accepted *)
Theorem wf_source_accepts_proof sel B :
  wf_entries B -> (forall s, In s (map fst B) -> ok_path (st_path s) = true) ->
  listing_dependents (map fst B) = false ->
  link_closed sel (recv_stream (map fst B)) = true ->
  recv_accepts sel (map fst B) = true.
Proof.
  intros [Hw Hc] Hok Hnd Hlc. apply link_closed_accepts_proof.
  - apply receiver_accepts_wf_proof; assumption.
  - apply canon_recv_hardlink_check_proof; [exact (proj1 Hw)|exact Hc|exact Hnd].
  - exact Hlc.
Qed.

(* ... and conversely acceptance forces link-closedness (accepts_link_closed): for a well-formed
   source "accepted" and "link-closed" are the same condition on the selection *)
Theorem wf_source_accepts_iff_proof sel B :
  wf_entries B -> (forall s, In s (map fst B) -> ok_path (st_path s) = true) ->
  listing_dependents (map fst B) = false ->
  (recv_accepts sel (map fst B) = true <-> link_closed sel (recv_stream (map fst B)) = true).
Proof.
  intros Hw Hok Hnd. split.
  - apply accepts_link_closed_proof.
  - apply wf_source_accepts_proof; assumption.
Qed.

