(* C01 — directory mtimes (Model/ConvergeA.v, section DirTimes): the map component of the
   extended run is the map of receive_abs; every directory created by this transfer (Mkdir
   branch) is recorded in dirModTimes, so that after the Wait pass it shows the mtime of its
   stat, i.e. the source's; hence the convergence relation holds of the view WITH the mtimes the
   directories really show ([view_t]).  Nothing is claimed for pre-existing directories
   (Properties/C01.v example_dir_mtimes: the relation would be false if it did). *)
From Coq Require Import List NArith Lia Bool Sorting.Sorted.
From FS Require Import Sx Model.Path Model.Stat Model.Diff Model.AbsDest Model.Converge Model.ConvergeA
  Proofs.Lex Proofs.PathP Proofs.DiffP Proofs.AbsDestP Proofs.ReceiveP Proofs.ApplyInoP Proofs.OracleP
  Proofs.ConvergeP Proofs.MergeP.
Import ListNotations.
Open Scope N_scope.
Open Scope bool_scope.

Section Plain.
Variable src : bytes -> bytes.
Variable now : N -> N.

Lemma apply_all_t_plain : forall cs D n i ov dmt D' n' ov' dmt' e,
  apply_all_t src now cs D n i ov dmt = (D', n', ov', dmt', e) ->
  exists dn, apply_all src cs D n = (D', n', dn, e).
Proof.
  induction cs as [|c cs IH]; intros D n i ov dmt D' n' ov' dmt' e E; simpl in E.
  - inversion E; subst. exists []. reflexivity.
  - simpl. destruct (apply_map src D n c) as [[D1 n1]|] eqn:Ea.
    + destruct (IH _ _ _ _ _ _ _ _ _ _ E) as [dn Hd]. rewrite Hd. eauto.
    + inversion E; subst. eauto.
Qed.

(* dirModTimes only grows, and holds the path of every directory change that found no directory *)
Lemma dmt_collects : forall cs D n i ov dmt D' n' ov' dmt',
  apply_all_t src now cs D n i ov dmt = (D', n', ov', dmt', false) -> StronglySorted clt cs ->
  (forall x, In x dmt -> In x dmt') /\
  (forall k p st, In (k, p, Some st) cs -> k <> KDelete -> st_is_dir st = true -> is_dir_at D p = false ->
                  In p dmt').
Proof.
  induction cs as [|c cs IH]; intros D n i ov dmt D' n' ov' dmt' E HS; simpl in E.
  - inversion E; subst. split; auto. intros k p st [].
  - destruct (apply_map src D n c) as [[D1 n1]|] eqn:Ea; [|inversion E].
    apply StronglySorted_inv in HS. destruct HS as [HS Hc]. rewrite Forall_forall in Hc.
    destruct (IH _ _ _ _ _ _ _ _ _ E HS) as [Hmono Hcol]. split.
    + intros x Hx. apply Hmono. destruct (mkdir_case D c); [right|]; auto.
    + intros k p st [->|Hin] Hk Hd Hnd.
      * apply Hmono. assert (Hm : mkdir_case D (k, p, Some st) = true).
        { unfold mkdir_case. destruct k; try congruence; rewrite Hd, Hnd; reflexivity. }
        rewrite Hm. left. reflexivity.
      * apply (Hcol k p st Hin Hk Hd). unfold is_dir_at in *.
        destruct (alookup p D1) as [e|] eqn:Ee; auto.
        destruct (apply_map_old src _ _ _ _ _ _ _ Ea Ee) as [Ep|Ho].
        { specialize (Hc _ Hin). unfold clt in Hc. change (ch_path (k, p, Some st)) with p in Hc.
          rewrite Ep, compare_path_refl in Hc. discriminate. }
        rewrite Ho in Hnd. exact Hnd.
Qed.
End Plain.

(* the relation under a map of the observations that keeps paths and inode classes (re-timing
   here, xattrs in XattrViewP) *)
Section ObsMap.
Variable f : obs -> obs.
Hypothesis f_path : forall d, o_path (f d) = o_path d.
Hypothesis f_ino : forall d, o_ino (f d) = o_ino d.

Lemma find_obs_map p l : find_obs p (map f l) = option_map f (find_obs p l).
Proof.
  induction l as [|d l IH]; [reflexivity|]. simpl. rewrite f_path.
  destruct (bytes_eqb p (o_path d)); auto.
Qed.

Lemma link_partition_map B dest : link_partition B dest -> link_partition B (map f dest).
Proof.
  intros Hl e1 e2 d1 d2 H1 H2 R1 R2 F1 F2. rewrite find_obs_map in F1, F2.
  destruct (find_obs (st_path (fst e1)) dest) as [x1|] eqn:X1; [|discriminate].
  destruct (find_obs (st_path (fst e2)) dest) as [x2|] eqn:X2; [|discriminate].
  simpl in F1, F2. inversion F1; inversion F2; subst. rewrite !f_ino. eapply Hl; eauto.
Qed.

Lemma approx_map A B dest :
  (forall s c d, In (s, c) B -> find_obs (st_path s) dest = Some d ->
     entry_ok (inode_created A B s) s c d -> entry_ok (inode_created A B s) s c (f d)) ->
  approx A B dest -> approx A B (map f dest).
Proof.
  intros Hok (Hp & He & Hl). split; [|split].
  - intros p. rewrite find_obs_map, <- (Hp p).
    destruct (find_obs p dest); simpl; split; intros [x Hx]; eauto; discriminate.
  - intros s c Hin. destruct (He s c Hin) as (dd & Hd & Hdd). exists (f dd).
    rewrite find_obs_map, Hd. split; [reflexivity|]. eapply Hok; eauto.
  - apply link_partition_map; auto.
Qed.
End ObsMap.

Lemma retime_path ov d : o_path (retime ov d) = o_path d.
Proof. unfold retime. destruct (N.eqb (o_type d) S_IFDIR); auto. destruct (alookup (o_path d) ov); auto. Qed.

Lemma retime_ino ov d : o_ino (retime ov d) = o_ino d.
Proof. unfold retime. destruct (N.eqb (o_type d) S_IFDIR); auto. destruct (alookup (o_path d) ov); auto. Qed.

Lemma retime_nondir ov d : o_type d <> S_IFDIR -> retime ov d = d.
Proof. intros Hn. unfold retime. apply N.eqb_neq in Hn. rewrite Hn. reflexivity. Qed.

Lemma retime_none ov d : alookup (o_path d) ov = None -> retime ov d = d.
Proof. intros E. unfold retime. rewrite E. destruct (N.eqb (o_type d) S_IFDIR); reflexivity. Qed.

(* re-timing touches the mtime of directories only, which the relation claims of created ones *)
Lemma entry_ok_retime ov created s c d :
  (created = true -> unix_type_of_gomode (st_mode s) = S_IFDIR -> alookup (st_path s) ov = None) ->
  entry_ok created s c d -> entry_ok created s c (retime ov d).
Proof.
  intros Hcr Hok. pose proof Hok as (H1 & H2 & H3 & H4 & H5 & H6 & H7 & H8 & H9 & H10 & H11).
  destruct (N.eq_dec (o_type d) S_IFDIR) as [Ed|Ed]; [|rewrite retime_nondir; auto].
  destruct (alookup (o_path d) ov) as [t|] eqn:Eo; [|rewrite retime_none; auto].
  destruct created; [rewrite H1, Hcr in Eo by congruence; discriminate|].
  unfold retime. rewrite (proj2 (N.eqb_eq _ _) Ed), Eo. unfold entry_ok. cbv zeta. simpl.
  repeat split; try tauto; intros; congruence.
Qed.

Lemma prior_ok_retime ov ps c d : prior_ok ps c d -> prior_ok ps c (retime ov d).
Proof.
  intros Hok. destruct (N.eq_dec (o_type d) S_IFDIR) as [Ed|Ed]; [|rewrite retime_nondir; auto].
  destruct (alookup (o_path d) ov) as [t|] eqn:Eo; [|rewrite retime_none; auto].
  destruct Hok as (H1 & H2 & H3 & H4 & H5 & H6).
  unfold retime. rewrite (proj2 (N.eqb_eq _ _) Ed), Eo. unfold prior_ok. cbv zeta. simpl.
  split; [exact H1|]. split; [exact H2|]. split; [exact H3|]. split; [exact H4|].
  split; [|exact H6]. intros Hr. exfalso. rewrite Ed in H1. rewrite <- H1 in Hr. discriminate.
Qed.

Lemma approx_merge_retime ov A B dest :
  (forall s c, In (s, c) B -> inode_created A B s = true -> unix_type_of_gomode (st_mode s) = S_IFDIR ->
               alookup (st_path s) ov = None) ->
  approx_merge A B dest -> approx_merge A B (map (retime ov) dest).
Proof.
  intros Hcr (He & H2 & H3 & Hl). split; [|split; [|split]].
  - intros s c Hin. destruct (He s c Hin) as (dd & Hd & Hok). exists (retime ov dd).
    rewrite (find_obs_map _ (retime_path ov)), Hd. split; [reflexivity|].
    apply entry_ok_retime; auto. intros; eapply Hcr; eauto.
  - intros dd Hd. apply in_map_iff in Hd. destruct Hd as (d0 & <- & Hd0). rewrite retime_path.
    destruct (H2 d0 Hd0) as [Hl'|(Hk & ps & c & Hf & Hok)]; [left; auto|right].
    split; auto. exists ps, c. split; auto. apply prior_ok_retime; auto.
  - intros e He' Hk. destruct (H3 e He' Hk) as [dd Hd].
    rewrite (find_obs_map _ (retime_path ov)), Hd. simpl. eauto.
  - apply (link_partition_map _ (retime_path ov) (retime_ino ov)), Hl.
Qed.

Lemma created_dir_new A s ps pc :
  created_by_transfer A s = true -> unix_type_of_gomode (st_mode s) = S_IFDIR ->
  find_entry (st_path s) A = Some (ps, pc) -> st_is_dir ps = false.
Proof.
  unfold created_by_transfer, same_type. intros Hc Hd Ef. rewrite Ef, Hd in Hc. apply negb_true_iff in Hc.
  unfold st_is_dir. destruct (mode_is_dir (st_mode ps)) eqn:Em; auto.
  apply unix_type_dir in Em. rewrite Em, N.eqb_refl in Hc. discriminate.
Qed.

Lemma created_not_dir_at A s :
  sorted (map fst A) -> created_by_transfer A s = true -> unix_type_of_gomode (st_mode s) = S_IFDIR ->
  is_dir_at (dest_of A) (st_path s) = false.
Proof.
  intros HsA Hc Hd. unfold is_dir_at. destruct (alookup (st_path s) (dest_of A)) as [o|] eqn:Eo; auto.
  apply D0_some in Eo. destruct Eo as [Ho Ep]. apply (created_dir_new A s _ (de_bytes o) Hc Hd).
  rewrite <- Ep. apply find_entry_sorted; auto.
Qed.

Section Top.
Variable H : bytes -> bytes.
Variable hdr : stat -> bytes.
Variable now : N -> N.
Variable d : differ.
Variables A B : list AbsDest.entry.

Lemma receive_t_plain m :
  ts_map (receive_t now m d A B) = ds_map (receive_abs H hdr m d A B) /\
  ts_err (receive_t now m d A B) = ds_err (receive_abs H hdr m d A B).
Proof.
  unfold receive_t.
  set (cs := diff idf d (match m with Fresh => map fst A | Merge => [] end) (map fst B)).
  destruct (apply_all_t (src_of B) now cs (dest_of A) (N.of_nat (length A)) 0 [] []) as [[[[D n] ov] dmt] e] eqn:E.
  destruct (apply_all_t_plain _ _ _ _ _ _ _ _ _ _ _ _ _ E) as [dn Hd].
  rewrite (receive_abs_unfold H hdr d A B m D n dn e Hd). simpl. auto.
Qed.

(* after Wait, a directory that the transfer creates by an add/modify shows the mtime of its stat *)
Lemma created_dir_restored m k s :
  let cs := diff idf d (match m with Fresh => map fst A | Merge => [] end) (map fst B) in
  sorted (map fst A) -> StronglySorted clt cs -> ts_err (receive_t now m d A B) = false ->
  In (k, st_path s, Some s) cs -> k <> KDelete ->
  inode_created A B s = true -> unix_type_of_gomode (st_mode s) = S_IFDIR ->
  alookup (st_path s) (ts_ov (receive_t now m d A B)) = None.
Proof.
  cbv zeta. unfold receive_t.
  set (cs := diff idf d (match m with Fresh => map fst A | Merge => [] end) (map fst B)).
  destruct (apply_all_t (src_of B) now cs (dest_of A) (N.of_nat (length A)) 0 [] []) as [[[[D n] ov] dmt] e] eqn:E.
  simpl. intros HsA HS He Hin Hk Hc Hd. subst e.
  unfold inode_created in Hc. apply andb_true_iff in Hc. destruct Hc as [Hc _].
  destruct (dmt_collects _ _ _ _ _ _ _ _ _ _ _ _ E HS) as [_ Hcol].
  assert (Hp : In (st_path s) dmt).
  { apply (Hcol k (st_path s) s Hin Hk); [apply unix_type_dir, Hd|apply created_not_dir_at; auto]. }
  unfold wait_pass. rewrite alookup_aremove_if.
  assert (Hex : existsb (bytes_eqb (st_path s)) dmt = true).
  { apply existsb_exists. exists (st_path s). split; auto. apply bytes_eqb_refl. }
  rewrite Hex. reflexivity.
Qed.

Theorem dir_mtimes_fresh_proof :
  wf_entries A -> wf_entries B -> AbsDest.identity_faithful d A B ->
  let s := receive_t now Fresh d A B in
  ts_err s = false /\ ts_map s = ds_map (receive_abs H hdr Fresh d A B) /\ approx A B (view_t s).
Proof.
  intros HA HB Hf. cbv zeta.
  destruct (receive_t_plain Fresh) as [Em Ee].
  destruct (diff_apply_converges_proof H hdr d A B HA HB Hf) as [Herr Happ].
  destruct HA as [HwA HlA], HB as [HwB HlB].
  split; [congruence|]. split; [exact Em|].
  unfold view_t. rewrite Em. apply (approx_map _ (retime_path _) (retime_ino _)); auto.
  intros s c dd Hin _. apply entry_ok_retime. intros Hc Hd.
  assert (Hc1 : created_by_transfer A s = true) by (unfold inode_created in Hc; apply andb_true_iff in Hc; tauto).
  destruct (fresh_created_change d A B HwA HwB s c Hin Hc1) as (k & Hk & Hch).
  destruct HwA as [HsA HcA]. destruct HwB as [HsB HcB].
  apply (created_dir_restored Fresh k s); auto; [apply diff_sorted_proof; auto|congruence].
Qed.

Theorem dir_mtimes_merge_proof :
  wf_listing (map fst A) -> wf_entries B ->
  let s := receive_t now Merge d A B in
  ts_err s = false /\ ts_map s = ds_map (receive_abs H hdr Merge d A B) /\ approx_merge A B (view_t s).
Proof.
  intros HwA HB. cbv zeta.
  destruct (receive_t_plain Merge) as [Em Ee].
  destruct (merge_is_overlay_proof H hdr d A B HwA HB) as (Herr & Happ & _).
  destruct HB as [[HsB HcB] HlB].
  split; [congruence|]. split; [exact Em|].
  unfold view_t. rewrite Em. apply approx_merge_retime; auto.
  intros s c Hin Hc Hd.
  apply (created_dir_restored Merge KAdd s); auto; try discriminate; try apply HwA.
  - rewrite diff_nil_l. apply adds_sorted; auto.
  - congruence.
  - rewrite diff_nil_l. apply (in_map add_of _ s), (in_map fst _ _ Hin).
Qed.

End Top.
