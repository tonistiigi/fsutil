(* C14 — the deferred fixCreatedParentDirs, Copy's loop over the sources, Copy. *)
From Coq Require Import List Arith NArith Lia Bool ZifyN ZifyNat ZifyBool.
From FS Require Import Sx Model.Path Model.Fs Model.RootPath Model.CopyFs Model.CopyFsSpec
  Proofs.Lex Proofs.PathP Proofs.FsP Proofs.RootPathStrP Proofs.FsCopyFrameP Proofs.FsCopyInvP
  Proofs.FsCopySafeP Proofs.FsCopyLinksP Proofs.FsCopySysP Proofs.CopyFsP Proofs.CopyFsNrP Proofs.CopyRecP Proofs.CopyFsRec2P Proofs.CopyFsTopP
  Proofs.CopyFsTop2P.
From FS Require Proofs.RootPathP.
Import ListNotations.
Open Scope N_scope.
Open Scope bool_scope.

Local Opaque rfuel.

(* filepath.Rel of a path below the root *)
Lemma rel_below_render dcs l : Forall nm dcs -> Forall nm l -> l <> [] ->
  rel_below (render dcs) (render (dcs ++ l)) = Some (joinc l).
Proof.
  intros Hd Hl Hne. unfold rel_below. destruct dcs as [|y dcs'].
  - simpl app. change (render []) with [sep]. rewrite bytes_eqb_refl.
    destruct (bytes_eqb (render l) [sep]) eqn:E.
    + apply render_eq_sep in E; auto. congruence.
    + reflexivity.
  - destruct (bytes_eqb (render (y :: dcs')) [sep]) eqn:E.
    { apply render_eq_sep in E; auto. discriminate. }
    rewrite render_app_sep by (auto; discriminate).
    replace (render (y :: dcs') ++ sep :: joinc l) with ((render (y :: dcs') ++ [sep]) ++ joinc l) by (rewrite <- app_assoc; reflexivity).
    rewrite has_prefix_app_r. f_equal.
    replace (length (render (y :: dcs')) + 1)%nat with (length (render (y :: dcs') ++ [sep])) by (rewrite app_length; reflexivity).
    apply skipn_app_len.
Qed.

Section Top3.
  Variables (c : ctx) (f0 : fs) (dr : N) (dcs : list bytes).
  Notation Ctx := (Ctx c f0 dr dcs).
  Notation tpath := (tpath dcs).
  Notation SS := (SS f0 dr).
  Notation Tgt := (Tgt c f0 dr dcs).
  Notation stays := (stays c f0 dr dcs).
  Notation stays_ok := (stays_ok c f0 dr dcs).
  Notation meta_post := (meta_post c f0 dr dcs).
  Notation lok := (lok f0 dr dcs).
  Notation keeps_new := (keeps_new dr (f_next f0)).
  Notation gnew := (gnew dr (f_next f0)).
  Notation created_ok := (created_ok f0 dr dcs).
  Notation tdesc := (tdesc c f0 dr dcs).
  Let rt := c_root c.
  Let b := f_next f0.

  Lemma ctx_plain_dir f : Ctx f -> forallb name_ok dcs = true /\ plain_dir f (c_root c) dcs = Some dr.
  Proof.
    intros C. split.
    - apply forallb_name_ok. split; [apply (cx_dcs _ _ _ _ _ C)|apply (cx_dnul _ _ _ _ _ C)].
    - apply chain_plain_dir. apply (cx_root _ _ _ _ _ C).
  Qed.

  (* what RootPath returns for the destination root *)
  Lemma root_path_dst f p out : Ctx f -> root_path c f (render dcs) p = inl out ->
    exists cs, out = render (dcs ++ cs) /\ Forall nm cs /\ Forall nonul cs /\ link_free f dr cs = true.
  Proof.
    intros C H. destruct (ctx_plain_dir f C) as [H1 H2].
    destruct (RootPathP.rootpath_result_link_free_proof c f dcs dr p out H1 H2 H) as (cs & E & Hn & Hlf).
    apply forallb_name_ok in Hn. destruct Hn. exists cs. auto.
  Qed.

  (* fixCreatedParentDirs: the utimes of a created directory that stillBelow accepts *)
  Lemma still_below_safe f p t f' res : Ctx f -> created_ok f p ->
    still_below c f (render dcs) p = true -> sys_utimens c f p t = (f', res) -> meta_post f f'.
  Proof.
    intros C (cs & x & -> & Hcs & Hnul & Hx & Hxn & G) Hsb H.
    pose proof (cx_dcs _ _ _ _ _ C) as Hd. pose proof (cx_dnul _ _ _ _ _ C) as Hdn.
    destruct (sys_utimens_inv _ _ _ _ _ _ H) as [[-> _]|(i & n & m & E & Hg & -> & ->)]; [apply meta_post_refl; auto|].
    unfold still_below in Hsb. change (is_nil (render dcs)) with false in Hsb.
    unfold FsCopySafeP.tpath in Hsb. rewrite rel_below_render in Hsb; auto;
      [|apply Forall_app; split; auto|destruct cs; discriminate].
    destruct (root_path c f (render dcs) (joinc (cs ++ [x]))) as [out|e] eqn:Er; [|discriminate].
    apply bytes_eqb_eq in Hsb. subst out.
    destruct (root_path_dst f _ _ C Er) as (cs2 & E2 & Hn2 & Hnul2 & Hlf).
    assert (Ecs : cs2 = cs ++ [x]).
    { apply render_inj in E2; [apply app_inv_head in E2; auto| |];
        repeat (apply Forall_app; split; auto). }
    subst cs2.
    (* the lookup of utimensat goes along real directories *)
    unfold resolve_ino in E. destruct (resolve c f (FsCopySafeP.tpath dcs cs x) false) as [r|e] eqn:Eres; [|discriminate].
    destruct (l_ino r) as [j|] eqn:Ej; inversion E; subst j.
    unfold FsCopySafeP.tpath in Eres. rewrite resolve_render in Eres;
      [|repeat (apply Forall_app; split; auto)|repeat (apply Forall_app; split; auto)|destruct dcs; [destruct cs|]; discriminate].
    pose proof (cx_len _ _ _ _ _ C) as Hl.
    replace rfuel with (length dcs + (rfuel - length dcs))%nat in Eres by lia.
    rewrite (walk_chain_prefix f dcs (c_root c) dr (cx_root _ _ _ _ _ C) Hd (cs ++ [x])) in Eres by (destruct cs; discriminate).
    destruct (lf_walk_entry f _ cs dr x _ _ r i (RootPathP.link_free_prefix f [x] cs dr Hlf) Hcs Hx Eres Ej) as (d' & Hc & Hb).
    specialize (G d' Hc). unfold bind_new in G. rewrite Hb in G.
    apply t_put_meta; auto. right. exact G.
  Qed.

  Lemma fix_created_spec tm : forall dirs s, Ctx (s_fs s) -> Forall (created_ok (s_fs s)) dirs ->
    let s' := fst (fix_created c (render dcs) tm dirs s) in
    Ctx (s_fs s') /\ keeps_new (s_fs s) (s_fs s').
  Proof.
    induction dirs as [|d dirs IH]; intros s C Hc; cbn [fix_created].
    - cbn [ret fst]. split; auto. apply keeps_new_refl.
    - destruct tm as [t|]; [|cbn [ret fst]; split; auto; apply keeps_new_refl].
      inversion Hc as [|? ? Hd Hrest]; subst.
      destruct (still_below c (s_fs s) (render dcs) d) eqn:Esb; [|apply IH; auto].
      rewrite sys_run. cbn [fst snd].
      destruct (sys_utimens c (s_fs s) d t) as [f1 r1] eqn:E1. cbn [fst snd].
      pose proof (still_below_safe (s_fs s) d t f1 r1 C Hd Esb E1) as M1.
      pose proof (k_meta c f0 dr dcs _ _ M1) as K1.
      assert (C1 : Ctx f1) by apply M1.
      destruct r1; cbn [fst]; try (split; auto; fail).
      set (s1 := {| s_fs := f1; s_links := s_links s; s_parents := s_parents s; s_reads := s_reads s |}).
      destruct (IH s1 C1) as (C2 & K2).
      { eapply created_all_keeps; eauto. }
      split; auto. eapply keeps_new_trans; eauto.
  Qed.

  Lemma run_fixes_spec tm : forall batches s, Ctx (s_fs s) -> Forall (Forall (created_ok (s_fs s))) batches ->
    Ctx (s_fs (fst (run_fixes c (render dcs) tm batches s))).
  Proof.
    induction batches as [|bt batches IH]; intros s C Hc; cbn [run_fixes]; [exact C|].
    inversion Hc as [|? ? Hb Hrest]; subst. rewrite bind_run.
    destruct (fix_created_spec tm (rev bt) s C) as (C1 & K1); [apply Forall_rev; auto|].
    destruct (fix_created c (render dcs) tm (rev bt) s) as [s1 [[]|e]] eqn:E1; cbn [fst] in *; [|exact C1].
    apply IH; auto. eapply Forall_impl; [|exact Hrest]. intros l. apply created_all_keeps, K1.
  Qed.

  Variable src_root : bytes.
  (* srcRoot names a directory in every state the copier goes through (it is not replaced) *)
  Hypothesis Hsr : forall f, Ctx f -> forall ino fi, snd (sys_lstat c f src_root) = RStat ino fi -> kind_is_dir fi = true.

  Definition batches_ok (f : fs) (bs : list (list bytes)) : Prop := Forall (Forall (created_ok f)) bs.

  Lemma batches_ok_keeps f f' bs : keeps_new f f' -> batches_ok f bs -> batches_ok f' bs.
  Proof.
    intros K. apply Forall_impl. intros l. apply created_all_keeps, K.
  Qed.

  Lemma copy_root_path_root f src follow sf : join2 [sep] src = [sep] ->
    copy_root_path c f src_root src follow = inl sf -> sf = src_root.
  Proof. intros E H. unfold copy_root_path in H. rewrite E in H. simpl in H. inversion H; auto. Qed.

  Section Reads.
    Variable R : N -> Prop.
    Variables SP SPN : bytes -> Prop.
    Hypothesis HR : reads_ok c f0 dr dcs R SP SPN.
    (* which source arguments (with which FollowLinks) are considered *)
    Variable Psrc : bytes -> bool -> Prop.
    Hypothesis HE : forall f src follow sf, Ctx f -> Psrc src follow -> copy_root_path c f src_root src follow = inl sf -> SP sf.
    Notation rok := (CopyRecP.rok R).
    Notation pok := (CopyRecP.pok SPN).

  (* prepareTargetDir: os.Lstat(srcFollowed) *)
  Lemma ptd_reads k o sf src dest s s' r : Ctx (s_fs s) -> SP sf ->
    prepare_target_dir k c o sf src dest s = (s', r) -> rok s -> rok s'.
  Proof.
    intros C Hsp H Rk. unfold prepare_target_dir in H.
    rewrite sys_bind, sys_lstat_fs in H.
    destruct (snd (sys_lstat c (s_fs s) sf)) as [|e|sino sfi| | |] eqn:Esf;
      try (unfold fail in H; injection H as <- <-; exact Rk).
    destruct (sys_lstat_ino c _ _ _ _ Esf) as [Elr _].
    rewrite bind_run, log_read_run in H. cbn [s_fs s_links s_parents s_reads] in H.
    match type of H with bind _ _ ?sx = _ => assert (Rx : rok sx) end.
    { eapply rok_cons; [reflexivity| |exact Rk]. eapply (ro_lstat _ _ _ _ _ _ _ HR); eauto. }
    revert H. match goal with |- ?m ?sx = _ -> _ => intros H; eapply (rok_nr R m); [|exact H|exact Rx] end.
    apply NR_bind; [apply NR_stat_opt|]. intros dfi. cbv zeta. apply NR_bind; [apply NR_mkdir_all|]. intros. apply NR_ret.
  Qed.

  Lemma copy_sources_spec_r fuel o sl dst : forall srcs batches s s' res batches',
    Ctx (s_fs s) -> lok s -> s_parents s = [] -> batches_ok (s_fs s) batches -> Forall (fun src => has_nul src = false) srcs ->
    Forall (fun src => Psrc src (o_follow o)) srcs ->
    rok s ->
    copy_sources fuel c o sl src_root (render dcs) dst srcs batches s = (s', res, batches') ->
    (Ctx (s_fs s') /\ batches_ok (s_fs s') batches') /\ rok s'.
  Proof.
    induction srcs as [|src srcs IH]; intros batches s s' res batches' C L Pa Hb Hs Hps Rk H.
    - cbn [copy_sources] in H. inversion H; subst. auto.
    - cbn [copy_sources] in H. inversion Hs as [|? ? Hsn Hrest]; subst. inversion Hps as [|? ? Hp1 Hprest]; subst.
      (* the step: two RootPath calls (reads only), then prepareTargetDir *)
      rewrite bind_run in H. unfold get_fs at 1 in H.
      destruct (copy_root_path c (s_fs s) src_root src (o_follow o)) as [sf|e] eqn:Esf;
        [|cbn [lift_rp fail] in H; inversion H; subst; auto].
      pose proof (HE _ _ _ _ C Hp1 Esf) as Hsp.
      cbn [lift_rp] in H. rewrite bind_run in H. cbn [ret] in H. rewrite bind_run in H. unfold get_fs at 1 in H.
      destruct (root_path c (s_fs s) (render dcs) (clean dst)) as [dest|e] eqn:Ed;
        [|cbn [lift_rp fail] in H; inversion H; subst; auto].
      cbn [lift_rp] in H. rewrite bind_run in H. cbn [ret] in H. rewrite bind_run in H.
      destruct (root_path_dst (s_fs s) _ _ C Ed) as (cs & -> & Hcs & Hnul & Hlf).
      assert (Hsrc : join2 [sep] src = [sep] -> forall ino fi, snd (sys_lstat c (s_fs s) sf) = RStat ino fi -> kind_is_dir fi = true).
      { intros E. rewrite (copy_root_path_root _ _ _ _ E Esf). apply Hsr; auto. }
      destruct (prepare_target_dir fuel c o sf src (render (dcs ++ cs)) s) as [s1 [[d1 created]|e]] eqn:Ep.
      2:{ destruct (ptd_spec c f0 dr dcs fuel o sf src cs s s1 _ C Hcs Hnul Hlf Hsn Hsrc Ep) as (S1 & _ & _).
          inversion H; subst. split; [|eapply ptd_reads; eauto].
          split; [apply S1|]. eapply batches_ok_keeps; [eapply stays_keeps; exact S1|exact Hb]. }
      destruct (ptd_spec c f0 dr dcs fuel o sf src cs s s1 _ C Hcs Hnul Hlf Hsn Hsrc Ep) as (S1 & EL1 & P1).
      assert (Rk1 : rok s1) by (eapply ptd_reads; eauto).
      destruct (P1 d1 created eq_refl) as (Td & Hcr).
      cbn [ret fst snd] in H.
      assert (C1 : Ctx (s_fs s1)) by apply S1.
      assert (L1 : lok s1) by (apply S1; auto).
      assert (Pa1 : s_parents s1 = []) by (destruct S1 as (_ & _ & _ & _ & Q); rewrite Q; exact Pa).
      assert (Hb1 : batches_ok (s_fs s1) (created :: batches)).
      { constructor; auto. eapply batches_ok_keeps; [eapply stays_keeps; exact S1|exact Hb]. }
      assert (Hcopy : forall s2 r2, copy_rec fuel c o sl sf [] d1 false [] [] s1 = (s2, r2) ->
                CopyRecP.cpost c f0 dr dcs R dr s1 (fun _ s2 => s_parents s2 = []) s2 r2).
      { intros s2 r2 E2. destruct Td as [-> Hdir|cs1 x dd -> H1 H2 H3 H4 Hc].
        - destruct fuel as [|k].
          + cbn [copy_rec] in E2. injection E2 as <- <-.
            apply cpost_stays; [apply stays_refl; auto|exact Rk1|intros _ _; exact Pa1].
          + eapply (copy_rec_root_spec_r c f0 dr dcs R SP SPN HR); eauto.
        - change (FsCopySafeP.tpath dcs cs1 x) with (render (dcs ++ cs1 ++ [] ++ [x])) in E2.
          apply (cpost_below c f0 dr dcs R dr dd cs1 _ _ _ _ Hc).
          eapply cpost_weaken; [|eapply (copy_rec_spec_r c f0 dr dcs R SP SPN HR fuel o sl sf [] cs1 dd [] x); eauto].
          + rewrite Pa1. intros _ [Eq|[Eq _]]; exact Eq.
          + rewrite Pa1. reflexivity.
          + rewrite Pa1. constructor. }
      destruct (copy_rec fuel c o sl sf [] d1 false [] [] s1) as [s2 [[]|e]] eqn:E2;
        destruct (Hcopy s2 _ eq_refl) as ((C2 & _ & L2 & K2) & P2 & Rk2).
      + eapply (IH (created :: batches) s2); eauto.
        * apply L2; auto. exists tt. reflexivity.
        * eapply batches_ok_keeps; eauto.
      + inversion H; subst. split; [|exact Rk2]. split; auto. eapply batches_ok_keeps; eauto.
  Qed.

  Lemma copy_top_spec_r fuel o osl src dst matches s s' res :
    Ctx (s_fs s) -> lok s -> s_parents s = [] -> has_nul src = false ->
    (forall l, matches = Some l -> Forall (fun m => has_nul m = false) l) ->
    (matches = None -> Psrc src (o_follow o)) -> (forall l, matches = Some l -> Forall (fun m => Psrc m (o_follow o)) l) ->
    rok s ->
    copy_top fuel c o osl src_root src (render dcs) dst matches s = (s', res) -> Ctx (s_fs s') /\ rok s'.
  Proof.
    intros C L Pa Hsn Hm Hp0 Hpm Rk H. unfold copy_top in H.
    set (ensure := match split_path dst with (d, fl) => if nonempty fl && negb (bytes_eqb fl s_dot) && negb (bytes_eqb fl s_dotdot) then d else dst end) in H.
    (* the first MkdirAll *)
    match type of H with match ?p s with _ => _ end = _ => set (pre := p) in H end.
    assert (Hpre : forall s1 r1, pre s = (s1, r1) ->
              Ctx (s_fs s1) /\ (lok s -> lok s1) /\ s_parents s1 = s_parents s /\ (forall bs, r1 = inl bs -> batches_ok (s_fs s1) bs)).
    { unfold pre. intros s1 r1 E. destruct (nonempty ensure).
      - rewrite bind_run in E. unfold get_fs at 1 in E.
        destruct (root_path c (s_fs s) (render dcs) ensure) as [p|e] eqn:Ep;
          [|cbn [lift_rp fail] in E; inversion E; subst; split; [exact C|split; [auto|split; [reflexivity|discriminate]]]].
        cbn [lift_rp] in E. rewrite bind_run in E. cbn [ret] in E. rewrite bind_run in E.
        destruct (root_path_dst (s_fs s) _ _ C Ep) as (cs & -> & Hcs & Hnul & Hlf).
        destruct (mkdir_all fuel c o (render (dcs ++ cs)) s) as [s2 r2] eqn:Em.
        destruct (mkdir_all_spec c f0 dr dcs fuel o cs s s2 _ C Hcs Hnul Hlf Em) as (S2 & _ & P2).
        destruct r2 as [created|e]; inversion E; subst; (split; [apply S2|]; split; [apply S2|]; split; [apply S2|]); [|discriminate].
        intros bs Hbs. inversion Hbs; subst. constructor; [apply (P2 created eq_refl)|constructor].
      - cbn [ret] in E. inversion E; subst. split; [exact C|split; [auto|split; [reflexivity|]]]. intros bs Hbs. inversion Hbs; subst. constructor. }
    assert (Hprer : NR pre).
    { unfold pre. destruct (nonempty ensure); [|apply NR_ret]. apply NR_bind; [apply NR_get_fs|]. intros f1.
      apply NR_bind; [unfold lift_rp; destruct (root_path c f1 (render dcs) ensure); [apply NR_ret|apply NR_fail]|]. intros p.
      apply NR_bind; [apply NR_mkdir_all|]. intros. apply NR_ret. }
    destruct (pre s) as [s1 [batches0|e]] eqn:Epre.
    2:{ destruct (Hpre s1 _ eq_refl) as (Cx & _). inversion H; subst. split; [exact Cx|]. eapply rok_nr; eauto. }
    assert (Rk1 : rok s1) by (eapply rok_nr; eauto).
    destruct (Hpre s1 _ eq_refl) as (C1 & L1 & Pa1 & B1). specialize (B1 batches0 eq_refl). specialize (L1 L).
    rewrite Pa in Pa1.
    assert (Hfix : forall bs2 s2, Ctx (s_fs s2) -> batches_ok (s_fs s2) bs2 -> rok s2 ->
              Ctx (s_fs (fst (run_fixes c (render dcs) (o_utime o) bs2 s2))) /\ rok (fst (run_fixes c (render dcs) (o_utime o) bs2 s2))).
    { intros bs2 s2 C2 B2 Rk2. split; [apply run_fixes_spec; auto|].
      destruct (run_fixes c (render dcs) (o_utime o) bs2 s2) as [s3 r3] eqn:E3. cbn [fst].
      eapply rok_nr; [apply NR_run_fixes|exact E3|exact Rk2]. }
    assert (Hloop : forall sl srcs, Forall (fun m => has_nul m = false) srcs -> Forall (fun m => Psrc m (o_follow o)) srcs -> forall s2 res2 bs2,
              copy_sources fuel c o sl src_root (render dcs) dst srcs batches0 s1 = (s2, res2, bs2) ->
              Ctx (s_fs (fst (run_fixes c (render dcs) (o_utime o) bs2 s2))) /\ rok (fst (run_fixes c (render dcs) (o_utime o) bs2 s2))).
    { intros sl srcs Hs Hps s2 res2 bs2 E.
      destruct (copy_sources_spec_r fuel o sl dst srcs batches0 s1 s2 res2 bs2 C1 L1 Pa1 B1 Hs Hps Rk1 E) as ((C2 & B2) & Rk2).
      apply Hfix; auto. }
    destruct osl as [sl|].
    2:{ (* invalid patterns *) destruct matches as [[|m ms]|]; inversion H; subst; apply Hfix; auto. }
    destruct matches as [[|m ms]|].
    - (* no match *) inversion H; subst. apply Hfix; auto.
    - destruct (copy_sources fuel c o sl src_root (render dcs) dst (m :: ms) batches0 s1) as [[s2 res2] bs2] eqn:E2.
      inversion H; subst. eapply (Hloop sl (m :: ms)); [apply Hm; reflexivity|apply Hpm; reflexivity|exact E2].
    - destruct (copy_sources fuel c o sl src_root (render dcs) dst [src] batches0 s1) as [[s2 res2] bs2] eqn:E2.
      inversion H; subst. eapply (Hloop sl [src]); [constructor; auto|constructor; auto|exact E2].
  Qed.
  End Reads.

  Lemma copy_top_spec fuel o osl src dst matches s s' res :
    Ctx (s_fs s) -> lok s -> s_parents s = [] -> has_nul src = false ->
    (forall l, matches = Some l -> Forall (fun m => has_nul m = false) l) ->
    copy_top fuel c o osl src_root src (render dcs) dst matches s = (s', res) -> Ctx (s_fs s').
  Proof.
    intros C L Pa Hsn Hm H.
    eapply (copy_top_spec_r _ _ _ (reads_ok_any c f0 dr dcs) (fun _ _ => True)); eauto using rok_any; try (intros; exact I).
    intros l _. apply Forall_forall. intros; exact I.
  Qed.
End Top3.
