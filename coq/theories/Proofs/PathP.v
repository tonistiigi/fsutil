(* Facts about the path model: ComparePath is the component-wise order, a strict
   total order; comps/joinc are inverse; characterisation of the fixed points of Clean. *)
From Coq Require Import List NArith Lia Bool.
From FS Require Import Sx Model.Path Proofs.Lex.
Import ListNotations.
Open Scope N_scope.
Open Scope bool_scope.

Lemma comps_nonempty p : comps p <> [].
Proof. destruct p as [|a p]; simpl; [discriminate|]. destruct (N.eqb a sep); [discriminate|]. destruct (comps p); discriminate. Qed.

(* one byte more: a separator opens a new component, any other byte extends the first one *)
Lemma comps_cons a p : exists c cs, comps p = c :: cs /\
  comps (a :: p) = if N.eqb a sep then [] :: c :: cs else (a :: c) :: cs.
Proof.
  simpl. destruct (comps p) as [|c cs] eqn:E; [destruct (comps_nonempty p E)|].
  exists c, cs. destruct (N.eqb a sep); auto.
Qed.

Lemma comps_cons_nosep a p : N.eqb a sep = false ->
  exists c cs, comps p = c :: cs /\ comps (a :: p) = (a :: c) :: cs.
Proof. intros H. destruct (comps_cons a p) as (c & cs & E1 & E2). rewrite H in E2. eauto. Qed.

Lemma cmp_bytes_refl a : cmp_bytes a a = Eq.
Proof. exact (Lex.cmp_bytes_refl a). Qed.

Theorem compare_path_componentwise : forall p q, compare_path p q = lex_cmp (comps p) (comps q).
Proof.
  induction p as [|a p IH]; intros [|b q]; try reflexivity.
  - destruct (comps_cons b q) as (d & ds & _ & ->). destruct (N.eqb b sep); reflexivity.
  - destruct (comps_cons a p) as (c & cs & _ & ->). destruct (N.eqb a sep); reflexivity.
  - cbn [compare_path]. rewrite IH.
    destruct (comps_cons a p) as (c & cs & -> & ->), (comps_cons b q) as (d & ds & -> & ->).
    destruct (N.eqb_spec a b) as [<-|Hab].
    + destruct (N.eqb a sep); simpl; rewrite ?N.compare_refl; reflexivity.
    + (* the first components differ at their first byte, or one of them is empty *)
      destruct (N.eqb_spec a sep) as [->|Ha], (N.eqb_spec b sep) as [->|Hb]; simpl;
        rewrite ?orb_true_r; try congruence.
      unfold N.ltb. destruct (N.compare_spec a b); [congruence|reflexivity|reflexivity].
Qed.

Definition nosep (c : bytes) : Prop := ~ In sep c.

Lemma nosep_cons a c : nosep (a :: c) -> N.eqb a sep = false /\ nosep c.
Proof. intros H. split; [apply N.eqb_neq; intros ->; apply H; left; auto|intro; apply H; right; auto]. Qed.

Lemma comps_unfold_nosep a p : N.eqb a sep = false ->
  comps (a :: p) = (a :: hd [] (comps p)) :: tl (comps p).
Proof. intros H. destruct (comps_cons a p) as (c & cs & -> & ->). rewrite H. reflexivity. Qed.

Lemma joinc_cons c cs : cs <> [] -> joinc (c :: cs) = c ++ sep :: joinc cs.
Proof. destruct cs; [congruence|reflexivity]. Qed.

Lemma joinc_app a b : a <> [] -> b <> [] -> joinc (a ++ b) = joinc a ++ sep :: joinc b.
Proof.
  induction a as [|c a IH]; intros Ha Hb; [congruence|].
  destruct a as [|c2 a].
  - simpl app. rewrite joinc_cons by auto. reflexivity.
  - change ((c :: c2 :: a) ++ b) with (c :: ((c2 :: a) ++ b)).
    rewrite (joinc_cons c ((c2 :: a) ++ b)) by (simpl; discriminate).
    rewrite IH by (auto; discriminate).
    rewrite (joinc_cons c (c2 :: a)) by discriminate. rewrite <- app_assoc. reflexivity.
Qed.

Lemma joinc_comps p : joinc (comps p) = p.
Proof.
  induction p as [|a p IH]; [reflexivity|].
  destruct (comps_cons a p) as (c & cs & E & ->). rewrite E in IH.
  destruct (N.eqb_spec a sep) as [->|_].
  - rewrite joinc_cons, IH by discriminate. reflexivity.
  - destruct cs; [simpl in *; congruence|]. rewrite joinc_cons in * by discriminate. rewrite <- IH. reflexivity.
Qed.

Lemma comps_inj p q : comps p = comps q -> p = q.
Proof. intros H. rewrite <- (joinc_comps p), <- (joinc_comps q), H. reflexivity. Qed.

(* a separator-free prefix goes to the first component *)
Lemma comps_app_nosep c p : nosep c -> comps (c ++ p) = (c ++ hd [] (comps p)) :: tl (comps p).
Proof.
  induction c as [|a c IH]; intros H.
  - simpl app. destruct (comps p) eqn:E; [destruct (comps_nonempty p E)|reflexivity].
  - apply nosep_cons in H. destruct H as [Ha H]. simpl app. rewrite comps_unfold_nosep, IH by auto. reflexivity.
Qed.

Lemma comps_nosep_single c : nosep c -> comps c = [c].
Proof. intros H. rewrite <- (app_nil_r c) at 1. rewrite comps_app_nosep by auto. simpl. rewrite app_nil_r. reflexivity. Qed.

Lemma comps_app_sep_gen a b : comps (a ++ sep :: b) = comps a ++ comps b.
Proof.
  induction a as [|x a IH]; [reflexivity|].
  simpl app. destruct (N.eqb x sep) eqn:E.
  - simpl. rewrite E, IH. reflexivity.
  - rewrite !comps_unfold_nosep, IH by auto. destruct (comps_cons x a) as (c & cs & -> & _). reflexivity.
Qed.

Lemma comps_app_sep c p : nosep c -> comps (c ++ sep :: p) = c :: comps p.
Proof. intros H. rewrite comps_app_sep_gen, comps_nosep_single by auto. reflexivity. Qed.

Lemma comps_joinc cs : cs <> [] -> Forall nosep cs -> comps (joinc cs) = cs.
Proof.
  induction cs as [|c cs IH]; intros Hne Hf; [congruence|].
  inversion Hf as [|? ? Hc Hcs]; subst.
  destruct cs as [|c2 cs].
  - simpl. apply comps_nosep_single; auto.
  - rewrite joinc_cons by discriminate. rewrite comps_app_sep by auto. rewrite IH; auto. discriminate.
Qed.

Lemma comps_joinc_app_sep cs r : cs <> [] -> Forall nosep cs -> comps (joinc cs ++ sep :: r) = cs ++ comps r.
Proof. intros Hne Hf. rewrite comps_app_sep_gen, comps_joinc by auto. reflexivity. Qed.

Lemma comps_all_nosep p : Forall nosep (comps p).
Proof.
  induction p as [|a p IH]; [repeat constructor; intros []|].
  destruct (comps_cons a p) as (c & cs & E & ->). rewrite E in IH. inversion IH; subst.
  destruct (N.eqb_spec a sep); constructor; auto; [intros []|]. intros [E1|Hi]; [congruence|auto].
Qed.

Lemma compare_path_lex p q : compare_path p q = lex (comps p) (comps q).
Proof. rewrite lex_is_lex_cmp. apply compare_path_componentwise. Qed.

Lemma compare_path_eq p q : compare_path p q = Eq <-> p = q.
Proof.
  rewrite compare_path_lex, lex_eq. split; [apply comps_inj|congruence].
Qed.

Lemma compare_path_refl p : compare_path p p = Eq.
Proof. apply compare_path_eq; reflexivity. Qed.

Lemma compare_path_opp p q : compare_path q p = CompOpp (compare_path p q).
Proof. rewrite !compare_path_lex. apply lex_opp. Qed.

Lemma compare_path_trans p q r :
  compare_path p q = Lt -> compare_path q r = Lt -> compare_path p r = Lt.
Proof. rewrite !compare_path_lex. apply lex_trans. Qed.

Lemma compare_path_irrefl p : compare_path p p <> Lt.
Proof. rewrite compare_path_refl. discriminate. Qed.

Lemma compare_path_lt_neq p q : compare_path p q = Lt -> p <> q.
Proof. intros H ->. exact (compare_path_irrefl q H). Qed.

Lemma compare_path_total p q : compare_path p q = Lt \/ p = q \/ compare_path q p = Lt.
Proof.
  destruct (compare_path p q) eqn:E; auto.
  - right; left. apply compare_path_eq; auto.
  - right; right. rewrite compare_path_opp, E. reflexivity.
Qed.

Definition normal (c : bytes) : Prop := c <> [] /\ c <> s_dot /\ c <> s_dotdot.

Lemma cstep_normal rooted stk c : normal c -> cstep rooted stk c = c :: stk.
Proof.
  intros (H1 & H2 & H3). unfold cstep.
  apply bytes_eqb_neq in H1, H2, H3. rewrite H1, H2, H3. reflexivity.
Qed.

Lemma fold_cstep_normal rooted cs stk :
  Forall normal cs -> fold_left (cstep rooted) cs stk = rev cs ++ stk.
Proof.
  revert stk; induction cs as [|c cs IH]; intros stk H; [reflexivity|].
  inversion H; subst. simpl. rewrite cstep_normal by auto. rewrite IH by auto.
  rewrite <- app_assoc. reflexivity.
Qed.

(* Clean's stack on a relative path, top first: normal components above a run of ".." *)
Definition relstack (stk : list bytes) : Prop :=
  exists ns k, stk = ns ++ repeat s_dotdot k /\ Forall normal ns.

Lemma cstep_relstack stk c : relstack stk -> relstack (cstep false stk c).
Proof.
  intros (ns & k & -> & Hn). unfold cstep.
  destruct (bytes_eqb c []) eqn:E1; [exists ns, k; auto|].
  destruct (bytes_eqb c s_dot) eqn:E2; [exists ns, k; auto|].
  destruct (bytes_eqb c s_dotdot) eqn:E3; simpl.
  - apply bytes_eqb_eq in E3. subst c. destruct ns as [|t ns].
    + exists [], (S k). destruct k; auto.
    + inversion Hn as [|? ? (_ & _ & Ht) Hn']. apply bytes_eqb_neq in Ht. simpl. rewrite Ht. exists ns, k. auto.
  - apply bytes_eqb_neq in E1, E2, E3. exists (c :: ns), k. split; [reflexivity|]. constructor; [repeat split|]; auto.
Qed.

Lemma fold_cstep_relstack cs stk : relstack stk -> relstack (fold_left (cstep false) cs stk).
Proof. revert stk; induction cs as [|c cs IH]; intros stk H; [exact H|]. apply IH, cstep_relstack, H. Qed.

Lemma fold_cstep_forall (P : bytes -> Prop) rooted cs stk :
  Forall P cs -> Forall P stk -> Forall P (fold_left (cstep rooted) cs stk).
Proof.
  revert stk; induction cs as [|c cs IH]; intros stk Hc Hs; [exact Hs|].
  inversion Hc; subst. simpl. apply IH; auto.
  unfold cstep. destruct (bytes_eqb c [] || bytes_eqb c s_dot); auto.
  destruct (bytes_eqb c s_dotdot); [|constructor; auto].
  destruct stk as [|t r]; [destruct rooted; auto|].
  destruct (bytes_eqb t s_dotdot); [constructor; auto|inversion Hs; auto].
Qed.

Lemma joinc_nil_iff cs : Forall (fun c => c <> []) cs -> joinc cs = [] -> cs = [].
Proof.
  destruct cs as [|c cs]; auto. intros H E. inversion H; subst.
  destruct cs; simpl in E; [congruence|]. destruct c; [congruence|discriminate].
Qed.

Definition okc (cs : list bytes) : Prop := cs <> [] /\ Forall normal cs /\ Forall nosep cs.

(* a relative fixed point of Clean other than "." and not starting with ".."
   consists of normal components only *)
Lemma clean_fixpoint_normal p :
  is_abs p = false -> clean p = p -> p <> s_dot -> p <> s_dotdot ->
  has_prefix s_dotdotsep p = false -> okc (comps p).
Proof.
  intros Habs Hcl Hd Hdd Hpre. unfold clean in Hcl. rewrite Habs in Hcl.
  destruct (fold_cstep_relstack (comps p) []) as (ns & k & Estk & Hn); [exists [], 0%nat; auto|].
  set (stk := fold_left (cstep false) (comps p) []) in *.
  assert (Hout : joinc (rev stk) = p) by (destruct (joinc (rev stk)); [congruence|exact Hcl]).
  assert (Hcomps : comps p = rev stk).
  { rewrite <- Hout at 1. apply comps_joinc.
    - intro E. rewrite E in Hcl. apply Hd. symmetry. exact Hcl.
    - apply Forall_rev, fold_cstep_forall; [apply comps_all_nosep|constructor]. }
  split; [apply comps_nonempty|]. split; [|apply comps_all_nosep].
  rewrite Hcomps, Estk. destruct k as [|k]; [rewrite app_nil_r; apply Forall_rev, Hn|].
  (* a ".." at the bottom of the stack is the first component of p *)
  exfalso. simpl in Estk. rewrite repeat_cons, app_assoc in Estk. rewrite Estk, rev_unit in Hcomps.
  rewrite <- (joinc_comps p), Hcomps in Hdd, Hpre. destruct (rev (ns ++ repeat s_dotdot k)); [apply Hdd; reflexivity|discriminate Hpre].
Qed.

Lemma okc_first_byte cs : okc cs -> exists a r, joinc cs = a :: r /\ a <> sep.
Proof.
  intros (Hne & Hn & Hs). destruct cs as [|c cs]; [congruence|].
  inversion Hn as [|? ? (Hc & _) _]; subst. inversion Hs as [|? ? Hc2 _]; subst.
  destruct c as [|a c]; [congruence|]. exists a.
  destruct cs; [exists c|eexists]; simpl; (split; [reflexivity|]); intro; subst; apply Hc2; left; auto.
Qed.

Lemma okc_clean cs : okc cs -> clean (joinc cs) = joinc cs /\ is_abs (joinc cs) = false.
Proof.
  intros H. pose proof H as (Hne & Hn & Hs).
  destruct (okc_first_byte cs H) as (a & r & E & Ha).
  assert (Habs : is_abs (joinc cs) = false) by (rewrite E; simpl; apply N.eqb_neq; auto).
  split; auto. unfold clean. rewrite Habs, comps_joinc by auto.
  rewrite fold_cstep_normal by auto. rewrite app_nil_r, rev_involutive. rewrite E. reflexivity.
Qed.

Lemma has_prefix_app pre s : has_prefix pre s = true -> exists r, s = pre ++ r.
Proof.
  revert s; induction pre as [|a pre IH]; intros s H; [exists s; reflexivity|].
  destruct s as [|b s]; [discriminate|]. simpl in H. apply andb_true_iff in H. destruct H as [H1 H2].
  apply N.eqb_eq in H1. subst b. destruct (IH _ H2) as [r ->]. exists r. reflexivity.
Qed.

Lemma has_prefix_app_r pre r : has_prefix pre (pre ++ r) = true.
Proof. induction pre as [|a pre IH]; simpl; auto. rewrite N.eqb_refl. exact IH. Qed.

Lemma has_prefix_iff pre s : has_prefix pre s = true <-> exists r, s = pre ++ r.
Proof. split; [apply has_prefix_app|]. intros [r ->]. apply has_prefix_app_r. Qed.

Lemma okc_not_special cs : okc cs ->
  joinc cs <> [] /\ joinc cs <> s_dot /\ joinc cs <> s_dotdot /\ has_prefix s_dotdotsep (joinc cs) = false.
Proof.
  intros (Hne & Hn & Hs).
  (* each of the four would make the first component of cs one that is not normal *)
  assert (Hh : forall x r, comps (joinc cs) = x :: r -> normal x).
  { intros x r E. rewrite comps_joinc in E by auto. subst cs. inversion Hn; auto. }
  split; [intro E; rewrite E in Hh; exact (proj1 (Hh [] [] eq_refl) eq_refl)|].
  split; [intro E; rewrite E in Hh; exact (proj1 (proj2 (Hh s_dot [] eq_refl)) eq_refl)|].
  split; [intro E; rewrite E in Hh; exact (proj2 (proj2 (Hh s_dotdot [] eq_refl)) eq_refl)|].
  destruct (has_prefix s_dotdotsep (joinc cs)) eqn:Hp; auto.
  apply has_prefix_app in Hp. destruct Hp as [rest Hp]. rewrite Hp in Hh.
  change (s_dotdotsep ++ rest) with (s_dotdot ++ sep :: rest) in Hh.
  rewrite comps_app_sep in Hh by (intros [E1|[E1|[]]]; discriminate).
  destruct (proj2 (proj2 (Hh _ _ eq_refl)) eq_refl).
Qed.

Lemma split_last_nosep c : nosep c -> split_last c = None.
Proof.
  induction c as [|a c IH]; intros H; [reflexivity|]. apply nosep_cons in H. destruct H as [Ha H].
  simpl. rewrite IH, Ha by auto. reflexivity.
Qed.

Lemma split_last_app_sep c q :
  split_last (c ++ sep :: q) =
  match split_last q with Some (x, y) => Some (c ++ sep :: x, y) | None => Some (c ++ [sep], q) end.
Proof.
  induction c as [|a c IH].
  - simpl. destruct (split_last q) as [[x y]|]; reflexivity.
  - rewrite <- app_comm_cons. simpl. rewrite IH. destruct (split_last q) as [[x y]|]; reflexivity.
Qed.

Lemma joinc_snoc d b : d <> [] -> joinc (d ++ [b]) = joinc d ++ sep :: b.
Proof. intros H. apply (joinc_app d [b] H). discriminate. Qed.

Lemma split_last_joinc d b : Forall nosep (d ++ [b]) ->
  split_last (joinc (d ++ [b])) = match d with [] => None | _ => Some (joinc d ++ [sep], b) end.
Proof.
  intros H. apply Forall_app in H. destruct H as [_ Hb]. inversion Hb; subst.
  destruct d as [|c d]; [apply split_last_nosep; auto|].
  rewrite joinc_snoc, split_last_app_sep, split_last_nosep by (auto; discriminate). reflexivity.
Qed.

Lemma comps_snoc_sep p : comps (p ++ [sep]) = comps p ++ [[]].
Proof. exact (comps_app_sep_gen p []). Qed.

Lemma okc_last d b : okc (d ++ [b]) -> normal b /\ nosep b.
Proof.
  intros (_ & Hn & Hs). apply Forall_app in Hn, Hs. destruct Hn as [_ Hn], Hs as [_ Hs].
  inversion Hn; inversion Hs; auto.
Qed.

Lemma okc_prefix d b : d <> [] -> okc (d ++ [b]) -> okc d.
Proof.
  intros Hne (_ & Hn & Hs). apply Forall_app in Hn, Hs. destruct Hn, Hs. repeat split; auto.
Qed.

Lemma cstep_empty rooted stk : cstep rooted stk [] = stk. Proof. reflexivity. Qed.

Lemma dir_joinc d b : okc (d ++ [b]) ->
  dir (joinc (d ++ [b])) = match d with [] => s_dot | _ => joinc d end.
Proof.
  intros H. pose proof H as (_ & Hn & Hs). unfold dir. rewrite split_last_joinc by auto.
  destruct d as [|c d]; [reflexivity|]. lazy beta iota.
  remember (c :: d) as d0. assert (Hd0 : d0 <> []) by (subst; discriminate).
  pose proof (okc_prefix _ _ Hd0 H) as Hok. pose proof Hok as (_ & Hn0 & Hs0).
  destruct (okc_first_byte _ Hok) as (a & r & E & Ha).
  unfold clean. assert (Habs : is_abs (joinc d0 ++ [sep]) = false) by (rewrite E; simpl; apply N.eqb_neq; auto).
  rewrite Habs, comps_snoc_sep. rewrite (comps_joinc d0 Hd0 Hs0).
  rewrite fold_left_app. rewrite (fold_cstep_normal false d0 [] Hn0). rewrite app_nil_r.
  cbn [fold_left]. rewrite !cstep_empty. rewrite rev_involutive.
  rewrite E. reflexivity.
Qed.

Lemma strip_trailing_seps_id p x : x <> sep -> strip_trailing_seps (p ++ [x]) = p ++ [x].
Proof.
  intros H. unfold strip_trailing_seps. rewrite rev_app_distr. simpl.
  apply N.eqb_neq in H. rewrite H. simpl. rewrite rev_involutive. reflexivity.
Qed.

Lemma base_split p pre x : p = pre ++ [x] -> x <> sep ->
  base p = match split_last p with Some (_, b) => b | None => p end.
Proof.
  intros Hp Hx. unfold base.
  assert (Hst : strip_trailing_seps p = p) by (rewrite Hp; apply strip_trailing_seps_id; auto).
  rewrite Hst. destruct p; [destruct pre; discriminate|reflexivity].
Qed.

Lemma base_joinc d b : okc (d ++ [b]) -> base (joinc (d ++ [b])) = b.
Proof.
  intros H. destruct (okc_last _ _ H) as [(Hbne & _) Hbs]. destruct H as (_ & _ & Hs).
  pose proof (split_last_joinc d b Hs) as Hsl.
  assert (Hp : exists pre, joinc (d ++ [b]) = pre ++ b).
  { destruct d as [|c d]; [exists []; reflexivity|]. exists (joinc (c :: d) ++ [sep]).
    rewrite joinc_snoc, <- app_assoc by discriminate. reflexivity. }
  destruct Hp as [pre Hp]. destruct b as [|x bp _] using rev_ind; [congruence|].
  rewrite (base_split _ (pre ++ bp) x), Hsl.
  - destruct d; reflexivity.
  - rewrite Hp. apply app_assoc.
  - intro; subst; apply Hbs, in_or_app; right; left; auto.
Qed.

Lemma normal_dot_ne c : normal c -> c <> s_dot. Proof. intros (_ & H & _); auto. Qed.

Lemma okc_snoc_split cs : okc cs -> exists d b, cs = d ++ [b].
Proof. intros (Hne & _). destruct cs as [|x l _] using rev_ind; [congruence|eauto]. Qed.

Lemma okc_dir d b : okc (d ++ [b]) -> d = [] \/ okc d.
Proof. destruct d; [left; reflexivity|right; eapply okc_prefix; eauto; discriminate]. Qed.

Lemma okc_joinc_nonempty d : okc d -> joinc d <> [].
Proof. intros H. apply (okc_not_special d H). Qed.

Lemma pcomps_joinc d : d = [] \/ okc d -> pcomps (joinc d) = d.
Proof.
  intros [->|H]; [reflexivity|]. pose proof H as (Hne & _ & Hs).
  pose proof (okc_joinc_nonempty d H) as Hj. unfold pcomps.
  destruct (joinc d) eqn:E; [congruence|]. rewrite <- E. apply comps_joinc; auto.
Qed.

Lemma joinc_pcomps d : joinc (pcomps d) = d.
Proof. destruct d; [reflexivity|]. unfold pcomps. apply joinc_comps. Qed.

Lemma pcomps_inj_ok d1 d2 : pcomps d1 = pcomps d2 -> d1 = d2.
Proof. intros H. apply (f_equal joinc) in H. rewrite !joinc_pcomps in H. exact H. Qed.

Lemma pcomps_nonempty p : p <> [] -> pcomps p = comps p.
Proof. destruct p; [congruence|reflexivity]. Qed.
