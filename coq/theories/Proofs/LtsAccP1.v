(* Refinement LTS (sender side) -> sender acceptor: list / association-list helpers,
   the bookkeeping of requested ids ("tasks"), the simulation invariant, and the steps that
   leave it alone: those of the receiver's goroutines and of the receiver's environment. *)
From Coq Require Import List NArith Bool Arith PeanoNat Lia ZifyN ZifyNat ZifyBool Permutation.
From FS Require Import Model.Lts Proofs.LtsInv.
From FS Require Import Sx Model.Path Model.Stat Model.Tree Model.AccEvents Model.SenderAcc Model.LtsAcc
     Proofs.AccEventsP.
Import ListNotations.
Local Open Scope nat_scope.

Lemma split_nth : forall A (l : list A) j w, nth_error l j = Some w ->
  exists l1 l2, l = l1 ++ w :: l2 /\ forall x, set_nth j x l = l1 ++ x :: l2.
Proof.
  induction l as [|a l IH]; destruct j; cbn; intros w H; try discriminate.
  - inversion H; subst. exists [], l. split; [reflexivity|]. intros; reflexivity.
  - destruct (IH _ _ H) as (l1 & l2 & E & F). exists (a :: l1), l2. split.
    + cbn. f_equal. exact E.
    + intros x. exact (f_equal (cons a) (F x)).
Qed.

Lemma skipn_nth_cons : forall A (l : list A) c d, c < length l -> skipn c l = nth c l d :: skipn (S c) l.
Proof.
  induction l as [|a l IH]; intros c d H; cbn in H; [lia|].
  destruct c; [reflexivity|]. cbn [skipn nth]. apply IH. lia.
Qed.

Lemma memb_cons : forall x y l, memb x (y :: l) = (x =? y) || memb x l.
Proof. reflexivity. Qed.

Lemma memb_remb : forall x y l, memb x (remb y l) = negb (y =? x) && memb x l.
Proof.
  intros x y l. unfold memb, remb. induction l as [|a l IH]; cbn; [rewrite andb_false_r; reflexivity|].
  destruct (Nat.eqb_spec y a); cbn.
  - subst. rewrite IH. destruct (Nat.eqb_spec x a); cbn.
    + subst. rewrite Nat.eqb_refl. reflexivity.
    + reflexivity.
  - rewrite IH. destruct (Nat.eqb_spec x a); cbn.
    + subst. destruct (Nat.eqb_spec y a); [congruence|reflexivity].
    + reflexivity.
Qed.

(* the clauses of [abs_ok], by name *)
Section AbsOk.
  Variables (p : Lts.params) (exp : list Tree.entry) (ch : nat -> list bytes).
  Hypothesis Habs : abs_ok p exp ch.
  Definition abs_len := proj1 Habs.
  Definition abs_file := proj1 (proj2 Habs).
  Definition abs_concat := proj1 (proj2 (proj2 Habs)).
  Definition abs_chunks := proj1 (proj2 (proj2 (proj2 Habs))).
  Definition abs_nonempty := proj1 (proj2 (proj2 (proj2 (proj2 Habs)))).
  Definition abs_workers := proj2 (proj2 (proj2 (proj2 (proj2 Habs)))).
End AbsOk.

(* key-unique association lists *)
Lemma nlookup_all_done : forall (m : list (N * fstatus)),
  NoDup (map fst m) -> (forall n rem, nlookup n m <> Some (Sending rem)) -> SenderAcc.all_done m = true.
Proof.
  induction m as [|[k s] m IH]; intros Hd H; cbn; [reflexivity|].
  inversion Hd as [|? ? Hn Hd']; subst.
  destruct s as [rem|].
  - exfalso. apply (H k rem). cbn. rewrite N.eqb_refl. reflexivity.
  - apply IH; [assumption|]. intros n rem E. apply (H n rem). cbn.
    destruct (N.eqb_spec n k); [|assumption]. subst. apply nlookup_in in E.
    exfalso. apply Hn. apply (in_map fst) in E. exact E.
Qed.

(* tasks: the requested ids that are on their way through the sender *)
Inductive stage := Full | AtRead (c : nat) | AtLock (c : nat) | AtSend (c : nat) | AtFin | AtSendFin.

Definition wk_task (w : wkpc) : list (nat * stage) :=
  match w with
  | WK_Ctx h | WK_Open h => [(h, Full)]
  | WK_Read h c => [(h, AtRead c)]
  | WK_Lock h c => [(h, AtLock c)]
  | WK_Send h c => [(h, AtSend c)]
  | WK_LockFin h => [(h, AtFin)]
  | WK_SendFin h => [(h, AtSendFin)]
  | WK_Idle | WK_Done => []
  end.
Definition rq_task (q : rqpc) : list (nat * stage) :=
  match q with RQ_Push id => [(id, Full)] | _ => [] end.
Definition pipe_tasks (l : list nat) : list (nat * stage) := map (fun id => (id, Full)) l.
Definition tasks (st : Lts.state) : list (nat * stage) :=
  rq_task (rq_pc st) ++ pipe_tasks (pipe st) ++ flat_map wk_task (wks st).

Section Tasks.
  Variable ch : nat -> list bytes.

  Definition stage_ok (h : nat) (s : stage) (f : fstatus) : Prop :=
    match s with
    | Full => f = Sending (concat (ch h))
    | AtRead c => c <= length (ch h) /\ f = Sending (concat (skipn c (ch h)))
    | AtLock c => c < length (ch h) /\ f = Sending (concat (skipn c (ch h)))
    | AtSend c => c < length (ch h) /\ f = Sending (concat (skipn (S c) (ch h)))
    | AtFin => f = Sending []
    | AtSendFin => f = Done
    end.
  Definition task_ok (m : list (N * fstatus)) (t : nat * stage) : Prop :=
    exists f, nlookup (N.of_nat (fst t)) m = Some f /\ stage_ok (fst t) (snd t) f.

  Lemma task_ok_cons : forall m n f t, nlookup n m = None -> task_ok m t -> task_ok ((n, f) :: m) t.
  Proof.
    intros m n f t Hn (g & Hl & Hs). exists g. split; [|assumption]. cbn.
    destruct (N.eqb_spec (N.of_nat (fst t)) n); [|assumption]. subst. congruence.
  Qed.

  Lemma task_ok_upd : forall m h f t, fst t <> h -> task_ok m t -> task_ok (nupdate (N.of_nat h) f m) t.
  Proof.
    intros m h f t Hne (g & Hl & Hs). exists g. split; [|assumption].
    rewrite nlookup_nupdate_other; [assumption|]. intros E. apply Nat2N.inj in E. congruence.
  Qed.

  Definition tasks_ok (m : list (N * fstatus)) (T : list (nat * stage)) : Prop :=
    Forall (task_ok m) T /\ NoDup (map fst T).

  Lemma tasks_ok_perm : forall m T T', Permutation T T' -> tasks_ok m T -> tasks_ok m T'.
  Proof.
    intros m T T' HP [HF HN]. split.
    - eapply Permutation_Forall; eauto.
    - eapply Permutation_NoDup; [apply Permutation_map; exact HP|assumption].
  Qed.

  Lemma tasks_ok_in_some : forall m T h s, tasks_ok m T -> In (h, s) T -> nlookup (N.of_nat h) m <> None.
  Proof.
    intros m T h s [HF _] Hin. rewrite Forall_forall in HF. destruct (HF _ Hin) as (f & Hl & _).
    cbn in Hl. congruence.
  Qed.

  (* a new request *)
  Lemma tasks_ok_add : forall m T h f,
    tasks_ok m T -> nlookup (N.of_nat h) m = None -> f = Sending (concat (ch h)) ->
    tasks_ok ((N.of_nat h, f) :: m) ((h, Full) :: T).
  Proof.
    intros m T h f HT Hn Hf. pose proof HT as [HF HN]. split.
    - constructor.
      + exists f. cbn. rewrite N.eqb_refl. split; [reflexivity|exact Hf].
      + eapply Forall_impl; [|exact HF]. intros t. apply task_ok_cons. exact Hn.
    - cbn. constructor; [|assumption]. intros Hin. apply in_map_iff in Hin. destruct Hin as ([h' s] & E & Hin).
      cbn in E. subst h'. eapply tasks_ok_in_some in Hin; eauto.
  Qed.

  (* the acceptor learns about an id that is not on its way (a request the LTS refused) *)
  Lemma tasks_ok_cons_other : forall m T n f, tasks_ok m T -> nlookup n m = None -> tasks_ok ((n, f) :: m) T.
  Proof.
    intros m T n f [HF HN] Hn. split; [|assumption].
    eapply Forall_impl; [|exact HF]. intros t. apply task_ok_cons. exact Hn.
  Qed.

  (* the task of h moves to another stage, the acceptor's entry for h changes accordingly *)
  Lemma tasks_ok_replace : forall m T1 T2 h s s' f',
    tasks_ok m (T1 ++ (h, s) :: T2) -> stage_ok h s' f' ->
    tasks_ok (nupdate (N.of_nat h) f' m) (T1 ++ (h, s') :: T2).
  Proof.
    intros m T1 T2 h s s' f' [HF HN] Hs.
    rewrite map_app in HN. cbn in HN. pose proof (NoDup_remove_2 _ _ _ HN) as Hnot.
    assert (Hl : nlookup (N.of_nat h) m <> None).
    { rewrite Forall_forall in HF. destruct (HF (h, s)) as (f & Hl & _); [apply in_or_app; right; left; reflexivity|].
      cbn in Hl. congruence. }
    split.
    - apply Forall_app in HF. destruct HF as [HF1 HF2]. inversion HF2 as [|? ? _ HF2']; subst.
      apply Forall_app. split; [|constructor].
      + rewrite Forall_forall in *. intros t Hin. apply task_ok_upd; [|auto].
        intros E. apply Hnot. apply in_or_app. left. rewrite <- E. apply in_map. exact Hin.
      + exists f'. cbn. split; [apply nlookup_nupdate_same; exact Hl|exact Hs].
      + rewrite Forall_forall in *. intros t Hin. apply task_ok_upd; [|auto].
        intros E. apply Hnot. apply in_or_app. right. rewrite <- E. apply in_map. exact Hin.
    - rewrite map_app. cbn. exact HN.
  Qed.

  (* the task of h moves to another stage with the same acceptor entry *)
  Lemma tasks_ok_restage : forall m T1 T2 h s s',
    tasks_ok m (T1 ++ (h, s) :: T2) ->
    (forall f, stage_ok h s f -> stage_ok h s' f) ->
    tasks_ok m (T1 ++ (h, s') :: T2).
  Proof.
    intros m T1 T2 h s s' [HF HN] Hs. split.
    - apply Forall_app in HF. destruct HF as [HF1 HF2]. inversion HF2 as [|? ? (f & Hl & Hf) HF2']; subst.
      apply Forall_app. split; [assumption|constructor; [|assumption]].
      exists f. split; [exact Hl|apply Hs; exact Hf].
    - rewrite map_app in *. cbn in *. exact HN.
  Qed.

  Lemma tasks_ok_remove : forall m T1 T2 t, tasks_ok m (T1 ++ t :: T2) -> tasks_ok m (T1 ++ T2).
  Proof.
    intros m T1 T2 t [HF HN]. split.
    - apply Forall_app in HF. destruct HF as [HF1 HF2]. inversion HF2; subst. apply Forall_app. split; assumption.
    - rewrite map_app in *. cbn in HN. eapply NoDup_remove_1; eauto.
  Qed.

  Lemma tasks_ok_lookup : forall m T1 T2 h s, tasks_ok m (T1 ++ (h, s) :: T2) ->
    exists f, nlookup (N.of_nat h) m = Some f /\ stage_ok h s f.
  Proof.
    intros m T1 T2 h s [HF _]. rewrite Forall_forall in HF. apply (HF (h, s)). apply in_or_app. right. left. reflexivity.
  Qed.

  (* once the task of h is gone, h is not on its way any more *)
  Lemma tasks_ok_removed_notin : forall m T1 T2 h s, tasks_ok m (T1 ++ (h, s) :: T2) -> ~ In h (map fst (T1 ++ T2)).
  Proof. intros m T1 T2 h s [_ HN]. rewrite map_app in *. cbn in HN. apply NoDup_remove_2 in HN. exact HN. Qed.
End Tasks.

Section Inv.
  Variable p : Lts.params.
  Variable exp : list Tree.entry.
  Variable ch : nat -> list bytes.

  Definition acc_bad (a : sstate) : Prop := SenderAcc.s_err a = true \/ s_soft a = true.

  (* number of STATs whose SendMsg has been called / number of entries registered in files[] *)
  Definition acc_k (st : Lts.state) : nat :=
    match sw_pc st with SW_Send KStat => S (sw_i st) | _ => sw_i st end.
  Definition reg (st : Lts.state) : nat :=
    match sw_pc st with SW_Lock KStat | SW_Send KStat => S (sw_i st) | _ => sw_i st end.
  Definition rq_live (st : Lts.state) : bool :=
    match rq_pc st with RQ_Top | RQ_Recv | RQ_Push _ => true | _ => false end.
  Definition rq_failed (st : Lts.state) : bool :=
    match rq_pc st with RQ_Close false | RQ_Ret false => true | _ => false end.
  Definition lts_bad (st : Lts.state) : Prop := Lts.s_err st = true \/ rq_failed st = true.

  Definition walker_rel (st : Lts.state) (a : sstate) : Prop :=
    sw_i st <= length exp /\
    match sw_pc st with
    | SW_Next => s_endm a = false
    | SW_Lock KStat | SW_Send KStat => s_endm a = false /\ sw_i st < length exp
    | SW_Lock KEnd => s_endm a = false /\ sw_i st = length exp
    | SW_Send KEnd => s_endm a = true /\ sw_i st = length exp
    | SW_Lock KErr | SW_Send KErr => acc_bad a
    | SW_Done => s_endm a = true \/ Lts.s_err st = true
    end.

  Definition req_rel (st : Lts.state) (a : sstate) : Prop :=
    match rq_pc st with
    | RQ_Top | RQ_Recv | RQ_Push _ => s_rdclosed a = false /\ s_fin_in a = false /\ s_fin_out a = false
    | RQ_LockFin => s_fin_in a = true /\ s_fin_out a = false
    | RQ_SendFin | RQ_Close true | RQ_Ret true => s_fin_in a = true /\ s_fin_out a = true
    | RQ_Close false | RQ_Ret false => acc_bad a
    | RQ_Done => (s_fin_in a = true /\ s_fin_out a = true) \/ Lts.s_err st = true
    end.

  Definition unrequested (a : sstate) (id : nat) : bool :=
    match nlookup (N.of_nat id) (s_req a) with None => true | Some _ => false end.

  (* files[] while the reader goroutine is alive: registered, requestable, not yet requested *)
  Definition files_rel (st : Lts.state) (a : sstate) : Prop :=
    rq_live st = true ->
    (forall id, memb id (sfiles st) = (id <? reg st) && is_file p id && unrequested a id) /\
    (forall id, reg st <= id -> nlookup (N.of_nat id) (s_req a) = None).

  Definition live_inv (st : Lts.state) (a : sstate) : Prop :=
    s_k a = acc_k st /\
    walker_rel st a /\
    req_rel st a /\
    files_rel st a /\
    tasks_ok ch (s_req a) (tasks st) /\
    NoDup (map fst (s_req a)) /\
    (forall n rem, nlookup n (s_req a) = Some (Sending rem) ->
       (exists id, n = N.of_nat id /\ In id (map fst (tasks st))) \/ lts_bad st) /\
    (s_cancel st = true -> acc_bad a) /\
    (Lts.s_err st = true -> acc_bad a) /\
    (SenderAcc.s_err a = true -> lts_bad st) /\
    (pipe_closed st = true -> match rq_pc st with RQ_Ret _ | RQ_Done => True | _ => False end) /\
    ((exists j, nth_error (wks st) j = Some WK_Done) ->
       (pipe st = [] /\ pipe_closed st = true) \/ Lts.s_err st = true) /\
    length (wks st) = p_W p /\
    (s_prog a = 0%N /\ s_final a = false /\ s_ret a = None).

  Definition inv (st : Lts.state) (a : sstate) : Prop :=
    s_broken st = false /\
    match send_ret st with
    | None => live_inv st a
    | Some b => s_ret a = Some b /\ sender_quiet st = true
    end.

  (* the invariant only looks at the sender's part of the state *)
  Definition same_sender (st st' : Lts.state) : Prop :=
    sw_pc st' = sw_pc st /\ sw_i st' = sw_i st /\ wks st' = wks st /\ rq_pc st' = rq_pc st /\
    pipe st' = pipe st /\ pipe_closed st' = pipe_closed st /\ sfiles st' = sfiles st /\
    s_cancel st' = s_cancel st /\ Lts.s_err st' = Lts.s_err st /\ send_ret st' = send_ret st /\
    s_broken st' = s_broken st.

  Lemma inv_frame : forall st st' a, same_sender st st' -> inv st a -> inv st' a.
  Proof.
    intros st st' a (E1 & E2 & E3 & E4 & E5 & E6 & E7 & E8 & E9 & E10 & E11) [Hb H].
    split; [rewrite E11; exact Hb|]. rewrite E10. destruct (send_ret st).
    - destruct H as [H1 H2]. split; [exact H1|].
      unfold sender_quiet, sw_is_done, rq_is_done in *. rewrite E1, E4, E3. exact H2.
    - unfold live_inv, acc_k, walker_rel, req_rel, files_rel, reg, rq_live, tasks, lts_bad, rq_failed in *.
      rewrite E1, E2, E3, E4, E5, E6, E7, E8, E9. exact H.
  Qed.
End Inv.

Definition sender_label (l : label) : bool :=
  match l with
  | LSWalk | LSWalkErr | LWorker _ | LWorkerOpenErr _ | LWorkerReadErr _ | LReq | LReqCtx | LSendRet
  | LEnvCancelS | LEnvBreakS | LEnvTearDown => true
  | _ => false
  end.

Lemma other_step_same_sender : forall p st l st',
  sender_label l = false -> Lts.step p st l = Some st' -> same_sender st st'.
Proof.
  intros p st l st' Hl H.
  destruct l; try discriminate Hl; unfold_steps H; step_split H; inv_some; subst;
    repeat match goal with w : writer |- _ => destruct w; cbn in * end;
    unfold same_sender, rl_fail, r_fail, dl_fail, d_fail, wr_fail, eg_fail, setwr; cbn;
    repeat split; reflexivity.
Qed.

(* [live_inv] taken apart and put together clause by clause.  A clause that reads only fields
   a step does not write is convertible to what it was: [li_split; try assumption] leaves the
   clauses the step is about. *)
Ltac li_destruct H :=
  pose proof H as (Hk & Hwalk & Hreq & Hfiles & Htasks & Hkeys & Hsend & Hcancel & Herr & Haerr & Hclosed & Hwdone & Hnwk & Hprog);
  pose proof Hprog as (Hp0 & Hfin & Hret).
Ltac li_split :=
  refine (conj _ (conj _ (conj _ (conj _ (conj _ (conj _ (conj _ (conj _ (conj _ (conj _ (conj _ (conj _ (conj _ _))))))))))))).
