(* C13 / C15 — basic facts about the copier model (Model/Copier.v) and the overlay
   specification (Model/CopySpec.v): path and mode-bit facts; the invariant [Inv] tying a
   destination file system to an expected view; its preservation by the primitive changes
   (inode update, one more name, names at and below a path removed, parent touched) from which
   CopyOpsP.v builds the kernel operations. *)
From Coq Require Import List NArith Bool Lia ZifyN ZifyNat ZifyBool.
From FS Require Import Sx Model.Path Model.SymMode Model.Copier Model.CopySpec Proofs.Lex.
Import ListNotations.
Open Scope N_scope.
Open Scope bool_scope.

Lemma path_eqb_eq a b : path_eqb a b = true <-> a = b.
Proof.
  revert b; induction a as [|x a IH]; intros [|y b]; simpl; split; intro H; try discriminate; auto.
  - apply andb_true_iff in H as [H1 H2]. apply bytes_eqb_eq in H1. apply IH in H2. congruence.
  - inversion H; subst. rewrite bytes_eqb_refl. simpl. apply IH; auto.
Qed.
Lemma path_eqb_refl a : path_eqb a a = true. Proof. apply path_eqb_eq; auto. Qed.
Lemma path_eqb_neq a b : path_eqb a b = false <-> a <> b.
Proof.
  split; intro H.
  - intro E. apply path_eqb_eq in E. congruence.
  - destruct (path_eqb a b) eqn:E; auto. apply path_eqb_eq in E. congruence.
Qed.
Lemma path_dec (a b : list (list N)) : a = b \/ a <> b.
Proof. destruct (path_eqb a b) eqn:E; [left; apply path_eqb_eq|right; apply path_eqb_neq]; auto. Qed.

Lemma strip_prefix_some T p r : strip_prefix T p = Some r <-> p = T ++ r.
Proof.
  revert p; induction T as [|x T IH]; intros p; simpl.
  - split; intro H; congruence.
  - destruct p as [|y p]; [split; intro H; discriminate|].
    destruct (bytes_eqb x y) eqn:E.
    + apply bytes_eqb_eq in E. subst y. rewrite IH. split; intro H; congruence.
    + apply bytes_eqb_neq in E. split; intro H; [discriminate|]. inversion H; congruence.
Qed.
Lemma strip_prefix_app T r : strip_prefix T (T ++ r) = Some r.
Proof. apply strip_prefix_some; auto. Qed.
Lemma strip_prefix_none T p : strip_prefix T p = None <-> forall r, p <> T ++ r.
Proof.
  split.
  - intros H r E. subst. rewrite strip_prefix_app in H. discriminate.
  - intros H. destruct (strip_prefix T p) eqn:E; auto. apply strip_prefix_some in E. exfalso; eapply H; eauto.
Qed.
Lemma is_prefix_strip T p : is_prefix T p = match strip_prefix T p with Some _ => true | None => false end.
Proof.
  revert p; induction T as [|x T IH]; intros p; simpl; auto.
  destruct p as [|y p]; auto. destruct (bytes_eqb x y); simpl; auto.
Qed.
Lemma is_prefix_app T r : is_prefix T (T ++ r) = true.
Proof. rewrite is_prefix_strip, strip_prefix_app. auto. Qed.
Lemma is_prefix_true T p : is_prefix T p = true <-> exists r, p = T ++ r.
Proof.
  rewrite is_prefix_strip. destruct (strip_prefix T p) eqn:E.
  - apply strip_prefix_some in E. split; eauto.
  - split; [discriminate|]. intros (r & ->). rewrite strip_prefix_app in E. discriminate.
Qed.
Lemma is_prefix_refl T : is_prefix T T = true.
Proof. rewrite <- (app_nil_r T) at 2. apply is_prefix_app. Qed.
Lemma path_cases T p : (exists r, p = T ++ r) \/ strip_prefix T p = None.
Proof. destruct (strip_prefix T p) eqn:E; auto. left. apply strip_prefix_some in E. eauto. Qed.

Lemma parent_snoc (P : list (list N)) a : parent (P ++ [a]) = P.
Proof. apply removelast_last. Qed.
Lemma snoc_ne_nil (P : list (list N)) a : P ++ [a] <> [].
Proof. destruct P; discriminate. Qed.
Lemma snoc_ne_self (P : list (list N)) a r : P ++ a :: r <> P.
Proof. intro E. apply (f_equal (@length _)) in E. rewrite app_length in E. simpl in E. lia. Qed.
Lemma self_ne_snoc (P : list (list N)) a r : P <> P ++ a :: r.
Proof. intro E. exact (snoc_ne_self P a r (eq_sym E)). Qed.
Lemma app_snoc_assoc (T : list (list N)) a r : T ++ a :: r = (T ++ [a]) ++ r.
Proof. rewrite <- app_assoc. reflexivity. Qed.
Lemma path_snoc_cases (p : list (list N)) : p = [] \/ exists P a, p = P ++ [a].
Proof. destruct p using rev_ind; eauto. Qed.

Lemma strip_snoc_below T a b r :
  strip_prefix (T ++ [a]) (T ++ b :: r) = if bytes_eqb a b then Some r else None.
Proof.
  destruct (bytes_eqb a b) eqn:E.
  - apply bytes_eqb_eq in E. subst. rewrite (app_snoc_assoc T b r). apply strip_prefix_app.
  - apply bytes_eqb_neq in E. apply strip_prefix_none. intros r' H. rewrite <- app_assoc in H.
    apply app_inv_head in H. simpl in H. congruence.
Qed.
Lemma strip_snoc_self T a : strip_prefix (T ++ [a]) T = None.
Proof.
  apply strip_prefix_none. intros r H. rewrite <- app_assoc in H. exact (self_ne_snoc _ _ _ H).
Qed.
Lemma strip_snoc_unrel T a p : strip_prefix T p = None -> strip_prefix (T ++ [a]) p = None.
Proof.
  rewrite !strip_prefix_none. intros H r E. rewrite <- app_assoc in E. eapply H; eauto.
Qed.

Lemma land_ldiff_comm a b c : N.land (N.ldiff a b) c = N.ldiff (N.land a c) b.
Proof.
  apply N.bits_inj; intro n. rewrite N.land_spec, !N.ldiff_spec, N.land_spec.
  destruct (N.testbit a n), (N.testbit b n), (N.testbit c n); reflexivity.
Qed.
Lemma land_idem2 a b : N.land (N.land a b) b = N.land a b.
Proof. rewrite <- N.land_assoc, N.land_diag. reflexivity. Qed.
Lemma all_fmt : N.land allBits S_IFMT = 0. Proof. reflexivity. Qed.
Lemma land_all_fmt m : N.land (N.land m allBits) S_IFMT = 0.
Proof. rewrite <- N.land_assoc, all_fmt. apply N.land_0_r. Qed.
Lemma land_fmt_all m : N.land (N.land m S_IFMT) allBits = 0.
Proof. rewrite <- N.land_assoc. replace (N.land S_IFMT allBits) with 0 by reflexivity. apply N.land_0_r. Qed.

(* type and permission bits of  type | perm *)
Lemma ftype_mk t m : N.land t S_IFMT = t -> N.land m S_IFMT = 0 ->
  N.land (N.lor t m) S_IFMT = t.
Proof. intros H1 H2. rewrite N.land_lor_distr_l, H1, H2. apply N.lor_0_r. Qed.
Lemma perm_mk t m : N.land t allBits = 0 -> N.land m allBits = m ->
  N.land (N.lor t m) allBits = m.
Proof. intros H1 H2. rewrite N.land_lor_distr_l, H1, H2. apply N.lor_0_l. Qed.

Lemma ftype_set_perm m d : ftype (set_perm m d) = ftype d.
Proof. unfold ftype, set_perm; simpl. apply ftype_mk; [apply land_idem2|apply land_all_fmt]. Qed.
Lemma perm_set_perm m d : perm12 (set_perm m d) = N.land m allBits.
Proof. unfold perm12, set_perm; simpl. apply perm_mk; [apply land_fmt_all|apply land_idem2]. Qed.
Lemma ftype_set_owner u g d : ftype (set_owner u g d) = ftype d. Proof. reflexivity. Qed.
Lemma ftype_set_mtime t d : ftype (set_mtime t d) = ftype d. Proof. reflexivity. Qed.
Lemma ftype_set_xattrs x d : ftype (set_xattrs x d) = ftype d. Proof. reflexivity. Qed.

Lemma is_dir_ftype d d' : ftype d = ftype d' -> is_dir d = is_dir d'.
Proof. unfold is_dir. intros ->. auto. Qed.
Lemma is_lnk_ftype d d' : ftype d = ftype d' -> is_lnk d = is_lnk d'.
Proof. unfold is_lnk. intros ->. auto. Qed.
Lemma ftype_mode d d' : d_mode d = d_mode d' -> ftype d = ftype d'.
Proof. unfold ftype. intros ->. auto. Qed.

Record fs_eqv (a b : fsys) : Prop := {
  fe_names : forall p, names a p = names b p;
  fe_inodes : forall i, inodes a i = inodes b i;
  fe_next : next a = next b
}.
Lemma fs_eqv_refl a : fs_eqv a a. Proof. split; auto. Qed.
Lemma fs_eqv_sym a b : fs_eqv a b -> fs_eqv b a. Proof. intros [A B C]; split; auto. Qed.
Lemma fs_eqv_trans a b c : fs_eqv a b -> fs_eqv b c -> fs_eqv a c.
Proof. intros [A B C] [A' B' C']; split; intros; congruence. Qed.

Lemma lstat_eqv a b p : fs_eqv a b -> lstat a p = lstat b p.
Proof. intros [A B _]. unfold lstat. rewrite A. destruct (names b p); auto. rewrite B. auto. Qed.

Lemma touch_parent_snoc P a fs :
  touch_parent (P ++ [a]) fs =
  match names fs P with Some i => upd_inode i (set_mtime NOW) fs | None => fs end.
Proof.
  unfold touch_parent. rewrite parent_snoc. destruct P; reflexivity.
Qed.

Definition xrm (T : list (list N)) (X : xview) : xview := fun q => if is_prefix T q then None else X q.

Lemma xupd_same p v X : xupd p v X p = v.
Proof. unfold xupd. rewrite path_eqb_refl. auto. Qed.
Lemma xupd_other p q v X : q <> p -> xupd p v X q = X q.
Proof. intro H. unfold xupd. apply path_eqb_neq in H. rewrite H. auto. Qed.
Lemma xupd_xupd T v v' Y q : xupd T v (xupd T v' Y) q = xupd T v Y q.
Proof. unfold xupd. destruct (path_eqb q T); auto. Qed.

Section Inv.
  Variable o : copts.

  Definition utset : bool := match o_utime o with Some _ => true | None => false end.
  (* directories made above the target are re-stamped at the very end of the call: until then
     their time is not claimed *)
  Definition eff_known (e : xdent) : bool := x_known e && negb (x_mk e && utset).

  Definition dm (d : dent) (e : xdent) : Prop :=
    d_mode d = d_mode (x_d e) /\ d_uid d = d_uid (x_d e) /\ d_gid d = d_gid (x_d e) /\
    (eff_known e = true -> d_mtime d = d_mtime (x_d e)) /\ d_rdev d = d_rdev (x_d e) /\
    d_target d = d_target (x_d e) /\ d_xattrs d = d_xattrs (x_d e) /\ d_content d = d_content (x_d e).

  (* what a directory made above the target carries whenever the options ask for it *)
  Definition mkfacts (d : dent) : Prop :=
    (forall t, o_utime o = Some t -> d_mtime d = t) /\
    (forall u g, o_chown o = Some (u, g) -> d_uid d = u /\ d_gid d = g).

  Definition xex (d : dent) (k : ikey) (m : bool) : xdent := {| x_d := d; x_known := true; x_key := k; x_mk := m |}.
  Lemma dm_xex d k m : dm d (xex d k m).
  Proof. unfold dm; simpl; repeat split; auto. Qed.

  Lemma dm_ftype d e : dm d e -> ftype d = ftype (x_d e).
  Proof. intros (H & _). apply ftype_mode; auto. Qed.
  Lemma dm_is_dir d e : dm d e -> is_dir d = is_dir (x_d e).
  Proof. intros H. apply is_dir_ftype, dm_ftype; auto. Qed.

  Definition keyok (fs : fsys) (p : list (list N)) (i : N) (k : ikey) : Prop :=
    match k with
    | KDst j => j = i
    | KNew q => q = p /\ forall p', names fs p' = Some i -> p' = p
    | KSrc _ => True   (* link groups: see Lk in CopyLinkP.v *)
    end.

  Record Inv (fs : fsys) (X : xview) : Prop := {
    i_lt : forall p i, names fs p = Some i -> i < next fs;
    i_par : forall p a i, names fs (p ++ [a]) = Some i ->
            exists j, names fs p = Some j /\ is_dir (inodes fs j) = true;
    i_diru : forall p q i, names fs p = Some i -> names fs q = Some i -> is_dir (inodes fs i) = true -> p = q;
    i_none : forall p, names fs p = None -> X p = None;
    i_some : forall p i, names fs p = Some i -> exists e, X p = Some e /\ dm (inodes fs i) e /\ keyok fs p i (x_key e)
  }.

  Lemma Inv_ext fs X X' : (forall p, X' p = X p) -> Inv fs X -> Inv fs X'.
  Proof.
    intros E [A B C D F]. split; auto.
    - intros p H. rewrite E; auto.
    - intros p i H. destruct (F p i H) as (e & H1 & H2). exists e. rewrite E; auto.
  Qed.

  Lemma Inv_fs_ext fs fs' X : fs_eqv fs fs' -> Inv fs X -> Inv fs' X.
  Proof.
    intros [En Ei Nx] [A B C D F]. split.
    - intros p i H. rewrite <- En in H. rewrite <- Nx. eauto.
    - intros p a i H. rewrite <- En in H. destruct (B _ _ _ H) as (j & H1 & H2). exists j. rewrite <- En, <- Ei. auto.
    - intros p q i H1 H2 H3. rewrite <- En in H1, H2. rewrite <- Ei in H3. eauto.
    - intros p H. rewrite <- En in H. auto.
    - intros p i H. rewrite <- En in H. destruct (F p i H) as (e & H1 & H2 & H3). exists e. rewrite <- Ei.
      split; [auto|split; [auto|]]. destruct (x_key e); simpl in *; auto. destruct H3 as [H3 H4]. split; auto.
      intros p' Hp. rewrite <- En in Hp. auto.
  Qed.

  Lemma none_below fs X p r : Inv fs X -> names fs p = None -> names fs (p ++ r) = None.
  Proof.
    intros I H. induction r as [|a r IH] using rev_ind.
    - rewrite app_nil_r; auto.
    - rewrite app_assoc. destruct (names fs ((p ++ r) ++ [a])) eqn:E; auto.
      destruct (i_par _ _ I _ _ _ E) as (j & H1 & _). congruence.
  Qed.
  Lemma none_below_nondir fs X p i a r : Inv fs X -> names fs p = Some i -> is_dir (inodes fs i) = false ->
    names fs (p ++ a :: r) = None.
  Proof.
    intros I H Hd. rewrite app_snoc_assoc. eapply none_below; eauto.
    destruct (names fs (p ++ [a])) eqn:E; auto.
    destruct (i_par _ _ I _ _ _ E) as (j & H1 & H2). congruence.
  Qed.

  Lemma inv_x_none fs X p : Inv fs X -> X p = None -> names fs p = None.
  Proof.
    intros I H. destruct (names fs p) eqn:E; auto.
    destruct (i_some _ _ I _ _ E) as (e & H1 & _). congruence.
  Qed.
  Lemma inv_x_some fs X p e : Inv fs X -> X p = Some e ->
    exists i, names fs p = Some i /\ dm (inodes fs i) e /\ keyok fs p i (x_key e).
  Proof.
    intros I H. destruct (names fs p) eqn:E.
    - destruct (i_some _ _ I _ _ E) as (e' & H1 & H2). exists n. split; auto. congruence.
    - rewrite (i_none _ _ I _ E) in H. discriminate.
  Qed.
  Lemma inv_at fs X p i e : Inv fs X -> names fs p = Some i -> X p = Some e ->
    dm (inodes fs i) e /\ keyok fs p i (x_key e).
  Proof. intros I H He. destruct (i_some _ _ I _ _ H) as (e' & E1 & E2). rewrite He in E1. inversion E1; subst e'. exact E2. Qed.
  Lemma inv_lstat fs X p : Inv fs X ->
    match lstat fs p, X p with
    | Some d, Some e => dm d e
    | None, None => True
    | _, _ => False
    end.
  Proof.
    intros I. unfold lstat. destruct (names fs p) eqn:E.
    - destruct (i_some _ _ I _ _ E) as (e & H1 & H2 & _). rewrite H1. auto.
    - rewrite (i_none _ _ I _ E). auto.
  Qed.
  Lemma inv_x_isdir fs X p : Inv fs X -> x_isdir (X p) = true ->
    exists j, names fs p = Some j /\ is_dir (inodes fs j) = true.
  Proof.
    intros I H. unfold x_isdir in H. destruct (X p) eqn:E; [|discriminate].
    destruct (inv_x_some _ _ _ _ I E) as (i & H1 & H2 & _). exists i. split; auto.
    rewrite (dm_is_dir _ _ H2); auto.
  Qed.
  Lemma x_none_below fs X p r : Inv fs X -> X p = None -> X (p ++ r) = None.
  Proof. intros I H. apply (i_none _ _ I). eapply none_below; eauto. eapply inv_x_none; eauto. Qed.
  Lemma x_none_below_nondir fs X p e a r : Inv fs X -> X p = Some e -> is_dir (x_d e) = false ->
    X (p ++ a :: r) = None.
  Proof.
    intros I H Hd. destruct (inv_x_some _ _ _ _ I H) as (i & H1 & H2 & _).
    apply (i_none _ _ I), (none_below_nondir _ _ _ _ _ _ I H1). rewrite (dm_is_dir _ _ H2); auto.
  Qed.

  Lemma touch_other p q X : q <> p -> touch o p X q = X q.
  Proof.
    intro H. unfold touch. destruct (X p); auto. destruct (x_mk x && _); auto. apply xupd_other; auto.
  Qed.
  Definition touched (e : xdent) : xdent :=
    if x_mk e && utset then e else {| x_d := x_d e; x_known := false; x_key := x_key e; x_mk := x_mk e |}.
  Lemma touch_same p X : touch o p X p = option_map touched (X p).
  Proof.
    unfold touch, touched, utset. destruct (X p) eqn:E; simpl; auto.
    destruct (x_mk x && _); [auto|apply xupd_same].
  Qed.
  Lemma touched_key e : x_key (touched e) = x_key e.
  Proof. unfold touched. destruct (x_mk e && utset); auto. Qed.
  Lemma touched_d e : x_d (touched e) = x_d e.
  Proof. unfold touched. destruct (x_mk e && utset); auto. Qed.
  Lemma touched_mk e : x_mk (touched e) = x_mk e.
  Proof. unfold touched. destruct (x_mk e && utset); auto. Qed.
  Lemma touched_eff e : eff_known (touched e) = false.
  Proof.
    unfold touched, eff_known. destruct (x_mk e && utset) eqn:E; simpl; auto.
    rewrite E. simpl. apply andb_false_r.
  Qed.
  Lemma touched_idem e : touched (touched e) = touched e.
  Proof.
    unfold touched at 1. rewrite touched_mk. destruct (x_mk e && utset) eqn:E; auto.
    unfold touched. rewrite E. reflexivity.
  Qed.
  Lemma dm_touched d e t : dm d e -> dm (set_mtime t d) (touched e).
  Proof.
    unfold dm. rewrite touched_d, touched_eff. simpl. intuition discriminate.
  Qed.
  Lemma dm_touched' d e : dm d e -> dm d (touched e).
  Proof. unfold dm. rewrite touched_d, touched_eff. intuition discriminate. Qed.
  Lemma touch_isdir p q X : x_isdir (touch o p X q) = x_isdir (X q).
  Proof.
    destruct (path_dec q p) as [->|H].
    - rewrite touch_same. destruct (X p); simpl; auto. rewrite touched_d; auto.
    - rewrite touch_other; auto.
  Qed.
  Lemma touch_idem p X q : touch o p (touch o p X) q = touch o p X q.
  Proof.
    destruct (path_dec q p) as [->|H].
    - rewrite !touch_same. destruct (X p); simpl; auto. rewrite touched_idem; auto.
    - rewrite !touch_other; auto.
  Qed.

  Lemma inv_upd fs X X' i f :
    Inv fs X ->
    ftype (f (inodes fs i)) = ftype (inodes fs i) ->
    (forall p e, names fs p = Some i -> X p = Some e ->
       exists e', X' p = Some e' /\ dm (f (inodes fs i)) e' /\ x_key e' = x_key e) ->
    (forall p, names fs p <> Some i -> X' p = X p) ->
    Inv (upd_inode i f fs) X'.
  Proof.
    intros I Ht Hs Ho.
    assert (Hd : forall j, is_dir (inodes (upd_inode i f fs) j) = is_dir (inodes fs j)).
    { intro j. simpl. destruct (N.eqb j i) eqn:E; auto. apply N.eqb_eq in E. subst. apply is_dir_ftype; auto. }
    split; simpl names; simpl next.
    - apply (i_lt _ _ I).
    - intros p a j H. destruct (i_par _ _ I _ _ _ H) as (k & H1 & H2). exists k. rewrite Hd. auto.
    - intros p q j H1 H2 H3. rewrite Hd in H3. eapply (i_diru _ _ I); eauto.
    - intros p H. rewrite Ho; [apply (i_none _ _ I); auto|congruence].
    - intros p j H. destruct (i_some _ _ I _ _ H) as (e & H1 & H2 & H3).
      destruct (N.eq_dec j i) as [->|Hne].
      + destruct (Hs _ _ H H1) as (e' & E1 & E2 & E3). exists e'. simpl. rewrite N.eqb_refl.
        split; [auto|split; [auto|]]. rewrite E3. auto.
      + exists e. rewrite Ho by congruence. simpl. apply N.eqb_neq in Hne. rewrite Hne. auto.
  Qed.

  (* an inode reachable through one name only *)
  Lemma inv_upd1 fs X T i f e e' :
    Inv fs X -> names fs T = Some i -> (forall q, names fs q = Some i -> q = T) ->
    X T = Some e -> ftype (f (inodes fs i)) = ftype (inodes fs i) ->
    dm (f (inodes fs i)) e' -> x_key e' = x_key e ->
    Inv (upd_inode i f fs) (xupd T (Some e') X).
  Proof.
    intros I H U HX Ht Hm Hk. eapply inv_upd; eauto.
    - intros p e0 Hp He0. apply U in Hp. subst p. rewrite xupd_same. exists e'. split; [auto|split; [auto|congruence]].
    - intros p Hp. apply xupd_other. intro; subst; congruence.
  Qed.

  Lemma dir_unique fs X T i : Inv fs X -> names fs T = Some i -> is_dir (inodes fs i) = true ->
    forall q, names fs q = Some i -> q = T.
  Proof. intros I H Hd q Hq. eapply (i_diru _ _ I); eauto. Qed.

  Lemma inv_touch fs X P j : Inv fs X -> names fs P = Some j -> is_dir (inodes fs j) = true ->
    Inv (upd_inode j (set_mtime NOW) fs) (touch o P X).
  Proof.
    intros I H Hd. eapply inv_upd; eauto.
    - intros p e Hp He. assert (p = P) by (eapply dir_unique; eauto). subst p.
      rewrite touch_same, He. simpl. exists (touched e). split; auto. split; [|apply touched_key].
      apply dm_touched, (inv_at _ _ _ _ _ I H He).
    - intros p Hp. apply touch_other. intro; subst; congruence.
  Qed.

  Lemma inv_touch_weak fs X P : Inv fs X -> Inv fs (touch o P X).
  Proof.
    intros I. split; try apply I.
    - intros p H. destruct (path_dec p P) as [->|Hn].
      + rewrite touch_same, (i_none _ _ I _ H). auto.
      + rewrite touch_other; auto. apply (i_none _ _ I); auto.
    - intros p i H. destruct (i_some _ _ I _ _ H) as (e & H1 & H2 & H3).
      destruct (path_dec p P) as [->|Hn].
      + rewrite touch_same, H1. simpl. exists (touched e). rewrite touched_key. split; [auto|split; [apply dm_touched'; auto|auto]].
      + rewrite touch_other; eauto.
  Qed.

  Definition bind_new (T : list (list N)) (d : dent) (fs : fsys) : fsys :=
    {| names := fun q => if path_eqb q T then Some (next fs) else names fs q;
       inodes := fun j => if N.eqb j (next fs) then d else inodes fs j;
       next := next fs + 1; dom := T :: dom fs |}.

  (* A further name P ++ [a] for an inode that is fresh, or is a non-directory all of whose names
     carry link-group keys. *)
  Lemma inv_add fs fs' X P a j i e :
    Inv fs X -> names fs (P ++ [a]) = None -> names fs P = Some j -> is_dir (inodes fs j) = true ->
    (forall q, names fs' q = if path_eqb q (P ++ [a]) then Some i else names fs q) ->
    (forall p k, names fs p = Some k -> inodes fs' k = inodes fs k) ->
    next fs <= next fs' -> i < next fs' ->
    (forall p, names fs p = Some i ->
       is_dir (inodes fs i) = false /\ forall e0, X p = Some e0 -> exists s, x_key e0 = KSrc s) ->
    dm (inodes fs' i) e ->
    (x_key e = KNew (P ++ [a]) /\ (forall p, names fs p <> Some i) \/ exists s, x_key e = KSrc s) ->
    Inv fs' (xupd (P ++ [a]) (Some e) X).
  Proof.
    intros I Hn HP Hd Hnm Hino Hnx Hi Hold Hm Hk. set (T := P ++ [a]) in *.
    assert (Hc : forall p k, names fs' p = Some k -> (p = T /\ k = i) \/ (p <> T /\ names fs p = Some k)).
    { intros p k. rewrite Hnm. destruct (path_eqb p T) eqn:E.
      - apply path_eqb_eq in E. intro H. inversion H. auto.
      - apply path_eqb_neq in E. auto. }
    assert (Ho : forall p, p <> T -> names fs' p = names fs p).
    { intros p Hp. rewrite Hnm. apply path_eqb_neq in Hp. rewrite Hp. auto. }
    split.
    - intros p k H. destruct (Hc _ _ H) as [[_ ->]|[_ H1]]; auto. apply (i_lt _ _ I) in H1. lia.
    - intros p b k H. destruct (Hc _ _ H) as [[E _]|[Hne H1]].
      + apply app_inj_tail in E as [-> ->]. exists j. rewrite Ho, (Hino _ _ HP); auto.
        apply self_ne_snoc.
      + destruct (i_par _ _ I _ _ _ H1) as (k' & K1 & K2). exists k'. rewrite Ho, (Hino _ _ K1); auto.
        intro; subst p. congruence.
    - intros p q k H1 H2 H3.
      destruct (Hc _ _ H1) as [[-> ->]|[Hp H1']]; destruct (Hc _ _ H2) as [[-> E]|[Hq H2']]; subst; auto.
      + rewrite (Hino _ _ H2'), (proj1 (Hold _ H2')) in H3. discriminate.
      + rewrite (Hino _ _ H1'), (proj1 (Hold _ H1')) in H3. discriminate.
      + rewrite (Hino _ _ H1') in H3. eapply (i_diru _ _ I); eauto.
    - intros p H. destruct (path_dec p T) as [->|Hp]; [rewrite Hnm, path_eqb_refl in H; discriminate|].
      rewrite Ho in H by auto. rewrite xupd_other; auto. apply (i_none _ _ I); auto.
    - intros p k H. destruct (Hc _ _ H) as [[-> ->]|[Hp H1]].
      + exists e. rewrite xupd_same. split; [auto|split; [auto|]].
        destruct Hk as [[Hk Hf]|(s0 & Hk)]; rewrite Hk; simpl; auto.
        split; auto. intros p' H'. destruct (Hc _ _ H') as [[-> _]|[_ H2]]; auto. destruct (Hf _ H2).
      + destruct (i_some _ _ I _ _ H1) as (e0 & E1 & E2 & E3). exists e0. rewrite xupd_other, (Hino _ _ H1) by auto.
        split; [auto|split; [auto|]].
        destruct (x_key e0) eqn:Ek; simpl in *; auto. destruct E3 as [E3 E4]. split; auto.
        intros p' H'. destruct (Hc _ _ H') as [[-> ->]|[_ H2]]; auto.
        destruct (proj2 (Hold _ H1) _ E1) as (s1 & Hs1). congruence.
  Qed.

  (* removing a set of names closed under extension *)
  Definition unbind (T : list (list N)) (fs : fsys) (dm' : list (list (list N))) : fsys :=
    {| names := fun q => if is_prefix T q then None else names fs q; inodes := inodes fs; next := next fs; dom := dm' |}.

  Lemma is_prefix_snoc_false T p a : is_prefix T (p ++ [a]) = false -> is_prefix T p = false.
  Proof.
    intro H. destruct (is_prefix T p) eqn:E; auto. apply is_prefix_true in E as (r & ->).
    rewrite <- app_assoc, is_prefix_app in H. discriminate.
  Qed.

  Lemma inv_unbind fs X T dm' : Inv fs X -> Inv (unbind T fs dm') (xrm T X).
  Proof.
    intros I. split; simpl.
    - intros p i. destruct (is_prefix T p); [discriminate|]. apply (i_lt _ _ I).
    - intros p a i. destruct (is_prefix T (p ++ [a])) eqn:E; [discriminate|]. intro H.
      rewrite (is_prefix_snoc_false _ _ _ E). apply (i_par _ _ I _ _ _ H).
    - intros p q i. destruct (is_prefix T p); [discriminate|]. destruct (is_prefix T q); [discriminate|].
      apply (i_diru _ _ I).
    - intros p. unfold xrm. destruct (is_prefix T p); auto. apply (i_none _ _ I).
    - intros p i. unfold xrm. destruct (is_prefix T p) eqn:E; [discriminate|]. intro H.
      destruct (i_some _ _ I _ _ H) as (e & H1 & H2 & H3). exists e. split; [auto|split; [auto|]].
      destruct (x_key e); simpl in *; auto. destruct H3 as [H3 H4]. split; auto.
      intros p'. destruct (is_prefix T p'); [discriminate|]. auto.
  Qed.

  (* unlinking a non-directory: the same as removing everything below it *)
  Lemma set_name_none_eqv fs X T i : Inv fs X -> names fs T = Some i -> is_dir (inodes fs i) = false ->
    fs_eqv (set_name T None fs) (unbind T fs (T :: dom fs)).
  Proof.
    intros I H Hd. split; simpl; auto. intros p.
    destruct (path_eqb p T) eqn:E.
    - apply path_eqb_eq in E. subst. rewrite is_prefix_refl. auto.
    - destruct (is_prefix T p) eqn:E2; auto. apply is_prefix_true in E2 as (r & ->).
      destruct r as [|b r]; [rewrite app_nil_r, path_eqb_refl in E; discriminate|].
      apply (none_below_nondir _ _ _ _ _ _ I H Hd).
  Qed.
End Inv.
