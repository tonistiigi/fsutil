(* C13 — the copy is the source.  What a copied entry is ([copied] by cases, [faithful_dent] of
   it, the requested owner / mode / time on it), what [overlay_all] went through for one source
   and where its result is the source laid over the view ([res] at and below the landing path),
   the enumerations of a source tree (notifications), and from these: a destination that matches
   the expected view carries the source tree below the landing path, dentries ([iso_of_match])
   and inode partition ([part_of_keys]).  Also the predicates the C13 statements use ([parse_of],
   [empty_dst], [landing_clear], [nd_paths]) and, for C15, Section Wins (always-replace: every
   source entry is at its destination path). *)
From Coq Require Import List NArith Bool Lia ZifyN ZifyNat ZifyBool.
From FS Require Import Sx Model.Path Model.SymMode Model.Copier Model.CopySpec Proofs.Lex
  Proofs.CopierP Proofs.CopyOpsP Proofs.CopyDentP Proofs.CopyLinkP Proofs.CopyNodeP Proofs.CopyMkdirP Proofs.CopyConflictP
  Proofs.CopyTopP Proofs.CopyThmP.
Import ListNotations.
Open Scope N_scope.
Open Scope bool_scope.

(* a directory as mkdir leaves it, up to owner, permission bits and time *)
Definition fresh_dir_like (d : dent) : Prop :=
  is_dir d = true /\ d_rdev d = 0 /\ d_target d = [] /\ d_xattrs d = [] /\ d_content d = [].

Section Faith.
  Variable o : copts.
  Variable ms : option (list bitcmd).
  Variable multi : N -> bool.
  Notation copied := (copied o ms multi).
  Notation new_entry := (new_entry o ms multi).

  Lemma copied_known s old top p : x_known (copied s old top p) = true.
  Proof.
    destruct (is_dir (sdent s) && x_isdir old) eqn:E; [|rewrite copied_unmerged by auto; reflexivity].
    apply andb_true_iff in E as [E1 E2]. destruct old as [e|]; [|discriminate]. rewrite copied_merged by auto. reflexivity.
  Qed.

  Lemma ftype_merged_d sd d0 : ftype (merged_d o ms sd d0) = ftype d0.
  Proof. unfold merged_d. rewrite ftype_set_xattrs, ftype_set_mtime, ftype_set_perm. reflexivity. Qed.

  Lemma new_entry_ftype s p : ftype (x_d (new_entry s p)) = copy_type (sdent s).
  Proof. apply ftype_ne_d. Qed.

  (* the fields of a faithful copy *)
  Lemma faithful_of_fields sd d :
    d_mode d = N.lor (copy_type sd) (if is_lnk sd then perm12 sd else info_mode o ms sd) ->
    d_uid d = fst (info_owner o sd) -> d_gid d = snd (info_owner o sd) -> d_mtime d = info_time o sd ->
    d_rdev d = (if is_dev sd then d_rdev sd else 0) -> d_target d = d_target sd -> d_xattrs d = d_xattrs sd ->
    d_content d = (if is_reg sd then d_content sd else []) ->
    faithful_dent o ms sd d = true.
  Proof.
    intros Hm Hu Hg Ht Hr Htg Hx Hc. unfold faithful_dent.
    assert (Hp : N.land (if is_lnk sd then perm12 sd else info_mode o ms sd) allBits =
                 (if is_lnk sd then perm12 sd else info_mode o ms sd)).
    { destruct (is_lnk sd); [apply perm12_idem|apply info_mode_idem]. }
    assert (Hf : N.land (if is_lnk sd then perm12 sd else info_mode o ms sd) S_IFMT = 0).
    { rewrite <- Hp. apply land_all_fmt. }
    unfold ftype, perm12 at 1. rewrite Hm.
    rewrite (ftype_mk _ _ (copy_type_fmt sd) Hf), (perm_mk _ _ (copy_type_all sd) Hp), Hu, Hg, Ht, Hr, Htg, Hx, Hc,
      !N.eqb_refl, !bytes_eqb_refl, xattrs_eqb_refl. reflexivity.
  Qed.

  Lemma new_entry_faithful s p : faithful_dent o ms (sdent s) (x_d (new_entry s p)) = true.
  Proof. apply faithful_of_fields; reflexivity. Qed.

  (* a source directory merged into a directory that mkdir has just made *)
  Lemma merged_fresh_faithful sd d0 : wf_dent sd -> is_dir sd = true -> fresh_dir_like d0 ->
    faithful_dent o ms sd (merged_d o ms sd d0) = true.
  Proof.
    intros (_ & _ & Htg & Hx) Hd (F1 & F2 & F3 & F4 & F5).
    destruct (type_facts sd) as (_ & _ & TD). destruct (TD Hd) as (C1 & C2 & C3 & _ & C5).
    apply faithful_of_fields; unfold merged_d;
      cbn [set_xattrs set_mtime set_perm set_owner d_mode d_uid d_gid d_mtime d_rdev d_target d_xattrs d_content]; auto.
    - rewrite C2, C5, info_mode_idem.
      change (ftype (set_owner (fst (info_owner o sd)) (snd (info_owner o sd)) d0)) with (ftype d0).
      unfold is_dir in F1. apply N.eqb_eq in F1. rewrite F1. reflexivity.
    - rewrite C3. exact F2.
    - rewrite Htg by auto. exact F3.
    - rewrite F4. apply merge_nil; auto.
    - rewrite C1. exact F5.
  Qed.

  Lemma copied_faithful s old top p : wf_dent (sdent s) ->
    (is_dir (sdent s) && x_isdir old = true -> top = false /\ forall e, old = Some e -> fresh_dir_like (x_d e)) ->
    faithful_dent o ms (sdent s) (x_d (copied s old top p)) = true.
  Proof.
    intros Hwd Hm. destruct (is_dir (sdent s) && x_isdir old) eqn:Eb.
    - destruct (Hm eq_refl) as [-> Hf]. apply andb_true_iff in Eb as [Ed Ed'].
      destruct old as [e|]; [|discriminate]. rewrite copied_merged by auto. apply merged_fresh_faithful; auto.
    - rewrite copied_unmerged by auto. apply new_entry_faithful.
  Qed.

  Lemma copied_ftype s old top p : ftype (x_d (copied s old top p)) = copy_type (sdent s).
  Proof.
    destruct (is_dir (sdent s) && x_isdir old) eqn:Eb; [|rewrite copied_unmerged by auto; apply new_entry_ftype].
    apply andb_true_iff in Eb as [Ed Ed']. destruct old as [e|]; [|discriminate]. rewrite copied_merged by auto. cbn [x_d].
    destruct (type_facts (sdent s)) as (_ & _ & TD). destruct (TD Ed) as (_ & _ & _ & _ & ->).
    unfold is_dir in Ed'. apply N.eqb_eq in Ed'. destruct top; [|rewrite ftype_merged_d]; exact Ed'.
  Qed.

  (* every copied entry carries the requested owner, mode (symlinks excepted) and time *)
  Lemma copied_options s old top p d :
    x_d (copied s old top p) = d -> (top = true -> is_dir (sdent s) && x_isdir old = false) ->
    d_uid d = fst (info_owner o (sdent s)) /\ d_gid d = snd (info_owner o (sdent s)) /\
    (is_lnk (sdent s) = false -> perm12 d = info_mode o ms (sdent s)) /\
    d_mtime d = info_time o (sdent s) /\ ftype d = copy_type (sdent s).
  Proof.
    intros <- Htop. pose proof (copied_ftype s old top p) as Hft. revert Hft.
    destruct (is_dir (sdent s) && x_isdir old) eqn:Eb.
    - destruct top; [discriminate (Htop eq_refl)|]. apply andb_true_iff in Eb as [Ed Ed'].
      destruct old as [e|]; [|discriminate]. rewrite copied_merged by auto. cbn [x_d]. repeat split; auto.
      intros _. unfold merged_d. etransitivity; [apply perm_set_perm|apply info_mode_idem].
    - rewrite copied_unmerged by auto. repeat split; auto.
      intro El. unfold perm12, CopySpec.new_entry. cbn [x_d d_mode]. rewrite El.
      apply perm_mk; [apply copy_type_all|apply info_mode_idem].
  Qed.
End Faith.

Lemma made_dir_fresh o p par : fresh_dir_like (x_d (made_dir o p par)).
Proof.
  split; [apply made_dir_isdir|]. unfold made_dir.
  destruct (match o_chown o with Some ug => ug | None => _ end) as [u g]. cbn [x_d d_rdev d_target d_xattrs d_content]. auto.
Qed.

Lemma make_dirs_shape o r : forall pre V V1, make_dirs o pre r V = inl V1 ->
  forall p e, V1 p = Some e -> (exists e0, V p = Some e0 /\ x_d e0 = x_d e) \/ fresh_dir_like (x_d e).
Proof.
  apply (make_dirs_ind o (fun _ _ V V1 => forall p e, V1 p = Some e ->
           (exists e0, V p = Some e0 /\ x_d e0 = x_d e) \/ fresh_dir_like (x_d e))); [eauto|].
  intros pre c r0 V V1 ep Ep Ed V' _ IH p e1 Hp. destruct (IH p e1 Hp) as [(e0 & A & B)|F]; auto.
  unfold V' in A. destruct (V (pre ++ [c])) eqn:En; [eauto|].
  destruct (path_dec p (pre ++ [c])) as [->|Hn].
  - rewrite xupd_same in A. inversion A; subst. right. rewrite <- B. apply made_dir_fresh.
  - rewrite xupd_other in A by auto. destruct (path_dec p pre) as [->|Hn2]; [|rewrite touch_other in A by auto; eauto].
    rewrite touch_same, Ep in A. simpl in A. inversion A; subst. left. exists ep. rewrite <- B, touched_d. auto.
Qed.

(* resolution is lexical: where it succeeds it yields [rooted] *)
Lemma sr_fold_inr V l e : fold_left (sr_step V) l (inr e) = inr e.
Proof. induction l; simpl; auto. Qed.

Lemma spec_resolve_lex V p q : spec_resolve V p = inl q -> q = rooted p.
Proof.
  rewrite spec_resolve_fold. unfold rooted.
  generalize (@nil (list N)) as stk. induction (comps p) as [|c l IH]; intros stk; cbn [fold_left].
  - intro H; inversion H; auto.
  - cbn [sr_step]. cbv zeta. destruct (lex_step stk c) as [|x s] eqn:E.
    + rewrite <- E. intro H. rewrite E in H. apply IH in H. rewrite E. auto.
    + destruct (V (parent (x :: s))) as [pe|].
      * destruct (is_dir (x_d pe)).
        -- destruct (match V (x :: s) with Some e => is_lnk (x_d e) | None => false end).
           ++ rewrite sr_fold_inr. discriminate.
           ++ apply IH.
        -- rewrite sr_fold_inr. discriminate.
      * apply IH.
Qed.

Section Res.
  Variable o : copts.
  Variable ms : option (list bitcmd).
  Variable multi : N -> bool.

  (* at and below the landing path [res] is the plain overlay: the parent's touch does not reach there *)
  Lemma res_below sn L V rel : (L = [] -> is_dir (sdent sn) = true /\ x_isdir (V []) = true) ->
    res o ms multi sn L true V (L ++ rel) = ov o ms multi sn L true V (L ++ rel).
  Proof.
    intro HL. unfold res. destruct (path_snoc_cases L) as [->|(P & a & ->)].
    - destruct (HL eq_refl) as [-> ->]. reflexivity.
    - destruct (_ && _); auto. rewrite parent_snoc, touch_other; auto. rewrite <- app_assoc. apply snoc_ne_self.
  Qed.

  Lemma res_at_source sn L V rel s : (L = [] -> is_dir (sdent sn) = true /\ x_isdir (V []) = true) ->
    s_lookup sn rel = Some s ->
    res o ms multi sn L true V (L ++ rel) =
    Some (copied o ms multi s (V (L ++ rel)) (match rel with [] => true | _ => false end) (L ++ rel)).
  Proof. intros HL Hs. rewrite res_below by auto. unfold ov. rewrite strip_prefix_app, Hs. reflexivity. Qed.

  Lemma res_at_nonsource sn L V rel : (L = [] -> is_dir (sdent sn) = true /\ x_isdir (V []) = true) ->
    s_lookup sn rel = None ->
    res o ms multi sn L true V (L ++ rel) = if shadowed sn rel then None else V (L ++ rel).
  Proof. intros HL Hs. rewrite res_below by auto. unfold ov. rewrite strip_prefix_app, Hs. reflexivity. Qed.
End Res.

Section Single.
  Variable o : copts.
  Variable sroot : snode.
  Hypothesis Hsrc : wf_src sroot.
  Notation multi := (multi_of sroot).

  Definition parse_of : option (option (list bitcmd)) :=
    match o_modestr o with [] => Some None | s => option_map Some (parse_mode s) end.

  Lemma overlay_one_lens ms sn src dst V r1 :
    overlay_one o ms multi sn src dst V = inl r1 -> exists L m, xr_landings r1 = [L] /\ xr_merged r1 = [m].
  Proof.
    unfold overlay_one. destruct (spec_resolve V (clean dst)) as [D|]; [|discriminate].
    destruct (make_dirs o [] _ V) as [V1|]; [|discriminate].
    destruct (if o_replace o then None else first_conflict V1 _ sn); [discriminate|].
    intro H; inversion H; subst r1; clear H. cbn [xr_merged xr_landings]. eauto.
  Qed.

  (* the result of one source: directories are made up to [target], then the source node is laid
     over the view at the landing path *)
  Lemma overlay_one_at ms sn src dst V r0 L :
    s_resolve sroot (rooted src) = inl sn ->
    overlay_one o ms multi sn src dst V = inl r0 -> xr_landings r0 = [L] ->
    (L = [] -> x_isdir (V []) = true) ->
    exists V1 target,
      (target = L \/ target = parent L) /\ make_dirs o [] target V = inl V1 /\
      (L = [] -> is_dir (sdent sn) = true /\ x_isdir (V1 []) = true) /\
      (forall p, xr_view r0 p = res o ms multi sn L true V1 p) /\
      xr_notifs r0 = node_notifs V1 true L sn /\
      xr_merged r0 = [is_dir (sdent sn) && x_isdir (V1 L)] /\
      xr_paths r0 = prefixes [] target ++ s_paths L sn.
  Proof.
    intros Eres. unfold overlay_one. destruct (spec_resolve V (clean dst)) as [D|]; [|discriminate].
    set (L' := landing o sn src D V).
    set (target := if o_dircontents o && is_dir (sdent sn) && negb (x_exists (V D)) then L' else parent L').
    destruct (make_dirs o [] target V) as [V1|] eqn:EM; [|discriminate].
    destruct (if o_replace o then None else first_conflict V1 L' sn); [discriminate|].
    intro H; inversion H; subst r0; clear H. cbn [xr_view xr_notifs xr_landings xr_merged xr_paths].
    intro H. assert (HL : L' = L) by congruence. clear H. intro Hr1.
    assert (HL0 : L = [] -> is_dir (sdent sn) = true /\ x_isdir (V1 []) = true).
    { intro E0. specialize (Hr1 E0). split; [|eapply make_dirs_mono; eauto].
      apply (landing_nil o sroot src sn D V (proj2 Hsrc) Eres Hr1). rewrite <- E0. exact HL. }
    assert (HT : target = L' \/ target = parent L') by (unfold target; destruct (_ && _ && _); auto).
    clearbody target. clearbody L'. subst L'.
    exists V1, target. do 3 (split; auto). split; auto.
    intro p. unfold res. destruct L as [|l0 L0]; auto. destruct (HL0 eq_refl) as [-> ->]. auto.
  Qed.

  (* what a successful [overlay_all] went through: the ensure path of dst is made (nothing, when
     dst has none: then it is the root), then the sources are overlaid *)
  Lemma overlay_all_inv V0 src dst r :
    x_isdir (xview_of V0 []) = true -> overlay_all o sroot V0 src dst = inl r ->
    let ep := rooted (ensure_arg dst) in
    exists X1 eps ms srcs r0,
      make_dirs o [] ep (xview_of V0) = inl X1 /\ incl eps (prefixes [] ep) /\ incl (prefixes [] ep) ([] :: eps) /\
      (ensure_arg dst <> [] -> spec_resolve (xview_of V0) (ensure_arg dst) = inl ep /\ eps = prefixes [] ep) /\
      x_isdir (X1 []) = true /\ parse_of = Some ms /\
      (if o_wild o then resolve_wild sroot src else inl [src]) = inl srcs /\
      overlay_srcs o sroot ms dst srcs X1 = inl r0 /\
      r = {| xr_view := xr_view r0; xr_notifs := xr_notifs r0; xr_landings := xr_landings r0;
             xr_merged := xr_merged r0; xr_paths := eps ++ xr_paths r0 |}.
  Proof.
    intros Hroot Eo ep. revert Eo. unfold overlay_all.
    destruct (match ensure_arg dst with [] => _ | _ => _ end) as [[X1 eps]|] eqn:E0; [|discriminate].
    destruct parse_of as [ms|] eqn:Ep; unfold parse_of in Ep; rewrite Ep; [|discriminate].
    destruct (if o_wild o then _ else _) as [[|s0 srcs]|[]]; try discriminate.
    destruct (overlay_srcs o sroot ms dst (s0 :: srcs) X1) as [r0|] eqn:E3; [|discriminate].
    intro H; inversion H; subst r; clear H.
    assert (make_dirs o [] ep (xview_of V0) = inl X1 /\ incl eps (prefixes [] ep) /\ incl (prefixes [] ep) ([] :: eps) /\
            (ensure_arg dst <> [] -> spec_resolve (xview_of V0) (ensure_arg dst) = inl ep /\ eps = prefixes [] ep)) as (A1 & A2 & A3 & A4).
    { subst ep. destruct (ensure_arg dst) as [|c0 e0].
      - inversion E0; subst. split; [|split; [apply incl_nil_l|split; [apply incl_refl|congruence]]].
        change (rooted []) with (@nil (list N)). rewrite make_dirs_nil. unfold x_isdir in Hroot.
        destruct (xview_of V0 []); [rewrite Hroot; reflexivity|discriminate].
      - destruct (spec_resolve _ _) as [ep|] eqn:ER; [|discriminate]. rewrite (spec_resolve_lex _ _ _ ER) in *.
        destruct (make_dirs o [] _ _) as [X|] eqn:EM; [|discriminate]. inversion E0; subst.
        auto using incl_refl, incl_tl. }
    exists X1, eps, ms, (s0 :: srcs), r0. do 4 (split; auto). split; [eapply make_dirs_mono; eauto|auto].
  Qed.

  (* ... for one literal source *)
  Lemma overlay_all_single V0 src dst r ms sn L :
    o_wild o = false -> x_isdir (xview_of V0 []) = true -> overlay_all o sroot V0 src dst = inl r ->
    parse_of = Some ms -> s_resolve sroot (rooted src) = inl sn -> xr_landings r = [L] ->
    let ep := rooted (ensure_arg dst) in
    exists X1 eps V1 target,
      make_dirs o [] ep (xview_of V0) = inl X1 /\ incl eps (prefixes [] ep) /\ incl (prefixes [] ep) ([] :: eps) /\
      (ensure_arg dst <> [] -> spec_resolve (xview_of V0) (ensure_arg dst) = inl ep /\ eps = prefixes [] ep) /\
      (target = L \/ target = parent L) /\ make_dirs o [] target X1 = inl V1 /\
      (L = [] -> is_dir (sdent sn) = true /\ x_isdir (V1 []) = true) /\
      (forall p, xr_view r p = res o ms multi sn L true V1 p) /\
      xr_notifs r = node_notifs V1 true L sn /\
      xr_merged r = [is_dir (sdent sn) && x_isdir (V1 L)] /\
      xr_paths r = eps ++ prefixes [] target ++ s_paths L sn.
  Proof.
    intros Hw Hroot Eo Hp Hs HL ep.
    destruct (overlay_all_inv _ _ _ _ Hroot Eo) as (X1 & eps & ms' & srcs & r0 & A1 & A2 & A2' & A3 & Hr1 & A4 & A5 & A6 & ->).
    rewrite Hw in A5. inversion A5; subst srcs. rewrite Hp in A4. inversion A4; subst ms'.
    cbn [overlay_srcs] in A6. rewrite Hs in A6.
    destruct (overlay_one o ms multi sn src dst X1) as [r1|] eqn:E1; [|discriminate].
    inversion A6; subst r0; clear A6. cbn [xr_view xr_notifs xr_landings xr_merged xr_paths] in *. rewrite !app_nil_r in *.
    destruct (overlay_one_at _ _ _ _ _ _ L Hs E1 HL (fun _ => Hr1)) as (V1 & target & B1 & B2 & B3 & B4 & B5 & B6 & B7).
    exists X1, eps, V1, target. rewrite B5, B6, B7. do 10 (split; auto).
  Qed.
End Single.

(* destination paths of the non-directories of a source node, in copy order *)
Fixpoint nd_paths (p : list (list N)) (n : snode) {struct n} : list (list (list N)) :=
  match n with
  | SNode _ _ sd kids =>
    if is_dir sd then
      (fix go (l : list snode) : list (list (list N)) :=
         match l with [] => [] | k :: r => nd_paths (p ++ [sname k]) k ++ go r end) kids
    else [p]
  end.

Lemma notifs_nondirs V : forall n top p,
  map fst (filter (fun pb => negb (snd pb)) (node_notifs V top p n)) = nd_paths p n.
Proof.
  induction n as [nm ino sd kids IH] using snode_ind2. intros top p. cbn [node_notifs nd_paths].
  destruct (is_dir sd); auto. rewrite filter_app, map_app.
  assert (E : map fst (filter (fun pb : list (list N) * bool => negb (snd pb)) (if top && x_isdir (V p) then [] else [(p, true)])) = []).
  { destruct (top && x_isdir (V p)); auto. }
  rewrite E. simpl. induction kids as [|k r IHr]; auto. inversion IH as [|? ? Hk Hr]; subst.
  rewrite filter_app, map_app, Hk, IHr; auto.
Qed.

(* the entries of a kid, seen from the parent.  The enumerations of a source tree below
   ([node_notifs], [nd_paths], [s_paths]) go through the kids by a local fixpoint that is
   [flat_map] of the function on one kid, which is how their proofs read it. *)
Lemma kid_entry nm ino sd kids k (p q : list (list N)) (P : snode -> Prop) :
  wf_s (SNode nm ino sd kids) -> In k kids ->
  (exists rel s, q = (p ++ [sname k]) ++ rel /\ s_lookup k rel = Some s /\ P s) ->
  exists rel s, q = p ++ rel /\ s_lookup (SNode nm ino sd kids) rel = Some s /\ P s.
Proof.
  intros Hwf Hin (rel' & s' & -> & Hs & HP). apply wf_s_unfold in Hwf. destruct Hwf as (_ & _ & Hnd & _).
  exists (sname k :: rel'), s'. rewrite <- app_assoc. split; auto. split; auto.
  cbn [s_lookup skids]. rewrite (find_kid_in_nodup _ Hnd _ Hin). exact Hs.
Qed.

Lemma notifs_dirs V : forall n, wf_s n -> forall top p q, In (q, true) (node_notifs V top p n) ->
  exists rel s, q = p ++ rel /\ s_lookup n rel = Some s /\ is_dir (sdent s) = true.
Proof.
  induction n as [nm ino sd kids IH] using snode_ind2. intros Hwf top p q. cbn [node_notifs].
  destruct (is_dir sd) eqn:Hd; [|intros [H|[]]; inversion H].
  intro H. apply in_app_or in H. destruct H as [H|H].
  - destruct (top && x_isdir (V p)); [destruct H|]. destruct H as [H|[]]. inversion H; subst.
    exists [], (SNode nm ino sd kids). rewrite app_nil_r. auto.
  - change (In (q, true) (flat_map (fun k => node_notifs V false (p ++ [sname k]) k) kids)) in H.
    apply in_flat_map in H as (k & Hin & H). apply (kid_entry _ _ _ _ k p q (fun s => is_dir (sdent s) = true) Hwf Hin).
    rewrite Forall_forall in IH. apply wf_s_unfold in Hwf. destruct Hwf as (_ & _ & _ & Hall). rewrite Forall_forall in Hall.
    eapply IH; eauto.
Qed.

Lemma nd_paths_spec : forall n, wf_s n -> forall p q, In q (nd_paths p n) ->
  exists rel s, q = p ++ rel /\ s_lookup n rel = Some s /\ is_dir (sdent s) = false.
Proof.
  induction n as [nm ino sd kids IH] using snode_ind2. intros Hwf p q. cbn [nd_paths].
  destruct (is_dir sd) eqn:Hd.
  2:{ intros [<-|[]]. exists [], (SNode nm ino sd kids). rewrite app_nil_r. auto. }
  intro H. change (In q (flat_map (fun k => nd_paths (p ++ [sname k]) k) kids)) in H.
  apply in_flat_map in H as (k & Hin & H). apply (kid_entry _ _ _ _ k p q (fun s => is_dir (sdent s) = false) Hwf Hin).
  rewrite Forall_forall in IH. apply wf_s_unfold in Hwf. destruct Hwf as (_ & _ & _ & Hall). rewrite Forall_forall in Hall.
  eapply IH; eauto.
Qed.

Lemma nd_paths_complete : forall n, wf_s n -> forall p rel s,
  s_lookup n rel = Some s -> is_dir (sdent s) = false -> In (p ++ rel) (nd_paths p n).
Proof.
  induction n as [nm ino sd kids IH] using snode_ind2. intros Hwf p rel s. cbn [nd_paths].
  apply wf_s_unfold in Hwf. destruct Hwf as (_ & Hk & Hnd & Hall).
  destruct rel as [|a rel].
  - simpl. intro H; inversion H; subst. cbn [sdent]. intros ->. rewrite app_nil_r. left; auto.
  - cbn [s_lookup skids]. destruct (find_kid a kids) as [k|] eqn:Ef; [|discriminate]. intros Hs Hd.
    destruct (is_dir sd) eqn:Hdd; [|rewrite (Hk eq_refl) in Ef; discriminate].
    pose proof (find_kid_in _ _ _ Ef) as Hin. pose proof (find_kid_name _ _ _ Ef) as Hn. subst a.
    rewrite Forall_forall in IH, Hall.
    pose proof (IH k Hin (Hall k Hin) (p ++ [sname k]) rel s Hs Hd) as Hi. rewrite <- app_assoc in Hi. simpl in Hi.
    change (In (p ++ sname k :: rel) (flat_map (fun k => nd_paths (p ++ [sname k]) k) kids)).
    apply in_flat_map. eauto.
Qed.

Definition empty_dst (fs : fsys) : Prop := wf_fs fs /\ forall p, p <> [] -> names fs p = None.

(* every path the call may create above the target that lies below the landing path is a path of
   the source (it fails when the directories made for dst reach below the landing path; a sufficient
   condition on dst alone is [landing_clear_of_prefix], CopyWildP.v) *)
Definition landing_clear (r : xres) (sn : snode) (L : list (list N)) : Prop :=
  forall rel, rel <> [] -> In (L ++ rel) (xr_paths r) -> s_lookup sn rel <> None.


Lemma reg_not_dir sd : is_reg sd = true -> is_dir sd = false.
Proof. unfold is_reg, is_dir. intro H. apply N.eqb_eq in H. rewrite H. reflexivity. Qed.

Lemma count_N_app i l1 l2 : count_N i (l1 ++ l2) = (count_N i l1 + count_N i l2)%nat.
Proof. induction l1 as [|j r IH]; simpl; auto. destruct (N.eqb i j); simpl; rewrite IH; auto. Qed.

Lemma s_inos_unfold nm i d kids : s_inos (SNode nm i d kids) = (if is_dir d then [] else [i]) ++ flat_map s_inos kids.
Proof. reflexivity. Qed.

Lemma count_kid i k l : In k l -> (count_N i (s_inos k) <= count_N i (flat_map s_inos l))%nat.
Proof.
  induction l as [|x r IH]; [intros []|]. intros [->|H]; simpl; rewrite count_N_app; [lia|]. specialize (IH H). lia.
Qed.
Lemma count_two_kids i k1 k2 l : In k1 l -> In k2 l -> sname k1 <> sname k2 ->
  (count_N i (s_inos k1) + count_N i (s_inos k2) <= count_N i (flat_map s_inos l))%nat.
Proof.
  induction l as [|x r IH]; intros H1 H2 Hne; [destruct H1|]. simpl. rewrite count_N_app.
  destruct H1 as [->|H1], H2 as [->|H2]; try congruence.
  - pose proof (count_kid i k2 r H2). lia.
  - pose proof (count_kid i k1 r H1). lia.
  - specialize (IH H1 H2 Hne). lia.
Qed.

Lemma count_lookup i r n : forall s, s_lookup n r = Some s -> (count_N i (s_inos s) <= count_N i (s_inos n))%nat.
Proof.
  intro s. apply (s_lookup_kids (fun s => (count_N i (s_inos s) <= count_N i (s_inos n))%nat)); [|lia].
  intros [nm j d kids] k Hm Hin. rewrite s_inos_unfold, count_N_app in Hm. pose proof (count_kid i k kids Hin). lia.
Qed.

Lemma count_one r n s : s_lookup n r = Some s -> is_dir (sdent s) = false -> (1 <= count_N (sino s) (s_inos n))%nat.
Proof.
  intros Hs Hd. pose proof (count_lookup (sino s) _ _ _ Hs) as H. destruct s as [nm i d kids]. cbn [sdent sino] in *.
  rewrite s_inos_unfold, Hd in H. simpl in H. rewrite N.eqb_refl in H. lia.
Qed.

Lemma count_two : forall n, wf_s n -> forall r1 r2 s1 s2, r1 <> r2 ->
  s_lookup n r1 = Some s1 -> s_lookup n r2 = Some s2 ->
  is_dir (sdent s1) = false -> is_dir (sdent s2) = false -> sino s1 = sino s2 ->
  (2 <= count_N (sino s1) (s_inos n))%nat.
Proof.
  induction n as [nm i d kids IH] using snode_ind2. intros Hwf r1 r2 s1 s2 Hne H1 H2 Hd1 Hd2 Hi.
  apply wf_s_unfold in Hwf. destruct Hwf as (_ & Hk & Hnd & Hall).
  destruct r1 as [|a1 t1], r2 as [|a2 t2]; try congruence.
  - simpl in H1. inversion H1; subst s1. cbn [sdent] in Hd1. rewrite (Hk Hd1) in H2. simpl in H2. discriminate.
  - simpl in H2. inversion H2; subst s2. cbn [sdent] in Hd2. rewrite (Hk Hd2) in H1. simpl in H1. discriminate.
  - cbn [s_lookup skids] in H1, H2.
    destruct (find_kid a1 kids) as [k1|] eqn:E1; [|discriminate].
    destruct (find_kid a2 kids) as [k2|] eqn:E2; [|discriminate].
    rewrite s_inos_unfold, count_N_app.
    destruct (list_eq_dec N.eq_dec a1 a2) as [->|Hna].
    + rewrite E1 in E2. inversion E2; subst k2.
      rewrite Forall_forall in IH, Hall. pose proof (find_kid_in _ _ _ E1) as Hin.
      assert (t1 <> t2) by congruence.
      pose proof (IH k1 Hin (Hall k1 Hin) t1 t2 s1 s2 H H1 H2 Hd1 Hd2 Hi).
      pose proof (count_kid (sino s1) k1 kids Hin). lia.
    + pose proof (count_one _ _ _ H1 Hd1). pose proof (count_one _ _ _ H2 Hd2). rewrite <- Hi in H0.
      pose proof (count_two_kids (sino s1) k1 k2 kids (find_kid_in _ _ _ E1) (find_kid_in _ _ _ E2)).
      rewrite (find_kid_name _ _ _ E1), (find_kid_name _ _ _ E2) in H3. specialize (H3 Hna). lia.
Qed.

(* a link group of the source: two paths of one inode below a resolved node *)
Lemma multi_of_two sroot p sn r1 r2 s1 s2 :
  s_resolve sroot p = inl sn -> wf_s sn -> r1 <> r2 ->
  s_lookup sn r1 = Some s1 -> s_lookup sn r2 = Some s2 ->
  is_dir (sdent s1) = false -> is_dir (sdent s2) = false -> sino s1 = sino s2 ->
  multi_of sroot (sino s1) = true.
Proof.
  intros Hr Hwf Hne H1 H2 Hd1 Hd2 Hi.
  pose proof (count_two sn Hwf r1 r2 s1 s2 Hne H1 H2 Hd1 Hd2 Hi).
  pose proof (count_lookup (sino s1) _ _ _ (s_resolve_lookup _ _ _ Hr)). unfold multi_of.
  destruct (count_N (sino s1) (s_inos sroot)) as [|[|n]]; try lia; auto.
Qed.

Section C13.
  Variable o : copts.
  Variable sroot : snode.
  Hypothesis Hsrc : wf_src sroot.
  Notation multi := (multi_of sroot).
  Variable ms : option (list bitcmd).
  Variable sn : snode.
  Hypothesis Hwf : wf_s sn.
  Variables (L : list (list N)) (V1 X : xview) (V : view).
  (* the expected view at and below L is the source laid over V1 (V1: after the directories were made) *)
  Hypothesis HL : L = [] -> is_dir (sdent sn) = true /\ x_isdir (V1 []) = true.
  Hypothesis HX : forall rel, X (L ++ rel) = res o ms multi sn L true V1 (L ++ rel).

  (* dentries: when everything V1 has strictly below L is a directory just made, at a source path *)
  Lemma iso_of_match :
    (forall rel e, rel <> [] -> V1 (L ++ rel) = Some e -> s_lookup sn rel <> None /\ fresh_dir_like (x_d e)) ->
    (forall p, match_at V X p = true) ->
    forall rel, iso_at o ms (is_dir (sdent sn) && x_isdir (V1 L)) sn L V rel = true.
  Proof.
    intros HV HM rel. unfold iso_at. specialize (HM (L ++ rel)). unfold match_at in HM. rewrite HX in HM.
    destruct (s_lookup sn rel) as [s|] eqn:Es.
    - rewrite (res_at_source _ _ _ _ _ _ _ _ HL Es) in HM.
      destruct (V (L ++ rel)) as [[i d]|]; [|discriminate].
      rewrite (dent_match_eq _ _ HM (copied_known _ _ _ _ _ _ _)).
      pose proof (wf_s_dent _ (s_lookup_wf _ _ _ Hwf Es)) as Hwd.
      destruct rel as [|a rel].
      + simpl in Es. inversion Es; subst s. rewrite app_nil_r.
        destruct (is_dir (sdent sn) && x_isdir (V1 L)) eqn:Eb.
        * apply andb_true_iff in Eb as [Ed Ed']. destruct (V1 L) as [e|]; [|discriminate].
          rewrite Ed, copied_merged by auto. unfold faithful_top_merged. cbn. rewrite N.eqb_refl, andb_true_r. exact Ed'.
        * rewrite copied_unmerged by auto. apply new_entry_faithful.
      + apply copied_faithful; auto. intros _. split; auto. intros e He. apply (HV (a :: rel)); [discriminate|auto].
    - rewrite res_at_nonsource in HM by auto.
      assert (Hrel : rel <> []) by (intro; subst; destruct sn; discriminate).
      assert (EV : V1 (L ++ rel) = None).
      { destruct (V1 (L ++ rel)) eqn:E; auto. destruct (HV rel _ Hrel E) as [C _]. contradiction. }
      rewrite EV in HM. destruct (shadowed sn rel), (V (L ++ rel)) as [[i d]|]; auto; discriminate.
  Qed.

  (* the partition: regular files of the source are new entries, keyed by their link group or
     their path, and two paths of one inode below sn make a link group of the whole source *)
  Lemma part_of_keys p0 : s_resolve sroot p0 = inl sn -> view_matches V X ->
    forall r1 r2, part_at sn L V r1 r2 = true.
  Proof.
    intros Hs (VM & VK) r1 r2. unfold part_at.
    destruct (s_lookup sn r1) as [s1|] eqn:E1s; auto. destruct (s_lookup sn r2) as [s2|] eqn:E2s; auto.
    destruct (V (L ++ r1)) as [[i1 d1]|] eqn:EV1; auto. destruct (V (L ++ r2)) as [[i2 d2]|] eqn:EV2; auto.
    destruct (is_reg (sdent s1) && is_reg (sdent s2)) eqn:Ereg; auto.
    apply andb_true_iff in Ereg as [Er1 Er2].
    pose proof (reg_not_dir _ Er1) as Nd1. pose proof (reg_not_dir _ Er2) as Nd2.
    pose proof (VK (L ++ r1) (L ++ r2)) as HK. pose proof (VM (L ++ r1)) as HM1. pose proof (VM (L ++ r2)) as HM2.
    unfold keys_at, match_at in *. rewrite EV1, HX, (res_at_source _ _ _ _ _ _ _ _ HL E1s), copied_unmerged in HK, HM1 by (rewrite Nd1; auto).
    rewrite EV2, HX, (res_at_source _ _ _ _ _ _ _ _ HL E2s), copied_unmerged in HK, HM2 by (rewrite Nd2; auto).
    rewrite (dent_match_eq _ _ HM1 eq_refl), (dent_match_eq _ _ HM2 eq_refl), !new_entry_d, !ne_d_nondir in HK by auto.
    cbn [orb] in HK. rewrite !new_entry_key, Er1, Er2 in HK. cbn [andb] in HK.
    apply Bool.eqb_prop in HK. rewrite HK. clear HK.
    destruct (multi (sino s1)) eqn:M1, (multi (sino s2)) eqn:M2; cbn [ikey_eqb].
    - destruct (N.eqb (sino s1) (sino s2)); reflexivity.
    - destruct (N.eqb (sino s1) (sino s2)) eqn:E; auto. apply N.eqb_eq in E. rewrite E in M1. congruence.
    - destruct (N.eqb (sino s1) (sino s2)) eqn:E; auto. apply N.eqb_eq in E. rewrite E in M1. congruence.
    - destruct (path_eqb (L ++ r1) (L ++ r2)) eqn:Ep.
      + apply path_eqb_eq in Ep. apply app_inv_head in Ep. subst r2. rewrite E1s in E2s. inversion E2s; subst.
        rewrite N.eqb_refl. reflexivity.
      + destruct (N.eqb (sino s1) (sino s2)) eqn:E; auto. apply N.eqb_eq in E. exfalso.
        assert (r1 <> r2) by (intro; subst; rewrite path_eqb_refl in Ep; discriminate).
        rewrite (multi_of_two sroot _ sn r1 r2 s1 s2 Hs Hwf H E1s E2s Nd1 Nd2 E) in M1. discriminate.
  Qed.
End C13.

(* C15: always-replace, the source wins *)
Section Wins.
  Variable o : copts.
  Variable sroot : snode.
  Hypothesis Hsrc : wf_src sroot.
  Hypothesis Hlc : links_consistent sroot.
  Notation multi := (multi_of sroot).

  Lemma s_resolve_wf_src src sn : s_resolve sroot (rooted src) = inl sn -> wf_s sn.
  Proof. destruct Hsrc. eapply s_resolve_wf; eauto. Qed.

  (* after a successful copy every source entry is at its destination path with the source's
     type; a source non-directory is there as a faithful copy, whatever was there before *)
  Theorem source_entries_present_partial_proof fs src dst r ms sn L :
    o_wild o = false -> wf_fs fs ->
    overlay_all o sroot (view_of_fs fs) src dst = inl r ->
    parse_of o = Some ms -> s_resolve sroot (rooted src) = inl sn -> xr_landings r = [L] ->
    exists st', copy_top o sel_all sroot fs src dst = (st', None) /\
      forall rel s, s_lookup sn rel = Some s ->
        exists i d, view_of_fs (c_fs st') (L ++ rel) = Some (i, d) /\ ftype d = copy_type (sdent s) /\
                    (is_dir (sdent s) = false -> faithful_dent o ms (sdent s) d = true).
  Proof.
    intros Hw Hfs Eo Hp Hs HL.
    destruct (top o sroot Hsrc Hlc (or_intror Hw) fs src dst Hfs) as (sdof & HT). rewrite Eo in HT.
    destruct HT as (st' & E1 & I & S & _). exists st'. split; auto.
    destruct (inv_init o fs Hfs) as (_ & Hroot & _).
    destruct (overlay_all_single o sroot Hsrc _ src dst r ms sn L Hw Hroot Eo Hp Hs HL)
      as (X1 & eps & V1 & target & _ & _ & _ & _ & _ & _ & B7 & B8 & _).
    intros rel s Es.
    pose proof (B8 (L ++ rel)) as Ex. rewrite (res_at_source _ _ _ _ _ _ _ _ B7 Es) in Ex.
    destruct (inv_x_some _ _ _ _ _ I Ex) as (i & Hi & Hdm & _).
    exists i, (inodes (c_fs st') i). split; [unfold view_of_fs; rewrite Hi; auto|].
    rewrite (dm_eq _ _ _ Hdm (S _ _ _ Hi Ex (copied_known _ _ _ _ _ _ _))).
    split; [apply copied_ftype|]. intro Hd. rewrite copied_unmerged by (rewrite Hd; auto). apply new_entry_faithful.
  Qed.
End Wins.

