(* Files whose content is not needed are never served, so nothing is ever written for them.
   With success_content_proof this gives outcome_deterministic for runs that end in success. *)
From Coq Require Import List Arith Bool PeanoNat Lia ZifyBool Permutation.
From FS Require Import Model.Lts Model.LtsExplore Proofs.LtsInv Proofs.LtsSafe Proofs.LtsTerm Proofs.LtsC08 Proofs.LtsTok Proofs.LtsContent.
Import ListNotations.

(* every REQ in flight names an entry whose content is needed *)
Definition req_ok (p : params) (pk : packet) : bool :=
  match pk with PReq x => match kind_of p x with ENeed => true | _ => false end | _ => true end.
Definition invR (p : params) (st : state) : Prop := forallb (req_ok p) (buf_rs st) = true.

Lemma forallb_snoc : forall A (f : A -> bool) l x, forallb f (l ++ [x]) = forallb f l && f x.
Proof. intros. rewrite forallb_app. unfold forallb at 2. rewrite andb_true_r. reflexivity. Qed.

Lemma invR_step : forall p st l st', inv7a p st -> invR p st -> step p st l = Some st' -> invR p st'.
Proof.
  intros p st l st' I7 I H. unfold invR in *.
  step_cases H l; cbn; try assumption.
  all: try (apply andb_prop in I; apply I).
  all: rewrite forallb_snoc, I; try reflexivity.
  (* a writer requests its own id, which is needed *)
  cbn. match goal with E : nth_error (wrs _) _ = Some _ |- _ => rewrite (I7 _ _ E) end. reflexivity.
Qed.

Lemma invR_reachable : forall p st, reachable p st -> invR p st.
Proof.
  induction 1.
  - reflexivity.
  - eapply invR_step; eauto. apply (inv7_reachable _ _ H).
Qed.

Record ninv (id : nat) (st : state) : Prop := {
  n_w : Wc id st + Fc id st = 0;
  n_t : rq_h id (rq_pc st) + cnt id (pipe st) + heldc id st + donec id st = 0
}.

Lemma req_needed : forall p id x l, kind_of p id <> ENeed ->
  forallb (req_ok p) (PReq x :: l) = true -> (id =? x) = false.
Proof.
  intros p id x l K F. apply Nat.eqb_neq. intros ->. apply K.
  apply andb_prop in F. destruct F as [F _]. unfold req_ok in F.
  destruct (kind_of p x); try discriminate F. reflexivity.
Qed.

(* Same plan as [cinv_step].  Every move of a token of [id] needs one to be there, except the
   arrival of REQ id, which [invR] excludes. *)
Lemma ninv_step : forall p id st l st',
  kind_of p id <> ENeed -> invR p st -> ninv id st -> step p st l = Some st' -> ninv id st'.
Proof.
  intros p id st l st' K IR [Nw Nt] H. unfold invR in IR.
  unfold Wc, Fc, heldc, donec in *.
  step_cases H l; try solve [constructor; assumption].
  all: old_counts.
  all: try match goal with E : nth_error (wks _) ?j = Some ?w |- context [setw ?j ?w' _] =>
         pose proof (sumf_set_nth _ (held id) _ j w w' E) as X;
         pose proof (sumf_ge_nth _ (held id) _ _ _ E) as Y; cbn [held] in X, Y end.
  all: try (apply (req_needed p id) in IR; [|exact K]).
  all: constructor; try assumption; new_counts; try assumption.
  all: try (rewrite IR; cbn [b2n]).
  all: drop_guards; lia.
Qed.

Lemma ninv_init : forall p id, ninv id (init p).
Proof.
  intros p id. constructor; unfold Wc, Fc, heldc, donec; cbn; rewrite ?sumf_repeat_idle; reflexivity.
Qed.

Lemma ninv_reachable : forall p id st, kind_of p id <> ENeed -> reachable p st -> ninv id st.
Proof.
  intros p id st K. induction 1.
  - apply ninv_init.
  - eapply ninv_step; eauto. eapply invR_reachable; eauto.
Qed.

(* the number of chunks written for each id when Receive has returned nil (no Open error):
   all of its chunks if its content is needed, none otherwise *)
Definition expected_chunks (p : params) (id : nat) : nat :=
  match kind_of p id with ENeed => chunks_of p id | _ => 0 end.

Lemma success_written_proof : forall p st, reachable p st ->
  recv_ret st = Some true -> g_open_err st = false ->
  forall id, cnt id (written st) = expected_chunks p id.
Proof.
  intros p st R Ok Oe id. unfold expected_chunks.
  destruct (kind_of p id) eqn:K.
  3: { apply success_content_proof; auto. apply need_ids_spec. exact K. }
  all: assert (N: kind_of p id <> ENeed) by congruence;
       destruct (ninv_reachable p id st N R) as [Nw _]; unfold Wc in Nw; lia.
Qed.

Lemma cnt_count_occ : forall id l, cnt id l = count_occ Nat.eq_dec l id.
Proof.
  intros. unfold cnt. induction l; cbn; auto.
  destruct (Nat.eq_dec a id); destruct (Nat.eqb_spec id a); subst; try congruence; cbn; auto.
Qed.

(* outcome_deterministic for executions that end with Receive returning nil and without an
   injected Open error: request and completion sequences (up to order) and the number of
   chunks written per file are determined by the parameters *)
Lemma outcome_deterministic_success_proof : forall p st1 st2,
  reachable p st1 -> reachable p st2 ->
  recv_ret st1 = Some true -> recv_ret st2 = Some true ->
  g_open_err st1 = false -> g_open_err st2 = false ->
  Permutation (completed st1) (completed st2) /\
  Permutation (reqs st1) (reqs st2) /\
  Permutation (written st1) (written st2).
Proof.
  intros p st1 st2 R1 R2 O1 O2 E1 E2. repeat split.
  - eapply perm_trans. eapply success_completed_permutation_proof; eauto.
    apply Permutation_sym. eapply success_completed_permutation_proof; eauto.
  - eapply perm_trans. eapply success_requests_permutation_proof; eauto.
    apply Permutation_sym. eapply success_requests_permutation_proof; eauto.
  - apply (Permutation_count_occ Nat.eq_dec). intro id. rewrite <- !cnt_count_occ.
    rewrite (success_written_proof p st1 R1 O1 E1 id), (success_written_proof p st2 R2 O2 E2 id). reflexivity.
Qed.

Definition not_open_err (l : label) : bool := match l with LWorkerOpenErr _ => false | _ => true end.

Lemma open_err_step : forall p st l st', step p st l = Some st' -> not_open_err l = true ->
  g_open_err st' = g_open_err st.
Proof.
  intros p st l st' H N. step_cases H l; try discriminate N; reflexivity.
Qed.

Lemma open_err_run : forall p ls st st', run p st ls = Some st' -> forallb not_open_err ls = true ->
  g_open_err st' = g_open_err st.
Proof.
  induction ls; intros st st' H F; cbn in H.
  - injection H as H. subst. reflexivity.
  - destruct (step p st a) as [s1|] eqn:E; try discriminate.
    apply andb_prop in F. destruct F as [F1 F2].
    rewrite (IHls _ _ H F2). eapply open_err_step; eauto.
Qed.

Lemma outcome_deterministic_runs_proof : forall p ls1 ls2 st1 st2,
  forallb not_open_err ls1 = true -> forallb not_open_err ls2 = true ->
  run p (init p) ls1 = Some st1 -> run p (init p) ls2 = Some st2 ->
  recv_ret st1 = Some true -> recv_ret st2 = Some true ->
  Permutation (completed st1) (completed st2) /\
  Permutation (reqs st1) (reqs st2) /\
  Permutation (written st1) (written st2).
Proof.
  intros p ls1 ls2 st1 st2 F1 F2 R1 R2 O1 O2.
  apply (outcome_deterministic_success_proof p); auto.
  - eapply run_reachable; eauto. constructor.
  - eapply run_reachable; eauto. constructor.
  - rewrite (open_err_run _ _ _ _ R1 F1). reflexivity.
  - rewrite (open_err_run _ _ _ _ R2 F2). reflexivity.
Qed.

Lemma success_written_count_occ_proof : forall p st, reachable p st ->
  recv_ret st = Some true -> g_open_err st = false ->
  forall id, count_occ Nat.eq_dec (written st) id = expected_chunks p id.
Proof. intros p st R O E id. rewrite <- cnt_count_occ. exact (success_written_proof p st R O E id). Qed.
