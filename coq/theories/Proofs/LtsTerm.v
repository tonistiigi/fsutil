(* Termination after tear-down (DESIGN A.7): in every torn-down state each step
   strictly decreases a measure; every reachable torn-down state that is not final
   has an enabled program step (given p_W >= 1 and p_old_queue = false).  Hence every execution from a torn-down state is
   finite and ends with both calls returned and every goroutine ended. *)
From Coq Require Import List Arith Bool PeanoNat Lia.
From FS Require Import Model.Lts Proofs.LtsInv Proofs.LtsSafe.
Import ListNotations.

(* The measure is a weighted sum (a degenerate lexicographic order). *)
Definition sw_m (pc : swpc) : nat :=
  match pc with
  | SW_Next => 5 | SW_Lock KErr => 2 | SW_Send KErr => 1
  | SW_Lock _ => 4 | SW_Send _ => 3 | SW_Done => 0 end.
Definition wk_m (w : wkpc) : nat :=
  match w with
  | WK_Idle => 7 | WK_Ctx _ => 6 | WK_Open _ => 5 | WK_Read _ _ => 4
  | WK_Lock _ _ | WK_LockFin _ => 3 | WK_Send _ _ | WK_SendFin _ => 2 | WK_Done => 0 end.
Definition rq_m (pc : rqpc) : nat :=
  match pc with
  | RQ_Push _ => 6 | RQ_Top => 5 | RQ_LockFin => 5 | RQ_Recv => 4 | RQ_SendFin => 4
  | RQ_Close _ => 2 | RQ_Ret _ => 1 | RQ_Done => 0 end.
Definition w_c2 : nat := 12.       (* an entry queued in c2: two diff-loop steps + one writer *)
Definition w_walk : nat := 14.     (* an entry queued in walkChan: two fill steps + a c2 entry *)
Definition rl_m (pc : rlpc) : nat :=
  match pc with
  | RL_Upd => 18 | RL_Push => 17 | RL_UpdEnd | RL_Write _ | RL_CloseP _ => 3
  | RL_Recv | RL_Drain => 2 | RL_Done => 0 end.
Definition fl_m (pc : flpc) : nat :=
  match pc with FL_Push => 17 | FL_Sel => 4 | FL_Close _ => 2 | FL_Ret _ => 1 | FL_Done => 0 end.
Definition dl_m (pc : dlpc) : nat :=
  match pc with DL_Handle _ => 11 | DL_Next => 1 | DL_Done => 0 end.
Definition do_m (pc : dopc) : nat :=
  match pc with
  | DO_WaitDiff => 4 | DO_WaitW => 3 | DO_LockFin | DO_LockErr => 2
  | DO_SendFin | DO_SendErr => 1 | DO_Done => 0 end.
Definition wr_m (w : writer) : nat :=
  match wr_pc w with
  | WR_Start => 5 | WR_Lock => 4 | WR_Send => 3 | WR_Wait => 2 | WR_Notify => 1 | WR_Done => 0 end.
Definition sumf {A} (f : A -> nat) (l : list A) : nat := fold_right (fun x a => f x + a) 0 l.

Definition mu (st : state) : nat :=
  sw_m (sw_pc st) + sumf wk_m (wks st) + rq_m (rq_pc st)
  + b2n (is_none (send_ret st)) + b2n (negb (s_cancel st))
  + rl_m (rl_pc st) + w_walk * walk_n st + fl_m (fl_pc st) + w_c2 * c2_n st + dl_m (dl_pc st)
  + do_m (do_pc st) + sumf wr_m (wrs st)
  + b2n (is_none (recv_ret st)) + b2n (negb (r_cancel st)) + b2n (negb (sr_closed st)).

Lemma sumf_set_nth : forall A (f : A -> nat) l j w x,
  nth_error l j = Some w -> sumf f (set_nth j x l) + f w = sumf f l + f x.
Proof.
  induction l; destruct j; intros w x H; try discriminate H.
  - unfold nth_error in H. injection H as H. subst. change (set_nth 0 x (w :: l)) with (x :: l). unfold sumf; cbn. lia.
  - change (nth_error l j = Some w) in H.
    change (set_nth (S j) x (a :: l)) with (a :: set_nth j x l). unfold sumf in *; cbn.
    specialize (IHl j w x H). lia.
Qed.
Lemma sumf_snoc : forall A (f : A -> nat) l x, sumf f (l ++ [x]) = sumf f l + f x.
Proof. unfold sumf. induction l; intros; cbn; auto. rewrite IHl. lia. Qed.
Lemma sumf_cons : forall A (f : A -> nat) x l, sumf f (x :: l) = f x + sumf f l.
Proof. reflexivity. Qed.

(* where the goal sums over a list in which a step has replaced one element: how the sum moves *)
Ltac sumf_moved :=
  try match goal with E : nth_error ?l ?j = Some ?w |- context [sumf ?f (set_nth ?j ?x ?l)] =>
        pose proof (sumf_set_nth _ f l j w x E) end.
(* guards that are not about numbers only slow lia down *)
Ltac clear_non_nat :=
  repeat match goal with E : @eq ?T _ _ |- _ => lazymatch T with nat => fail | _ => clear E end end.

Arguments sumf : simpl never.
Arguments Nat.mul : simpl never.

Lemma torn_step : forall p st l st',
  torn_down st = true -> step p st l = Some st' -> mu st' < mu st /\ torn_down st' = true.
Proof.
  intros p st l st' T H. unfold torn_down in *. apply andb_prop in T. destruct T as [Ts Tr].
  destruct l; unfold_steps H; rewrite ?Ts, ?Tr in H; cbn in H; step_split H; inv_some; subst;
  (split; [|cbn; rewrite ?Ts, ?Tr; reflexivity]);
  repeat match goal with w : writer |- _ => destruct w; cbn in * |- end; subst;
  unfold mu, setw, setwr; cbn.
  (* the summands the step leaves alone are cancelled, from the right and then the common
     prefix, so that lia sees the few that move: sums of fifteen terms are slow to check *)
  all: repeat apply Nat.add_lt_mono_r; try apply Nat.add_lt_mono_l; rw_eqs; cbv iota.
  all: sumf_moved.
  all: rewrite ?sumf_snoc; cbn [wk_m wr_m wr_pc sw_m rq_m rl_m fl_m dl_m do_m b2n is_none negb] in *;
    unfold w_c2, w_walk.
  all: clear_non_nat; try lia.
  destruct k; lia.
Qed.

(* Who can be blocked on whom, for the progress proof. *)
Definition inv8 (p : params) (st : state) : Prop :=
  (match rq_pc st with RQ_Ret _ | RQ_Done => pipe_closed st = true | _ => pipe_closed st = false end) /\
  (forall j, nth_error (wks st) j = Some WK_Done -> pipe_closed st = true \/ s_cancel st = true) /\
  length (wks st) = p_W p /\
  (match fl_pc st with
   | FL_Close false | FL_Ret false => close_ch st = true
   | FL_Done => close_ch st = true \/ (walk_closed st = true /\ walk_n st = 0)
   | _ => True end) /\
  (r_err st = true -> r_cancel st = true) /\
  (dl_pc st = DL_Done -> d_canc st = true \/ c2_closed st = true).

Lemma inv8_step : forall p st l st',
  inv2 p st -> inv3 st -> inv8 p st -> step p st l = Some st' -> inv8 p st'.
Proof.
  intros p st l st' J2 J3 I H. unfold inv8 in I.
  destruct J2 as (_ & _ & _ & _ & _ & K6 & K7 & _ & _).
  destruct J3 as (_ & _ & _ & _ & F1 & _ & _ & _).
  destruct I as (I1 & I2 & I3 & I4 & I5 & I6).
  step_cases H l; unfold inv8; frame; unfold d_canc in *; cbn; rw_eqs; rewrite ?orb_true_r; auto;
    try discriminate.
  all: try (rewrite length_set_nth; exact I3).
  (* a worker is done only where the step has just cancelled the context, or it was done before *)
  all: try (intros j0 Hj;
       try match goal with E : nth_error (wks _) _ = Some _ |- _ =>
         destruct (nth_error_set_nth_inv _ _ _ _ _ _ _ E Hj) as [X|X];
         [discriminate X || auto | clear Hj; rename X into Hj] end;
       destruct (I2 _ Hj); auto; congruence).
  (* fill's clause: the receive loop pushes only before the end marker (K6, K7); fill returns
     nil only from a closed and empty walkChan (F1) *)
  all: destruct (fl_pc st) as [| |[]|[]|]; cbn in *; intuition congruence.
Qed.

Lemma inv8_init : forall p, inv8 p (init p).
Proof.
  intro p. unfold inv8, d_canc; cbn. repeat split; auto; try discriminate.
  - intros j H. apply nth_error_repeat in H. discriminate.
  - apply repeat_length.
Qed.

Lemma inv8_reachable : forall p st, reachable p st -> inv8 p st.
Proof.
  induction 1. apply inv8_init.
  pose proof (inv_reachable _ _ H) as J. destruct J. eapply inv8_step; eauto.
Qed.

Definition can (p : params) (st : state) : Prop :=
  exists l, is_env l = false /\ step p st l <> None.

(* [unfold_steps] for a goal [step p st l <> None] *)
Ltac unfold_goal_steps := let H := fresh in intro H; unfold_steps H; revert H.
Ltac can_by l :=
  exists l; split; [reflexivity|]; unfold_goal_steps; rw_eqs; cbn; rw_eqs; cbn;
  repeat match goal with |- context [match ?x with _ => _ end] => destruct x eqn:?; rw_eqs; cbn end;
  try discriminate.

(* a list has an element where [f] fails, or [f] holds of all of it *)
Lemma find_or_all : forall A (f : A -> bool) l,
  (exists j w, nth_error l j = Some w /\ f w = false) \/ forallb f l = true.
Proof.
  induction l.
  - right. reflexivity.
  - destruct (f a) eqn:E.
    + destruct IHl as [(j & w & A1 & A2)|B].
      * left. exists (S j), w. split; auto.
      * right. unfold forallb. rewrite E. exact B.
    + left. exists 0, a. split; auto.
Qed.

Lemma idle_pos : forall l j, nth_error l j = Some WK_Idle -> 1 <= length (filter wk_idle l).
Proof.
  induction l; destruct j; intros H; try discriminate H.
  - unfold nth_error in H. injection H as H. subst. cbn. lia.
  - change (nth_error l j = Some WK_Idle) in H. apply IHl in H. cbn. destruct (wk_idle a); cbn; lia.
Qed.

(* whoever holds a stream mutex is inside SendMsg, which completes when the endpoint has failed
   or the stream has room *)
Lemma mutex_s_can : forall p st g, mutex_inv st -> s_mu st = Some g ->
  s_broken st = true \/ room_sr p st = true -> can p st.
Proof.
  intros p st g [Ms _] M S. pose proof (proj2 (Ms g) M) as M'.
  (* the same in both cases: the owner's next step is the end of SendMsg *)
  destruct (s_broken st) eqn:B; [clear S | destruct S as [S|S]; [discriminate S|]];
  (destruct g; cbn in M'; try discriminate;
   [ destruct (sw_pc st) eqn:?; try discriminate; can_by LSWalk
   | destruct (nth_error (wks st) j) as [w|] eqn:?; try discriminate;
     destruct w; try discriminate; can_by (LWorker j)
   | destruct (rq_pc st) eqn:?; try discriminate; can_by LReq ]).
Qed.

Lemma mutex_r_can : forall p st g, mutex_inv st -> r_mu st = Some g ->
  r_broken st = true \/ room_rs p st = true -> can p st.
Proof.
  intros p st g [_ Mr] M S. pose proof (proj2 (Mr g) M) as M'.
  destruct (r_broken st) eqn:B; [clear S | destruct S as [S|S]; [discriminate S|]];
  (destruct g; cbn in M'; try discriminate;
   [ destruct (do_pc st) eqn:?; try discriminate; can_by LDiffOuter
   | destruct (nth_error (wrs st) j) as [w|] eqn:?; try discriminate;
     destruct w as [id pc]; cbn in M'; destruct pc; try discriminate; can_by (LWriter j) ]).
Qed.

Lemma sender_progress : forall p st,
  p_W p >= 1 -> p_old_queue p = false ->
  mutex_inv st -> inv8 p st -> s_broken st = true ->
  (sender_quiet st && negb (is_none (send_ret st))) = false ->
  can p st.
Proof.
  intros p st HW HQ MI (T1 & T2 & T3 & _) B NF.
  destruct (s_mu st) as [g|] eqn:M; [apply (mutex_s_can p st g MI M); auto|].
  destruct (sw_pc st) eqn:SW; try (can_by LSWalk; fail).
  (* a worker that is neither done nor idle can move *)
  destruct (find_or_all _ (fun w => wk_done w || wk_idle w) (wks st)) as [(j & w & A1 & A2)|AllDI].
  { destruct w; try discriminate; can_by (LWorker j). }
  destruct (rq_pc st) eqn:RQ; try (can_by LReq; fail).
  - (* RQ_Push: queue() *)
    destruct (find_or_all _ (fun w => negb (wk_idle w)) (wks st)) as [(j & w & A1 & A2)|AllD].
    + destruct w; try discriminate.
      destruct (pipe st) eqn:PI.
      * exists LReq. split; [reflexivity|]. unfold_goal_steps. rw_eqs.
        unfold room_pipe, idle_workers. rewrite PI. cbn.
        pose proof (idle_pos _ _ A1).
        destruct (0 <? p_P p + length (filter wk_idle (wks st))) eqn:X; try discriminate.
        apply Nat.ltb_ge in X. lia.
      * can_by (LWorker j).
    + (* every worker is done: one of them returned an error, so ctx is cancelled *)
      destruct (nth_error (wks st) 0) as [w|] eqn:W0.
      2:{ apply nth_error_None in W0. lia. }
      assert (w = WK_Done).
      { pose proof (forallb_nth _ _ _ _ _ AllDI W0) as X1. pose proof (forallb_nth _ _ _ _ _ AllD W0) as X2.
        destruct w; try discriminate; reflexivity. }
      subst w. destruct (T2 _ W0) as [X|X]; [congruence|].
      can_by LReqCtx.
  - (* RQ_Done: the pipeline is closed *)
    destruct (find_or_all _ wk_done (wks st)) as [(j & w & A1 & A2)|AllD].
    + pose proof (forallb_nth _ _ _ _ _ AllDI A1) as X. cbn in X. rewrite A2 in X. cbn in X.
      destruct w; try discriminate. can_by (LWorker j).
    + exists LSendRet. split; [reflexivity|].
      assert (Q: sender_quiet st = true).
      { unfold sender_quiet, sw_is_done, rq_is_done. rewrite SW, RQ. exact AllD. }
      rewrite Q in NF. cbn in NF. unfold step, step_send_ret. rewrite Q. cbn.
      destruct (send_ret st); cbn in *; discriminate.
Qed.

Definition receiver_quiet (st : state) : bool :=
  fl_is_done st && dl_is_done st && do_is_done st && rl_is_done st && forallb wr_done (wrs st).

Lemma writer_can : forall p st j w,
  nth_error (wrs st) j = Some w -> wr_done w = false -> r_mu st = None -> r_broken st = true ->
  r_cancel st = true -> can p st.
Proof.
  intros p st j w E ND M B RC. destruct w as [id pc]. unfold wr_done in ND. cbn in ND.
  assert (EC: eg_canc st = true) by (unfold eg_canc; rewrite RC; reflexivity).
  (* a writer waiting for its file is released by the cancelled context *)
  destruct pc; try discriminate; try (can_by (LWriter j); fail). can_by (LWriterCtx j).
Qed.

(* when every goroutine of Receive has ended, g.Wait() returns *)
Lemma recv_ret_can : forall p st,
  fl_pc st = FL_Done -> dl_pc st = DL_Done -> do_pc st = DO_Done -> rl_pc st = RL_Done ->
  forallb wr_done (wrs st) = true -> (receiver_quiet st && negb (is_none (recv_ret st))) = false ->
  can p st.
Proof.
  intros p st FL DL DO RL AD NF. exists LRecvRet. split; [reflexivity|].
  assert (Q: receiver_quiet st = true).
  { unfold receiver_quiet, fl_is_done, dl_is_done, do_is_done, rl_is_done. rw_eqs. reflexivity. }
  rewrite Q in NF. cbn in NF. unfold step, step_recv_ret, do_is_done, rl_is_done. rw_eqs. cbn.
  destruct (recv_ret st); cbn in *; discriminate.
Qed.

Lemma receiver_progress : forall p st,
  mutex_inv st -> inv1 st -> inv2 p st -> inv3 st -> inv8 p st -> r_broken st = true ->
  (receiver_quiet st && negb (is_none (recv_ret st))) = false ->
  can p st.
Proof.
  intros p st MI J1 J2 J3 (_ & _ & _ & T4 & T5 & T6) B NF.
  destruct J1 as (_ & _ & _ & A4 & A5 & _ & _ & A8 & A9 & _ & _).
  destruct J2 as (_ & _ & _ & _ & _ & K6 & K7 & _ & _).
  destruct J3 as (B1 & _ & _ & B4 & _ & B6 & _ & _).
  destruct (r_mu st) as [g|] eqn:M; [apply (mutex_r_can p st g MI M); auto|].
  destruct (rl_pc st) eqn:RL; try (can_by LRecvLoop; fail).
  - (* RL_Push: blocked on walkChan unless fill, the diff loop or closeCh help *)
    destruct (fl_pc st) eqn:FL; try (can_by LFill; fail).
    + destruct (walk_n st) eqn:WN.
      * exists LRecvLoop. split; [reflexivity|]. unfold_goal_steps. rw_eqs.
        unfold room_walk, fl_in_sel. rw_eqs. cbn.
        destruct (0 <? p_C p + 1) eqn:X; try discriminate. apply Nat.ltb_ge in X. lia.
      * can_by LFill.
    + destruct (dl_pc st) eqn:DL.
      * destruct (c2_n st) eqn:CN.
        -- exists LFill. split; [reflexivity|]. unfold_goal_steps. rw_eqs.
           unfold room_c2, dl_in_next. rw_eqs. cbn.
           destruct (0 <? p_C2 p + 1) eqn:X; try discriminate. apply Nat.ltb_ge in X. lia.
        -- can_by LDiff.
      * can_by LDiff.
      * destruct (T6 eq_refl) as [X|X].
        -- can_by LFillCtx.
        -- apply B6 in X. contradiction.
    + destruct T4 as [X|[X _]].
      * can_by LRecvLoopClosed.
      * apply K7 in X. congruence.
  - (* RL_Done *)
    destruct (r_cancel st) eqn:RC.
    2:{ (* returned nil: FIN handshake completed, so everything else is done *)
      destruct (r_err st) eqn:RE; [specialize (T5 eq_refl); congruence|].
      destruct A9 as [X|X]; [congruence|].
      destruct (B4 (A5 (A4 (A8 X)))) as (D1 & _ & _ & W1).
      rewrite D1 in B1. destruct B1 as [F1 L1].
      apply recv_ret_can; auto. }
    assert (DC: d_canc st = true) by (unfold d_canc; rewrite RC; reflexivity).
    destruct (fl_pc st) eqn:FL; try (can_by LFill; fail);
      try (can_by LFillCtx; fail).
    destruct (dl_pc st) eqn:DL; try (can_by LDiff; fail);
      try (can_by LDiffCtx; fail).
    destruct (find_or_all _ wr_done (wrs st)) as [(j & w & A1 & A2)|AD].
    { eapply writer_can; eauto. }
    destruct (do_pc st) eqn:DO; try (can_by LDiffOuter; fail).
    apply recv_ret_can; auto.
Qed.

Lemma progress_proof : forall p st,
  p_W p >= 1 -> p_old_queue p = false -> reachable p st -> torn_down st = true ->
  final st = false -> can p st.
Proof.
  intros p st HW HQ R T NF.
  pose proof (inv_reachable _ _ R) as J. pose proof (inv8_reachable _ _ R) as J8. destruct J.
  unfold torn_down in T. apply andb_prop in T. destruct T as [Ts Tr].
  destruct (sender_quiet st && negb (is_none (send_ret st))) eqn:S.
  - apply receiver_progress; auto.
    unfold final, all_done in NF. apply andb_prop in S. destruct S as [S1 S2].
    rewrite S1, S2, andb_true_r in NF. exact NF.
  - apply sender_progress; auto.
Qed.

(* Along the steps (with labels in [ok]) that keep an invariant [P], a measure that decreases on
   each of them bounds the length of every run from a state of [P]. *)
Section Bounded.
  Variables (p : params) (ok : label -> bool) (P : state -> Prop) (m : state -> nat).
  Hypothesis dec : forall st l st', P st -> ok l = true -> step p st l = Some st' -> m st' < m st /\ P st'.

  Lemma run_bounded : forall ls st st', P st -> forallb ok ls = true -> run p st ls = Some st' ->
    length ls + m st' <= m st /\ P st'.
  Proof.
    induction ls as [|a ls IH]; intros st st' I F H; cbn in H.
    - injection H as <-. auto.
    - destruct (step p st a) as [s1|] eqn:E; [|discriminate H].
      apply andb_prop in F. destruct F as [F1 F2].
      destruct (dec _ _ _ I F1 E) as [D I1]. destruct (IH _ _ I1 F2 H) as [B I'].
      split; [cbn [length]; lia | exact I'].
  Qed.
End Bounded.
