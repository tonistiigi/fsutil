(* Refinement LTS (receiver side) -> receiver acceptor: the simulation relation, one
   lemma per goroutine of the receiver, and the theorem. *)
From Coq Require Import List NArith Bool Arith PeanoNat Lia.
From FS Require Import Model.Lts Proofs.LtsInv Proofs.LtsTerm Proofs.LtsTok Proofs.LtsContent
     Proofs.LtsClean1 Proofs.LtsClean3 Proofs.LtsClean5.
From FS Require Import Sx Model.Stat Model.AccEvents Model.ReceiverAcc Model.LtsRAcc
     Proofs.AccEventsP Proofs.LtsRAccP1 Proofs.LtsRAccP2.
Import ListNotations.
Local Open Scope nat_scope.

(* what the acceptor records of the read loop: FIN read, reader stopped, EOF read *)
Definition rl_flags (pc : rlpc) : bool * bool * bool :=
  match pc with
  | RL_Drain => (true, false, false)
  | RL_Done => (true, true, true)
  | _ => (false, false, false)
  end.
Definition fin_sent (pc : dopc) : bool := match pc with DO_SendFin | DO_Done => true | _ => false end.

(* the scalar part of the acceptor's state is a function of the LTS state (no error is latched in a
   fault-free run) *)
Definition aview (a : rstate) :=
  (r_i a, r_endm a, (r_fin_in a, r_rdclosed a, r_eof a), ReceiverAcc.r_err a, r_fin_out a, r_ret a).
Definition rview (st : Lts.state) :=
  (rl_i st, g_got_end_r st, rl_flags (rl_pc st), false, fin_sent (do_pc st), recv_ret st).

(* goroutines whose steps the acceptor does not see *)
Definition silent_label (l : label) : bool :=
  match l with
  | LSWalk | LWorker _ | LReq | LReqCtx | LSendRet | LFill | LFillCtx | LDiff | LDiffCtx | LEnvCloseSend => true
  | _ => false
  end.

Lemma none_wanted_forall : forall needs (f : list (N * stat)),
  (forall k s, In (k, s) f -> wanted needs s = false) -> none_wanted needs f = true.
Proof.
  induction f as [|[k s] f IH]; intros H; [reflexivity|]. cbn.
  rewrite (H k s (or_introl eq_refl)). cbn. apply IH. intros k' s' Hin. apply (H k' s'). right. exact Hin.
Qed.

Lemma no_fault_ff : forall l, no_fault l = fault_free_label l.
Proof. destruct l; reflexivity. Qed.

Section RSim.
  Variable p : Lts.params.
  Variable stats : list stat.
  Variable needs : bytes -> bool.
  Variable pay : nat -> nat -> bytes.
  Variable emsg smsg : bytes.
  Hypothesis Habs : rabs_ok p stats needs pay.

  Notation arun := (AccEvents.run (receiver_acc needs)).
  Notation evs := (receiver_events stats pay emsg smsg).

  (* the clauses of [rabs_ok], by name *)
  Definition rabs_len := proj1 Habs.
  Definition rabs_file := proj1 (proj2 Habs).
  Definition rabs_kind := proj1 (proj2 (proj2 Habs)).
  Definition rabs_pay := proj2 (proj2 (proj2 Habs)).

  Lemma rabs_wf : wf_params p.
  Proof.
    intros i E. pose proof rabs_len as Hl.
    destruct (nth_error stats i) as [s|] eqn:En.
    - rewrite (rabs_file i s En). pose proof (rabs_kind i s En) as Hk. rewrite E in Hk. symmetry in Hk.
      unfold wanted, reqable in Hk. apply andb_prop in Hk. destruct Hk as [Hk _]. apply andb_prop in Hk. tauto.
    - exfalso. apply nth_error_None in En. unfold kind_of, entry_at in E.
      rewrite (proj2 (nth_error_None _ _)) in E by lia. discriminate.
  Qed.

  (* the relation: r_files holds stats[i] under every announced id, r_open an entry (whatever its payloads)
     under every open request *)
  Definition fval (i : nat) (s : stat) : Prop := nth_error stats i = Some s.
  Definition oval (i : nat) (cs : list bytes) : Prop := True.

  Record RI (st : Lts.state) (a : rstate) : Prop := {
    ri_view : aview a = rview st;
    ri_files : keyed stat fval (announced p st) (r_files a);
    ri_open : keyed (list bytes) oval (open_req st) (r_open a)
  }.

  Lemma RI_init : RI (init p) rinit.
  Proof.
    constructor; try reflexivity; (split; [constructor|]; split; [intros k v []|]); intros i.
    - intros (_ & X & _). inversion X.
    - intros [X _]. inversion X.
  Qed.

  (* the acceptor stays where it is while the LTS moves without changing what the relation reads *)
  Lemma RI_same : forall st st' a, RI st a -> rview st' = rview st ->
    (forall i, wsum cReq i st' = wsum cReq i st) -> (forall i, latec i st' = latec i st) -> RI st' a.
  Proof.
    intros st st' a [] E1 E2 E3. constructor; [congruence| |].
    - eapply keyed_iff; [apply announced_same|]; try eassumption. unfold rview in E1. congruence.
    - eapply keyed_iff; [apply open_same|]; eassumption.
  Qed.

  Lemma silent_sim : forall st l st' a,
    silent_label l = true -> Lts.step p st l = Some st' -> RI st a -> RI st' a.
  Proof.
    intros st l st' a Hl H HI.
    destruct l; try discriminate Hl; unfold_steps H; step_split H; inv_some; subst;
      apply (RI_same _ _ _ HI); intros; try reflexivity.
    (* the diff loop starts a writer *)
    apply wsum_new_writer. reflexivity.
  Qed.

  Section Step.
    Variables st st' : Lts.state.
    Variable a : rstate.
    Hypothesis R : reachable p st.
    Hypothesis K : scal st.
    Hypothesis W : forall id, wq p id st.
    Hypothesis K' : scal st'.
    Hypothesis HI : RI st a.

    (* the acceptor does not move *)
    Ltac stay :=
      exists a; split; [reflexivity|]; apply (RI_same _ _ _ HI); unfold rview; cbn; intros; try reflexivity.

    (* the read loop moves between program counters that hold no id (E : rl_pc st = _) *)
    Ltac no_id E := intros; unfold latec; cbn; rewrite ?E; reflexivity.
    (* the acceptor takes the step: the scalar fields of the relation follow from those of [a];
       the open requests (Hopen) are as before if only such a counter changes *)
    Ltac follow E Hopen :=
      eexists; split; [reflexivity|]; constructor; try assumption;
      unfold aview, rview; cbn; rewrite ?E; try (cbn; congruence);
      try (eapply keyed_iff; [|exact Hopen]; apply open_same; no_id E).

    Lemma recvloop_sim : step_recvloop p st = Some st' ->
      exists a', arun a (evs st LRecvLoop) = Some a' /\ RI st' a'.
    Proof.
      intros H. pose proof rabs_wf as WF.
      assert (Hrn : recv_ret st = None).
      { apply (not_returned p st R). left. intros E. unfold step_recvloop in H. rewrite E in H. discriminate. }
      destruct HI as [Hv Hfiles Hopen]. injection Hv as Hi Hendm Hrl Herr Hfo Hret. rewrite Hrn in Hret.
      unfold step_recvloop in H. cbn [receiver_events]. unfold recv_events.
      rewrite (k_rb st K), ?(k_cc st K) in *.
      destruct (rl_pc st) eqn:Epc; try discriminate H; injection Hrl as Hfi Hrd Heof.
      - (* RL_Recv *)
        destruct (buf_sr st) as [|pk r] eqn:Eb.
        { destruct (sr_closed st); [|discriminate]. inv_some. subst st'. discriminate (k_re _ K'). }
        inv_some. subst st'. cbn [AccEvents.run]. unfold receiver_acc. rewrite Hret, Hrd. unfold on_in. rewrite Hfi.
        destruct pk; cbn [abs_rin].
        + (* STAT *)
          destruct (stat_before_end p st R r Eb) as [He Hlt].
          destruct (nth_error stats (rl_i st)) as [s|] eqn:En;
            [|apply nth_error_None in En; unfold nentries in Hlt; rewrite rabs_len in Hlt;
              destruct (Nat.lt_irrefl _ (Nat.lt_le_trans _ _ _ Hlt En))].
          rewrite Hendm, He, Hi, <- (rabs_file _ _ En).
          pose proof (fun st' E1 E2 => announced_stat p st R K st' E1 E2) as HA.
          destruct (is_file p (rl_i st)) eqn:Ef; follow Epc Hopen.
          * eapply keyed_add; [exact Hfiles|intros (_ & X & _); exact (Nat.lt_irrefl _ X)| |exact En].
            intros i. etransitivity; [apply HA; reflexivity|]. intuition congruence.
          * eapply keyed_iff; [|exact Hfiles]. intros i. symmetry. etransitivity; [apply HA; reflexivity|].
            intuition congruence.
        + (* end marker *)
          rewrite Hendm, (end_once p st R r Eb). follow Epc Hopen.
        + (* DATA id *)
          destruct (memb id (pipes st)); [|discriminate (k_re _ K')].
          destruct (keyed_lookup _ _ _ _ _ Hopen (data_open p WF st R W id r Eb)) as (cs & Hl & _). rewrite Hl.
          destruct (pay id (count_occ Nat.eq_dec (written st) id)) as [|b d] eqn:Ep;
            [destruct (rabs_pay _ _ Ep)|].
          follow Epc Hopen.
          eapply keyed_iff; [|apply keyed_update; [exact Hopen|intros; exact Logic.I]]. apply open_same; no_id Epc.
        + (* DATA id, empty: end of the file *)
          destruct (memb id (pipes st)); [|discriminate (k_re _ K')].
          destruct (keyed_lookup _ _ _ _ _ Hopen (dataend_open p st R W id r Eb)) as (cs & Hl & _). rewrite Hl.
          follow Epc Hopen.
          eapply keyed_remove; [exact Hopen|]. apply terminated; (reflexivity || exact Epc).
        + (* REQ from the sender: no case in the switch *) follow Epc Hopen.
        + (* FIN *) follow Epc Hopen.
        + (* ERR: no PErr is ever in flight in a fault-free run *)
          pose proof (k_p1 st K) as X. rewrite Eb in X. discriminate.
      - (* RL_Upd *) inv_some. subst st'. stay; no_id Epc.
      - (* RL_Push *) destruct (room_walk p st); [|discriminate]. inv_some. subst st'. stay; no_id Epc.
      - (* RL_UpdEnd *) inv_some. subst st'. stay; no_id Epc.
      - (* RL_Write id *) inv_some. subst st'. stay; no_id Epc.
      - (* RL_CloseP id: the pipe is closed, the file is complete *)
        inv_some. subst st'. stay; [no_id Epc|]. unfold latec. cbn. rewrite Epc, cnt_cons. reflexivity.
      - (* RL_Drain *)
        destruct (buf_sr st) as [|pk r] eqn:Eb.
        + destruct (sr_closed st); [|discriminate]. inv_some. subst st'. cbn [AccEvents.run]. unfold receiver_acc.
          rewrite Hret, Hrd, Hfi. follow Epc Hopen.
        + inv_some. subst st'. cbn [AccEvents.run]. unfold receiver_acc. rewrite Hret, Hrd. unfold on_in. rewrite Hfi.
          follow Epc Hopen.
    Qed.

    Lemma writer_sim : forall j, step_writer p j st = Some st' ->
      exists a', arun a (evs st (LWriter j)) = Some a' /\ RI st' a'.
    Proof.
      intros j H. unfold step_writer in H. cbn [receiver_events].
      destruct (nth_error (wrs st) j) as [[id pc]|] eqn:Ew; [|discriminate]. cbn [wr_id wr_pc] in *.
      destruct pc.
      - (* WR_Start; as in all moves but the next, the writer stays on its side of the REQ *)
        destruct (memb id (rfiles st)); inv_some; subst st'; [|discriminate (k_ee _ K')].
        stay. eapply wsum_stays; [exact Ew|reflexivity..].
      - (* WR_Lock: the mutex is taken, SendMsg(REQ id) is called *)
        unfold lock_r in H. cbn in H. destruct (r_mu st); [discriminate|]. inv_some. subst st'.
        destruct (req_ready p rabs_wf st R K W _ _ Ew) as (Hrn & Hn & HF & HL).
        destruct HI as [Hv Hfiles Hopen]. injection Hv as Hi Hendm Hrl Herr Hfo Hret. rewrite Hrn in Hret.
        destruct (keyed_lookup _ _ _ _ _ Hfiles HF) as (s & Hl & Hs).
        assert (Hw : wanted needs s = true).
        { rewrite <- (rabs_kind id s Hs), Hn. reflexivity. }
        cbn [AccEvents.run]. unfold receiver_acc. rewrite Hret, Hl, Hw.
        destruct (req_sent p st (setwr j id WR_Send (set_r_mu (Some (GWriter j)) st)) j id Ew) as [HA HO];
          try reflexivity; [apply HF|exact HL|].
        eexists. split; [reflexivity|]. constructor; try assumption; unfold aview, rview; cbn; try congruence.
        + eapply keyed_remove; [exact Hfiles|exact HA].
        + eapply keyed_add; [exact Hopen|intros [X _]; rewrite (proj2 (proj2 HF)) in X; inversion X|exact HO|exact Logic.I].
      - (* WR_Send: SendMsg completes *)
        unfold send_r in H. rewrite (k_rb st K) in H. destruct (room_rs p st); [|discriminate]. inv_some. subst st'.
        stay. eapply wsum_stays; [exact Ew|reflexivity..].
      - (* WR_Wait *)
        destruct (memb id (completed st)); [|discriminate]. inv_some. subst st'.
        stay. eapply wsum_stays; [exact Ew|reflexivity..].
      - (* WR_Notify *)
        inv_some. subst st'. stay. eapply wsum_stays; [exact Ew|reflexivity..].
      - discriminate.
    Qed.

    Lemma diffouter_sim : step_diffouter p st = Some st' ->
      exists a', arun a (evs st LDiffOuter) = Some a' /\ RI st' a'.
    Proof.
      intros H. unfold step_diffouter in H. cbn [receiver_events]. pose proof (k_do st K) as Hdo.
      destruct (do_pc st) eqn:Epc; try contradiction.
      - (* DO_WaitDiff *)
        destruct (fl_is_done st && dl_is_done st); [|discriminate]. inv_some. subst st'.
        stay. rewrite Epc. destruct (d_err st); reflexivity.
      - (* DO_WaitW *)
        destruct (forallb wr_done (wrs st)); [|discriminate]. inv_some. subst st'.
        stay. rewrite Epc. destruct (eg_err st); reflexivity.
      - (* DO_LockFin: SendMsg(FIN) is called *)
        unfold lock_r in H. cbn in H. destruct (r_mu st); [discriminate|]. inv_some. subst st'.
        destruct (fin_ready p st R K W Epc) as (HG & HZ & HN).
        destruct HI as [Hv Hfiles Hopen]. injection Hv as Hi Hendm Hrl Herr Hfo Hret.
        assert (Hrn : recv_ret st = None) by (apply (not_returned p st R); right; congruence).
        rewrite Hrn in Hret. rewrite Epc in Hfo.
        assert (Hnil : r_open a = []) by (eapply keyed_nil; [exact Hopen|exact HZ]).
        assert (Hnw : none_wanted needs (r_files a) = true).
        { apply none_wanted_forall. intros k s Hin. destruct Hfiles as (_ & F1 & _).
          destruct (F1 k s Hin) as (i & _ & HF & Hs). destruct (wanted needs s) eqn:Ew; [|reflexivity].
          pose proof (rabs_kind i s Hs) as Hk. rewrite Ew in Hk.
          destruct (HN i HF). destruct (kind_of p i); (discriminate || reflexivity). }
        cbn [AccEvents.run]. unfold receiver_acc. rewrite Hret, Hendm, HG, Hnil, Hfo, Hnw.
        eexists. split; [reflexivity|]. constructor; try assumption; unfold aview, rview; cbn; congruence.
      - (* DO_SendFin: SendMsg(FIN) completes *)
        unfold send_r in H. rewrite (k_rb st K) in H. destruct (room_rs p st); [|discriminate]. inv_some. subst st'.
        stay. rewrite Epc. reflexivity.
      - discriminate.
    Qed.

    Lemma recvret_sim : step_recv_ret st = Some st' ->
      exists a', arun a (evs st LRecvRet) = Some a' /\ RI st' a'.
    Proof.
      intros H. destruct HI as [Hv Hfiles Hopen]. injection Hv as Hi Hendm Hrl Herr Hfo Hret.
      unfold step_recv_ret, do_is_done, rl_is_done, is_none in H. cbn [receiver_events]. rewrite (k_re st K) in *.
      destruct (do_pc st) eqn:Ed; cbn in H; try discriminate. destruct (rl_pc st) eqn:El; cbn in H; try discriminate.
      destruct (recv_ret st) eqn:Er; [discriminate|]. inv_some. subst st'. injection Hrl as Hfi Hrd Heof. cbn in Hfo.
      cbn [AccEvents.run]. unfold receiver_acc. rewrite Hret, Hfo, Hfi, Heof, Herr.
      eexists. split; [reflexivity|]. constructor; try assumption. unfold aview, rview. cbn. rewrite Ed, El. cbn. congruence.
    Qed.

    Lemma rstep_sim : forall l, no_fault l = true -> Lts.step p st l = Some st' ->
      exists a', arun a (evs st l) = Some a' /\ RI st' a'.
    Proof.
      intros l Hf H.
      destruct l; try discriminate Hf;
        try (exists a; split; [reflexivity|]; eapply silent_sim; [|exact H|exact HI]; reflexivity);
        cbn [Lts.step] in H.
      - apply recvloop_sim. exact H.
      - (* w.update: closeCh is never closed in a fault-free run *)
        exfalso. unfold step_recvloop_closed in H. rewrite (k_cc st K) in H. destruct (rl_pc st); discriminate.
      - apply diffouter_sim. exact H.
      - apply writer_sim. exact H.
      - (* a writer gives up on ctx.Done: it would set the error flag *)
        exfalso. unfold step_writer_ctx in H. destruct (nth_error (wrs st) j) as [w|]; [|discriminate].
        destruct (wr_pc w); try discriminate. destruct (eg_canc st); [|discriminate]. inv_some. subst st'.
        discriminate (k_ee _ K').
      - apply recvret_sim. exact H.
    Qed.
  End Step.

  Lemma rrun_sim : forall ls st0 a0 st,
    reachable p st0 -> scal st0 -> (forall id, wq p id st0) -> RI st0 a0 ->
    no_faults ls = true -> Lts.run p st0 ls = Some st ->
    exists a, arun a0 (lts_rtrace p stats pay emsg smsg st0 ls) = Some a /\ RI st a.
  Proof.
    induction ls as [|l ls IH]; intros st0 a0 st R K W HI Hff H; cbn in H.
    - inversion H; subst. exists a0. split; [reflexivity|exact HI].
    - cbn [lts_rtrace]. destruct (Lts.step p st0 l) as [st1|] eqn:E; [|discriminate].
      apply andb_true_iff in Hff. destruct Hff as [Hf Hff].
      destruct (ff_run_from p [l] st0 st1 rabs_wf R K W) as [K1 W1];
        [unfold fault_free, forallb; rewrite <- no_fault_ff, Hf; reflexivity|cbn; rewrite E; reflexivity|].
      destruct (rstep_sim _ _ _ R K W K1 HI _ Hf E) as (a1 & R1 & HI1).
      destruct (IH _ _ _ (reach_step _ _ _ _ R E) K1 W1 HI1 Hff H) as (a & Ra & HIa).
      exists a. split; [|exact HIa]. rewrite run_app, R1. exact Ra.
  Qed.

  Lemma receiver_lts_refines_acc_proof : forall ls st,
    no_faults ls = true -> Lts.run p (init p) ls = Some st ->
    exists a, receiver_run needs (lts_rtrace p stats pay emsg smsg (init p) ls) = Some a /\ r_ret a = recv_ret st.
  Proof.
    intros ls st Hff H.
    destruct (rrun_sim ls _ _ _ (reach_init p) (scal_init p) (wq_init p) RI_init Hff H) as (a & Ra & HI).
    exists a. split; [exact Ra|]. pose proof (ri_view _ _ HI) as V. unfold aview, rview in V. congruence.
  Qed.
End RSim.

(* the abstraction exists for every announced sequence and every needs predicate *)
Lemma rabs_ok_params_of_proof : forall needs stats capSR capRS pay,
  (forall id k, pay id k <> []) -> rabs_ok (lts_rparams_of needs stats capSR capRS) stats needs pay.
Proof.
  intros needs stats cs cr pay Hp. unfold rabs_ok.
  assert (Hnth : forall i st, nth_error stats i = Some st ->
            entry_at (lts_rparams_of needs stats cs cr) i = Some (lts_rentry_of needs st))
    by (intros i st E; unfold entry_at; cbn; rewrite nth_error_map, E; reflexivity).
  repeat split.
  - cbn. apply map_length.
  - intros i st E. unfold is_file. rewrite (Hnth i st E). reflexivity.
  - intros i st E. unfold kind_of. rewrite (Hnth i st E). cbn. destruct (wanted needs st); reflexivity.
  - exact Hp.
Qed.
