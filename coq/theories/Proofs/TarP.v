(* Mode/typeflag/name round trip of the tar header: everything above the nine permission bits is
   moved to m/512 (land_high), where the claims are a vm_compute sweep over
   TarHdr.wf_high_parts; then the sequential writer; the hard-link reset is the identity on
   closed listings. *)
From Coq Require Import List NArith ZArith Bool Lia ZifyN ZifyNat ZifyBool.
From FS Require Import Sx Model.Path Model.Stat Model.Tree Model.Hardlinks Model.TarHdr Proofs.Lex.
Import ListNotations.
Open Scope N_scope.


Lemma land_high : forall m k, N.land m (512 * k) = 512 * N.land (m / 512) k.
Proof.
  intros m k.
  change 512 with (2 ^ 9).
  rewrite (N.mul_comm (2 ^ 9) k), (N.mul_comm (2 ^ 9) (N.land _ _)).
  rewrite <- !N.shiftl_mul_pow2, <- N.shiftr_div_pow2.
  apply N.bits_inj; intro n.
  rewrite N.land_spec.
  destruct (N.ltb_spec n 9) as [Hlt | Hge].
  - rewrite !N.shiftl_spec_low by assumption. apply andb_false_r.
  - rewrite !N.shiftl_spec_high' by assumption.
    rewrite N.land_spec, N.shiftr_spec'.
    replace (n - 9 + 9) with n by lia. reflexivity.
Qed.

Lemma land_perm : forall m, N.land m 511 = m mod 512.
Proof. intro m. change 511 with (N.ones 9). rewrite N.land_ones. reflexivity. Qed.

Lemma has_bits_high : forall m k, has_bits m (512 * k) = has_bits (m / 512) k.
Proof.
  intros m k. unfold has_bits. rewrite land_high.
  destruct (N.eqb_spec (N.land (m / 512) k) 0) as [E | E].
  - rewrite E. reflexivity.
  - destruct (N.eqb_spec (512 * N.land (m / 512) k) 0); [lia | reflexivity].
Qed.

Lemma lor_low_high : forall p c, p < 512 -> N.lor p (512 * c) = p + 512 * c.
Proof.
  intros p c Hp.
  assert (H0 : N.land p (512 * c) = 0).
  { rewrite land_high. rewrite (N.div_small p 512 Hp). rewrite N.land_0_l. reflexivity. }
  rewrite (N.add_nocarry_lxor _ _ H0). symmetry. apply N.lxor_lor. exact H0.
Qed.

Lemma lor_512 : forall a b, N.lor (512 * a) (512 * b) = 512 * N.lor a b.
Proof.
  intros. change 512 with (2 ^ 9). rewrite !(N.mul_comm (2 ^ 9)).
  rewrite <- !N.shiftl_mul_pow2. symmetry. apply N.shiftl_lor.
Qed.

Lemma lor_acc : forall p c d, p < 512 -> N.lor (p + 512 * c) (512 * d) = p + 512 * N.lor c d.
Proof.
  intros p c d Hp.
  rewrite <- (lor_low_high p c Hp), <- N.lor_assoc, lor_512. apply lor_low_high. exact Hp.
Qed.

Lemma split_mod : forall p c, p < 512 -> (p + 512 * c) mod 512 = p.
Proof. intros p c Hp. pose proof (N.mod_small p 512 Hp). lia. Qed.
Lemma split_div : forall p c, p < 512 -> (p + 512 * c) / 512 = c.
Proof. intros p c Hp. lia. Qed.
Lemma mod512_lt : forall m, m mod 512 < 512.
Proof. intro. apply N.mod_lt. discriminate. Qed.
Lemma split_eq : forall m, m = m mod 512 + 512 * (m / 512).
Proof. intro m. pose proof (N.div_mod m 512). lia. Qed.

Lemma if_512 : forall (b : bool) k, (if b then 512 * k else 0) = 512 * (if b then k else 0).
Proof. destruct b; reflexivity. Qed.

Definition tm_hi (h : N) : N :=
  N.lor (N.lor (N.lor 0 (if has_bits h 16384 then 4 else 0)) (if has_bits h 8192 then 2 else 0))
        (if has_bits h 2048 then 1 else 0).

Lemma tar_mode_split : forall m, tar_mode m = m mod 512 + 512 * tm_hi (m / 512).
Proof.
  intro m. unfold tar_mode, tm_hi.
  change ModePerm with 511. rewrite land_perm.
  change ModeSetuid with (512 * 16384). change ModeSetgid with (512 * 8192). change ModeSticky with (512 * 2048).
  rewrite !has_bits_high.
  change c_ISUID with (512 * 4). change c_ISGID with (512 * 2). change c_ISVTX with (512 * 1).
  rewrite !if_512.
  pose proof (mod512_lt m) as Hp.
  replace (m mod 512) with (m mod 512 + 512 * 0) at 1 by lia.
  rewrite !lor_acc by exact Hp. reflexivity.
Qed.

Definition tb_hi (t : N) : N := type_bits_of_flag t / 512.
Lemma type_bits_512 : forall t, type_bits_of_flag t = 512 * tb_hi t.
Proof.
  intro t. unfold tb_hi, type_bits_of_flag.
  repeat match goal with |- context [if ?b then _ else _] => destruct b end; reflexivity.
Qed.

Definition gm_hi (t x : N) : N :=
  N.lor (N.lor (N.lor (N.lor 0 (if has_bits x 4 then 16384 else 0)) (if has_bits x 2 then 8192 else 0))
               (if has_bits x 1 then 2048 else 0)) (tb_hi t).

Lemma go_mode_split : forall t tm, go_mode_of_tar t tm = tm mod 512 + 512 * gm_hi t (tm / 512).
Proof.
  intros t tm. unfold go_mode_of_tar, gm_hi.
  change ModePerm with 511. rewrite land_perm.
  change c_ISUID with (512 * 4). change c_ISGID with (512 * 2). change c_ISVTX with (512 * 1).
  rewrite !has_bits_high.
  change ModeSetuid with (512 * 16384). change ModeSetgid with (512 * 8192). change ModeSticky with (512 * 2048).
  rewrite !if_512. rewrite type_bits_512.
  pose proof (mod512_lt tm) as Hp.
  replace (tm mod 512) with (tm mod 512 + 512 * 0) at 1 by lia.
  rewrite !lor_acc by exact Hp. reflexivity.
Qed.

Lemma eqb_512_both : forall a b, N.eqb (512 * a) (512 * b) = N.eqb a b.
Proof.
  intros a b. destruct (N.eqb_spec a b) as [-> | H]; [apply N.eqb_refl |].
  apply N.eqb_neq. intro E. apply N.mul_cancel_l in E; [exact (H E) | discriminate].
Qed.
Lemma eqb_512 : forall x, N.eqb (512 * x) 0 = N.eqb x 0.
Proof. intro x. exact (eqb_512_both x 0). Qed.

Definition TypeHi : N := ModeType / 512.
Definition reg_hi (h : N) : bool := N.eqb (N.land h TypeHi) 0.
Lemma mode_is_regular_hi : forall m, mode_is_regular m = reg_hi (m / 512).
Proof.
  intro m. unfold mode_is_regular, reg_hi.
  change ModeType with (512 * TypeHi). rewrite land_high. apply eqb_512.
Qed.
Lemma mode_is_dir_hi : forall m, mode_is_dir m = has_bits (m / 512) (ModeDir / 512).
Proof. intro m. unfold mode_is_dir. change ModeDir with (512 * (ModeDir / 512)) at 1. apply has_bits_high. Qed.
Lemma mode_is_symlink_hi : forall m, mode_is_symlink m = has_bits (m / 512) (ModeSymlink / 512).
Proof. intro m. unfold mode_is_symlink. change ModeSymlink with (512 * (ModeSymlink / 512)) at 1. apply has_bits_high. Qed.

Definition fih_hi (h : N) : option N :=
  if reg_hi h then Some TypeReg
  else if has_bits h (ModeDir / 512) then Some TypeDir
  else if has_bits h (ModeSymlink / 512) then Some TypeSymlink
  else if has_bits h (ModeDevice / 512) then Some (if has_bits h (ModeCharDevice / 512) then TypeChar else TypeBlock)
  else if has_bits h (ModeNamedPipe / 512) then Some TypeFifo
  else None.

Lemma fih_typeflag_hi : forall m, fih_typeflag m = fih_hi (m / 512).
Proof.
  intro m. unfold fih_typeflag, fih_hi.
  rewrite mode_is_regular_hi, mode_is_dir_hi, mode_is_symlink_hi.
  change ModeDevice with (512 * (ModeDevice / 512)) at 1.
  change ModeCharDevice with (512 * (ModeCharDevice / 512)) at 1.
  change ModeNamedPipe with (512 * (ModeNamedPipe / 512)) at 1.
  rewrite !has_bits_high. reflexivity.
Qed.

Definition tf_hi (h : N) (ln : bytes) : N :=
  if is_nil ln then match fih_hi h with Some t => t | None => 0 end
  else if has_bits h (ModeSymlink / 512) then TypeSymlink else TypeLink.
Lemma hdr_typeflag_hi : forall m ln, hdr_typeflag m ln = tf_hi (m / 512) ln.
Proof. intros. unfold hdr_typeflag, tf_hi. rewrite fih_typeflag_hi, mode_is_symlink_hi. reflexivity. Qed.

Definition link_ok_hi (h : N) (ln : bytes) : bool :=
  is_nil ln || has_bits h (ModeSymlink / 512) || reg_hi h.

Definition hi_facts (h : N) (ln : bytes) : bool :=
  N.eqb (gm_hi (tf_hi h ln) (tm_hi h)) h
  && Bool.eqb (N.eqb (tf_hi h ln) TypeDir) (has_bits h (ModeDir / 512))
  && match fih_hi h with Some _ => true | None => false end.

Lemma wf_high_parts_facts :
  forallb (fun h => hi_facts h [] && (negb (link_ok_hi h [0]) || hi_facts h [0])) wf_high_parts = true.
Proof. vm_compute. reflexivity. Qed.

Lemma hi_facts_ln : forall h c r, hi_facts h (c :: r) = hi_facts h [0].
Proof. reflexivity. Qed.
Lemma link_ok_hi_ln : forall h c r, link_ok_hi h (c :: r) = link_ok_hi h [0].
Proof. reflexivity. Qed.

Definition link_ok (m : N) (ln : bytes) : bool := is_nil ln || mode_is_symlink m || mode_is_regular m.
Lemma link_ok_hi_eq : forall m ln, link_ok m ln = link_ok_hi (m / 512) ln.
Proof. intros. unfold link_ok, link_ok_hi. rewrite mode_is_symlink_hi, mode_is_regular_hi. reflexivity. Qed.

Lemma hi_facts_of_wf : forall m ln,
  mode_okb m = true -> link_ok m ln = true -> hi_facts (m / 512) ln = true.
Proof.
  intros m ln Hm Hl. unfold mode_okb in Hm.
  apply existsb_exists in Hm. destruct Hm as [x [Hin Hx]].
  apply N.eqb_eq in Hx. rewrite Hx. rewrite link_ok_hi_eq, Hx in Hl.
  pose proof wf_high_parts_facts as F. rewrite forallb_forall in F. specialize (F x Hin).
  apply andb_true_iff in F. destruct F as [F1 F2].
  destruct ln as [| c r]; [exact F1 |].
  rewrite hi_facts_ln. rewrite link_ok_hi_ln in Hl. rewrite Hl in F2. exact F2.
Qed.

Lemma mode_roundtrip : forall m ln,
  mode_okb m = true -> link_ok m ln = true ->
  go_mode_of_tar (hdr_typeflag m ln) (tar_mode m) = m.
Proof.
  intros m ln Hm Hl. pose proof (hi_facts_of_wf m ln Hm Hl) as F.
  unfold hi_facts in F. apply andb_true_iff in F. destruct F as [F _].
  apply andb_true_iff in F. destruct F as [F _]. apply N.eqb_eq in F.
  rewrite go_mode_split, hdr_typeflag_hi, tar_mode_split.
  rewrite split_mod, split_div by apply mod512_lt.
  rewrite F. symmetry. apply split_eq.
Qed.

Lemma typeflag_dir_iff : forall m ln,
  mode_okb m = true -> link_ok m ln = true ->
  N.eqb (hdr_typeflag m ln) TypeDir = mode_is_dir m.
Proof.
  intros m ln Hm Hl. pose proof (hi_facts_of_wf m ln Hm Hl) as F.
  unfold hi_facts in F. apply andb_true_iff in F. destruct F as [F _].
  apply andb_true_iff in F. destruct F as [_ F]. apply eqb_prop in F.
  rewrite hdr_typeflag_hi, mode_is_dir_hi. exact F.
Qed.

Lemma fih_ok_of_wf : forall m, mode_okb m = true -> fih_ok m = true.
Proof.
  intros m Hm. pose proof (hi_facts_of_wf m [] Hm eq_refl) as F.
  unfold hi_facts in F. apply andb_true_iff in F. destruct F as [_ F].
  unfold fih_ok. rewrite fih_typeflag_hi. exact F.
Qed.

Lemma ends_with_sep_snoc : forall p, ends_with_sep (p ++ [sep]) = true.
Proof. intro p. unfold ends_with_sep. rewrite last_last. reflexivity. Qed.

Lemma name_roundtrip : forall m ln p,
  mode_okb m = true -> link_ok m ln = true -> ends_with_sep p = false ->
  strip_dir_slash (hdr_typeflag m ln) (tar_name m p) = p.
Proof.
  intros m ln p Hm Hl Hp. unfold strip_dir_slash, tar_name.
  rewrite (typeflag_dir_iff m ln Hm Hl). rewrite Hp. simpl negb. rewrite andb_true_r.
  destruct (mode_is_dir m); simpl.
  - rewrite ends_with_sep_snoc. apply removelast_last.
  - reflexivity.
Qed.

Lemma wf_stat_parts : forall s, wf_stat s ->
  mode_okb (st_mode s) = true /\ link_ok (st_mode s) (st_linkname s) = true /\ ends_with_sep (st_path s) = false.
Proof.
  intros s H. unfold wf_stat, wf_stat_b in H.
  apply andb_true_iff in H. destruct H as [H H3]. apply andb_true_iff in H. destruct H as [H1 H2].
  repeat split; try assumption. apply negb_true_iff. exact H3.
Qed.

Lemma hdr_roundtrip_proof : forall s, wf_stat s ->
  stat_of_hdr (archived (hdr_of_stat s)) = round_mtime_to_second (header_size_only s).
Proof.
  intros s H. destruct (wf_stat_parts s H) as [Hm [Hl Hp]].
  unfold stat_of_hdr, archived, hdr_of_stat, round_mtime_to_second, header_size_only, set_mtime, set_size, carries_size.
  cbn [h_name h_typeflag h_mode h_uid h_gid h_size h_mtime h_linkname h_devmajor h_devminor h_xattrs
       st_path st_mode st_uid st_gid st_size st_mtime st_linkname st_devmajor st_devminor st_xattrs].
  rewrite (name_roundtrip _ _ _ Hm Hl Hp), (mode_roundtrip _ _ Hm Hl).
  unfold hdr_size. reflexivity.
Qed.

Lemma header_size_only_id : forall s, carries_size s = true -> header_size_only s = s.
Proof. intros s H. unfold header_size_only. rewrite H. destruct s; reflexivity. Qed.

Lemma hdr_roundtrip_plain_file_proof : forall s, wf_stat s -> carries_size s = true ->
  stat_of_hdr (archived (hdr_of_stat s)) = round_mtime_to_second s.
Proof. intros s H C. rewrite (hdr_roundtrip_proof s H), (header_size_only_id s C). reflexivity. Qed.

Lemma fih_reg_iff : forall m,
  N.eqb (match fih_typeflag m with Some t => t | None => 0 end) TypeReg = mode_is_regular m.
Proof.
  intro m. unfold fih_typeflag.
  destruct (mode_is_regular m); [reflexivity |].
  repeat match goal with |- context [if ?b then _ else _] => destruct b end; reflexivity.
Qed.

Lemma has_payload_spec : forall s,
  has_payload (hdr_of_stat s) = carries_size s && Z.ltb 0 (sint (st_size s)).
Proof.
  intro s. unfold has_payload, hdr_of_stat, carries_size, hdr_typeflag, hdr_size.
  cbn [h_typeflag h_size h_linkname].
  destruct (st_linkname s) as [| c r]; cbn [is_nil].
  - rewrite fih_reg_iff. destruct (mode_is_regular (st_mode s)); cbn.
    + rewrite andb_true_r. reflexivity.
    + reflexivity.
  - rewrite andb_false_r. reflexivity.
Qed.

Lemma payload_iff_proof : forall s,
  has_payload (hdr_of_stat s) = true <->
  (mode_is_regular (st_mode s) = true /\ st_linkname s = [] /\ (0 < sint (st_size s))%Z).
Proof.
  intro s. rewrite has_payload_spec. unfold carries_size.
  rewrite !andb_true_iff, Z.ltb_lt.
  destruct (st_linkname s); cbn [is_nil]; split; intros; intuition congruence.
Qed.

Lemma sint_small : forall n, n < two63 -> sint n = Z.of_N n.
Proof. intros n H. unfold sint. destruct (N.ltb_spec n two63); [reflexivity | lia]. Qed.
Lemma sint_nonpos : forall n, n < two63 -> (sint n <= 0)%Z -> n = 0.
Proof. intros n H Hn. rewrite (sint_small _ H) in Hn. lia. Qed.

Lemma wf_entry_parts : forall e, wf_entry_b e = true ->
  wf_stat (fst e) /\
  (carries_size (fst e) = true -> st_size (fst e) < two63 /\ st_size (fst e) = blen (snd e)) /\
  tar_encodable (hdr_of_stat (fst e)) = true.
Proof.
  intros e H. unfold wf_entry_b in H.
  apply andb_true_iff in H. destruct H as [H H3]. apply andb_true_iff in H. destruct H as [H1 H2].
  split; [exact H1 |]. split; [| exact H3].
  intro C. rewrite C in H2. apply andb_true_iff in H2. destruct H2 as [A B].
  apply N.ltb_lt in A. apply N.eqb_eq in B. split; assumption.
Qed.

(* the wider write domain: link names also on fifos and devices *)
Definition link_ok_w (m : N) (ln : bytes) : bool := is_nil ln || negb (mode_is_dir m).
Definition link_ok_w_hi (h : N) (ln : bytes) : bool := is_nil ln || negb (has_bits h (ModeDir / 512)).
Lemma link_ok_w_hi_eq : forall m ln, link_ok_w m ln = link_ok_w_hi (m / 512) ln.
Proof. intros. unfold link_ok_w, link_ok_w_hi. rewrite mode_is_dir_hi. reflexivity. Qed.

Lemma wf_high_parts_narrow_wide :
  forallb (fun h => negb (link_ok_hi h [0]) || link_ok_w_hi h [0]) wf_high_parts = true.
Proof. vm_compute. reflexivity. Qed.

Lemma link_ok_narrow_wide : forall m ln,
  mode_okb m = true -> link_ok m ln = true -> link_ok_w m ln = true.
Proof.
  intros m ln Hm Hl. destruct ln as [| c r]; [reflexivity |].
  unfold mode_okb in Hm. apply existsb_exists in Hm. destruct Hm as [x [Hin Hx]].
  apply N.eqb_eq in Hx. rewrite link_ok_hi_eq, Hx, link_ok_hi_ln in Hl. rewrite link_ok_w_hi_eq, Hx.
  pose proof wf_high_parts_narrow_wide as F. rewrite forallb_forall in F. specialize (F x Hin).
  rewrite Hl in F. exact F.
Qed.

Lemma wf_entry_w_parts : forall e, wf_entry_wb e = true ->
  (mode_okb (st_mode (fst e)) = true /\ link_ok_w (st_mode (fst e)) (st_linkname (fst e)) = true
   /\ ends_with_sep (st_path (fst e)) = false) /\
  (carries_size (fst e) = true -> st_size (fst e) < two63 /\ st_size (fst e) = blen (snd e)) /\
  tar_encodable (hdr_of_stat (fst e)) = true.
Proof.
  intros e H. unfold wf_entry_wb in H.
  apply andb_true_iff in H. destruct H as [H H3]. apply andb_true_iff in H. destruct H as [H1 H2].
  unfold wf_stat_wb in H1. apply andb_true_iff in H1. destruct H1 as [H1 Hp].
  apply andb_true_iff in H1. destruct H1 as [Hm Hl]. apply negb_true_iff in Hp.
  split; [repeat split; assumption |]. split; [| exact H3].
  intro C. rewrite C in H2. apply andb_true_iff in H2. destruct H2 as [A B].
  apply N.ltb_lt in A. apply N.eqb_eq in B. split; assumption.
Qed.

Lemma wf_entry_narrow_wide : forall e, wf_entry_b e = true -> wf_entry_wb e = true.
Proof.
  intros e H. destruct (wf_entry_parts e H) as [Hst _]. destruct (wf_stat_parts _ Hst) as [Hm [Hl Hp]].
  unfold wf_entry_b in H. unfold wf_entry_wb.
  apply andb_true_iff in H. destruct H as [H H3]. apply andb_true_iff in H. destruct H as [_ H2].
  rewrite H2, H3, !andb_true_r. unfold wf_stat_wb. rewrite Hm, Hp. cbn [andb negb]. rewrite andb_true_r.
  exact (link_ok_narrow_wide _ _ Hm Hl).
Qed.

Lemma wf_listing_narrow_wide : forall l, wf_listing_b l = true -> wf_listing_wb l = true.
Proof.
  intros l H. unfold wf_listing_b in H. unfold wf_listing_wb. rewrite forallb_forall in *.
  intros e He. apply wf_entry_narrow_wide. apply H. exact He.
Qed.

(* declared size = bytes handed to the archive writer, for every member *)
Lemma payload_size_entry_w : forall e, wf_entry_wb e = true ->
  h_size (fst (member_of_entry e)) = blen (snd (member_of_entry e)).
Proof.
  intros e H. destruct (wf_entry_w_parts e H) as [_ [Hsz _]].
  unfold member_of_entry. cbn [fst snd].
  rewrite has_payload_spec.
  unfold hdr_of_stat at 1. cbn [h_size]. unfold hdr_size.
  destruct (carries_size (fst e)) eqn:C.
  - destruct (Hsz eq_refl) as [Hlt Heq].
    unfold carries_size in C. rewrite C. cbn [andb].
    destruct (Z.ltb_spec 0 (sint (st_size (fst e)))) as [Hpos | Hnpos].
    + exact Heq.
    + rewrite (sint_nonpos _ Hlt Hnpos). reflexivity.
  - unfold carries_size in C. rewrite C. reflexivity.
Qed.


Lemma write_loop_wf_w : forall l idx acc,
  wf_listing_wb l = true -> write_loop l false idx acc = TarOk (rev acc ++ tar_of_listing l).
Proof.
  induction l as [| e r IH]; intros idx acc H.
  - cbn. rewrite app_nil_r. reflexivity.
  - cbn [wf_listing_wb forallb] in H. apply andb_true_iff in H. destruct H as [He Hr].
    fold (wf_listing_wb r) in Hr.
    destruct (wf_entry_w_parts e He) as [[Hm _] [_ Henc]].
    pose proof (payload_size_entry_w e He) as Hps.
    cbn [write_loop tar_of_listing map].
    rewrite (fih_ok_of_wf _ Hm), Henc. cbn [negb].
    unfold member_of_entry in *. cbn [fst snd] in Hps.
    destruct (has_payload (hdr_of_stat (fst e))) eqn:P.
    + rewrite Hps. rewrite N.ltb_irrefl.
      rewrite IH by exact Hr. cbn [rev]. rewrite <- app_assoc. reflexivity.
    + rewrite IH by exact Hr. cbn [rev]. rewrite <- app_assoc. reflexivity.
Qed.

Lemma write_listing_wf_w : forall l, wf_listing_wb l = true -> write_listing l = TarOk (tar_of_listing l).
Proof. intros l H. unfold write_listing. rewrite (write_loop_wf_w l O [] H). reflexivity. Qed.

(* member i is the header of entry i; its name is the path, plus '/' exactly for directories *)
Definition dir_slash_name (s : stat) : bytes :=
  if mode_is_dir (st_mode s) then st_path s ++ [sep] else st_path s.
Definition member_of (e : entry) (m : member) : Prop :=
  m = member_of_entry e /\ h_name (fst m) = dir_slash_name (fst e).

Lemma members_forall2_w : forall l, wf_listing_wb l = true -> Forall2 member_of l (tar_of_listing l).
Proof.
  induction l as [| e r IH]; intro H; cbn [tar_of_listing map]; constructor.
  - cbn [wf_listing_wb forallb] in H. apply andb_true_iff in H. destruct H as [He _].
    destruct (wf_entry_w_parts e He) as [[_ [_ Hp]] _].
    split; [reflexivity |].
    unfold member_of_entry, hdr_of_stat, dir_slash_name, tar_name. cbn [fst h_name].
    rewrite Hp. cbn [negb]. rewrite andb_true_r. reflexivity.
  - apply IH. cbn [wf_listing_wb forallb] in H. apply andb_true_iff in H. apply H.
Qed.

Lemma land_submask : forall m big small, N.land big small = small -> N.land m big = 0 -> N.land m small = 0.
Proof. intros m big small Hs H. rewrite <- Hs, N.land_assoc, H. apply N.land_0_l. Qed.

Lemma regular_plain : forall s, mode_is_regular (st_mode s) = true -> hl_plain s = true.
Proof.
  intros s H. unfold mode_is_regular in H. apply N.eqb_eq in H.
  unfold hl_plain, mode_is_dir, mode_is_symlink, has_bits.
  rewrite (land_submask _ ModeType ModeDir eq_refl H), (land_submask _ ModeType ModeSymlink eq_refl H).
  reflexivity.
Qed.

Lemma plain_not_symlink : forall s, hl_plain s = true -> mode_is_symlink (st_mode s) = false.
Proof. intros s H. unfold hl_plain in H. apply andb_true_iff in H. destruct H as [_ H]. apply negb_true_iff in H. exact H. Qed.

Lemma set_linkname_same : forall s, set_linkname s (st_linkname s) = s.
Proof. destruct s; reflexivity. Qed.

Lemma has_link_nil : forall s, has_link s = negb (is_nil (st_linkname s)).
Proof. intro s. unfold has_link. destruct (st_linkname s); reflexivity. Qed.

Lemma find_entry_some : forall p l t, find_entry p l = Some t -> In t l /\ st_path (fst t) = p.
Proof.
  intros p l t H. unfold find_entry in H. apply find_some in H. destruct H as [Hin Hp].
  apply bytes_eqb_eq in Hp. split; assumption.
Qed.

Definition map_id (m : list (bytes * bytes)) : Prop := forall k v, lookup_b k m = Some v -> v = k.
Definition covers (m : list (bytes * bytes)) (done : list entry) : Prop :=
  forall t, In t done -> carries_size (fst t) = true -> lookup_b (st_path (fst t)) m <> None.

Lemma map_id_cons : forall m p, map_id m -> map_id ((p, p) :: m).
Proof.
  intros m p H k v. cbn [lookup_b]. destruct (bytes_eqb k p) eqn:E.
  - intro X. inversion X. apply bytes_eqb_eq in E. congruence.
  - apply H.
Qed.
Lemma covers_cons : forall m done p, covers m done -> covers ((p, p) :: m) done.
Proof.
  intros m done p H t Hin C. cbn [lookup_b]. destruct (bytes_eqb _ p); [discriminate | apply H; assumption].
Qed.
Lemma covers_snoc : forall m done e,
  covers m done -> (carries_size (fst e) = true -> lookup_b (st_path (fst e)) m <> None) -> covers m (done ++ [e]).
Proof.
  intros m done e H He t Hin C. apply in_app_or in Hin. destruct Hin as [Hin | [Heq | []]].
  - apply H; assumption.
  - subst t. apply He. exact C.
Qed.

Definition links_wf (l : list entry) : Prop :=
  forall e, In e l -> link_ok (st_mode (fst e)) (st_linkname (fst e)) = true.

Lemma reset_run_id : forall l done m,
  map_id m -> covers m done -> links_wf l -> links_closed_from done l = true ->
  reset_run m (map fst l) = map fst l.
Proof.
  induction l as [| e r IH]; intros done m Hid Hcov Hwf Hcl; [reflexivity |].
  cbn [links_closed_from] in Hcl. apply andb_true_iff in Hcl. destruct Hcl as [Ht Hcl].
  assert (Hwf' : links_wf r) by (intros x Hx; apply Hwf; right; exact Hx).
  pose proof (Hwf e (or_introl eq_refl)) as Hlk.
  cbn [map reset_run]. set (s := fst e) in *.
  unfold reset_step.
  destruct (hl_plain s) eqn:Hpl; cbn [negb].
  - rewrite has_link_nil.
    destruct (is_nil (st_linkname s)) eqn:Hnil; cbn [negb].
    + (* no link: recorded under its own path *)
      f_equal. apply (IH (done ++ [e])); try assumption.
      * apply map_id_cons. exact Hid.
      * apply covers_snoc; [apply covers_cons; exact Hcov |].
        intros _. cbn [lookup_b]. fold s. rewrite bytes_eqb_refl. discriminate.
    + (* link member: its source is an earlier plain file, recorded under its own path *)
      unfold link_ok in Hlk. fold s in Hlk. rewrite Hnil, (plain_not_symlink s Hpl) in Hlk. cbn [orb] in Hlk.
      unfold link_target_ok in Ht. fold s in Ht. unfold carries_size at 1 in Ht. rewrite Hnil, Hlk in Ht. cbn [andb] in Ht.
      destruct (find_entry (st_linkname s) done) as [t |] eqn:Hf; [| discriminate].
      apply andb_true_iff in Ht. destruct Ht as [Ht _]. apply andb_true_iff in Ht. destruct Ht as [Ct _].
      destruct (find_entry_some _ _ _ Hf) as [Hin Hp].
      pose proof (Hcov t Hin Ct) as Hlook. rewrite Hp in Hlook.
      destruct (lookup_b (st_linkname s) m) as [v |] eqn:Hl; [| congruence].
      pose proof (Hid _ _ Hl) as Hv. subst v.
      assert (Hs : (if bytes_eqb (st_linkname s) (st_path s) then (m, s) else (m, set_linkname s (st_linkname s))) = (m, s)).
      { rewrite set_linkname_same. destruct (bytes_eqb _ _); reflexivity. }
      rewrite Hs. f_equal. apply (IH (done ++ [e])); try assumption.
      * apply map_id_cons. exact Hid.
      * apply covers_snoc; [apply covers_cons; exact Hcov |].
        intro C. unfold carries_size in C. fold s in C. rewrite Hnil in C. discriminate.
  - (* directories and symlinks pass through *)
    f_equal. apply (IH (done ++ [e])); try assumption.
    apply covers_snoc; [exact Hcov |].
    intro C. unfold carries_size in C. apply andb_true_iff in C. destruct C as [_ C].
    fold s in C. rewrite (regular_plain s C) in Hpl. discriminate.
Qed.

Lemma combine_fst_snd : forall (l : list entry), combine (map fst l) (map snd l) = l.
Proof. induction l as [| [a b] r IH]; [reflexivity |]. cbn. rewrite IH. reflexivity. Qed.

Lemma reset_entries_closed : forall l,
  links_wf l -> links_closed l = true -> reset_entries l = l.
Proof.
  intros l Hwf Hcl. unfold reset_entries, hardlink_reset.
  rewrite (reset_run_id l [] []); try assumption.
  - apply combine_fst_snd.
  - intros k v H. discriminate.
  - intros t [].
Qed.

Lemma wf_links_wf : forall l, wf_listing_b l = true -> links_wf l.
Proof.
  intros l H e Hin. unfold wf_listing_b in H. rewrite forallb_forall in H.
  destruct (wf_entry_parts e (H e Hin)) as [Hst _]. destruct (wf_stat_parts _ Hst) as [_ [Hl _]]. exact Hl.
Qed.

(* what WriteTar emits, on the wide write domain (link names also on fifos and devices), for
   any listing handed to it (a filtered walk) *)
Lemma members_are_listing_wide_proof : forall l, wf_listing_wb (reset_entries l) = true ->
  write_tar_listing l = TarOk (tar_members_listing l)
  /\ Forall2 member_of (reset_entries l) (tar_members_listing l)
  /\ Forall (fun m : member => h_size (fst m) = blen (snd m)) (tar_members_listing l).
Proof.
  intros l H. unfold write_tar_listing, tar_members_listing. split; [| split].
  - apply write_listing_wf_w. exact H.
  - apply members_forall2_w. exact H.
  - unfold tar_of_listing. apply Forall_forall. intros m Hin. apply in_map_iff in Hin.
    destruct Hin as [e [Hm He]]. subst m. apply payload_size_entry_w.
    unfold wf_listing_wb in H. rewrite forallb_forall in H. apply H. exact He.
Qed.

(* ... hence on the domain of the round-trip statements *)
Lemma members_are_listing_proof : forall l, wf_listing_b (reset_entries l) = true ->
  write_tar_listing l = TarOk (tar_members_listing l)
  /\ Forall2 member_of (reset_entries l) (tar_members_listing l)
  /\ Forall (fun m : member => h_size (fst m) = blen (snd m)) (tar_members_listing l).
Proof. intros l H. apply members_are_listing_wide_proof, wf_listing_narrow_wide, H. Qed.

(* ... and for a whole view *)
Lemma members_are_view_proof : forall v, wf_view v ->
  write_tar v = TarOk (tar_members v)
  /\ Forall2 member_of (reset_entries (walk_root v)) (tar_members v).
Proof. intros v H. destruct (members_are_listing_proof _ H) as (A & B & _). exact (conj A B). Qed.

Lemma payload_size_matches_proof : forall v, wf_view v ->
  Forall (fun m : member => h_size (fst m) = blen (snd m)) (tar_members v).
Proof. intros v H. apply (members_are_listing_proof _ H). Qed.

Lemma members_are_view_closed_proof : forall v,
  wf_listing_b (walk_root v) = true -> links_closed (walk_root v) = true ->
  wf_view v
  /\ write_tar v = TarOk (tar_members v)
  /\ Forall2 member_of (walk_root v) (tar_members v).
Proof.
  intros v H C.
  pose proof (reset_entries_closed _ (wf_links_wf _ H) C) as R.
  assert (W : wf_view v) by (unfold wf_view; rewrite R; exact H).
  destruct (members_are_view_proof v W) as [A B]. rewrite R in B. auto.
Qed.

Lemma typeflag_link_iff : forall m ln,
  N.eqb (hdr_typeflag m ln) TypeLink = negb (is_nil ln) && negb (mode_is_symlink m).
Proof.
  intros m ln. unfold hdr_typeflag. destruct ln as [| c r]; cbn [is_nil negb andb].
  - unfold fih_typeflag.
    repeat match goal with |- context [if ?b then _ else _] => destruct b end; reflexivity.
  - destruct (mode_is_symlink m); reflexivity.
Qed.

Lemma blen_0 : forall c, blen c = 0 -> c = [].
Proof. intros c H. destruct c; [reflexivity |]. unfold blen in H. simpl length in H. lia. Qed.
