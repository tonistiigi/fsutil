(* C19 o C09 — the metadata-only acceptance theorem instantiated with the walk model: for the
   listing fs.Walk produces for ANY well-formed tree (Model/Walk.v; hypotheses as in C01's
   converges_on_walked_trees) all side conditions of wf_source_accepts_iff hold by themselves:
   the listing is well formed with canonical links (C01 walk_views_are_wf) and every path is a
   clean relative path (ok_path).  What remains is what the statement is about: the selector
   (link-closed) and the one reserved name (no entry depends on .fsutil-metadata). *)
From Coq Require Import List NArith Bool.
From FS Require Import Sx Model.Path Model.Stat Model.Tree Model.Walk Model.Validator Model.Hardlinks Model.Diff
  Model.AbsDest Model.ConvergeA Model.MetaOnly
  Proofs.Lex Proofs.PathP Proofs.ValidatorP Proofs.WalkP Proofs.WalkWfP Proofs.MetaLinksP.
From FS Require Proofs.RefValidP.
From FS Require Import Model.Converge Model.MetaTransfer Proofs.MetaTransferP.
Import ListNotations.
Open Scope bool_scope.

Section MetaWalk.
Variable cont : lrec -> bytes.
Variable t : tree.
Hypothesis Hwf : wf_tree t.
Hypothesis Hic : ino_consistent t.
Hypothesis Hco : inode_coherent t.

Theorem walk_ok_paths_proof : forall s, In s (walk t) -> ok_path (st_path s) = true.
Proof.
  intros s Hin. destruct (walk_node t Hwf s Hin) as (cs & r & Hne & Hat & ->).
  apply okc_ok_path. split; [exact Hne|]. split.
  - eapply Forall_impl; [|eapply tree_at_names; eauto]. apply wf_name_normal.
  - eapply tree_at_nosep; eauto.
Qed.

Theorem walked_source_accepts_iff_proof sel :
  listing_dependents (walk t) = false ->
  (recv_accepts sel (walk t) = true <-> link_closed sel (recv_stream (walk t)) = true).
Proof.
  intros Hnd. destruct (walk_views_are_wf_proof cont t Hwf Hic Hco) as [Hwe Efst].
  rewrite <- Efst. apply wf_source_accepts_iff_proof; [exact Hwe| |rewrite Efst; exact Hnd].
  intros s Hs. rewrite Efst in Hs. apply walk_ok_paths_proof. exact Hs.
Qed.

Theorem walked_hardlink_check_proof : hardlink_check (walk t) = None.
Proof.
  destruct (walk_views_are_wf_proof cont t Hwf Hic Hco) as [[[Hs _] Hc] Efst].
  rewrite <- Efst. apply canon_hardlink_check_proof; assumption.
Qed.
(* the receiver's two stream validators accept the unfiltered walk of every well-formed tree:
   C09 (order, parents first, clean paths, canonical links) is exactly what C12's order validator
   and C11's hard-link validator demand *)
Theorem walk_passes_validators_proof : valid_stream (walk t) /\ hardlink_check (walk t) = None.
Proof.
  split; [|exact walked_hardlink_check_proof].
  destruct (walk_views_are_wf_proof cont t Hwf Hic Hco) as [[Hw _] Efst]. rewrite Efst in Hw.
  exact (RefValidP.listing_passes_validator (walk t) Hw walk_ok_paths_proof).
Qed.
End MetaWalk.

(* non-vacuity: a tree with a hard-link group (a/x, b) meets every hypothesis; the selection of
   everything is accepted, the selection of the link alone is not *)
Open Scope N_scope.
Definition mw_rec (mode ino nlink : N) : lrec :=
  {| l_mode := mode; l_uid := 0; l_gid := 0; l_size := 8; l_mtime := 1; l_rdev := 0;
     l_ino := ino; l_nlink := nlink; l_target := []; l_xattrs := []; l_dev := 38 |}.
Definition mw_tree : tree :=
  T (mw_rec 16877 1 3)
    [ ([97], T (mw_rec 16877 2 2) [ ([120], T (mw_rec 33188 5 2) []) ]);
      ([98], T (mw_rec 33188 5 2) []) ].

Lemma mw_tree_hyps : wf_tree mw_tree /\ ino_consistent mw_tree /\ inode_coherent mw_tree.
Proof.
  split; [apply wf_tree_b_sound; vm_compute; reflexivity|]. split.
  - intros cs1 r1 cs2 r2 H1 _ _ Hd1 _ _. apply rpr_tree_at in H1. vm_compute in H1.
    repeat (destruct H1 as [H1|H1]; [inversion H1; subst; try reflexivity; vm_compute in Hd1; discriminate|]).
    contradiction.
  - intros cs1 r1 cs2 r2 H1 H2 Hd1 Hd2 _. apply rpr_tree_at in H1. apply rpr_tree_at in H2.
    vm_compute in H1. vm_compute in H2.
    repeat (destruct H1 as [H1|H1]; [inversion H1; subst; try (vm_compute in Hd1; discriminate)|]); try contradiction;
    repeat (destruct H2 as [H2|H2]; [inversion H2; subst; try reflexivity; try (vm_compute in Hd2; discriminate)|]); try contradiction.
Qed.

Lemma mw_tree_example :
  map (fun s => (st_path s, st_linkname s)) (walk mw_tree) = [([97], []); ([97; 47; 120], []); ([98], [97; 47; 120])]
  /\ listing_dependents (walk mw_tree) = false
  /\ link_closed (fun _ => true) (recv_stream (walk mw_tree)) = true
  /\ recv_accepts (fun _ => true) (walk mw_tree) = true
  /\ (let only_b := fun s : stat => bytes_eqb (st_path s) [98] in
      link_closed only_b (recv_stream (walk mw_tree)) = false /\ recv_accepts only_b (walk mw_tree) = false).
Proof. vm_compute. repeat split; reflexivity. Qed.

(* the transfer theorem on walked trees: prior destination and source are walks of arbitrary
   well-formed trees, the selector is link-closed on the source walk, nothing depends on the
   reserved name - no hypothesis about what the validators do is left *)
Theorem meta_converges_on_walked_trees_proof sel (H : bytes -> bytes) (hdr : stat -> bytes) d contA tA contB tB :
  wf_tree tA -> ino_consistent tA -> inode_coherent tA ->
  wf_tree tB -> ino_consistent tB -> inode_coherent tB ->
  let A := walk_entries contA tA in
  let B := walk_entries contB tB in
  listing_dependents (walk tB) = false ->
  link_closed sel (recv_stream (walk tB)) = true ->
  AbsDest.identity_faithful d A (meta_proj sel B) ->
  let r := receive_abs H hdr Fresh d A (meta_proj sel B) in
  ds_err r = false /\ approx A (meta_proj sel B) (view_of (ds_map r)) /\
  find_obs listing_name (view_of (ds_map r)) = None.
Proof.
  intros HwA HiA HcA HwB HiB HcB A B Hnd Hlc Hif.
  destruct (walk_views_are_wf_proof contA tA HwA HiA HcA) as [HweA _].
  destruct (walk_views_are_wf_proof contB tB HwB HiB HcB) as [HweB EB].
  apply meta_transfer_converges_proof; auto.
  - unfold B. rewrite EB. exact Hnd.
  - unfold B. rewrite EB. apply (proj2 (walked_source_accepts_iff_proof contB tB HwB HiB HcB sel Hnd)). exact Hlc.
Qed.
