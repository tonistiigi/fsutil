(* C03 — the receive loop (Model/DiskWriterFs.v: recv_loop) keeps everything outside the
   destination directory D as it is.  The invariant; what content packets, Wait and one
   HandleChange do to it; a STAT with ReceiveOpt.Merge. *)
From Coq Require Import List Arith NArith Bool Lia ZifyN ZifyNat ZifyBool.
From FS Require Import Sx Model.Path Model.Stat Model.Validator Model.Fs Model.DiskWriterFs.
From FS Require Import Proofs.Lex Proofs.PathP Proofs.ValidatorP Proofs.FsP Proofs.FsReachP Proofs.FsFrameP
     Proofs.FsSysP Proofs.FsTreeP Proofs.DwP.
Import ListNotations.
Open Scope N_scope.
Open Scope bool_scope.

Lemma aset_In {A} k (v : A) l x : In x (aset k v l) -> x = (k, v) \/ In x l.
Proof.
  induction l as [|[k' v'] l IH]; simpl; intros H.
  - destruct H as [H|[]]; auto.
  - destruct (N.eqb k k'); simpl in H; destruct H as [H|H]; auto. apply IH in H. tauto.
Qed.

Lemma alookup_In {A} k (l : list (N * A)) v : alookup k l = Some v -> In (k, v) l.
Proof.
  induction l as [|[k' v'] l IH]; simpl; [discriminate|].
  destruct (N.eqb k k') eqn:E; intros H.
  - apply N.eqb_eq in E. subst. inversion H. left. reflexivity.
  - right. auto.
Qed.

Lemma mem_bytes_iff p l : mem_bytes p l = true <-> In p l.
Proof.
  induction l as [|q l IH]; simpl; [split; [discriminate|tauto]|].
  rewrite orb_true_iff, IH, bytes_eqb_eq. split; intros [H|H]; auto.
Qed.

Lemma vstep_ok_path stk it stk' : vstep stk it = Some stk' -> ok_path (vpath it) = true.
Proof.
  intros H. destruct (ok_path (vpath it)) eqn:E; auto.
  unfold vstep in H. rewrite (vsplit_bad _ E) in H. discriminate.
Qed.

(* an entry the order validator accepts: the path is clean, and the component-level validator
   accepts it after the same entries *)
Lemma vstep_sound stk acc it stk' :
  R stk -> Inv (map ce stk) (map citem_of acc) -> vstep stk it = Some stk' ->
  ok_path (vpath it) = true /\ cvstep (map ce stk) (citem_of it) = Some (map ce stk') /\ R stk'
  /\ spec_ok (map citem_of acc) (citem_of it) /\ Inv (map ce stk') (map citem_of (acc ++ [it])).
Proof.
  intros HR HI Ev. pose proof (vstep_ok_path _ _ _ Ev) as Hok.
  pose proof (vstep_refines stk it HR Hok) as Hr. rewrite Ev in Hr. destruct Hr as [Hcv HR'].
  destruct (cvstep_sound _ _ _ _ HI (okitem_names it Hok) Hcv) as [Hspec HI'].
  rewrite map_app. auto.
Qed.

(* the entry will be walked through (a directory) or named as a link source (no symlink) *)
Definition wanted (s : stat) : Prop :=
  st_is_dir s = true \/ (mode_is_symlink (st_mode s) = false /\ is_nil (st_linkname s) = true).

Lemma wanted_solid s : wanted s -> solid s = true.
Proof.
  unfold wanted, solid, st_is_dir. intros [H|[H1 H2]].
  - rewrite H. reflexivity.
  - rewrite H1, H2. cbn [negb andb]. rewrite orb_true_r. reflexivity.
Qed.

(* Hardlinks.HandleChange accepts: only a wanted entry is remembered, and a link names a remembered one *)
Lemma hl_step_inv seen s seen' : hl_step seen s = Some seen' ->
  (forall q, In q seen' -> In q seen \/ (q = st_path s /\ wanted s))
  /\ (hardlink_branch s = true -> In (st_linkname s) seen).
Proof.
  unfold hl_step, hardlink_branch, wanted, st_is_dir.
  destruct (mode_is_dir (st_mode s)); cbn [orb negb andb].
  - intros [= <-]. split; [auto|discriminate].
  - destruct (mode_is_symlink (st_mode s)); cbn [orb negb andb].
    + intros [= <-]. split; [auto|discriminate].
    + destruct (is_nil (st_linkname s)); cbn [negb].
      * intros [= <-]. split; [|discriminate]. intros q [E|Hq]; auto.
      * destruct (mem_bytes (st_linkname s) seen) eqn:Em; intros [= <-].
        split; [auto|]. intros _. apply mem_bytes_iff, Em.
Qed.

(* DiskWriter.Wait is reached once, after the last STAT, when no file is open *)
Lemma maybe_wait_cases c dl idx st :
  let st' := maybe_wait c dl idx st in
  st' = st \/ st' = set_dead st idx \/ (spend st = None /\ st' = set_out st Halted)
  \/ exists st1, spend st = Some st1 /\ r_closed st = true
       /\ st' = set_flags (upd st1 (if dl then r_fs st1 else wait_pass c (c_cwd c) st1)) true true.
Proof.
  cbv zeta. unfold maybe_wait.
  destruct ((running st || match r_out st with Drained _ => true | _ => false end) && negb (is_dead st)); [|auto].
  destruct (r_closed st) eqn:Ec; cbn [andb]; [|auto]. destruct (negb (r_waited st)); [|auto].
  destruct (r_asyncerr st); [auto|]. destruct (is_nil (r_pipes st)); [|auto].
  destruct (spend st) as [st1|]; [|auto]. do 3 right. exists st1. auto.
Qed.

(* states that differ in bookkeeping only *)
Definition same_core (st st' : rstate) : Prop :=
  r_vstk st' = r_vstk st /\ r_seen st' = r_seen st /\ r_tmps st' = r_tmps st.

(* the validators' state and the diff's (old listing, pending rmdirs, closed / waited) are the same *)
Definition same_diff (st st' : rstate) : Prop :=
  r_vstk st' = r_vstk st /\ r_seen st' = r_seen st /\ r_old st' = r_old st /\ r_rmdir st' = r_rmdir st
  /\ r_closed st' = r_closed st /\ r_waited st' = r_waited st.

Lemma live_set_out st o : o <> Running -> live (set_out st o) = false.
Proof. intros H. unfold live, running. simpl. destruct o; try reflexivity. congruence. Qed.

Lemma live_set_dead st idx : live (set_dead st idx) = false.
Proof. unfold live, is_dead. simpl. apply andb_false_r. Qed.

Lemma spend_core st st1 : spend st = Some st1 ->
  r_fs st1 = r_fs st /\ same_core st st1 /\ live st1 = live st /\ r_pipes st1 = r_pipes st /\ r_asyncerr st1 = r_asyncerr st
  /\ r_files st1 = r_files st /\ r_old st1 = r_old st /\ r_dirtimes st1 = r_dirtimes st /\ r_closed st1 = r_closed st
  /\ r_waited st1 = r_waited st /\ r_rmdir st1 = r_rmdir st /\ r_dead st1 = r_dead st /\ r_out st1 = r_out st.
Proof.
  unfold spend. destruct (r_budget st) as [[|n]|]; intros H; inversion H; subst; simpl; repeat split.
Qed.

Lemma spend_diff st st1 : spend st = Some st1 -> same_diff st st1.
Proof.
  intros Es. destruct (spend_core st st1 Es) as (_ & (Ev & Ese & _) & _ & _ & _ & _ & Eo & _ & Ecl & Ewa & Erm & _).
  repeat split; assumption.
Qed.

(* content packets, and HandleChange whatever it does, leave the validators' and the diff's part alone *)
Lemma recv_data_diff c idx id d st : same_diff st (recv_data c idx id d st).
Proof.
  unfold recv_data. destruct (alookup id (r_pipes st)) as [pp|]; [|repeat split].
  destruct (pp_closed pp); [repeat split|].
  destruct (spend st) as [st1|] eqn:Es; [|repeat split]. pose proof (spend_diff st st1 Es) as Sd.
  destruct (is_nil d).
  - destruct (r_asyncerr st1); [destruct (pp_fd pp); exact Sd|].
    destruct (if _ || _ then _ else _) as [f1 r1]. destruct (if is_err r1 then _ else _) as [f2 r2]. exact Sd.
  - destruct (match pp_fd pp with Some i => _ | None => _ end) as [f1 r].
    destruct r; try exact Sd. destruct (fd_pwrite f1 i (pp_off pp) d) as [f2 r2]. exact Sd.
Qed.

Lemma apply_change_diff fl c idx kind p s st :
  let st' := apply_change fl c idx kind p s st in
  same_diff st st' /\ (kind = 2 -> r_pipes st' = r_pipes st).
Proof.
  cbv zeta. unfold apply_change. destruct (f_rej fl p); [repeat split|]. cbv zeta.
  destruct (negb (live st)); [repeat split|].
  destruct (spend st) as [st1|] eqn:Es; [|repeat split]. pose proof (spend_diff st st1 Es) as Sd.
  destruct (spend_core st st1 Es) as (_ & _ & _ & Ep & _). cbn [r_fs set_tmps].
  match goal with |- context [dw_handle ?a ?b ?t ?k ?q ?z] => destruct (dw_handle a b t k q z) as [f' res] eqn:Edw end.
  destruct res as [|async newdir]; [split; [exact Sd|intros _; exact Ep]|]. destruct async.
  - split; [destruct newdir; match goal with |- context [blookup ?a ?b] => destruct (blookup a b) end; exact Sd|].
    (* a delete registers no file *)
    intros ->. pose proof (dw_handle_delete_res _ _ _ _ _ _ _ (f_equal snd Edw)). discriminate.
  - split; destruct newdir; try exact Sd; intros _; exact Ep.
Qed.

Section Recv.
Variables (D root : N) (f0 : fs) (tmps0 : list bytes) (dl : bool).
Notation reach := (reach D).
Notation wf := (wf D).
Notation step := (step D).

Let c : ctx := {| c_root := root; c_cwd := D |}.
Let b0 : N := f_next f0.

Hypothesis W0 : wf f0.

(* ReceiveOpt.Filter: what it does to the stat copy keeps type bits and link name; what it
   rejects it rejects with everything below *)
Variable fl : rfilter.
Hypothesis Hmap_mode : forall s, st_mode (f_map fl s) = st_mode s.
Hypothesis Hmap_link : forall s, st_linkname (f_map fl s) = st_linkname s.
Hypothesis Hclosed : forall p q, ok_path p = true -> ok_path q = true ->
  f_rej fl p = true -> is_prefix (comps p) (comps q) -> f_rej fl q = true.

(* the temporary names the disk writer may use *)
Definition tmpname (t : bytes) : Prop := t = default_tmp \/ In t tmps0.
Hypothesis tmp_ok : forall t, tmpname t -> okname t.

(* a path none of whose components is a temporary name *)
Definition clean_path (p : bytes) : Prop := forall t, tmpname t -> ~ In t (comps p).

Definition TAll : N -> bytes -> Prop := fun _ _ => True.

Lemma glob_step (T : N -> bytes -> Prop) b f g :
  step TAll b0 f0 f -> step T b f g -> b0 <= b -> step TAll b0 f0 g.
Proof.
  intros G S Hb. apply (step_trans D TAll b0 f0 f g G).
  apply (step_weaken D T TAll b0 f g); [unfold TAll; auto|].
  apply (step_rebase D T b b0 f g S Hb).
Qed.

(* the entry a path names, if any, was made by this transfer *)
Definition fresh_at (f : fs) (cs : list bytes) : Prop :=
  forall dd i, rwalk f D (removelast cs) = Some dd -> blookup (last cs []) (ents f dd) = Some i -> b0 <= i.

Definition pipe_ok (f : fs) (pp : pipe) : Prop :=
  ok_path (pp_path pp) = true /\ clean_path (pp_path pp)
  /\ safe f D (comps (pp_path pp)) /\ fresh_at f (comps (pp_path pp))
  /\ (forall i, pp_fd pp = Some i -> b0 <= i /\ i < f_next f).

Record alive_inv (st : rstate) : Prop := {
  a_tmpfree : forall j t, reach (r_fs st) j -> tmpname t -> blookup t (ents (r_fs st) j) = None;
  (* what the filter rejects never reaches the disk: nothing is claimed about it *)
  a_stack : forall d l, In (d, l) (r_vstk st) -> f_rej fl d = false -> safe (r_fs st) D (pcomps d);
  a_seen : forall q, In q (r_seen st) -> f_rej fl q = false -> safe (r_fs st) D (comps q)
}.

Definition accpaths (acc : list vitem) : list bytes := map vpath acc.

Record GBase (st : rstate) (acc : list vitem) : Prop := {
  g_step : step TAll b0 f0 (r_fs st);
  g_R : R (r_vstk st);
  g_vinv : Inv (map ce (r_vstk st)) (map citem_of acc);
  g_acc : Forall (fun it => ok_path (vpath it) = true /\ clean_path (vpath it)) acc;
  g_seen : forall q, In q (r_seen st) -> In q (accpaths acc);
  g_pipes : forall id pp, In (id, pp) (r_pipes st) -> In (pp_path pp) (accpaths acc) /\ pipe_ok (r_fs st) pp;
  g_tmps : forall t, In t (r_tmps st) -> tmpname t
}.

Definition GInv (st : rstate) (acc : list vitem) : Prop :=
  GBase st acc /\ (live st = true -> alive_inv st).

Lemma g_wf st acc : GBase st acc -> wf (r_fs st).
Proof. intros G. apply (st_wf _ _ _ _ _ (g_step st acc G)). Qed.
Lemma g_next st acc : GBase st acc -> b0 <= f_next (r_fs st).
Proof. intros G. pose proof (st_next _ _ _ _ _ (g_step st acc G)). unfold b0. lia. Qed.

Lemma quiet_fresh_at b f g cs : wf f -> step TNone b f g -> fresh_at f cs -> fresh_at g cs.
Proof.
  intros W S H dd i Hw Hb. rewrite (quiet_rwalk D b f g _ W S) in Hw.
  rewrite (quiet_blookup D b f g dd _ S) in Hb.
  - apply (H dd i); auto.
  - apply (reach_lt D f dd W). apply (rwalk_inside D f (removelast cs) dd Hw).
Qed.

Lemma quiet_pipe_ok b f g pp : wf f -> step TNone b f g -> pipe_ok f pp -> pipe_ok g pp.
Proof.
  intros W S (A & B & C & E & F). repeat split; auto.
  - apply (quiet_safe D b f g); auto.
  - apply (quiet_fresh_at b f g); auto.
  - apply (F i H).
  - destruct (F i H). pose proof (st_next _ _ _ _ _ S). lia.
Qed.

Lemma alive_quiet st st' b : wf (r_fs st) -> same_core st st' -> step TNone b (r_fs st) (r_fs st') ->
  alive_inv st -> alive_inv st'.
Proof.
  intros W (E1 & E2 & E3) S [A1 A2 A3]. constructor.
  - intros j t Rj Ht. pose proof (quiet_reach D b _ _ j W S Rj) as Rj0.
    rewrite (quiet_blookup D b _ _ j t S (reach_lt D _ j W Rj0)). apply A1; auto.
  - intros d l Hin Hr. rewrite E1 in Hin. apply (quiet_safe D b (r_fs st)); auto. apply (A2 d l Hin Hr).
  - intros q Hin Hr. rewrite E2 in Hin. apply (quiet_safe D b (r_fs st)); auto.
Qed.


Lemma GBase_quiet st st' acc b :
  GBase st acc -> b0 <= b -> step TNone b (r_fs st) (r_fs st') -> same_core st st' ->
  (forall id pp, In (id, pp) (r_pipes st') -> In (pp_path pp) (accpaths acc) /\ pipe_ok (r_fs st') pp) ->
  GBase st' acc.
Proof.
  intros G Hb S C Hp. pose proof C as (E1 & E2 & E3). constructor.
  - apply (glob_step TNone b (r_fs st)); auto. apply G.
  - rewrite E1. apply G.
  - rewrite E1. apply G.
  - apply G.
  - intros q Hq. rewrite E2 in Hq. apply (g_seen st acc G q Hq).
  - exact Hp.
  - intros t Ht. rewrite E3 in Ht. apply (g_tmps st acc G t Ht).
Qed.

Lemma GInv_quiet st st' acc b :
  GInv st acc -> b0 <= b -> step TNone b (r_fs st) (r_fs st') -> same_core st st' ->
  (live st' = true -> live st = true) ->
  (forall id pp, In (id, pp) (r_pipes st') -> In (pp_path pp) (accpaths acc) /\ pipe_ok (r_fs st') pp) ->
  GInv st' acc.
Proof.
  intros [G A] Hb S C Hl Hp. split.
  - apply (GBase_quiet st st' acc b); auto.
  - intros L. apply (alive_quiet st st' b (g_wf st acc G) C S). apply (A (Hl L)).
Qed.

Lemma g_same st acc : GBase st acc -> step TNone b0 (r_fs st) (r_fs st).
Proof. intros G. apply step_refl; [apply (g_wf st acc G)|apply (g_next st acc G)]. Qed.

(* a state that differs in the bookkeeping of the diff and of the ids only *)
Lemma GBase_same st st' acc :
  GBase st acc -> r_fs st' = r_fs st -> r_vstk st' = r_vstk st -> r_seen st' = r_seen st ->
  r_pipes st' = r_pipes st -> r_tmps st' = r_tmps st -> GBase st' acc.
Proof. intros [] E1 E2 E3 E4 E5. constructor; rewrite ?E1, ?E2, ?E3, ?E4, ?E5; assumption. Qed.

Lemma GInv_same st st' acc :
  GInv st acc -> r_fs st' = r_fs st -> same_core st st' -> r_pipes st' = r_pipes st ->
  (live st' = true -> live st = true) -> GInv st' acc.
Proof.
  intros [G A] E C P L. split; [destruct C as (E1 & E2 & E3); apply (GBase_same st st' acc G); assumption|].
  intros L'. apply (alive_quiet st st' b0 (g_wf st acc G) C); [|apply (A (L L'))].
  rewrite E. apply (g_same st acc G).
Qed.

Lemma GInv_stop st acc o : GInv st acc -> o <> Running -> GInv (set_out st o) acc.
Proof.
  intros G Ho. apply (GInv_same st _ acc G); try reflexivity; [repeat split|].
  rewrite (live_set_out st o Ho). discriminate.
Qed.

Lemma GInv_spend st st1 acc : GInv st acc -> spend st = Some st1 -> GInv st1 acc.
Proof.
  intros G H. destruct (spend_core st st1 H) as (E & C & L & P & _).
  apply (GInv_same st st1 acc G E C P). rewrite L. auto.
Qed.

(* the path of an open pipe, split *)
Lemma pipe_path_split f pp : pipe_ok f pp ->
  let cs := comps (pp_path pp) in
  relpath (pp_path pp) (removelast cs ++ [last cs []]) /\ cs = removelast cs ++ [last cs []].
Proof.
  intros (A & _). cbv zeta. pose proof (split_comps _ A) as E. split; auto. rewrite <- E. apply ok_path_relpath. exact A.
Qed.

Lemma pipe_target_ok f pp : pipe_ok f pp ->
  target_ok D b0 f (removelast (comps (pp_path pp))) (last (comps (pp_path pp)) []).
Proof. intros (_ & _ & _ & F & _) dd i Hw Hb. left. apply (F dd i Hw Hb). Qed.

(* from st to st' no directory entry changed, the invariant holds of st', and a dead writer stayed dead *)
Definition DQ (st st' : rstate) (acc : list vitem) : Prop :=
  GInv st' acc /\ step TNone b0 (r_fs st) (r_fs st') /\ (live st' = true -> live st = true).

Lemma DQ_quiet st st' acc :
  GInv st acc -> step TNone b0 (r_fs st) (r_fs st') -> same_core st st' ->
  (live st' = true -> live st = true) ->
  (forall id pp, In (id, pp) (r_pipes st') -> In (pp_path pp) (accpaths acc) /\ pipe_ok (r_fs st') pp) ->
  DQ st st' acc.
Proof.
  intros G S C Hl Hp. split; [|split; auto]. apply (GInv_quiet st st' acc b0 G); auto. apply N.le_refl.
Qed.

Lemma DQ_stop st acc o : GInv st acc -> o <> Running -> DQ st (set_out st o) acc.
Proof.
  intros G Ho. split; [apply GInv_stop; auto|]. split; [apply (g_same st acc (proj1 G))|].
  rewrite (live_set_out st o Ho). discriminate.
Qed.

Lemma DQ_same st acc : GInv st acc -> DQ st st acc.
Proof. intros G. split; auto. split; auto. apply (g_same st acc (proj1 G)). Qed.

Lemma DQ_via st st1 st' acc : r_fs st1 = r_fs st -> live st1 = live st -> DQ st1 st' acc -> DQ st st' acc.
Proof. intros E E2 (A & B & C). split; auto. rewrite <- E, <- E2. auto. Qed.

(* the pipes along a step that touches no entry *)
Lemma pipes_quiet b st acc f2 : GBase st acc -> step TNone b (r_fs st) f2 ->
  forall id pp, In (id, pp) (r_pipes st) -> In (pp_path pp) (accpaths acc) /\ pipe_ok f2 pp.
Proof.
  intros G S id pp Hin. destruct (g_pipes st acc G id pp Hin) as [A B]. split; auto.
  apply (quiet_pipe_ok b (r_fs st) f2 pp (g_wf st acc G) S B).
Qed.

(* the same, with one pipe's record replaced by one for the same path *)
Lemma pipes_aset st acc f2 id pp pp' : GBase st acc -> step TNone b0 (r_fs st) f2 ->
  In (id, pp) (r_pipes st) -> pp_path pp' = pp_path pp ->
  (forall i, pp_fd pp' = Some i -> b0 <= i /\ i < f_next f2) ->
  forall id0 pp0, In (id0, pp0) (aset id pp' (r_pipes st)) -> In (pp_path pp0) (accpaths acc) /\ pipe_ok f2 pp0.
Proof.
  intros G S Hin Ep Hfd id0 pp0 H0. apply aset_In in H0.
  destruct H0 as [E|H0]; [|apply (pipes_quiet b0 st acc f2 G S id0 pp0 H0)].
  injection E as -> ->. destruct (pipes_quiet b0 st acc f2 G S id pp Hin) as (A & B1 & B2 & B3 & B4 & _).
  unfold pipe_ok. rewrite Ep. auto 7.
Qed.

Lemma recv_data_dq idx id d st acc : GInv st acc -> DQ st (recv_data c idx id d st) acc.
Proof.
  intros G. unfold recv_data.
  destruct (alookup id (r_pipes st)) as [pp|] eqn:Ea; [|apply DQ_stop; [auto|discriminate]].
  destruct (pp_closed pp); [apply DQ_stop; [auto|discriminate]|].
  destruct (spend st) as [st1|] eqn:Es; [|apply DQ_stop; [auto|discriminate]].
  pose proof (GInv_spend st st1 acc G Es) as G1.
  destruct (spend_core st st1 Es) as (Ef & _ & El & Ep & _).
  apply (DQ_via st st1 _ acc Ef El).
  assert (Hin : In (id, pp) (r_pipes st1)) by (rewrite Ep; apply alookup_In; auto).
  destruct (g_pipes st1 acc (proj1 G1) id pp Hin) as [Hacc Hpo].
  pose proof (g_wf st1 acc (proj1 G1)) as W1. pose proof (g_next st1 acc (proj1 G1)) as Hb1.
  destruct (pipe_path_split _ pp Hpo) as [Hrel Ecs].
  set (pre := removelast (comps (pp_path pp))) in *. set (n := last (comps (pp_path pp)) []) in *.
  assert (Hc : c_cwd c = D) by reflexivity.
  pose proof Hpo as (Hok & Hcl & Hsf & Hfr & Hfd).
  assert (Hsp : safe (r_fs st1) D pre) by (apply (safe_prefix (r_fs st1) D pre [n]); rewrite <- Ecs; exact Hsf).
  destruct (is_nil d).
  - (* end of the file *)
    destruct (r_asyncerr st1).
    + destruct (pp_fd pp) eqn:Efd; [|apply DQ_same; exact G1].
      apply (DQ_quiet st1 _ acc G1); simpl; auto; [apply (g_same st1 acc (proj1 G1))|repeat split|].
      apply (pipes_aset st1 acc _ id pp _ (proj1 G1) (g_same st1 acc (proj1 G1)) Hin); [reflexivity|exact Hfd].
    + set (r := if _ || _ then sys_chmod _ _ _ _ else _).
      assert (S1 : step TNone b0 (r_fs st1) (fst r)).
      { unfold r. destruct (_ || _); [|apply step_refl; auto].
        apply (sys_chmod_step D TNone b0 c (r_fs st1) (pp_path pp) pre n W1 Hb1 Hc Hrel Hsp).
        - rewrite <- Ecs. exact Hsf.
        - apply pipe_target_ok. exact Hpo. }
      clearbody r. destruct r as [f1 r1]. cbn [fst] in S1.
      set (r := if is_err r1 then _ else _).
      assert (S2 : step TNone b0 f1 (fst r)).
      { pose proof (quiet_pipe_ok b0 _ f1 pp W1 S1 Hpo) as Hpo1.
        pose proof (st_wf _ _ _ _ _ S1) as Wf1. pose proof (st_next _ _ _ _ _ S1) as Hn1.
        unfold r. destruct (is_err r1); cbn [fst]; [apply step_refl; [exact Wf1|lia]|].
        apply (sys_utimens_step D TNone b0 c f1 (pp_path pp) pre n Wf1 ltac:(lia) Hc Hrel).
        - apply (quiet_safe D b0 (r_fs st1) f1); auto.
        - apply pipe_target_ok. exact Hpo1. }
      clearbody r. destruct r as [f2 r2]. cbn [fst] in S2.
      pose proof (step_trans D TNone b0 _ _ _ S1 S2) as S12.
      apply (DQ_quiet st1 _ acc G1); simpl; auto; [repeat split|].
      intros id' pp' Hin'. apply filter_In in Hin'. apply (pipes_quiet b0 st1 acc f2 (proj1 G1) S12 id' pp' (proj1 Hin')).
  - (* a chunk: the descriptor, opened now if this is the first one, is that of a file the transfer made *)
    set (op := match pp_fd pp with Some i => _ | None => _ end).
    assert (Eop : fst op = r_fs st1) by (unfold op; destruct (pp_fd pp); [reflexivity|apply sys_open_nocreat_fs]).
    assert (Hop : forall i, snd op = RFd i -> b0 <= i /\ i < f_next (r_fs st1)).
    { unfold op. intros i. destruct (pp_fd pp) as [j|] eqn:Efd; intros E.
      - injection E as <-. apply (Hfd j eq_refl).
      - destruct (sys_open_nocreat_fd D c (r_fs st1) (pp_path pp) pre n Hc Hrel 0 i) as (dd & Hw & Hbl);
          [rewrite <- Ecs; exact Hsf|exact E|].
        split; [apply (Hfr dd i Hw Hbl)|].
        destruct (dentry_reach D (r_fs st1) pre dd n i Hw Hbl) as [_ Ri]. apply (reach_lt D _ i W1 Ri). }
    clearbody op. destruct op as [f1 r]. cbn [fst snd] in *. subst f1.
    destruct r as [| | | | |i];
      try (apply (DQ_via st1 (upd st1 (r_fs st1))); [reflexivity|reflexivity|]; apply DQ_stop; [|discriminate];
           apply (GInv_same st1 _ acc G1); try reflexivity; [repeat split|auto]).
    destruct (Hop i eq_refl) as [Hbi Hlt].
    assert (HiD : i <> D).
    { pose proof (reach_lt D f0 D W0 (reach_refl D f0)). unfold b0 in Hbi. lia. }
    pose proof (fd_pwrite_step D TNone b0 (r_fs st1) i (pp_off pp) d W1 Hb1 Hlt HiD Hbi) as S.
    destruct (fd_pwrite (r_fs st1) i (pp_off pp) d) as [f2 r2]. cbn [fst] in S.
    apply (DQ_quiet st1 _ acc G1); simpl; auto; [repeat split|].
    apply (pipes_aset st1 acc f2 id pp _ (proj1 G1) S Hin); [reflexivity|].
    simpl. intros i' E. injection E as <-. split; auto. pose proof (st_next _ _ _ _ _ S). lia.
Qed.


(* DiskWriter.Wait: mtimes of the directories the transfer made *)
Lemma wait_entry_step b g0 f p i par es m t :
  wf g0 -> step TNone b g0 f -> In (p, i, {| i_kind := KDir par es; i_meta := m |}) (tree_below 64 g0 D []) ->
  step TNone b f (fst (sys_utimens c f p t)).
Proof.
  intros Wg S Hin.
  destruct (tree_below_spec D g0 Wg 64 D [] (reach_refl D g0) (or_introl eq_refl) p i _ Hin)
    as (cs & Hne & Hok & Hp & Hw & Hg).
  assert (Hdi : is_dir g0 i = true) by (unfold is_dir, dir_of; rewrite Hg; reflexivity).
  simpl in Hp.
  assert (Wf : wf f) by (apply (st_wf _ _ _ _ _ S)).
  assert (Hb : b <= f_next f) by (pose proof (st_base _ _ _ _ _ S); pose proof (st_next _ _ _ _ _ S); lia).
  assert (Hwf : rwalk f D cs = Some i) by (rewrite (quiet_rwalk D b g0 f cs Wg S); exact Hw).
  pose proof (rwalk_inside D g0 cs i Hw) as Ri.
  assert (Hdf : is_dir f i = true) by (rewrite (is_dir_step D TNone b g0 f i S (reach_lt D g0 i Wg Ri)); exact Hdi).
  assert (Hkc : okc cs).
  { apply okname_forall in Hok. destruct Hok. repeat split; auto. }
  destruct (exists_last Hne) as (pre & nm & Ecs). subst cs.
  assert (Hrel : relpath p (pre ++ [nm])) by (rewrite Hp; apply relpath_joinc; auto).
  apply (sys_utimens_step D TNone b c f p pre nm Wf Hb eq_refl Hrel).
  - pose proof (rwalk_prefix_safe f (pre ++ [nm]) D i Hwf) as H. rewrite removelast_last in H. exact H.
  - intros dd i' Hw' Hb'. right. apply rwalk_snoc in Hwf.
    destruct Hwf as (d & H1 & H2 & _). rewrite Hw' in H1. inversion H1; subst d. rewrite Hb' in H2. inversion H2; subst.
    exact Hdf.
Qed.

Lemma wait_pass_quiet st : wf (r_fs st) ->
  step TNone (f_next (r_fs st)) (r_fs st) (wait_pass c D st).
Proof.
  intros Wg. unfold wait_pass. set (g0 := r_fs st). set (b := f_next g0).
  assert (G : forall l, (forall e, In e l -> In e (tree_below 64 g0 D [])) ->
          forall f, step TNone b g0 f ->
          step TNone b g0 (fold_left (fun f (e : bytes * N * inode) =>
               match e with
               | (p, _, {| i_kind := KDir _ _ |}) =>
                 match blookup p (r_dirtimes st) with
                 | Some t => fst (sys_utimens c f p t)
                 | None => f
                 end
               | _ => f
               end) l f)).
  { induction l as [|[[p i] n] l IH]; intros Hl f S; [exact S|].
    simpl. apply IH; [intros e He; apply Hl; right; auto|].
    destruct n as [k m]. destruct k; auto.
    destruct (blookup p (r_dirtimes st)) as [t|]; auto.
    apply (step_trans D TNone b g0 f _ S).
    apply (wait_entry_step b g0 f p i parent ents m t Wg S). apply Hl. left. reflexivity. }
  apply G; auto. apply step_refl; auto. unfold b. lia.
Qed.

Lemma maybe_wait_inv idx st acc : GInv st acc -> GInv (maybe_wait c dl idx st) acc.
Proof.
  intros G. destruct (maybe_wait_cases c dl idx st) as [->|[->|[[_ ->]|(st1 & Es & _ & ->)]]].
  - exact G.
  - apply (GInv_same st _ acc G); try reflexivity; [repeat split|].
    rewrite live_set_dead. discriminate.
  - apply GInv_stop; [auto|discriminate].
  - pose proof (GInv_spend st st1 acc G Es) as G1.
    pose proof (g_wf st1 acc (proj1 G1)) as W1. pose proof (g_next st1 acc (proj1 G1)) as Hb1.
    assert (S : step TNone (f_next (r_fs st1)) (r_fs st1) (if dl then r_fs st1 else wait_pass c (c_cwd c) st1)).
    { destruct dl; [apply step_refl; auto; lia|]. apply wait_pass_quiet. exact W1. }
    apply (GInv_quiet st1 _ acc (f_next (r_fs st1)) G1); auto; simpl; auto; [repeat split|].
    apply (pipes_quiet _ st1 acc _ (proj1 G1) S).
Qed.


Definition change_pre (kind : N) (st : rstate) (p : bytes) (s : stat) (acc : list vitem) : Prop :=
  ok_path p = true /\ clean_path p /\ safe (r_fs st) D (removelast (comps p))
  /\ (forall j t, reach (r_fs st) j -> tmpname t -> blookup t (ents (r_fs st) j) = None)
  /\ (N.eqb kind 2 = false -> hardlink_branch s = true ->
        ok_path (st_linkname s) = true /\ safe (r_fs st) D (removelast (comps (st_linkname s))))
  /\ (forall id pp, In (id, pp) (r_pipes st) -> ~ is_prefix (comps p) (comps (pp_path pp)))
  /\ (N.eqb kind 2 = false -> In p (accpaths acc)).

(* the call itself, once the filter has let the change pass *)
Definition apply_change0 (c : ctx) (idx : nat) (kind : N) (p : bytes) (s : stat) (st : rstate) : rstate :=
  if negb (live st) then st else
  match spend st with
  | None => set_out st Halted
  | Some st1 =>
    let tmp := hd default_tmp (r_tmps st1) in
    let st2 := set_tmps st1 (tl (r_tmps st1)) (r_dirtimes st1) in
    match dw_handle c (r_fs st2) tmp kind p s with
    | (f', DwErr) => set_dead (upd st2 f') idx
    | (f', DwOk async newdir) =>
      let st3 := upd st2 f' in
      let st4 := if newdir then set_tmps st3 (r_tmps st3) (bset p (st_mtime s) (r_dirtimes st3)) else st3 in
      if async then
        match blookup p (r_files st4) with
        | None => set_maps st4 (r_files st4) (r_pipes st4) true
        | Some id =>
          set_maps st4 (bremove p (r_files st4))
                   (aset id {| pp_path := p; pp_stat := s; pp_off := O; pp_fd := None; pp_closed := false |} (r_pipes st4))
                   (r_asyncerr st4)
        end
      else st4
    end
  end.

Lemma apply_change_unfold idx kind p s st :
  apply_change fl c idx kind p s st =
  if f_rej fl p then st else apply_change0 c idx kind p (if N.eqb kind 2 then s else f_map fl s) st.
Proof. reflexivity. Qed.

Definition change_post (kind : N) (p : bytes) (s : stat) (st st' : rstate) : Prop :=
  live st' = true ->
    live st = true
    /\ (forall j t, reach (r_fs st') j -> tmpname t -> blookup t (ents (r_fs st') j) = None)
    /\ (forall cs, ~ is_prefix (comps p) cs -> (forall t, tmpname t -> ~ In t cs) ->
           (safe (r_fs st) D cs -> safe (r_fs st') D cs) /\ rwalk (r_fs st') D cs = rwalk (r_fs st) D cs)
    /\ (kind <> 2 -> solid s = true -> f_rej fl p = false -> safe (r_fs st') D (comps p)).

Lemma pipe_kept f f' tmp p pp :
  wf f -> ok_path p = true ->
  (forall cs', off tmp (removelast (comps p)) (last (comps p) []) cs' ->
               (safe f D cs' -> safe f' D cs') /\ rwalk f' D cs' = rwalk f D cs') ->
  (forall pre' n' dd', off tmp (removelast (comps p)) (last (comps p) []) (pre' ++ [n']) -> rwalk f D pre' = Some dd' ->
               blookup n' (ents f' dd') = blookup n' (ents f dd')) ->
  f_next f <= f_next f' -> tmpname tmp ->
  ~ is_prefix (comps p) (comps (pp_path pp)) -> pipe_ok f pp -> pipe_ok f' pp.
Proof.
  intros W Hok K1 K2 Hn Ht Hnp (A & B & C & E & F).
  pose proof (split_comps p Hok) as Ep.
  assert (Ho : off tmp (removelast (comps p)) (last (comps p) []) (comps (pp_path pp))).
  { apply off_of; [rewrite <- Ep; exact Hnp|apply B; exact Ht]. }
  pose proof (split_comps _ A) as Eq.
  repeat split; auto.
  - apply (proj1 (K1 _ Ho)). exact C.
  - intros dd i Hw Hb. rewrite (proj2 (K1 _ (off_removelast _ _ _ _ Ho))) in Hw.
    rewrite (K2 (removelast (comps (pp_path pp))) (last (comps (pp_path pp)) []) dd) in Hb; auto.
    + apply (E dd i Hw Hb).
    + rewrite <- Eq. exact Ho.
  - apply (F i H).
  - destruct (F i H). lia.
Qed.

(* no temporary name is in use after the call either, once its own is gone again *)
Lemma tmps_unused_kept f f' tmp pre bn : wf f -> step (Tp D f tmp pre bn) (f_next f) f f' ->
  (forall j t, reach f j -> tmpname t -> blookup t (ents f j) = None) ->
  (forall dd, rwalk f D pre = Some dd -> blookup tmp (ents f' dd) = None) ->
  (forall t, tmpname t -> t <> bn) ->
  forall j t, reach f' j -> tmpname t -> blookup t (ents f' j) = None.
Proof.
  intros W S Hfree Hgone Hbn j t Rj Ht. destruct (st_enter _ _ _ _ _ S j Rj) as [Rj0|Hge].
  - assert (Hdent : ~ (rwalk f D pre = Some j /\ t = tmp) -> blookup t (ents f' j) = None).
    { intros Hn. rewrite (st_dent _ _ _ _ _ S j t (reach_lt D _ j W Rj0)); [apply Hfree; auto|].
      intros (E & _ & [Eb|Et]); [exact (Hbn t Ht Eb)|exact (Hn (conj E Et))]. }
    destruct (list_eq_dec N.eq_dec t tmp) as [->|Htt]; [|apply Hdent; tauto].
    destruct (rwalk f D pre) as [dd|] eqn:Ew; [|apply Hdent; intros [E _]; congruence].
    destruct (N.eq_dec dd j) as [->|Hne]; [apply Hgone; reflexivity|apply Hdent; intros [E _]; congruence].
  - apply (st_fresh _ _ _ _ _ S j t Hge). intros (E & _).
    apply (N.lt_irrefl j). apply (N.lt_le_trans _ _ _ (reach_lt D f j W (rwalk_inside D f pre j E)) Hge).
Qed.

Lemma apply_change_inv0 idx kind p s st acc :
  GBase st acc -> (live st = true -> change_pre kind st p s acc) ->
  let st' := apply_change0 c idx kind p s st in
  GBase st' acc /\ change_post kind p s st st'.
Proof.
  intros G Hpre. cbv zeta. unfold apply_change0.
  destruct (live st) eqn:L; cbn [negb].
  2:{ split; auto. intros L'. congruence. }
  destruct (Hpre eq_refl) as (Hok & Hcl & Hsafe & Hfree & Hlink & Hpipes & Hacc).
  pose proof (g_wf st acc G) as Wg. pose proof (g_next st acc G) as Hb.
  destruct (spend st) as [st1|] eqn:Es.
  2:{ split; [|intros L'; rewrite live_set_out in L'; discriminate].
      apply (GBase_same st _ acc G); reflexivity. }
  destruct (spend_core st st1 Es) as (Ef & (Ev & Ese & Et) & El & Ep & _).
  set (tmp := hd default_tmp (r_tmps st1)).
  assert (Htn : tmpname tmp).
  { unfold tmp. rewrite Et. destruct (r_tmps st) as [|t0 r] eqn:E; [left; reflexivity|].
    apply (g_tmps st acc G). rewrite E. left. reflexivity. }
  pose proof (split_comps p Hok) as Ecs.
  set (pre := removelast (comps p)) in *. set (bn := last (comps p) []) in *.
  assert (Hfree' : forall dd, rwalk (r_fs st) D pre = Some dd -> blookup tmp (ents (r_fs st) dd) = None).
  { intros dd Hw. apply Hfree; auto. apply (rwalk_inside D _ pre dd Hw). }
  pose proof (dw_handle_contained D c (r_fs st) tmp kind p s Wg eq_refl Hok (tmp_ok tmp Htn) (Hcl tmp Htn)
                Hsafe Hfree' Hlink) as DW.
  cbv zeta in DW. fold pre bn in DW.
  cbn [r_fs set_tmps]. rewrite Ef.
  destruct (dw_handle c (r_fs st) tmp kind p s) as [f' res] eqn:Edw. cbn [fst snd] in DW.
  destruct DW as (S & K1 & K2 & P).
  assert (Hnext : f_next (r_fs st) <= f_next f') by (apply (st_next _ _ _ _ _ S)).
  assert (Gstep : step TAll b0 f0 f').
  { apply (glob_step (Tp D (r_fs st) tmp pre bn) (f_next (r_fs st)) (r_fs st)); auto. apply G. }
  assert (Hpk : forall id pp, In (id, pp) (r_pipes st) -> In (pp_path pp) (accpaths acc) /\ pipe_ok f' pp).
  { intros id pp Hin. destruct (g_pipes st acc G id pp Hin) as [A B]. split; auto.
    apply (pipe_kept (r_fs st) f' tmp p pp Wg Hok K1 K2 Hnext Htn (Hpipes id pp Hin) B). }
  assert (Htl : forall t, In t (tl (r_tmps st1)) -> tmpname t).
  { intros t Ht. apply (g_tmps st acc G). rewrite <- Et. destruct (r_tmps st1); [destruct Ht|right; exact Ht]. }
  destruct res as [|async newdir].
  - (* HandleChange failed: the writer is cancelled *)
    split; [|intros L'; rewrite live_set_dead in L'; discriminate].
    constructor; cbn; try (rewrite ?Ev, ?Ese; apply G); auto.
    rewrite Ep. exact Hpk.
  - (* it succeeded *)
    destruct (P async newdir eq_refl) as (P1 & P2 & P3).
    assert (Halive : forall j t, reach f' j -> tmpname t -> blookup t (ents f' j) = None).
    { apply (tmps_unused_kept (r_fs st) f' tmp pre bn Wg S Hfree P1).
      intros t Ht E. apply (Hcl t Ht). rewrite Ecs, E. apply in_or_app. right. left. reflexivity. }
    assert (Hkept : forall cs, ~ is_prefix (comps p) cs -> (forall t, tmpname t -> ~ In t cs) ->
                      (safe (r_fs st) D cs -> safe f' D cs) /\ rwalk f' D cs = rwalk (r_fs st) D cs).
    { intros cs H1 H2. apply (K1 cs (off_of tmp pre bn cs ltac:(rewrite <- Ecs; exact H1) (H2 tmp Htn))). }
    assert (Hpost : forall st', r_fs st' = f' -> live st' = true -> change_post kind p s st st').
    { intros st' E1 E2 _. rewrite E1. split; [exact L|]. split; [exact Halive|]. split; [exact Hkept|]. intros Hk Hs _. exact (P2 Hk Hs). }
    set (st4 := if newdir then _ else _).
    assert (F4 : r_fs st4 = f' /\ r_vstk st4 = r_vstk st /\ r_seen st4 = r_seen st /\ r_pipes st4 = r_pipes st
                 /\ r_tmps st4 = tl (r_tmps st1) /\ live st4 = live st1).
    { unfold st4. destruct newdir; cbn; rewrite ?Ev, ?Ese, ?Ep; repeat split. }
    destruct F4 as (F1 & F2 & F3 & F5 & F6 & F11). rewrite El, L in F11.
    assert (G4 : forall st', r_fs st' = f' -> r_vstk st' = r_vstk st -> r_seen st' = r_seen st -> r_tmps st' = r_tmps st4 ->
              (forall id pp, In (id, pp) (r_pipes st') -> In (pp_path pp) (accpaths acc) /\ pipe_ok f' pp) -> GBase st' acc).
    { intros st' E1 E2 E3 E4 E5. constructor; rewrite ?E1, ?E2, ?E3, ?E4, ?F6; try apply G; auto. }
    (* the async callback changes files, pipes and the error flag only *)
    assert (Hmaps : forall files pipes ae,
              (forall id pp, In (id, pp) pipes -> In (pp_path pp) (accpaths acc) /\ pipe_ok f' pp) ->
              let st' := set_maps st4 files pipes ae in
              GBase st' acc /\ change_post kind p s st st').
    { intros files pipes ae Hpp. split; [apply G4; auto|apply Hpost; [exact F1|exact F11]]. }
    destruct async.
    + destruct (P3 eq_refl) as (Hsol & dd & i & Hw & Hbl & Hbi).
      assert (Hk2 : kind <> 2).
      { intro E. subst kind. pose proof (dw_handle_delete_res c (r_fs st) tmp p s true newdir) as H.
        rewrite Edw in H. specialize (H eq_refl). discriminate. }
      destruct (blookup p (r_files st4)) as [id|]; apply Hmaps; [|rewrite F5; exact Hpk].
      intros id' pp' Hin'. apply aset_In in Hin'. destruct Hin' as [E|Hin']; [|rewrite F5 in Hin'; apply (Hpk id' pp' Hin')].
      injection E as -> ->. split; [apply Hacc, N.eqb_neq, Hk2|]. repeat split; cbn; auto; try discriminate.
      intros dd' i' Hw' Hb'. fold pre in Hw'. fold bn in Hb'.
      rewrite (proj2 (K1 pre (off_short tmp pre bn pre (le_n _)))) in Hw'.
      assert (i' = i) by congruence. subst i'. apply (N.le_trans _ _ _ Hb Hbi).
    + split; [apply G4; auto; rewrite F5; exact Hpk|apply Hpost; auto].
Qed.


(* with the filter in front: a rejected change is no change *)
Lemma apply_change_inv idx kind p s st acc :
  GBase st acc ->
  (live st = true -> f_rej fl p = false -> change_pre kind st p s acc) ->
  (live st = true -> forall j t, reach (r_fs st) j -> tmpname t -> blookup t (ents (r_fs st) j) = None) ->
  let st' := apply_change fl c idx kind p s st in
  GBase st' acc /\ change_post kind p s st st'.
Proof.
  intros G Hpre Hfree0. cbv zeta. rewrite apply_change_unfold. destruct (f_rej fl p) eqn:Er.
  - split; [exact G|]. intros L. split; [exact L|]. split; [exact (Hfree0 L)|]. split.
    + intros cs _ _. split; auto.
    + intros _ _ H. congruence.
  - set (s' := if N.eqb kind 2 then s else f_map fl s).
    assert (Hs' : hardlink_branch s' = hardlink_branch s /\ solid s' = solid s /\ st_linkname s' = st_linkname s).
    { unfold s', hardlink_branch, solid. destruct (N.eqb kind 2); [repeat split|]. rewrite Hmap_mode, Hmap_link. auto. }
    destruct Hs' as (Hb1 & Hb2 & Hb3).
    assert (Hpre' : live st = true -> change_pre kind st p s' acc).
    { intros L. destruct (Hpre L eq_refl) as (H1 & H2 & H3 & H4 & H5 & H6 & H7).
      unfold change_pre. rewrite Hb1, Hb3. repeat split; auto; apply H5; auto. }
    destruct (apply_change_inv0 idx kind p s' st acc G Hpre') as (G' & Hpost).
    split; [exact G'|].
    intros L. destruct (Hpost L) as (P0 & P1 & P2 & P3). split; [exact P0|]. split; [exact P1|]. split; [exact P2|].
    rewrite <- Hb2. exact P3.
Qed.

(* the validator's stack after an accepted entry *)
Lemma cvstep_shape stk it stk' : chain stk -> cvstep stk it = Some stk' ->
  (exists l, In (removelast (ipath it), l) stk) /\
  (exists l, In (removelast (ipath it), l) stk') /\
  (forall d0 l0, In (d0, l0) stk' ->
     (is_prefix d0 (removelast (ipath it)) /\ exists l, In (d0, l) stk)
     \/ (d0 = ipath it /\ isdir it = true /\ del it = false)).
Proof.
  intros Hc Hs. unfold cvstep in Hs.
  destruct (rev (ipath it)) as [|b rd] eqn:Er; [discriminate|].
  pose proof (rev_decomp _ _ _ Er) as Hp. rewrite Hp, removelast_last.
  remember (rev rd) as d eqn:Hdd. clear Hdd.
  destruct (cpop d stk) as [|[d' l] rest] eqn:Ep; [discriminate|].
  destruct (lex d' d) eqn:El; try discriminate. apply lex_eq in El. subst d'.
  destruct (cmpb l b); try discriminate.
  assert (Hin : In (d, l) stk) by (apply (pop_in d stk); rewrite Ep; left; reflexivity).
  assert (Hch : chain ((d, l) :: rest)).
  { pose proof (pop_chain d stk Hc) as H. rewrite Ep in H. apply H. discriminate. }
  split; [exists l; exact Hin|].
  assert (Hrest : forall d0 l0, In (d0, l0) ((d, b) :: rest) -> is_prefix d0 d /\ exists l', In (d0, l') stk).
  { intros d0 l0 [E|H].
    - inversion E; subst. split; [exists []; rewrite app_nil_r; reflexivity|exists l; exact Hin].
    - destruct (chain_below _ _ _ Hch d0 l0 H) as [_ [y Hy]]. split.
      + exists ([l0] ++ y). rewrite Hy, <- app_assoc. reflexivity.
      + exists l0. apply (pop_in d stk). rewrite Ep. right. exact H. }
  inversion Hs; subst stk'. split; [exists b; destruct (negb (del it) && isdir it); simpl; auto|].
  intros d0 l0 H. destruct (negb (del it) && isdir it) eqn:Eb.
  - destruct H as [E|H]; [|left; apply (Hrest d0 l0 H)].
    inversion E; subst. right. apply andb_true_iff in Eb. destruct Eb as [E1 E2].
    apply negb_true_iff in E1. auto.
  - left. apply (Hrest d0 l0 H).
Qed.

Lemma In_map_ce (stk : list ventry) d l : In (d, l) (map ce stk) -> exists ds, In (ds, l) stk /\ pcomps ds = d.
Proof.
  intros H. apply in_map_iff in H. destruct H as ([ds l'] & E & Hin). unfold ce in E. simpl in E.
  inversion E; subst. eauto.
Qed.

Lemma accpaths_app acc it : accpaths (acc ++ [it]) = accpaths acc ++ [vpath it].
Proof. unfold accpaths. rewrite map_app. reflexivity. Qed.

(* paths accepted earlier are not at or below a later one *)
Lemma earlier_not_below acc it q :
  spec_ok (map citem_of acc) (citem_of it) -> In q (accpaths acc) -> ~ is_prefix (comps (vpath it)) (comps q).
Proof.
  intros (_ & Hlt & _) Hq Hp. unfold accpaths in Hq. apply in_map_iff in Hq. destruct Hq as (x & Ex & Hx).
  assert (Hin : In (citem_of x) (map citem_of acc)) by (apply in_map; exact Hx).
  pose proof (Hlt _ Hin) as H. cbn [ipath citem_of] in H. rewrite Ex in H.
  pose proof (prefix_le _ _ Hp) as H2. rewrite lex_opp, H in H2. simpl in H2. congruence.
Qed.


Lemma In_accpaths_clean acc q :
  Forall (fun it => ok_path (vpath it) = true /\ clean_path (vpath it)) acc -> In q (accpaths acc) ->
  ok_path q = true /\ clean_path q.
Proof.
  intros H Hq. unfold accpaths in Hq. apply in_map_iff in Hq. destruct Hq as (x & <- & Hx).
  rewrite Forall_forall in H. apply (H x Hx).
Qed.

(* the state after both validators accepted the entry: stack and seen list updated *)
Lemma GBase_ext st st' acc it v' :
  GBase st acc -> r_fs st' = r_fs st -> r_vstk st' = v' -> r_pipes st' = r_pipes st -> r_tmps st' = r_tmps st ->
  (forall q, In q (r_seen st') -> In q (r_seen st) \/ q = vpath it) ->
  R v' -> Inv (map ce v') (map citem_of (acc ++ [it])) ->
  ok_path (vpath it) = true -> clean_path (vpath it) ->
  GBase st' (acc ++ [it]).
Proof.
  intros G E1 E2 E3 E4 Hs HR HI Hok Hcl. constructor.
  - rewrite E1. apply G.
  - rewrite E2. exact HR.
  - rewrite E2. exact HI.
  - apply Forall_app. split; [apply G|]. constructor; auto.
  - intros q Hq. rewrite accpaths_app. apply in_or_app. destruct (Hs q Hq) as [H|H].
    + left. apply (g_seen st acc G q H).
    + right. left. auto.
  - intros id pp Hin. rewrite E3 in Hin. rewrite E1. destruct (g_pipes st acc G id pp Hin) as [A B]. split; auto.
    rewrite accpaths_app. apply in_or_app. left. exact A.
  - intros t Ht. rewrite E4 in Ht. apply (g_tmps st acc G t Ht).
Qed.

Definition MInv (st : rstate) (acc : list vitem) : Prop := GInv st acc /\ r_old st = [].

(* a directory on the validator's stack lies above every later path: accepted with it *)
Lemma dir_accepted vstk ds l p : R vstk -> In (ds, l) vstk -> ok_path p = true ->
  is_prefix (pcomps ds) (comps p) -> f_rej fl p = false -> pcomps ds = [] \/ f_rej fl ds = false.
Proof.
  intros HR Hin Hok Hpre Hrej. destruct (pcomps ds) as [|a r] eqn:E; [left; reflexivity|right].
  unfold R in HR. rewrite Forall_forall in HR. pose proof (HR _ Hin) as Hd. cbn [fst] in Hd.
  destruct Hd as [Hd|Hd]; [subst ds; discriminate|].
  assert (Hokd : ok_path ds = true) by (rewrite <- (joinc_comps ds); apply okc_ok_path; exact Hd).
  destruct (f_rej fl ds) eqn:Er; [|reflexivity]. exfalso.
  assert (E2 : pcomps ds = comps ds) by (destruct ds; [discriminate|reflexivity]).
  rewrite <- E, E2 in Hpre. rewrite (Hclosed ds p Hokd Hok Er Hpre) in Hrej. discriminate.
Qed.

(* a transferred hard link names a path the filter lets pass *)
Definition link_ok (s : stat) : Prop :=
  hardlink_branch s = true -> f_rej fl (st_path s) = false -> f_rej fl (st_linkname s) = false.

(* a directory on the validator's stack is an accepted path, reached without meeting a symlink *)
Lemma stack_acc st acc ds l : GBase st acc -> alive_inv st -> In (ds, l) (r_vstk st) -> f_rej fl ds = false ->
  pcomps ds = [] \/ exists q, In q (accpaths acc) /\ comps q = pcomps ds /\ safe (r_fs st) D (comps q).
Proof.
  intros G [A1 A2 A3] Hin Hrj. destruct (pcomps ds) as [|x r] eqn:E; [left; reflexivity|right].
  assert (Hin' : In (pcomps ds, l) (map ce (r_vstk st))) by (apply in_map_iff; exists (ds, l); split; auto).
  destruct (inv_dirs _ _ (g_vinv st acc G) _ _ Hin') as (q & Hq & Eq & _); [rewrite E; discriminate|].
  apply in_map_iff in Hq. destruct Hq as (it' & <- & Hit'). cbn [ipath citem_of] in Eq.
  exists (vpath it'). split; [apply in_map; exact Hit'|]. split; [rewrite <- E; exact Eq|].
  rewrite Eq. apply (A2 ds l Hin Hrj).
Qed.

(* One STAT both validators accept, handed to HandleChange with or without a diff before it.
   [stin]: the state when the STAT arrives, its writer alive. *)
Section Feed.
Variables (stin : rstate) (acc : list vitem) (s2 : stat) (v' : list ventry) (seen' : list bytes) (idx : nat).
Let p : bytes := st_path s2.
Let it : vitem := item_of s2.
Let acc' : list vitem := acc ++ [it].

Hypothesis G0 : GBase stin acc.
Hypothesis A0 : alive_inv stin.
Hypothesis Hclp : clean_path p.
Hypothesis Hlk : link_ok s2.
Hypothesis Ev : vstep (r_vstk stin) it = Some v'.
Hypothesis Eh : hl_step (r_seen stin) s2 = Some seen'.

Lemma feed_sound :
  ok_path p = true /\ cvstep (map ce (r_vstk stin)) (citem_of it) = Some (map ce v') /\ R v'
  /\ spec_ok (map citem_of acc) (citem_of it) /\ Inv (map ce v') (map citem_of acc').
Proof. exact (vstep_sound _ _ _ _ (g_R stin acc G0) (g_vinv stin acc G0) Ev). Qed.

(* what is safe when the STAT arrives and accepted before it stays safe *)
Definition keeps_safe (st : rstate) : Prop :=
  forall q, In q (accpaths acc) -> safe (r_fs stin) D (comps q) -> safe (r_fs st) D (comps q).

(* what a state in which p has been handled must provide *)
Lemma alive_after (st' : rstate) :
  r_vstk st' = v' -> r_seen st' = seen' ->
  (forall j t, reach (r_fs st') j -> tmpname t -> blookup t (ents (r_fs st') j) = None) ->
  keeps_safe st' ->
  (wanted s2 -> f_rej fl p = false -> safe (r_fs st') D (comps p)) ->
  alive_inv st'.
Proof.
  intros E1 E2 Htf Hkeep Hsol. destruct feed_sound as (Hok & Hcv & _). constructor.
  - exact Htf.
  - intros ds l Hin Hrj. rewrite E1 in Hin.
    assert (Hin' : In (pcomps ds, l) (map ce v')) by (apply in_map_iff; exists (ds, l); split; auto).
    destruct (proj2 (proj2 (cvstep_shape _ _ _ (inv_chain _ _ (g_vinv stin acc G0)) Hcv)) _ _ Hin')
      as [(_ & l' & Hl')|(E & Hd & _)].
    + apply In_map_ce in Hl' as (ds' & Hin2 & Eds). apply pcomps_inj_ok in Eds. subst ds'.
      destruct (stack_acc stin acc ds l' G0 A0 Hin2 Hrj) as [->|(q & Hq & <- & Hs)]; [exact I|apply Hkeep; auto].
    + rewrite E. assert (Eds : ds = p).
      { apply pcomps_inj_ok. rewrite E. symmetry. apply pcomps_nonempty. intro E0. fold p in Hok. rewrite E0 in Hok. discriminate. }
      rewrite Eds in Hrj. apply Hsol; [left; exact Hd|exact Hrj].
  - intros q Hin Hrj. rewrite E2 in Hin. destruct (proj1 (hl_step_inv _ _ _ Eh) q Hin) as [H|[-> Hw]].
    + apply Hkeep; [apply (g_seen stin acc G0 _ H)|apply (a_seen stin A0 _ H Hrj)].
    + apply Hsol; auto.
Qed.

(* the parent directory is on the validator's stack, hence accepted before p *)
Lemma parent_safe st : keeps_safe st -> f_rej fl p = false -> safe (r_fs st) D (removelast (comps p)).
Proof.
  intros A2 Hrj. destruct feed_sound as (Hok & Hcv & _).
  destruct (proj1 (cvstep_shape _ _ _ (inv_chain _ _ (g_vinv stin acc G0)) Hcv)) as [l Hl].
  apply In_map_ce in Hl as (ds & Hin & Eds). cbn [ipath citem_of it item_of vpath] in Eds. fold p in Eds. rewrite <- Eds.
  destruct (dir_accepted (r_vstk stin) ds l p (g_R stin acc G0) Hin Hok) as [->| E]; auto.
  { rewrite Eds. exists [last (comps p) []]. apply split_comps, Hok. }
  { exact I. }
  destruct (stack_acc stin acc ds l G0 A0 Hin E) as [->|(q & Hq & <- & Hs)]; [exact I|apply A2; auto].
Qed.

(* HandleChange for the entry itself (added, or made next to the old one and renamed over it),
   with [old'] left unread and the prefix [rm'] *)
Lemma feed_change kind st old' rm' :
  GBase st acc' -> r_vstk st = v' -> r_seen st = seen' ->
  (forall id pp, In (id, pp) (r_pipes st) -> In (pp_path pp) (accpaths acc)) ->
  (live st = true ->
     (forall j t, reach (r_fs st) j -> tmpname t -> blookup t (ents (r_fs st) j) = None) /\ keeps_safe st) ->
  N.eqb kind 2 = false ->
  (live st = true -> f_rej fl p = false -> safe (r_fs st) D (removelast (comps p))) ->
  let st' := apply_change fl c idx kind p s2 (set_diff st old' rm') in
  GInv st' acc' /\ r_old st' = old' /\ r_rmdir st' = rm'
  /\ (live st' = true -> live st = true /\ forall q, ~ is_prefix (comps p) (comps q) -> clean_path q ->
        rwalk (r_fs st') D (comps q) = rwalk (r_fs st) D (comps q)).
Proof.
  intros G E1 E2 Hp Hlv Hk Hpar. destruct feed_sound as (Hok & _ & _ & Hspec & _).
  assert (Hnb : forall q, In q (accpaths acc) -> ~ is_prefix (comps p) (comps q))
    by (intros q; apply (earlier_not_below acc it q Hspec)).
  destruct (apply_change_diff fl c idx kind p s2 (set_diff st old' rm')) as ((F1 & F2 & F3 & F4 & _) & _).
  destruct (apply_change_inv idx kind p s2 (set_diff st old' rm') acc') as (G1 & Hpost).
  { apply (GBase_same st _ acc' G); reflexivity. }
  { intros L Hrj. destruct (Hlv L) as (A1 & A2).
    split; [exact Hok|]. split; [exact Hclp|]. split; [exact (Hpar L Hrj)|]. split; [exact A1|]. split; [|split].
    - intros _ Hhb. pose proof (proj2 (hl_step_inv _ _ _ Eh) Hhb) as Hin.
      pose proof (g_seen stin acc G0 _ Hin) as Hq.
      destruct (In_accpaths_clean acc _ (g_acc stin acc G0) Hq) as [Hokl _]. split; [exact Hokl|].
      pose proof (A2 _ Hq (a_seen stin A0 _ Hin (Hlk Hhb Hrj))) as Hs'.
      rewrite (split_comps _ Hokl) in Hs'. apply safe_prefix in Hs'. exact Hs'.
    - intros id pp Hin. apply Hnb, (Hp id pp Hin).
    - intros _. unfold acc'. rewrite accpaths_app. apply in_or_app. right. left. reflexivity. }
  { intros L. apply (Hlv L). }
  split; [split; [exact G1|]|split; [exact F3|split; [exact F4|]]]; intros L1; destruct (Hpost L1) as (L & P1 & P2 & P3).
  - destruct (Hlv L) as (_ & A2). apply alive_after.
    + rewrite F1. exact E1.
    + rewrite F2. exact E2.
    + exact P1.
    + intros q Hq Hs.
      apply (proj1 (P2 (comps q) (Hnb q Hq) (proj2 (In_accpaths_clean acc q (g_acc stin acc G0) Hq)))), A2; auto.
    + intros Hw Hrj. apply P3; [intros ->; discriminate|apply wanted_solid, Hw|exact Hrj].
  - split; [exact L|]. intros q Hn Hc. apply (P2 (comps q) Hn Hc).
Qed.

End Feed.

(* ReceiveOpt.Merge: nothing of the old content is listed.  Stated for an entry both validators
   have accepted, whatever the bookkeeping of ids: the metadata branch of the receive loop
   (Model/RecvMeta.v) hands entries to the walker this way *)
Lemma feed_merge idx s st acc v' seen' files next :
  MInv st acc -> clean_path (st_path s) -> link_ok s ->
  vstep (r_vstk st) (item_of s) = Some v' -> hl_step (r_seen st) s = Some seen' ->
  let st1 := set_valid st v' seen' files next in
  GBase st1 (acc ++ [item_of s])
  /\ (live st = true -> MInv (diff_feed fl c idx s (r_old st1) st1) (acc ++ [item_of s])).
Proof.
  intros [[G A] Hold] Hcl Hlk Ev Eh. cbv zeta. set (st1 := set_valid st v' seen' files next).
  destruct (vstep_sound _ _ _ _ (g_R st acc G) (g_vinv st acc G) Ev) as (Hok & _ & HR' & _ & HI').
  assert (G1 : GBase st1 (acc ++ [item_of s])).
  { apply (GBase_ext st st1 acc _ v'); simpl; auto.
    intros q Hq. destruct (proj1 (hl_step_inv _ _ _ Eh) q Hq) as [H|[H _]]; auto. }
  split; [exact G1|]. intros L. pose proof (A L) as A0.
  change (r_old st1) with (r_old st). rewrite Hold. cbn [diff_feed].
  assert (Hk : keeps_safe st acc st1) by (intros q _ Hs; exact Hs).
  destruct (feed_change st acc s v' seen' idx G A0 Hcl Hlk Ev Eh 0 st1 [] [] G1 eq_refl eq_refl) as (GI & Eo & _).
  - intros id pp Hin. apply (g_pipes st acc G id pp Hin).
  - intros _. split; [apply A0|exact Hk].
  - reflexivity.
  - intros _. apply (parent_safe st acc s v' G A0 Ev st1 Hk).
  - split; [exact GI|exact Eo].
Qed.

Lemma maybe_wait_old idx st : r_old (maybe_wait c dl idx st) = r_old st.
Proof.
  destruct (maybe_wait_cases c dl idx st) as [->|[->|[[_ ->]|(st1 & Es & _ & ->)]]]; try reflexivity.
  apply (spend_core st st1 Es).
Qed.

Definition clean_packet (pk : packet) : Prop :=
  match pk with PStat (Some s) => clean_path (st_path s) /\ link_ok s | _ => True end.

Lemma MInv_wait idx st acc : MInv st acc -> MInv (maybe_wait c dl idx st) acc.
Proof. intros [G Ho]. split; [apply maybe_wait_inv; exact G|]. rewrite maybe_wait_old. exact Ho. Qed.

Lemma MInv_data idx id d st acc : MInv st acc -> MInv (recv_data c idx id d st) acc.
Proof.
  intros [G Ho]. split; [apply (recv_data_dq idx id d st acc G)|].
  destruct (recv_data_diff c idx id d st) as (_ & _ & -> & _). exact Ho.
Qed.

(* the end of the listing: with Merge there is nothing to delete *)
Lemma MInv_flush idx st acc : MInv st acc -> MInv (diff_flush fl c idx (r_old st) (set_flags st true (r_waited st))) acc.
Proof.
  intros [G Ho]. rewrite Ho. cbn [diff_flush]. split; [|reflexivity].
  apply (GInv_same st _ acc G); try reflexivity; [repeat split|auto].
Qed.

(* the bookkeeping of ids is no concern of the invariant *)
Lemma MInv_files st acc files next :
  MInv st acc -> MInv (set_valid st (r_vstk st) (r_seen st) files next) acc.
Proof.
  intros [G Ho]. split; [|exact Ho]. apply (GInv_same st _ acc G); try reflexivity; [repeat split|auto].
Qed.

(* no temporary name is in use inside D when the transfer starts *)
Definition tmp_unused : Prop := forall j t, reach f0 j -> tmpname t -> blookup t (ents f0 j) = None.

Lemma GInv_init merge budget : tmp_unused -> GInv (rstate_init f0 D merge tmps0 budget) [].
Proof.
  intros Hu. split.
  - constructor; simpl.
    + apply step_refl; auto. unfold b0. lia.
    + constructor; [left; reflexivity|constructor].
    + apply inv_init.
    + constructor.
    + intros q [].
    + intros id pp [].
    + intros t Ht. right. exact Ht.
  - intros _. constructor; simpl.
    + exact Hu.
    + intros d l [E|[]] _. inversion E; subst. exact I.
    + intros q [].
Qed.

Lemma MInv_init budget : tmp_unused -> MInv (rstate_init f0 D true tmps0 budget) [].
Proof. intros Hu. split; [apply GInv_init, Hu|reflexivity]. Qed.

End Recv.
