(* C14 — the copier's hard-link map: every recorded path names a regular file the copier created.
   [grows]: lookups, directories and regular files persist; [shrinks]: all but one entry do.
   [keeps_new]: the ghost invariant for the directories MkdirAll created. *)
From Coq Require Import List NArith Lia Bool ZifyN ZifyNat ZifyBool.
From FS Require Import Sx Model.Path Model.Fs Model.RootPath Model.CopyFs Model.CopyFsSpec
  Proofs.Lex Proofs.PathP Proofs.FsP Proofs.RootPathStrP Proofs.FsCopyFrameP Proofs.FsCopyInvP
  Proofs.FsCopySafeP.
Import ListNotations.
Open Scope N_scope.
Open Scope bool_scope.

Definition isfile (f : fs) (i : N) : Prop := exists data m, get f i = Some {| i_kind := KFile data; i_meta := m |}.

Record shrinks (f f' : fs) (d : N) (x : bytes) : Prop := {
  sh_dent : forall j n i, (j <> d \/ n <> x) -> blookup n (dents f j) = Some i -> blookup n (dents f' j) = Some i;
  sh_dir : forall j, is_dir f j = true -> is_dir f' j = true;
  sh_file : forall i, isfile f i -> isfile f' i
}.
Record grows (f f' : fs) : Prop := {
  gr_dent : forall j n i, blookup n (dents f j) = Some i -> blookup n (dents f' j) = Some i;
  gr_dir : forall j, is_dir f j = true -> is_dir f' j = true;
  gr_file : forall i, isfile f i -> isfile f' i
}.

Lemma grows_refl f : grows f f. Proof. constructor; auto. Qed.
Lemma grows_trans f1 f2 f3 : grows f1 f2 -> grows f2 f3 -> grows f1 f3.
Proof. intros A B. constructor; intros; [apply B, A|apply B, A|apply B, A]; auto. Qed.
Lemma grows_shrinks f f' d x : grows f f' -> shrinks f f' d x.
Proof. intros A. constructor; intros; apply A; auto. Qed.

Lemma chain_grows f f' : grows f f' -> forall a cs e, chain f a cs e -> chain f' a cs e.
Proof. intros G a cs e H. apply (chain_steps f f' (gr_dir _ _ G) a cs e H). intros. apply G. assumption. Qed.

Lemma grows_create_at f r isdir k mode : alloc_ok f -> is_dir f (l_dir r) = true -> leaf_kind k ->
  grows f (fst (create_at f r isdir k mode)).
Proof.
  intros Ha Hd Hleaf. pose proof (dir_lt_next f r Ha Hd) as Hlt. constructor.
  - intros j n i Hb. rewrite (create_at_dents f r isdir k mode Ha Hd j Hleaf).
    destruct (N.eqb_spec j (l_dir r)) as [->|]; [rewrite blookup_app, Hb; reflexivity|exact Hb].
  - intros j Hj. rewrite (create_at_is_dir f r isdir k mode Ha Hd).
    destruct (N.eqb_spec j (f_next f)) as [->|]; auto.
    exfalso. apply is_dir_exists in Hj. apply Hj. apply Ha. lia.
  - intros i (data & m & Hg).
    assert (i <> f_next f) by (intros ->; rewrite (Ha (f_next f)) in Hg by lia; discriminate).
    assert (i <> l_dir r).
    { intros ->. unfold is_dir, dir_of in Hd. rewrite Hg in Hd. discriminate. }
    exists data, m. rewrite create_at_other; auto.
Qed.

Lemma grows_add_ent f d x i : is_dir f d = true -> grows f (add_ent f d x i).
Proof.
  intros Hd. constructor.
  - intros j n k Hb. rewrite (add_ent_dents f d x i j Hd).
    destruct (N.eqb_spec j d) as [->|]; auto. rewrite blookup_app, Hb. reflexivity.
  - intros j Hj. rewrite is_dir_add_ent. exact Hj.
  - intros k (data & m & Hg). exists data, m. rewrite add_ent_other; auto.
    intros ->. unfold is_dir, dir_of in Hd. rewrite Hg in Hd. discriminate.
Qed.

Lemma shrinks_del_ent f d x : NoDup (map fst (dents f d)) -> shrinks f (del_ent f d x) d x.
Proof.
  intros Hn. destruct (is_dir f d) eqn:Hd; [|rewrite del_ent_nondir; auto; apply grows_shrinks, grows_refl].
  constructor.
  - intros j n i Hne Hb. rewrite (del_ent_dents f d x j Hd).
    destruct (N.eqb_spec j d) as [->|]; auto.
    rewrite blookup_bremove_other; auto. destruct Hne; congruence.
  - intros j Hj. rewrite is_dir_del_ent. exact Hj.
  - intros k (data & m & Hg). exists data, m. rewrite del_ent_other; auto.
    intros ->. unfold is_dir, dir_of in Hd. rewrite Hg in Hd. discriminate.
Qed.

Lemma grows_put f i n n' : get f i = Some n -> same_shape n n' -> grows f (put f i n').
Proof.
  intros Hg Hsh. constructor.
  - intros j nme k Hb. rewrite (put_shape_dents f i n n' Hg Hsh). exact Hb.
  - intros j Hj. rewrite (put_shape_is_dir f i n n' Hg Hsh). exact Hj.
  - intros k (data & m & Hk). destruct (N.eq_dec k i) as [->|Hne].
    + rewrite Hg in Hk. inversion Hk; subst. unfold same_shape in Hsh. simpl in Hsh.
      destruct n' as [[p' es'|x'|t'|ty' rd'] m']; simpl in *; try tauto.
      exists x', m'. apply get_put_same.
    + exists data, m. rewrite get_put_other; auto.
Qed.

Lemma forget_path_below (l r : list bytes) : l <> [] -> forget_path (render l) (render (l ++ r)) = true.
Proof.
  intros Hl. unfold forget_path. destruct r as [|r0 r].
  - rewrite app_nil_r, bytes_eqb_refl. reflexivity.
  - apply orb_true_iff. right. unfold render. rewrite joinc_app by (auto; discriminate).
    replace (sep :: joinc l ++ sep :: joinc (r0 :: r)) with (((sep :: joinc l) ++ [sep]) ++ joinc (r0 :: r)).
    + apply has_prefix_app_r.
    + simpl. rewrite <- app_assoc. reflexivity.
Qed.

Section Links.
  Variables (c : ctx) (f0 : fs) (dr : N) (dcs : list bytes).
  Notation Ctx := (Ctx c f0 dr dcs).
  Notation tpath := (tpath dcs).
  Let b := f_next f0.

  Definition link_ok (f : fs) (p : bytes) : Prop :=
    exists cs x d i, p = tpath cs x /\ Forall nm cs /\ Forall nonul cs /\ nm x /\ nonul x /\
      chain f dr cs d /\ blookup x (dents f d) = Some i /\ b <= i /\ isfile f i.
  Definition links_ok (f : fs) (l : list (N * bytes)) : Prop := forall e, In e l -> link_ok f (snd e).

  Lemma link_ok_grows f f' p : grows f f' -> link_ok f p -> link_ok f' p.
  Proof.
    intros G (cs & x & d & i & E & H1 & H2 & H3 & H4 & Hc & Hb & Hi & Hf).
    exists cs, x, d, i. do 5 (split; [assumption|]). split; [|split; [|split; [assumption|]]].
    - eapply chain_grows; eauto.
    - apply G; auto.
    - apply G; auto.
  Qed.

  Lemma links_ok_grows f f' l : grows f f' -> links_ok f l -> links_ok f' l.
  Proof. intros G H e He. eapply link_ok_grows; eauto. Qed.

  (* removing the entry y of d' spares every recorded path that does not pass through it: the
     directory d' has one path only, cs' *)
  Lemma link_ok_shrinks f f' cs' d' y p : Ctx f -> shrinks f f' d' y -> chain f dr cs' d' ->
    link_ok f p -> forget_path (tpath cs' y) p = false -> link_ok f' p.
  Proof.
    intros C S Hc' (cs & x & d & i & E & H1 & H2 & H3 & H4 & Hc & Hb & Hi & Hf) Hfg.
    pose proof (cx_inv _ _ _ _ f C) as I. pose proof (ctx_acyclic _ _ _ _ f C) as Hac.
    assert (Hnot : forall s2, cs ++ [x] <> cs' ++ y :: s2).
    { intros s2 E2. subst p. unfold FsCopySafeP.tpath in Hfg.
      replace (dcs ++ cs ++ [x]) with ((dcs ++ cs' ++ [y]) ++ s2) in Hfg.
      - rewrite forget_path_below in Hfg; [discriminate|]. destruct dcs; [destruct cs'|]; discriminate.
      - rewrite E2. rewrite <- !app_assoc. reflexivity. }
    assert (Hstep : forall pre m n s, cs ++ [x] = pre ++ n :: s -> chain f dr pre m -> m <> d' \/ n <> y).
    { intros pre m n s E2 Hp. destruct (N.eq_dec m d') as [->|]; auto. right. intros ->.
      apply (Hnot s). rewrite E2, (chain_unique f0 dr f I Hac dr pre d' Hp cs' Hc'). reflexivity. }
    exists cs, x, d, i. do 5 (split; [assumption|]). split; [|split; [|split; [assumption|]]].
    - apply (chain_steps f f' (sh_dir _ _ _ _ S) dr cs d Hc). intros pre m n s j E2 Hp.
      apply (sh_dent _ _ _ _ S), (Hstep pre m n (s ++ [x])); auto. rewrite E2, <- app_assoc. reflexivity.
    - apply (sh_dent _ _ _ _ S); auto. apply (Hstep cs d x []); auto.
    - apply S; auto.
  Qed.
End Links.

(* [gnew f cs x]: where the names cs lead from dr, the binding of x is absent or new (>= b).
   Ghost invariant for the directories MkdirAll created: whatever stands at such a path later was
   put there by the copier. *)
Section NewBindings.
  Variables (dr b : N).

  Definition bind_new (f : fs) (d : N) (x : bytes) : Prop :=
    match blookup x (dents f d) with Some c => b <= c | None => True end.
  Definition gnew (f : fs) (cs : list bytes) (x : bytes) : Prop := forall d', chain f dr cs d' -> bind_new f d' x.
  Definition keeps_new (f f' : fs) : Prop := forall cs x, gnew f cs x -> gnew f' cs x.

  Lemma keeps_new_refl f : keeps_new f f. Proof. intros cs x H. exact H. Qed.
  Lemma keeps_new_trans f1 f2 f3 : keeps_new f1 f2 -> keeps_new f2 f3 -> keeps_new f1 f3.
  Proof. intros A B cs x H. apply B, A, H. Qed.

  (* [keeps_new] holds of a step under which every directory is an old directory or empty, and
     every entry an old entry or one that leads to a new inode (if to a directory, an empty one):
     a chain of f' is then a chain of f, or ends in an empty directory *)
  Lemma kn_entries f f' :
    (forall j, is_dir f' j = true -> is_dir f j = true \/ dents f' j = []) ->
    (forall j n c, blookup n (dents f' j) = Some c ->
       blookup n (dents f j) = Some c \/ b <= c /\ (is_dir f' c = true -> dents f' c = [])) ->
    keeps_new f f'.
  Proof.
    intros Hdir Hent.
    assert (Hch : forall a cs e, chain f' a cs e -> chain f a cs e \/ dents f' e = []).
    { induction 1 as [d0 H0|d0 y j cs e Hb Hj Hc IH].
      - destruct (Hdir d0 H0); [left; constructor|right]; auto.
      - destruct IH as [G|G]; [|right; exact G].
        destruct (Hent _ _ _ Hb) as [K|[_ K]].
        + left. econstructor; eauto using chain_start_dir.
        + right. specialize (K Hj). inversion Hc as [|? ? ? ? ? Hb2]; subst; auto.
          rewrite K in Hb2. discriminate. }
    intros cs x H d' Hc. unfold bind_new.
    destruct (Hch _ _ _ Hc) as [G|G]; [|rewrite G; exact I].
    specialize (H d' G). unfold bind_new in H.
    destruct (blookup x (dents f' d')) as [c|] eqn:E; auto.
    destruct (Hent _ _ _ E) as [K|[K _]]; [rewrite K in H|]; auto.
  Qed.

  Lemma kn_same f f' : (forall j, dents f' j = dents f j) -> (forall j, is_dir f' j = is_dir f j) -> keeps_new f f'.
  Proof. intros Hd Hi. apply kn_entries; intros j; rewrite ?Hd, ?Hi; auto. Qed.

  Lemma kn_del_ent f d x0 : NoDup (map fst (dents f d)) -> keeps_new f (del_ent f d x0).
  Proof.
    intros Hn. destruct (is_dir f d) eqn:Hd; [|rewrite del_ent_nondir; auto; apply keeps_new_refl].
    apply kn_entries; intros j; [rewrite is_dir_del_ent; auto|].
    intros n c H. left. rewrite (del_ent_dents f d x0 j Hd) in H. destruct (N.eqb_spec j d) as [->|]; auto.
    eapply blookup_bremove_sub; eauto.
  Qed.

  Lemma kn_add_ent f d x0 i : is_dir f d = true -> is_dir f i = false -> b <= i -> keeps_new f (add_ent f d x0 i).
  Proof.
    intros Hd Hi Hbi. apply kn_entries; intros j; [rewrite is_dir_add_ent; auto|].
    intros n c H. rewrite (add_ent_dents f d x0 i j Hd) in H. destruct (N.eqb_spec j d) as [->|]; auto.
    destruct (blookup_snoc _ _ _ _ _ H) as [|(_ & _ & ->)]; auto.
    right. rewrite is_dir_add_ent. split; [auto|congruence].
  Qed.

  Lemma kn_create_at f r isdir k mode : alloc_ok f -> is_dir f (l_dir r) = true -> leaf_kind k -> b <= f_next f ->
    keeps_new f (fst (create_at f r isdir k mode)).
  Proof.
    intros Ha Hd Hleaf Hb. set (f' := fst (create_at f r isdir k mode)). set (nw := f_next f).
    pose proof (dir_lt_next f r Ha Hd) as Hlt.
    assert (Hdents := fun j => create_at_dents f r isdir k mode Ha Hd j Hleaf). fold f' nw in Hdents.
    assert (Hnw : dents f' nw = []).
    { rewrite Hdents. destruct (N.eqb_spec nw (l_dir r)); [unfold nw in *; lia|]. apply dents_unalloc; auto. reflexivity. }
    apply kn_entries; intros j.
    - unfold f'. rewrite (create_at_is_dir f r isdir k mode Ha Hd). fold f' nw.
      destruct (N.eqb_spec j nw) as [->|]; auto.
    - intros n c H. rewrite Hdents in H. destruct (N.eqb_spec j (l_dir r)) as [->|]; auto.
      destruct (blookup_snoc _ _ _ _ _ H) as [|(_ & _ & ->)]; auto.
  Qed.
End NewBindings.
