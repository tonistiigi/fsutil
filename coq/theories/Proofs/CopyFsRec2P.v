(* C14 — copier.copy (copy_rec) with include / exclude selection and deferred parent directories
   keeps the containment invariant.  The target is "<dstRoot>/cs/pend/x": cs real directories,
   pend the parents whose creation is still deferred (the uncopied entries of the stack). *)
From Coq Require Import List NArith Lia Bool ZifyN ZifyNat ZifyBool.
From FS Require Import Sx Model.Path Model.Fs Model.RootPath Model.CopyFs Model.CopyFsSpec
  Proofs.Lex Proofs.PathP Proofs.FsP Proofs.RootPathStrP Proofs.FsCopyFrameP Proofs.FsCopyInvP
  Proofs.FsCopySafeP Proofs.FsCopyLinksP Proofs.FsCopySysP Proofs.CopyFsP Proofs.CopyFsNrP Proofs.CopyRecP.
Import ListNotations.
Open Scope N_scope.
Open Scope bool_scope.

Section Rec2.
  Variables (c : ctx) (f0 : fs) (dr : N) (dcs : list bytes).
  Notation Ctx := (Ctx c f0 dr dcs).
  Notation tpath := (tpath dcs).
  Notation SS := (SS f0 dr).
  Notation Tgt := (Tgt c f0 dr dcs).
  Notation names_ss := (names_ss f0 dr).
  Notation stays := (stays c f0 dr dcs).
  Notation stays_ok := (stays_ok c f0 dr dcs).
  Notation mstep := (mstep c f0 dr dcs).
  Notation lok := (lok f0 dr dcs).
  Notation made := (made f0 dr).
  Notation forgotten := CopyFsP.forgotten.
  Notation uncopied := CopyRecP.uncopied.
  Notation pend_paths := (CopyRecP.pend_paths dcs).
  Notation allc := CopyRecP.allc.
  Notation stack_post := (CopyRecP.stack_post dr).
  Notation setp := CopyRecP.setp.

  Lemma stays_ok_of_parts {A} d s s' (r : A + N) : Ctx (s_fs s') -> above d (s_fs s) (s_fs s') ->
    (lok s -> lok s') -> FsCopyLinksP.keeps_new dr (f_next f0) (s_fs s) (s_fs s') -> stays_ok d s s' r.
  Proof. intros C0 A0 L0 K0. split; auto. Qed.

  Section Reads.
    Variable R : N -> Prop.
    Variables SP SPN : bytes -> Prop.
    Hypothesis HR : reads_ok c f0 dr dcs R SP SPN.
    Notation rok := (CopyRecP.rok R).
    Notation pok := (CopyRecP.pok SPN).

  Notation cpost := (CopyRecP.cpost c f0 dr dcs R).

  (* copier.copy on the name x below "<dstRoot>/cs/pend" *)
  Definition rec_spec (fuel : nat) : Prop := forall o sl src comps cs d pend x ow pinc pexc s s' r,
    Ctx (s_fs s) -> chain (s_fs s) dr cs d ->
    Forall nm cs -> Forall nonul cs -> Forall nm pend -> Forall nonul pend -> nm x -> nonul x ->
    uncopied (s_parents s) = pend_paths cs pend -> lok s ->
    SP src -> pok (s_parents s) -> rok s ->
    copy_rec fuel c o sl src comps (render (dcs ++ cs ++ pend ++ [x])) ow pinc pexc s = (s', r) ->
    cpost d s (fun _ => stack_post cs pend (s_parents s)) s' r.

  (* between the children of the directory "<dstRoot>/cs/pend", entered with the stack ps: the
     stack is still ps, or a selected descendant has had every pending parent made *)
  Definition walk_inv (cs : list bytes) (d : N) (pend : list bytes) ps (s : cst) : Prop :=
    Ctx (s_fs s) /\ chain (s_fs s) dr cs d /\ stack_post cs pend ps s.

  Lemma stack_post_made cs pend ps s : uncopied ps = [] -> stack_post cs pend ps s -> s_parents s = ps.
  Proof. intros Hu [E|[E _]]; rewrite E; auto using allc_id. Qed.

  Lemma child_spec k : rec_spec k -> forall o sl src comps cs d pend ps n pinc pexc s s' r,
    Forall nm cs -> Forall nonul cs -> Forall nm pend -> Forall nonul pend -> okn n ->
    uncopied ps = pend_paths cs pend -> pok ps -> SP src ->
    walk_inv cs d pend ps s -> lok s -> rok s ->
    copy_rec k c o sl src comps (join2 (render (dcs ++ cs ++ pend)) n) true pinc pexc s = (s', r) ->
    cpost d s (fun _ => walk_inv cs d pend ps) s' r.
  Proof.
    intros IH o sl src comps cs d pend ps n pinc pexc s s' r Hcs Hcn Hp Hpn [Hn Hnn] Hu Hpk Hsp (C & Hc & Pa) L Rk H.
    pose proof (cx_dcs _ _ _ _ _ C) as Hdn.
    rewrite join2_names, <- app_assoc in H by (auto; repeat (apply Forall_app; split; auto)).
    destruct Pa as [Pa|[Pa (d' & Hd')]].
    - (* the parents are still pending *)
      rewrite <- app_assoc in H. rewrite <- Pa in Hu, Hpk |- *.
      destruct (IH o sl src comps cs d pend n true pinc pexc s s' r C Hc Hcs Hcn Hp Hpn Hn Hnn Hu L Hsp Hpk Rk H) as (Sb & Pb & Rkb).
      split; [exact Sb|]. split; [|exact Rkb]. intros a E.
      split; [apply Sb|]. split; [eapply stays_ok_chain; eauto|exact (Pb a E)].
    - (* they all exist: the child is copied below the directory d' itself *)
      destruct (IH o sl src comps (cs ++ pend) d' [] n true pinc pexc s s' r C Hd') as (Sb & Pb & Rkb); auto;
        try (apply Forall_app; split; auto).
      { rewrite Pa. apply uncopied_allc. }
      { rewrite Pa. apply pok_allc. exact Hpk. }
      pose proof (chain_rest _ _ _ _ _ _ Hd' Hc) as Hq.
      split; [eapply stays_ok_below; eauto|]. split; [|exact Rkb]. intros a E.
      split; [apply Sb|]. split; [destruct Sb as (_ & Ab & _); apply (Ab dr cs d pend); auto|].
      right. split; [|exists d'; eapply stays_ok_chain; eauto].
      destruct (Pb a E) as [Eq|[Eq _]]; rewrite Eq, Pa; auto using allc_idem.
  Qed.

  (* copyDirectory: the source directory src goes on the stack, is listed, and its children are
     copied to "<dstRoot>/cs/pend/<name>"; the steps stay below d, which lies q below dout *)
  Lemma walk_dir_spec {B} k o sl src comps target cs d pend dout q cp pinc pexc (rest : M B) (Q : B -> cst -> Prop) s s' r :
    rec_spec k -> target = render (dcs ++ cs ++ pend) ->
    (push_parent src target cp ;;;
     l <~ sys (fun f => sys_readdir c f src) ;;
     match l with
     | RNames names =>
       f1 <~ get_fs ;;
       (match resolve_ino c f1 src true with inl di => log_read di | inr _ => ret tt end) ;;;
       each_m (fun n => copy_rec k c o sl (join2 src n) (join2 comps n) (join2 target n) true pinc pexc)
              (sorted_names names) ;;;
       rest
     | _ => fail E_SYS
     end) s = (s', r) ->
    Ctx (s_fs s) -> chain (s_fs s) dr cs d -> chain (s_fs s) dout q d ->
    Forall nm cs -> Forall nonul cs -> Forall nm pend -> Forall nonul pend ->
    uncopied (s_parents s ++ [(src, target, cp)]) = pend_paths cs pend -> pok (s_parents s) -> SPN src -> lok s -> rok s ->
    (forall s1, stays_ok dout s s1 (@inl unit N tt) -> walk_inv cs d pend (s_parents s ++ [(src, target, cp)]) s1 ->
       lok s1 -> rok s1 -> rest s1 = (s', r) -> cpost dout s1 Q s' r) ->
    cpost dout s Q s' r.
  Proof.
    intros IH Et H C Hc Hq Hcs Hcn Hp Hpn Hu Hpk Hsn L Rk Hk.
    rewrite bind_run, push_parent_run in H. set (ps := s_parents s ++ [(src, target, cp)]) in *.
    apply (cpost_from c f0 dr dcs R dout s (setp s ps)); [reflexivity|reflexivity|].
    apply (list_dir_spec c f0 dr dcs R SP SPN HR dout src _ _ (setp s ps) s' r C Hsn Rk H). clear H.
    intros s7 names F7 EL7 Pa7 Rk7 HPK H. cbn [s_fs s_links s_parents setp] in F7, EL7, Pa7.
    apply (cpost_from c f0 dr dcs R dout _ s7); [exact F7|exact EL7|].
    assert (L7 : lok s7) by (unfold CopyFsP.lok; rewrite F7, EL7; exact L).
    rewrite <- F7 in C, Hc, Hq.
    assert (HI : forall s0, walk_inv cs d pend ps s0 -> Ctx (s_fs s0) /\ is_dir (s_fs s0) d = true).
    { intros s0 (C0 & Hc0 & _). split; [exact C0|eapply chain_end_dir; eauto]. }
    assert (Hps : pok ps) by (apply pok_app; split; [exact Hpk|constructor; [exact Hsn|constructor]]).
    eapply (cpost_bind c f0 dr dcs R dout s7 _ _ (fun _ => walk_inv cs d pend ps));
      [eapply chain_start_dir; eauto|exact L7|exact H| |]; clear H.
    - intros s8 r8 E8. apply (cpost_below c f0 dr dcs R dout d q _ _ _ _ Hq).
      eapply (each_m_inv_r c f0 dr dcs R _ (walk_inv cs d pend ps) _ d HI) with (6 := E8); eauto.
      + intros n sa sb rb [Hn Hspn] Ia La Rka Ha. subst target. eapply (child_spec k IH); eauto.
      + exact (conj C (conj Hc (or_introl Pa7))).
    - intros s8 [] S8 L8 Rk8 I8 H. apply Hk; auto.
      unfold CopyFsP.stays_ok, CopyFsP.lok in *. rewrite F7, EL7 in S8. exact S8.
  Qed.

  Lemma copy_rec_spec_r fuel : rec_spec fuel.
  Proof.
    induction fuel as [|k IH]; intros o sl src comps cs d pend x ow pinc pexc s s' r C Hc Hcs Hcn Hp Hpn Hx Hxn Hu L Hsp Hpk Rk H;
      cbn [copy_rec] in H.
    { injection H as <- <-. apply cpost_stays; [apply stays_refl; auto|exact Rk|discriminate]. }
    rewrite bind_run in H. unfold get_fs at 1 in H.
    pose proof (cx_dcs _ _ _ _ _ C) as Hdn.
    apply (src_lstat_spec c f0 dr dcs R SP SPN HR d src _ _ s s' r C Hsp Rk H). clear H Rk.
    intros s1 ino fi F1 L1 P1 Rk1 _ Hspn H.
    rewrite bind_run in H.
    set (target := render (dcs ++ cs ++ pend ++ [x])) in *.
    destruct (lstat_opt_nd c target s1) as [s2 [tfi|e]] eqn:E2;
      destruct (lstat_opt_nd_pure c _ _ _ _ E2) as (F2 & L2 & P2); rewrite F1 in F2; rewrite L1 in L2; rewrite P1 in P2;
      assert (Rk2 : rok s2) by (eapply rok_nr; [apply NR_lstat_opt_nd|exact E2|exact Rk1]).
    2:{ injection H as <- <-. apply cpost_stays; [apply stays_same; auto|exact Rk2|discriminate]. }
    (* from here on everything is said of s2, the state after the two Lstat calls *)
    assert (Hforg : tfi = None -> forall L0 x0, target = render (dcs ++ L0 ++ [x0]) ->
              Forall nm L0 -> Forall nonul L0 -> nm x0 -> nonul x0 -> forgotten s2 target).
    { intros -> L0 x0 Et H1 H2 H3 H4 e He. rewrite L2, <- L1 in He. rewrite Et in *.
      eapply (tfi_none_forgotten c f0 dr dcs s1 s2 L0 x0); eauto; [rewrite F1; exact C|unfold CopyFsP.lok; rewrite F1, L1; exact L]. }
    apply (cpost_from c f0 dr dcs R d s s2 _ _ _ F2 L2).
    assert (L' : lok s2) by (unfold CopyFsP.lok; rewrite F2, L2; exact L).
    rewrite <- F2 in C, Hc, H. rewrite <- P2 in Hu, Hpk |- *. clear s s1 L F1 L1 P1 Rk1 E2 F2 L2 P2. rename s2 into s, L' into L, Rk2 into Rk.
    assert (Hd : is_dir (s_fs s) d = true) by (eapply chain_end_dir; eauto).
    cbv zeta in H.
    set (ri := if is_nil comps then (true, []) else sl_inc sl comps pinc) in H.
    set (re := if is_nil comps then (false, []) else sl_exc sl comps pexc) in H.
    destruct (fst ri && negb (fst re)) eqn:Einc.
    - (* selected: the deferred parents are created first *)
      eapply (cpost_bind c f0 dr dcs R d s _ _ (fun _ s3 => s_links s3 = s_links s /\ s_parents s3 = allc (s_parents s) /\
                                            exists d2, chain (s_fs s3) dr (cs ++ pend) d2)); [exact Hd|exact L|exact H| |]; clear H.
      { intros s3 r3 E3.
        destruct (create_parent_dirs_spec_r c f0 dr dcs R SP SPN HR o ow cs d pend s s3 _ C Hc Hcs Hcn Hp Hpn Hu Hpk Rk E3) as ((S3 & _ & EL3 & P3) & Rk3).
        split; [exact S3|]. split; [intros [] ->; exact (conj EL3 (P3 eq_refl))|exact Rk3]. }
      intros s3 [] S3 L3 Rk3 (EL3 & Pa3 & d2 & Hc3) H.
      set (cs2 := cs ++ pend) in *.
      assert (Etgt : target = tpath cs2 x).
      { unfold target, cs2, FsCopySafeP.tpath. rewrite <- !app_assoc. reflexivity. }
      assert (Hcs2 : Forall nm cs2) by (apply Forall_app; auto).
      assert (Hcn2 : Forall nonul cs2) by (apply Forall_app; auto).
      assert (T3 : Tgt (s_fs s3) cs2 d2 x) by (constructor; auto; apply S3).
      assert (Hpk3 : pok (s_parents s3)) by (rewrite Pa3; apply pok_allc; exact Hpk).
      (* from here on everything happens at or below d2, itself below d, and the stack stays as it is *)
      pose proof (chain_rest _ _ _ _ _ _ Hc3 (stays_ok_chain c f0 dr dcs _ _ _ _ _ _ S3 Hc)) as Hq.
      apply (cpost_below c f0 dr dcs R d d2 pend _ _ _ _ Hq).
      assert (G : cpost d2 s3 (fun _ s9 => s_parents s9 = s_parents s3) s' r).
      2:{ destruct G as (S & P & Rk'). split; [exact S|]. split; [|exact Rk']. intros a E. right. rewrite (P a E), Pa3. split; [reflexivity|].
          exists d2. eapply stays_ok_chain; eauto. }
      rewrite Etgt in H.
      eapply (cpost_bind c f0 dr dcs R d2 s3 _ _ (fun _ s4 => s_parents s4 = s_parents s3 /\
                 (kind_is_dir fi = false -> absent (s_fs s4) d2 x))); [eapply tgt_dir; eauto|exact L3|exact H| |]; clear H.
      { intros s4 r4 E4. destruct (prep_rest_spec c f0 dr dcs s3 s4 r4 cs2 d2 x o fi tfi T3) with (2 := E4) as (S4 & P4).
        { intros Et e He. rewrite EL3 in He. rewrite <- Etgt. eapply (Hforg Et cs2 x); eauto. }
        apply cpost_stays; [exact S4|eapply rok_nr; [apply NR_prep_rest|exact E4|exact Rk3]|]. intros [] ->. split; [apply S4|auto]. }
      intros s4 [] S4 L4 Rk4 (Pa4 & P4) H. rewrite <- Pa4.
      assert (T4 : Tgt (s_fs s4) cs2 d2 x) by (eapply tgt_stays_ok; eauto).
      assert (Hd4 : is_dir (s_fs s4) d2 = true) by (eapply tgt_dir; eauto).
      assert (Hpk4 : pok (s_parents s4)) by (rewrite Pa4; exact Hpk3).
      assert (Hu4 : uncopied (s_parents s4) = []) by (rewrite Pa4, Pa3; apply uncopied_allc).
      clear s3 S3 L3 Rk3 EL3 Pa3 Hc3 T3 Hpk3 Hq S4 Pa4.
      (* the common tail: finish_meta after a creation step *)
      assert (Hfin : forall s5 i, Tgt (s_fs s5) cs2 d2 x -> rok s5 -> s_parents s5 = s_parents s4 ->
                names_ss (s_fs s5) d2 x i -> (kind_is_link fi = false -> FsP.is_link (s_fs s5) i = false) ->
                finish_meta c o fi src (tpath cs2 x) s5 = (s', r) ->
                cpost d2 s5 (fun _ s9 => s_parents s9 = s_parents s4) s' r).
      { intros s5 i T5 Rk5 Pa5 Hn Hl H5. rewrite <- Pa5. eapply finish_meta_cpost; eauto. }
      destruct (i_kind fi) as [pp es|data|t|typ rdev] eqn:Ek.
      + (* directory *)
        assert (Hsn : SPN src) by (apply Hspn; unfold kind_is_link; rewrite Ek; reflexivity).
        eapply (cpost_bind c f0 dr dcs R d2 s4 _ _ (fun _ s5 => s_parents s5 = s_parents s4 /\
                   exists d1, blookup x (dents (s_fs s5) d2) = Some d1 /\ is_dir (s_fs s5) d1 = true)); [exact Hd4|exact L4|exact H| |]; clear H.
        { intros s5 r5 E5. destruct (copy_directory_only_spec c f0 dr dcs s4 s5 _ cs2 d2 x fi ow T4 E5) as (S5 & _ & P5).
          apply cpost_stays; [exact S5|eapply rok_nr; [apply NR_copy_directory_only|exact E5|exact Rk4]|].
          intros created ->. split; [apply S5|eauto]. }
        intros s5 created S5 L5 Rk5 (Pa5 & d1 & Hb1 & Hd1) H.
        assert (T5 : Tgt (s_fs s5) cs2 d2 x) by (eapply tgt_stays_ok; eauto).
        assert (Hu5 : uncopied (s_parents s5 ++ [(src, tpath cs2 x, true)]) = []).
        { rewrite uncopied_app, Pa5, Hu4. reflexivity. }
        (* the children: everything pending has been made, the stack does not change *)
        apply (walk_dir_spec k o sl src comps (tpath cs2 x) (cs2 ++ [x]) d1 [] d2 [x] true _ _ _ _ s5 s' r IH) with (2 := H);
          try (apply Forall_app; split; auto); try (constructor; assumption); auto.
        { unfold FsCopySafeP.tpath. rewrite app_nil_r. reflexivity. }
        { apply T5. }
        { eapply chain_snoc; eauto; apply T5. }
        { econstructor; eauto. constructor; auto. }
        { rewrite Pa5. exact Hpk4. }
        clear H. intros s8 S8 (C8 & Hc8 & Pa8) L8 Rk8 H. apply (stack_post_made _ _ _ _ Hu5) in Pa8.
        rewrite bind_run, pop_parent_run in H. rewrite Pa8, removelast_last in H.
        apply (cpost_from c f0 dr dcs R d2 s8 (setp s8 (s_parents s5))); [reflexivity|reflexivity|].
        set (s9 := setp s8 (s_parents s5)) in *.
        assert (T9 : Tgt (s_fs s9) cs2 d2 x) by (eapply (tgt_stays_ok c f0 dr dcs s5 s8); eauto).
        destruct (chain_last dr (s_fs s9) cs2 d2 x d1 d2 Hc8 (tg_chain _ _ _ _ _ _ _ _ T9) eq_refl) as [Hb9 Hi9].
        assert (Hn9 : names_ss (s_fs s9) d2 x d1).
        { split; auto. eapply (chain_SS f0 dr (s_fs s9)); [eapply tgt_inv; eauto|exact Hc8|eapply ctx_dr_SS; apply T9]. }
        destruct (ow || created).
        * eapply (Hfin s9 d1); eauto. intros _. apply dir_not_link. exact Hi9.
        * destruct tfi.
          -- pose proof (copy_file_timestamp_spec c f0 dr dcs cs2 d2 x d1 o fi s9 s' r T9 Hn9 (False_ind _) H) as M10.
             apply cpost_stays; [apply mstep_stays; exact M10|eapply rok_nr; [apply NR_copy_file_timestamp|exact H|exact Rk8]|].
             intros _ _. destruct M10 as (_ & _ & ->). exact Pa5.
          -- cbn [ret] in H. injection H as <- <-. apply cpost_stays; [apply stays_refl; apply T9|exact Rk8|intros _ _; exact Pa5].
      + (* regular file *)
        assert (Hkl : kind_is_link fi = false) by (unfold kind_is_link; rewrite Ek; reflexivity).
        assert (Hab : absent (s_fs s4) d2 x) by (apply P4; unfold kind_is_dir; rewrite Ek; reflexivity).
        eapply (cpost_bind c f0 dr dcs R d2 s4 _ _ (fun _ s5 => s_parents s5 = s_parents s4 /\ made s5 d2 x)); [exact Hd4|exact L4|exact H| |]; clear H.
        { intros s5 r5 E5. destruct (copy_regular_spec c f0 dr dcs s4 s5 _ cs2 d2 x src ino _ T4 Hab L4 E5) as (S5 & Pa5 & P5).
          split; [exact S5|]. split; [intros [] ->; auto|].
          eapply (copy_regular_reads c f0 dr dcs R SP SPN HR); [apply T4|apply Hspn; exact Hkl|exact E5|exact Rk4]. }
        intros s5 [] S5 L5 Rk5 (Pa5 & i & Hn & _ & Hl) H. eapply (Hfin s5 i); eauto. eapply tgt_stays_ok; eauto.
      + (* symlink *)
        rewrite sys_bind, sys_readlink_fs in H.
        destruct (snd (sys_readlink c (s_fs s4) src)) as [| | |tgt| |];
          try (injection H as <- <-; apply cpost_stays; [apply stays_same; auto; apply T4|exact Rk4|discriminate]).
        apply (cpost_from c f0 dr dcs R d2 s4 (mk s4 (s_fs s4))); [reflexivity|reflexivity|].
        set (s5 := mk s4 (s_fs s4)) in *.
        rewrite sys_bind in H.
        destruct (sys_symlink c (s_fs s5) tgt (tpath cs2 x)) as [f6 r6] eqn:E6. cbn [fst snd] in H.
        destruct (t_symlink c f0 dr dcs _ cs2 d2 x _ f6 r6 T4 E6) as ((C6 & A6 & P6) & G6 & K6).
        pose proof (stays_grows c f0 dr dcs d2 s5 f6 C6 A6 G6 K6) as S6.
        rewrite bind_run, expect_ok_run in H.
        destruct P6 as [[e ->]|[-> Hcr]].
        * injection H as <- <-. apply cpost_stays; [exact S6|exact Rk4|discriminate].
        * apply (cpost_after c f0 dr dcs R d2 s5 (mk s5 f6)); [exact Hd4|exact S6|].
          eapply (Hfin (mk s5 f6) (f_next (s_fs s5))); eauto.
          -- eapply (tgt_stays c f0 dr dcs s5); eauto.
          -- split; [apply Hcr|right; apply Hcr].
          -- unfold kind_is_link. rewrite Ek. discriminate.
      + (* device, fifo, socket *)
        assert (Hkl : kind_is_link fi = false) by (unfold kind_is_link; rewrite Ek; reflexivity).
        eapply (cpost_bind c f0 dr dcs R d2 s4 _ _ (fun _ s5 => s_parents s5 = s_parents s4 /\ made s5 d2 x)); [exact Hd4|exact L4|exact H| |]; clear H.
        { intros s5 r5 E5. destruct (copy_device_spec c f0 dr dcs s4 s5 _ cs2 d2 x fi T4 E5) as (S5 & _ & P5).
          apply cpost_stays; [exact S5|eapply rok_nr; [apply NR_copy_device|exact E5|exact Rk4]|]. intros [] ->. split; [apply S5|auto]. }
        intros s5 [] S5 L5 Rk5 (Pa5 & i & Hn & _ & Hl) H. eapply (Hfin s5 i); eauto. eapply tgt_stays_ok; eauto.
    - (* not selected: a directory is still walked, its creation deferred *)
      destruct (i_kind fi) as [pp es|data|t|typ rdev] eqn:Ek;
        try (cbn [ret] in H; injection H as <- <-; apply cpost_stays; [apply stays_refl; exact C|exact Rk|intros _ _; left; reflexivity]).
      assert (Hsn : SPN src) by (apply Hspn; unfold kind_is_link; rewrite Ek; reflexivity).
      apply (walk_dir_spec k o sl src comps target cs d (pend ++ [x]) d [] false _ _ _ _ s s' r IH) with (2 := H);
        try (apply Forall_app; split; auto); try (constructor; assumption); auto.
      { rewrite uncopied_app, Hu, pend_paths_app. f_equal. simpl. unfold target. rewrite <- !app_assoc. reflexivity. }
      clear H. intros s8 _ (C8 & Hc8 & Pa8) L8 Rk8 H. rewrite pop_parent_run in H. injection H as <- <-.
      split; [apply stays_ok_setp; exact C8|split; [|exact Rk8]]. intros _ _. cbn [s_parents setp].
      destruct Pa8 as [Pa8|[Pa8 (d' & Hd')]]; rewrite Pa8.
      + left. rewrite removelast_last. reflexivity.
      + right. split; [rewrite removelast_allc, removelast_last; reflexivity|].
        rewrite app_assoc in Hd'. destruct (chain_split (s_fs s8) (cs ++ pend) dr [x] d' Hd') as (m & P & _). eauto.
  Qed.
  End Reads.

  Lemma copy_rec_spec fuel : forall o sl src comps cs d pend x ow pinc pexc s s' r,
    Ctx (s_fs s) -> chain (s_fs s) dr cs d ->
    Forall nm cs -> Forall nonul cs -> Forall nm pend -> Forall nonul pend -> nm x -> nonul x ->
    uncopied (s_parents s) = pend_paths cs pend -> lok s ->
    copy_rec fuel c o sl src comps (render (dcs ++ cs ++ pend ++ [x])) ow pinc pexc s = (s', r) ->
    stays_ok d s s' r /\ (ok_res r -> stack_post cs pend (s_parents s) s').
  Proof.
    intros o sl src comps cs d pend x ow pinc pexc s s' r C Hc Hcs Hcn Hp Hpn Hx Hxn Hu L H.
    destruct (copy_rec_spec_r _ _ _ (reads_ok_any c f0 dr dcs) fuel o sl src comps cs d pend x ow pinc pexc s s' r) as (S & P & _);
      auto using rok_any, pok_any.
    split; [exact S|]. intros [a E]. exact (P a E).
  Qed.
End Rec2.
