(* Proofs about Model/Diff.v: the merge loop of doubleWalkDiff never runs out of fuel and,
   on well-formed listings, performs exactly the run described by the inductive relation
   [run] (the [rmdir] string of the Go code is replaced there by its meaning: "this path
   lies below a removed root").  Exactness of the change list against [spec_change] and its
   ordering are read off [run]; Properties/C02.v states them. *)
From Coq Require Import List NArith Lia Bool Sorting.Sorted.
From FS Require Import Sx Model.Path Model.Stat Model.Diff Proofs.Lex Proofs.PathP Proofs.ListAux.
Import ListNotations.
Open Scope N_scope.
Open Scope bool_scope.

Lemma above_iff q p : above q p = true <-> exists r, p = q ++ sep :: r.
Proof.
  unfold above, rm_of. rewrite has_prefix_iff. split; intros [r ->]; exists r; rewrite <- app_assoc; reflexivity.
Qed.

Lemma above_trans q p y : above q p = true -> above p y = true -> above q y = true.
Proof.
  rewrite !above_iff. intros [r ->] [r' ->]. exists (r ++ sep :: r'). rewrite <- app_assoc. reflexivity.
Qed.

Lemma is_empty_rm_of p : is_empty (rm_of p) = false.
Proof. unfold rm_of. destruct p; reflexivity. Qed.

Lemma under_rm_rm_of q p : under_rm (rm_of q) p = above q p.
Proof. unfold under_rm. rewrite is_empty_rm_of. reflexivity. Qed.

Lemma under_rm_nil p : under_rm [] p = false.
Proof. reflexivity. Qed.

Lemma above_lt q p : above q p = true -> compare_path q p = Lt.
Proof.
  rewrite above_iff. intros [r ->]. rewrite compare_path_lex, comps_app_sep_gen.
  apply lex_prefix_lt. apply comps_nonempty.
Qed.

Lemma lcmp_prefix_between (T : Type) (cmp : T -> T -> comparison)
  (cmp_eq : forall a b, cmp a b = Eq <-> a = b)
  (cmp_opp : forall a b, cmp b a = CompOpp (cmp a b)) d r x :
  lcmp T cmp d x = Lt -> lcmp T cmp x (d ++ r) = Lt -> exists r', x = d ++ r' /\ r' <> [].
Proof.
  revert x; induction d as [|a d IH]; intros x H1 H2.
  - destruct x as [|l y]; simpl in *; try discriminate. exists (l :: y). split; [reflexivity|discriminate].
  - destruct x as [|c x]; simpl in *; try discriminate.
    rewrite (cmp_opp a c) in H2. destruct (cmp a c) eqn:E; simpl in *; try discriminate.
    apply cmp_eq in E. subst c. destruct (IH x H1 H2) as (r' & -> & Hr). exists r'. auto.
Qed.

(* the paths below q are contiguous in path order, right after q *)
Lemma above_between q x p :
  compare_path q x = Lt -> compare_path x p = Lt -> above q p = true -> above q x = true.
Proof.
  intros H1 H2 H3. apply above_iff in H3. destruct H3 as [r ->].
  rewrite compare_path_lex in H1, H2. rewrite comps_app_sep_gen in H2.
  destruct (lcmp_prefix_between _ cmpb cmpb_eq cmpb_opp _ _ _ H1 H2) as (r' & E & Hr).
  apply above_iff. exists (joinc r').
  rewrite <- (joinc_comps x), E. rewrite joinc_app by (auto; apply comps_nonempty).
  rewrite joinc_comps. reflexivity.
Qed.

Lemma compare_path_asym p q : compare_path p q = Lt -> compare_path q p = Lt -> False.
Proof. intros H1 H2. rewrite compare_path_opp, H1 in H2. discriminate. Qed.

Lemma plt_trans a b c : plt a b -> plt b c -> plt a c.
Proof. apply compare_path_trans. Qed.

Lemma sorted_inv a L : sorted (a :: L) -> sorted L /\ forall b, In b L -> plt a b.
Proof. intros H. inversion H; subst. split; auto. apply Forall_forall; auto. Qed.

Lemma sorted_app_inv L1 L2 : sorted (L1 ++ L2) ->
  sorted L1 /\ sorted L2 /\ forall a b, In a L1 -> In b L2 -> plt a b.
Proof. apply SS_app. Qed.

Lemma sorted_mid L0 x L1 :
  sorted (L0 ++ x :: L1) -> (forall q, In q L0 -> plt q x) /\ (forall y, In y L1 -> plt x y).
Proof.
  intros HS. apply sorted_app_inv in HS. destruct HS as (_ & S1 & S01). apply sorted_inv in S1.
  split; [intros q Hq; apply S01; simpl; auto|apply S1].
Qed.

Lemma sorted_unique L s t : sorted L -> In s L -> In t L -> st_path s = st_path t -> s = t.
Proof.
  induction L as [|x L IH]; intros HS Hs Ht E; [destruct Hs|].
  apply sorted_inv in HS. destruct HS as [HS Hx].
  destruct Hs as [->|Hs], Ht as [->|Ht]; auto.
  - exfalso. specialize (Hx _ Ht). unfold plt in Hx. rewrite E, compare_path_refl in Hx. discriminate.
  - exfalso. specialize (Hx _ Hs). unfold plt in Hx. rewrite E, compare_path_refl in Hx. discriminate.
Qed.

Lemma lookup_some p L s : lookup p L = Some s -> In s L /\ st_path s = p.
Proof.
  unfold lookup. intros H. apply find_some in H. destruct H as [H1 H2]. split; auto.
  apply bytes_eqb_eq; auto.
Qed.

Lemma lookup_none p L : lookup p L = None -> forall s, In s L -> st_path s <> p.
Proof.
  unfold lookup. intros H s Hs E. pose proof (find_none _ _ H _ Hs) as H1. simpl in H1.
  rewrite E, bytes_eqb_refl in H1. discriminate.
Qed.

Lemma lookup_in_sorted L s : sorted L -> In s L -> lookup (st_path s) L = Some s.
Proof.
  intros HS Hs. destruct (lookup (st_path s) L) as [t|] eqn:E.
  - apply lookup_some in E. destruct E as [Ht E]. f_equal. eapply sorted_unique; eauto.
  - exfalso. eapply lookup_none; eauto.
Qed.

Lemma lookup_none_iff p L : lookup p L = None <-> (forall s, In s L -> st_path s <> p).
Proof.
  split; [apply lookup_none|]. intros H. destruct (lookup p L) as [t|] eqn:E; auto.
  apply lookup_some in E. destruct E as [Ht E]. exfalso. eapply H; eauto.
Qed.

Lemma path_ltb_iff p q : path_ltb p q = true <-> compare_path p q = Lt.
Proof. unfold path_ltb. destruct (compare_path p q); split; intros; congruence. Qed.

Lemma sorted_b_iff L : sorted_b L = true <-> sorted L.
Proof.
  induction L as [|a L IH]; [split; [constructor|reflexivity]|].
  destruct L as [|b L].
  - split; [intros _; constructor; constructor|reflexivity].
  - change (sorted_b (a :: b :: L)) with (path_ltb (st_path a) (st_path b) && sorted_b (b :: L)).
    rewrite andb_true_iff, path_ltb_iff, IH. split.
    + intros [H1 H2]. constructor; auto. constructor; auto.
      apply sorted_inv in H2. destruct H2 as [_ H2]. apply Forall_forall. intros c Hc.
      eapply plt_trans; [exact H1|auto].
    + intros H. apply sorted_inv in H. destruct H as [H1 H2]. split; auto. apply H2. left; auto.
Qed.

Lemma sep_prefixes_iff p q : In q (sep_prefixes p) <-> exists r, p = q ++ sep :: r.
Proof.
  revert q; induction p as [|x p IH]; intros q; simpl.
  - split; [intros []|]. intros [r E]. destruct q; discriminate.
  - rewrite in_app_iff, in_map_iff. split.
    + intros [H|(q' & <- & H)].
      * destruct (N.eqb x sep) eqn:E; [|destruct H]. destruct H as [<-|[]].
        apply N.eqb_eq in E. subst. exists p. reflexivity.
      * apply IH in H. destruct H as [r ->]. exists r. reflexivity.
    + intros [r E]. destruct q as [|y q].
      * simpl in E. inversion E; subst. left. rewrite N.eqb_refl. left; auto.
      * simpl in E. inversion E; subst. right. exists q. split; auto. apply IH. eauto.
Qed.

Lemma closed_b_iff L : sorted L -> closed_b L = true <-> closed L.
Proof.
  intros HS. unfold closed_b, closed. rewrite forallb_forall. split.
  - intros H s Hs q r E. specialize (H s Hs). rewrite forallb_forall in H.
    assert (Hq : In q (sep_prefixes (st_path s))) by (apply sep_prefixes_iff; eauto).
    specialize (H q Hq). destruct (lookup q L) as [t|] eqn:El; [|discriminate].
    apply lookup_some in El. destruct El. eauto.
  - intros H s Hs. apply forallb_forall. intros q Hq. apply sep_prefixes_iff in Hq. destruct Hq as [r E].
    destruct (H s Hs q r E) as (t & Ht & <- & Hd). rewrite lookup_in_sorted by auto. exact Hd.
Qed.

Lemma listing_ok_b_iff L : listing_ok_b L = true <-> wf_listing L.
Proof.
  unfold listing_ok_b, wf_listing. rewrite andb_true_iff, sorted_b_iff. split.
  - intros [H1 H2]. split; auto. apply closed_b_iff; auto.
  - intros [H1 H2]. split; auto. apply closed_b_iff; auto.
Qed.

Lemma compare_stat_refl a : compare_stat a a = true.
Proof. unfold compare_stat. rewrite !N.eqb_refl, bytes_eqb_refl. reflexivity. Qed.

Lemma same_file_refl a : same_file DMetadata a a = true.
Proof. unfold same_file. rewrite !N.eqb_refl, compare_stat_refl. destruct (st_is_dir a); reflexivity. Qed.

Lemma same_file_iff a b : same_file DMetadata a b = true <->
  st_mode a = st_mode b /\ st_uid a = st_uid b /\ st_gid a = st_gid b /\
  st_devmajor a = st_devmajor b /\ st_devminor a = st_devminor b /\ st_linkname a = st_linkname b /\
  (st_is_dir a = false -> st_size a = st_size b /\ st_mtime a = st_mtime b).
Proof.
  unfold same_file, compare_stat. destruct (st_is_dir a); simpl.
  - rewrite !andb_true_iff, !N.eqb_eq, bytes_eqb_eq. intuition discriminate.
  - destruct (N.eqb_spec (st_size a) (st_size b)) as [Es|Es];
      [destruct (N.eqb_spec (st_mtime a) (st_mtime b)) as [Et|Et]|]; simpl.
    + rewrite !andb_true_iff, !N.eqb_eq, bytes_eqb_eq. tauto.
    + split; [discriminate|]. intros (_ & _ & _ & _ & _ & _ & H). destruct (H eq_refl). contradiction.
    + split; [discriminate|]. intros (_ & _ & _ & _ & _ & _ & H). destruct (H eq_refl). contradiction.
Qed.

Lemma same_file_fields d a b : same_file d a b = true ->
  d = DMetadata /\ st_mode a = st_mode b /\ st_uid a = st_uid b /\ st_gid a = st_gid b /\
  st_devmajor a = st_devmajor b /\ st_devminor a = st_devminor b /\ st_linkname a = st_linkname b /\
  (st_is_dir a = false -> st_size a = st_size b /\ st_mtime a = st_mtime b).
Proof. destruct d; [|discriminate]. intros H. split; [reflexivity|apply same_file_iff, H]. Qed.

Lemma same_file_mode d a b : same_file d a b = true -> st_mode a = st_mode b.
Proof. intros H. apply (same_file_fields _ _ _ H). Qed.

Lemma same_file_is_dir d a b : same_file d a b = true -> st_is_dir a = st_is_dir b.
Proof. intros H. unfold st_is_dir. rewrite (same_file_mode _ _ _ H). reflexivity. Qed.

Section Loop.
Variable flt : stat -> stat.
Variable d : differ.

Lemma emit_some o r : r <> None -> emit o r <> None.
Proof. destruct r; simpl; congruence. Qed.

Lemma diff_loop_fuel : forall fuel rm A B, (length A + length B < fuel)%nat ->
  diff_loop flt d fuel rm A B <> None.
Proof.
  induction fuel as [|f IH]; intros rm A B H; [lia|].
  destruct A as [|a A'], B as [|b B']; simpl.
  - discriminate.
  - apply emit_some, IH. simpl in *. lia.
  - destruct (step_del rm a) as [o r]. apply emit_some, IH. simpl in *. lia.
  - destruct (compare_path (st_path a) (st_path b)).
    + destruct (step_mod flt d a b) as [o r]. apply emit_some, IH. simpl in *. lia.
    + destruct (step_del rm a) as [o r]. apply emit_some, IH. simpl in *. lia.
    + apply emit_some, IH. simpl in *. lia.
Qed.

Lemma diff_fuel_enough A B : diff_opt flt d A B <> None.
Proof. apply diff_loop_fuel. unfold diff_fuel. lia. Qed.

Lemma diff_opt_diff A B : diff_opt flt d A B = Some (diff flt d A B).
Proof.
  unfold diff. destruct (diff_opt flt d A B) eqn:E; auto. exfalso. eapply diff_fuel_enough; eauto.
Qed.

Variables A B : list stat.

Notation removed_root := (Diff.removed_root flt A B).
Notation hidden_by := (Diff.hidden_by flt A B).
Notation hidden := (Diff.hidden flt A B).
Notation spec_change := (Diff.spec_change flt d A B).

(* what is reported at a path, given the entries of A and of B there (the rmdir state replaced
   by its meaning) *)
Inductive emits (p : bytes) : option stat -> option stat -> list change -> Prop :=
| em_hidden a : hidden p -> emits p (Some a) None []
| em_del a : ~ hidden p -> emits p (Some a) None [(KDelete, p, None)]
| em_add b : emits p None (Some b) [(KAdd, p, Some b)]
| em_same a b : same_file d a (flt b) = true -> emits p (Some a) (Some b) []
| em_mod a b : same_file d a (flt b) = false -> emits p (Some a) (Some b) [(KModify, p, Some b)].

Definition heads (o : option stat) : list stat := match o with Some s => [s] | None => [] end.

(* the run of the loop: the entries at the least unread path are read, and so on *)
Inductive run : list stat -> list stat -> list change -> Prop :=
| run_nil : run [] [] []
| run_step p oa ob cs A' B' out :
    lookup p A = oa -> lookup p B = ob -> emits p oa ob cs ->
    (forall y, In y (A' ++ B') -> compare_path p (st_path y) = Lt) ->
    run A' B' out -> run (heads oa ++ A') (heads ob ++ B') (cs ++ out).

Hypothesis HsA : sorted A.
Hypothesis HsB : sorted B.
Hypothesis HcB : closed B.
Hypothesis Hflt : forall s, st_is_dir (flt s) = st_is_dir s.

(* A0, B0 have been read, A', B' are unread; [rm] covers an unread path of A exactly when a removed
   root already read hides it *)
Definition inv (rm : bytes) (A0 A' B0 B' : list stat) : Prop :=
  A = A0 ++ A' /\ B = B0 ++ B' /\
  (forall x y, In x (A0 ++ B0) -> In y (A' ++ B') -> plt x y) /\
  (forall y, In y A' -> (under_rm rm (st_path y) = true <-> hidden_by A0 (st_path y))).

Lemma removed_root_no_B q b r :
  removed_root q -> In b B -> st_path b = st_path q ++ sep :: r -> False.
Proof.
  intros (Hq & Hd & Hr) Hb E. destruct (HcB b Hb _ _ E) as (t & Ht & Et & Hdt).
  destruct Hr as [Hn|(b' & Hb' & Eb' & Hdb')].
  - eapply Hn; eauto.
  - assert (b' = t) by (eapply sorted_unique; eauto; congruence). subst b'.
    rewrite Hflt in Hdb'. congruence.
Qed.

Lemma not_hidden_B A0 b : In b B -> ~ hidden_by A0 (st_path b).
Proof.
  intros Hb (q & _ & Hr & Hab). apply above_iff in Hab. destruct Hab as [r Er]. eapply removed_root_no_B; eauto.
Qed.

Lemma hidden_by_mono A0 A1 p : (forall a, In a A0 -> In a A1) -> hidden_by A0 p -> hidden_by A1 p.
Proof. intros H (a & Ha & Hr & Hab). exists a. auto. Qed.

Lemma hidden_by_snoc A0 a p :
  hidden_by (A0 ++ [a]) p <-> hidden_by A0 p \/ (removed_root a /\ above (st_path a) p = true).
Proof.
  split.
  - intros (q & Hq & Hr & Hab). apply in_app_or in Hq. destruct Hq as [Hq|[<-|[]]]; [left; exists q|]; auto.
  - intros [H|[Hr Hab]]; [revert H; apply hidden_by_mono; intros; apply in_or_app; auto|].
    exists a. split; [apply in_or_app; right; left|]; auto.
Qed.

Lemma hidden_by_between A0 x y :
  (forall q, In q A0 -> plt q x) -> plt x y -> hidden_by A0 (st_path y) -> hidden_by A0 (st_path x).
Proof.
  intros Hq Hxy (q & Hq0 & Hr & Hab). exists q. split; auto. split; auto.
  eapply above_between; [apply Hq; auto|exact Hxy|exact Hab].
Qed.

Lemma notin_between L0 L1 x :
  (forall q, In q L0 -> plt q x) -> (forall y, In y L1 -> plt x y) -> notin (L0 ++ L1) (st_path x).
Proof.
  intros H0 H1 s Hs E. apply in_app_or in Hs.
  destruct Hs as [Hs|Hs]; [apply (compare_path_lt_neq _ _ (H0 s Hs) E)|apply (compare_path_lt_neq _ _ (H1 s Hs) (eq_sym E))].
Qed.

Lemma inv_head_A rm A0 a A' B0 B' :
  inv rm A0 (a :: A') B0 B' ->
  In a A /\ (forall q, In q (A0 ++ B0) -> plt q a) /\ (forall y, In y A' -> plt a y) /\
  (hidden (st_path a) <-> hidden_by A0 (st_path a)).
Proof.
  intros (EA & EB & Hord & Hrm). pose proof HsA as HS. rewrite EA in HS. apply sorted_mid in HS.
  destruct HS as [Ha0 Ha]. split; [rewrite EA; apply in_or_app; right; left; auto|].
  split; [intros q Hq; apply Hord; simpl; auto|]. split; auto. split.
  - intros (q & Hq & Hr & Hab). exists q. split; auto. apply above_lt in Hab.
    rewrite EA in Hq. apply in_app_or in Hq. destruct Hq as [Hq|[<-|Hq]]; auto; exfalso.
    + exact (compare_path_asym _ _ Hab Hab).
    + eapply compare_path_asym; [apply Ha; eauto|exact Hab].
  - apply hidden_by_mono. intros x Hx. rewrite EA. apply in_or_app; auto.
Qed.

Lemma inv_head_B rm A0 A' B0 b B' :
  inv rm A0 A' B0 (b :: B') ->
  In b B /\ (forall q, In q (A0 ++ B0) -> plt q b) /\ (forall y, In y B' -> plt b y).
Proof.
  intros (EA & EB & Hord & Hrm). pose proof HsB as HS. rewrite EB in HS. apply sorted_mid in HS.
  split; [rewrite EB; apply in_or_app; right; left; auto|].
  split; [intros q Hq; apply Hord; auto; apply in_or_app; right; left; auto|apply HS].
Qed.

Lemma not_hidden_after rm A0 x A' B0 B' y :
  inv rm A0 A' B0 B' -> In y A' -> plt x y ->
  (forall q, In q A0 -> plt q x) ->
  (forall q, removed_root q -> above (st_path q) (st_path x) = true -> False) ->
  ~ hidden_by A0 (st_path y).
Proof.
  intros _ _ Hxy Hq0 Hno Hh. destruct (hidden_by_between _ _ _ Hq0 Hxy Hh) as (q & _ & Hr & Hab). eauto.
Qed.

Lemma inv_read rm rm' A0 hA A' B0 hB B' :
  inv rm A0 (hA ++ A') B0 (hB ++ B') ->
  (forall x y, In x (hA ++ hB) -> In y (A' ++ B') -> plt x y) ->
  (forall y, In y A' -> (under_rm rm' (st_path y) = true <-> hidden_by (A0 ++ hA) (st_path y))) ->
  inv rm' (A0 ++ hA) A' (B0 ++ hB) B'.
Proof.
  intros (EA & EB & Hord & _) Hh Hrm. split; [rewrite <- app_assoc; exact EA|]. split; [rewrite <- app_assoc; exact EB|].
  split; [|exact Hrm].
  intros x y Hx Hy. rewrite !in_app_iff in Hx.
  assert (Hy' : In y ((hA ++ A') ++ hB ++ B')) by (rewrite !in_app_iff in *; tauto).
  destruct Hx as [[Hx|Hx]|[Hx|Hx]]; [apply Hord|apply Hh|apply Hord|apply Hh]; auto; apply in_or_app; auto.
Qed.

(* the three moves of [rm]: kept below a suppressed path; set after a path of A that is not
   suppressed ([c]: it is a removed root); cleared after a path of B *)
Lemma rm_kept rm A0 a A'' :
  (forall y, In y (a :: A'') -> (under_rm rm (st_path y) = true <-> hidden_by A0 (st_path y))) ->
  under_rm rm (st_path a) = true ->
  forall y, In y A'' -> (under_rm rm (st_path y) = true <-> hidden_by (A0 ++ [a]) (st_path y)).
Proof.
  intros Hrm Eu y Hy. rewrite hidden_by_snoc, (Hrm y (or_intror Hy)). split; auto. intros [H|[_ Hab]]; auto.
  apply Hrm in Eu; [|left; auto]. destruct Eu as (q & Hq & Hr & Hqa). exists q. split; auto. split; auto.
  eapply above_trans; eauto.
Qed.

Lemma rm_rearmed A0 a A'' (c : bool) :
  (forall q, In q A0 -> plt q a) -> (forall y, In y A'' -> plt a y) ->
  ~ hidden_by A0 (st_path a) -> (removed_root a <-> c = true) ->
  forall y, In y A'' ->
    (under_rm (if c then rm_of (st_path a) else []) (st_path y) = true <-> hidden_by (A0 ++ [a]) (st_path y)).
Proof.
  intros Hq Ha Hn Hc y Hy. rewrite hidden_by_snoc.
  assert (Hny : ~ hidden_by A0 (st_path y)) by (intro H; apply Hn; eapply hidden_by_between; eauto).
  destruct c; [rewrite under_rm_rm_of|rewrite under_rm_nil]; intuition congruence.
Qed.

Lemma rm_reset A0 b A' :
  In b B -> (forall q, In q A0 -> plt q b) -> (forall y, In y A' -> plt b y) ->
  forall y, In y A' -> (under_rm [] (st_path y) = true <-> hidden_by (A0 ++ []) (st_path y)).
Proof.
  intros Hb Hq HbA y Hy. rewrite under_rm_nil, app_nil_r. split; [discriminate|]. intros Hh. exfalso.
  apply (not_hidden_B A0 b Hb). eapply hidden_by_between; eauto.
Qed.

Lemma diff_loop_run : forall fuel rm A0 A' B0 B',
  (length A' + length B' < fuel)%nat -> inv rm A0 A' B0 B' ->
  exists out, diff_loop flt d fuel rm A' B' = Some out /\ run A' B' out.
Proof.
  induction fuel as [|f IH]; intros rm A0 A' B0 B' Hf Hinv; [lia|].
  assert (Hdel : forall a A'', A' = a :: A'' -> (forall b, In b B' -> plt a b) ->
            exists out, (let '(o, r) := step_del rm a in emit o (diff_loop flt d f r A'' B')) = Some out
                        /\ run (a :: A'') B' out).
  { intros a A'' -> HaB. destruct (inv_head_A _ _ _ _ _ _ Hinv) as (HaA & Hqa & HaA'' & Hhid).
    pose proof Hinv as (_ & EB & _ & Hrm).
    assert (HnB : notin B (st_path a)).
    { rewrite EB. apply notin_between; auto. intros q Hq. apply Hqa, in_or_app; auto. }
    assert (Hay : forall y, In y (A'' ++ B') -> plt a y)
      by (intros y Hy; apply in_app_or in Hy; destruct Hy; auto).
    assert (Hnext : forall rm', (forall y, In y A'' ->
                (under_rm rm' (st_path y) = true <-> hidden_by (A0 ++ [a]) (st_path y))) ->
              exists out, diff_loop flt d f rm' A'' B' = Some out /\ run A'' B' out).
    { intros rm' Hrm'. apply (IH rm' (A0 ++ [a]) A'' (B0 ++ []) B'); [simpl in Hf; lia|].
      apply (inv_read rm rm' A0 [a] A'' B0 [] B' Hinv); auto. intros x y [<-|[]]. apply Hay. }
    assert (Hstep : forall cs out, emits (st_path a) (Some a) None cs -> run A'' B' out -> run (a :: A'') B' (cs ++ out)).
    { intros cs out Hem R. apply (run_step (st_path a) (Some a) None cs A'' B' out); auto.
      - apply lookup_in_sorted; auto.
      - apply lookup_none_iff, HnB. }
    unfold step_del. destruct (under_rm rm (st_path a)) eqn:Eu.
    - destruct (Hnext rm (rm_kept rm A0 a A'' Hrm Eu)) as (out & -> & R).
      exists out. split; [reflexivity|]. apply (Hstep [] out); auto. apply em_hidden, Hhid, Hrm; simpl; auto.
    - assert (Hnh0 : ~ hidden_by A0 (st_path a)).
      { intros H. apply Hrm in H; [|left; auto]. congruence. }
      destruct (Hnext (if st_is_dir a then rm_of (st_path a) else [])) as (out & -> & R).
      { apply rm_rearmed; auto; [intros q Hq; apply Hqa, in_or_app; auto|]. unfold Diff.removed_root. tauto. }
      eexists. split; [reflexivity|]. apply (Hstep [_] out); auto. apply em_del. rewrite Hhid. exact Hnh0. }
  assert (Hadd : forall b B'', B' = b :: B'' -> (forall a, In a A' -> plt b a) ->
            exists out, (let '(o, r) := step_add b in emit o (diff_loop flt d f r A' B'')) = Some out
                        /\ run A' (b :: B'') out).
  { intros b B'' -> HbA. destruct (inv_head_B _ _ _ _ _ _ Hinv) as (HbB & Hqb & HbB'').
    pose proof Hinv as (EA & _).
    assert (HnA : notin A (st_path b)).
    { rewrite EA. apply notin_between; auto. intros q Hq. apply Hqb, in_or_app; auto. }
    assert (Hby : forall y, In y (A' ++ B'') -> plt b y)
      by (intros y Hy; apply in_app_or in Hy; destruct Hy; auto).
    destruct (IH [] (A0 ++ []) A' (B0 ++ [b]) B'') as (out & E & R); [simpl in Hf; lia| |].
    { apply (inv_read rm [] A0 [] A' B0 [b] B'' Hinv).
      - intros x y [<-|[]]. apply Hby.
      - apply (rm_reset A0 b); auto. intros q Hq. apply Hqb, in_or_app; auto. }
    unfold step_add. rewrite E. eexists. split; [reflexivity|].
    apply (run_step (st_path b) None (Some b) [_] A' B'' out); auto using em_add.
    - apply lookup_none_iff, HnA.
    - apply lookup_in_sorted; auto. }
  destruct A' as [|a A''], B' as [|b B'']; cbn [diff_loop].
  - exists []. split; auto. constructor.
  - apply (Hadd b B'' eq_refl). intros a [].
  - apply (Hdel a A'' eq_refl). intros b [].
  - destruct (inv_head_A _ _ _ _ _ _ Hinv) as (HaA & Hqa & HaA'' & Hhid).
    destruct (inv_head_B _ _ _ _ _ _ Hinv) as (HbB & Hqb & HbB'').
    destruct (compare_path (st_path a) (st_path b)) eqn:Ec.
    + clear Hdel Hadd. apply compare_path_eq in Ec.
      assert (Hc : removed_root a <-> st_is_dir a && negb (st_is_dir (flt b)) = true).
      { rewrite andb_true_iff, negb_true_iff. split; [|intros [H1 H2]; split; auto; split; auto; right; exists b; auto].
        intros (_ & Hd & [Hn|(b' & Hb' & Eb' & Hdb')]); [exfalso; eapply Hn; eauto|].
        assert (b' = b) by (apply (sorted_unique B); auto; congruence). subst b'. auto. }
      assert (Hay : forall y, In y (A'' ++ B'') -> plt a y).
      { intros y Hy. apply in_app_or in Hy. destruct Hy as [Hy|Hy]; auto. unfold plt. rewrite Ec. apply HbB''; auto. }
      destruct (IH (if st_is_dir a && negb (st_is_dir (flt b)) then rm_of (st_path a) else [])
                  (A0 ++ [a]) A'' (B0 ++ [b]) B'') as (out & E & R); [simpl in Hf; lia| |].
      { apply (inv_read rm _ A0 [a] A'' B0 [b] B'' Hinv).
        - intros x y [<-|[<-|[]]] Hy; [|unfold plt; rewrite <- Ec]; apply Hay; auto.
        - apply rm_rearmed; auto; [intros q Hq; apply Hqa, in_or_app; auto|].
          rewrite Ec. apply not_hidden_B; auto. }
      unfold step_mod. rewrite E.
      assert (Hstep : forall cs, emits (st_path b) (Some a) (Some b) cs -> run (a :: A'') (b :: B'') (cs ++ out)).
      { intros cs Hem. apply (run_step (st_path b) (Some a) (Some b) cs A'' B'' out); auto.
        - rewrite <- Ec. apply lookup_in_sorted; auto.
        - apply lookup_in_sorted; auto.
        - rewrite <- Ec. exact Hay. }
      destruct (same_file d a (flt b)) eqn:Es; eexists; (split; [reflexivity|]);
        [apply (Hstep []), em_same, Es|apply (Hstep [_]), em_mod, Es].
    + apply (Hdel a A'' eq_refl). intros y [<-|Hy]; [exact Ec|]. eapply plt_trans; [exact Ec|auto].
    + assert (Hba : plt b a) by (unfold plt; rewrite compare_path_opp, Ec; reflexivity).
      apply (Hadd b B'' eq_refl). intros y [<-|Hy]; [exact Hba|]. eapply plt_trans; [exact Hba|auto].
Qed.

Theorem diff_run : run A B (diff flt d A B).
Proof.
  assert (Hinv : inv [] [] A [] B).
  { split; auto. split; auto. split; [intros x y []|].
    intros y Hy. rewrite under_rm_nil. split; [discriminate|]. intros (q & [] & _). }
  destruct (diff_loop_run (diff_fuel A B) [] [] A [] B ltac:(unfold diff_fuel; lia) Hinv) as (out & E & R).
  unfold diff, diff_opt. rewrite E. exact R.
Qed.

End Loop.


Section Exact.
Variable flt : stat -> stat.
Variable d : differ.
Variables A B : list stat.
Hypothesis HsA : sorted A.
Hypothesis HsB : sorted B.

Notation run := (run flt d A B).
Notation emits := (emits flt d A B).
Notation spec_change := (spec_change flt d A B).
Notation hidden := (hidden flt A B).

Lemma spec_change_path_in c : spec_change c -> In (ch_path c) (paths A) \/ In (ch_path c) (paths B).
Proof.
  destruct c as [[k p] [b|]]; destruct k; simpl; try tauto.
  - intros (Hb & <- & _). right. apply (in_map st_path); auto.
  - intros (Hb & <- & _). right. apply (in_map st_path); auto.
  - intros ((a & Ha & <-) & _). left. apply (in_map st_path); auto.
Qed.

Lemma spec_at_A a c : In a A -> notin B (st_path a) -> ch_path c = st_path a ->
  (spec_change c <-> ~ hidden (st_path a) /\ c = (KDelete, st_path a, None)).
Proof.
  intros Ha HnB. destruct c as [[[] p] [b|]]; unfold ch_path; simpl; intros ->;
    (split; [|intros [Hh [=]]; eauto]); try tauto.
  - intros (Hb & Eb & _). exfalso. eapply HnB; eauto.
  - intros (Hb & Eb & _). exfalso. eapply HnB; eauto.
Qed.

Lemma spec_at_B b c : In b B -> notin A (st_path b) -> ch_path c = st_path b ->
  (spec_change c <-> c = (KAdd, st_path b, Some b)).
Proof.
  intros Hb HnA. destruct c as [[[] p] [b'|]]; unfold ch_path; simpl; intros ->;
    (split; [|intros [=]; subst; auto]); try tauto.
  - intros (Hb' & Eb' & _). assert (b' = b) by (apply (sorted_unique B); auto). subst. reflexivity.
  - intros (_ & _ & a & Ha & Ea & _). exfalso. eapply HnA; eauto.
  - intros ((a & Ha & Ea) & _). exfalso. eapply HnA; eauto.
Qed.

Lemma spec_at_AB a b c : In a A -> In b B -> st_path a = st_path b -> ch_path c = st_path b ->
  (spec_change c <-> same_file d a (flt b) = false /\ c = (KModify, st_path b, Some b)).
Proof.
  intros Ha Hb E. destruct c as [[[] p] [b'|]]; unfold ch_path; simpl; intros ->;
    (split; [|intros [Hs [=]]; subst; eauto 7]); try tauto.
  - intros (_ & _ & Hn). exfalso. eapply Hn; eauto.
  - intros (Hb' & Eb' & a' & Ha' & Ea' & Hs).
    assert (b' = b) by (apply (sorted_unique B); auto).
    assert (a' = a) by (apply (sorted_unique A); auto; congruence). subst. auto.
  - intros (_ & Hn & _). exfalso. eapply Hn; eauto.
Qed.

Definition unread (A' B' : list stat) (p : bytes) : Prop := In p (paths A') \/ In p (paths B').

Lemma emits_spec p oa ob cs : lookup p A = oa -> lookup p B = ob -> emits p oa ob cs ->
  forall c, ch_path c = p -> (spec_change c <-> In c cs).
Proof.
  intros EA EB Hem c Hc. destruct Hem as [a Hh|a Hh|b|a b Hs|a b Hs].
  1,2: apply lookup_some in EA; destruct EA as [Ha <-];
    rewrite (spec_at_A a c Ha (lookup_none _ _ EB) Hc); simpl; intuition congruence.
  - apply lookup_some in EB. destruct EB as [Hb <-].
    rewrite (spec_at_B b c Hb (lookup_none _ _ EA) Hc). simpl. intuition congruence.
  - apply lookup_some in EB. destruct EB as [Hb <-]. apply lookup_some in EA. destruct EA as [Ha Ea].
    rewrite (spec_at_AB a b c Ha Hb Ea Hc). simpl. intuition congruence.
  - apply lookup_some in EB. destruct EB as [Hb <-]. apply lookup_some in EA. destruct EA as [Ha Ea].
    rewrite (spec_at_AB a b c Ha Hb Ea Hc). simpl. intuition congruence.
Qed.

Lemma emits_path p oa ob cs : emits p oa ob cs -> forall c, In c cs -> ch_path c = p.
Proof. intros [] c Hc; simpl in Hc; intuition (subst; reflexivity). Qed.

Lemma emits_heads p oa ob cs : lookup p A = oa -> lookup p B = ob -> emits p oa ob cs ->
  heads oa ++ heads ob <> [] /\ forall h, In h (heads oa ++ heads ob) -> st_path h = p.
Proof.
  intros EA EB Hem. destruct Hem; try (apply lookup_some in EA; destruct EA as [_ EA]);
    try (apply lookup_some in EB; destruct EB as [_ EB]); (split; [discriminate|]); simpl; intuition congruence.
Qed.

Lemma run_exact A' B' out : run A' B' out ->
  forall c, In c out <-> spec_change c /\ unread A' B' (ch_path c).
Proof.
  induction 1 as [|p oa ob cs A' B' out EA EB Hem Hlt R IH].
  - unfold unread. simpl. tauto.
  - assert (HQ : forall q, unread (heads oa ++ A') (heads ob ++ B') q <-> p = q \/ unread A' B' q).
    { destruct Hem; try (apply lookup_some in EA; destruct EA as [_ EA]);
        try (apply lookup_some in EB; destruct EB as [_ EB]); intros q; unfold unread; simpl; rewrite ?EA, ?EB; tauto. }
    intros c. rewrite in_app_iff, IH, HQ. split.
    + intros [Hc|[H1 H2]]; [|tauto]. pose proof (emits_path p oa ob cs Hem c Hc) as Ec.
      split; [apply (emits_spec p oa ob cs EA EB Hem c Ec), Hc|auto].
    + intros [H1 [H2|H2]]; [left; apply (emits_spec p oa ob cs EA EB Hem c); auto|right; auto].
Qed.

Definition clt (c1 c2 : change) : Prop := compare_path (ch_path c1) (ch_path c2) = Lt.

(* what is reported later lies at paths still unread, beyond the one just read *)
Lemma run_sorted A' B' out : run A' B' out -> StronglySorted clt out.
Proof.
  induction 1 as [|p oa ob cs A' B' out EA EB Hem Hlt R IH]; [constructor|].
  assert (Hp : forall c, ch_path c = p -> Forall (clt c) out).
  { intros c Ec. apply Forall_forall. intros c' Hc'. apply (run_exact _ _ _ R) in Hc'. destruct Hc' as [_ Hu].
    unfold unread, paths in Hu. rewrite <- in_app_iff, <- map_app in Hu. apply in_map_iff in Hu.
    destruct Hu as (y & Ey & Hy). unfold clt. rewrite Ec, <- Ey. apply Hlt, Hy. }
  destruct Hem; simpl; auto; constructor; auto.
Qed.

Lemma clt_sorted_nodup out : StronglySorted clt out -> NoDup (map ch_path out).
Proof.
  induction 1 as [|c out S IH F]; simpl; constructor; auto.
  intros Hin. apply in_map_iff in Hin. destruct Hin as (c' & E & Hc').
  rewrite Forall_forall in F. specialize (F _ Hc'). unfold clt in F. rewrite E, compare_path_refl in F. discriminate.
Qed.

Hypothesis HcB : closed B.
Hypothesis Hflt : forall s, st_is_dir (flt s) = st_is_dir s.

Theorem diff_changes_exact_proof c : In c (diff flt d A B) <-> spec_change c.
Proof.
  rewrite (run_exact _ _ _ (diff_run flt d A B HsA HsB HcB Hflt)). split; [tauto|].
  intros H. split; auto. apply spec_change_path_in; auto.
Qed.

Theorem diff_sorted_proof : StronglySorted clt (diff flt d A B).
Proof. apply (run_sorted A B), diff_run; auto. Qed.

Theorem diff_nodup_proof : NoDup (map ch_path (diff flt d A B)).
Proof. apply clt_sorted_nodup, diff_sorted_proof. Qed.

End Exact.

(* re-sync of an unchanged listing: nothing is reported (no hypothesis on the listing) *)
Lemma diff_loop_all_same flt d : forall fuel rm A B, (length A + length B < fuel)%nat ->
  Forall2 (fun a b => st_path a = st_path b /\ same_file d a (flt b) = true) A B ->
  diff_loop flt d fuel rm A B = Some [].
Proof.
  induction fuel as [|f IH]; intros rm A B Hf H; [lia|].
  destruct H as [|a b A B [E Hs] H]; [reflexivity|].
  cbn [diff_loop]. rewrite E, compare_path_refl. unfold step_mod. rewrite Hs.
  rewrite IH; auto. simpl in Hf. lia.
Qed.

Theorem resync_noop_gen flt d A B :
  Forall2 (fun a b => st_path a = st_path b /\ same_file d a (flt b) = true) A B ->
  diff flt d A B = [].
Proof.
  intros H. unfold diff, diff_opt. rewrite diff_loop_all_same; auto; unfold diff_fuel; lia.
Qed.

Lemma spec_change_iff flt d A B k p st :
  spec_change flt d A B (k, p, st) <->
  (k = KAdd /\ exists b, st = Some b /\ In b B /\ st_path b = p /\ notin A p) \/
  (k = KModify /\ exists a b, st = Some b /\ In a A /\ In b B /\ st_path a = p /\ st_path b = p
                               /\ same_file d a (flt b) = false) \/
  (k = KDelete /\ st = None /\ (exists a, In a A /\ st_path a = p) /\ notin B p /\ ~ hidden flt A B p).
Proof.
  destruct k, st as [b|]; simpl; (split; [|intros [(E & H)|[(E & H)|(E & H)]]; try discriminate]).
  all: try tauto; firstorder congruence.
Qed.

(* sameFile compares exactly the identity key *)
Theorem same_file_is_identity a b :
  same_file DMetadata a b = key_eqb (identity_key a) (identity_key b).
Proof.
  unfold same_file, key_eqb, identity_key, compare_stat. cbn [fst snd bytes_eqb].
  destruct (N.eqb (st_mode a) (st_mode b)) eqn:Em.
  - apply N.eqb_eq in Em. unfold st_is_dir. rewrite Em.
    destruct (mode_is_dir (st_mode b)); cbn [negb andb N.eqb];
      [|destruct (N.eqb (st_size a) (st_size b)), (N.eqb (st_mtime a) (st_mtime b)); cbn [negb andb]]; ring.
  - cbn [andb].
    destruct (st_is_dir a); cbn [negb]; auto.
    destruct (N.eqb (st_size a) (st_size b)); cbn [negb]; auto.
    destruct (N.eqb (st_mtime a) (st_mtime b)); cbn [negb]; auto.
Qed.
