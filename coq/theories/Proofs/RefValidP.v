(* C11 — the reference filter (Model/FilterWalk.reference, for ANY verdict V) of a well-formed
   source view is a well-formed listing: a sub-sequence of the canonical walk (hence strictly
   ascending in protocol order), ancestor-closed, with clean relative paths — provided the map
   function keeps path / type bits / link name and never answers Exclude for a directory.
   And: a well-formed listing with clean paths passes the order validator.
   First come the facts about sub-sequences and walks that the C11 and C16 proofs share. *)
From Coq Require Import List NArith Bool Sorting.Sorted.
From FS Require Import Sx Model.Path Model.Stat Model.Tree Model.Pattern Model.FilterWalk
  Model.Hardlinks Model.Validator Model.Diff Model.SenderView
  Proofs.Lex Proofs.PathP Proofs.ListAux Proofs.PatternP Proofs.FilterP Proofs.RefP Proofs.NaiveRefP Proofs.FlatRefP
  Proofs.ValidatorP Proofs.DiffP.
From FS Require Model.Walk Proofs.WalkP.
Import ListNotations.
Open Scope bool_scope.

Section RSub.
Context {A B : Type}.
Variable R : A -> B -> Prop.

Inductive rsub : list A -> list B -> Prop :=
| rs_nil : rsub [] []
| rs_skip y l' l : rsub l' l -> rsub l' (y :: l)
| rs_keep x y l' l : R x y -> rsub l' l -> rsub (x :: l') (y :: l).

Lemma rsub_nil_l l : rsub [] l.
Proof. induction l; constructor; auto. Qed.

Lemma rsub_app a b a' b' : rsub a b -> rsub a' b' -> rsub (a ++ a') (b ++ b').
Proof.
  intros H1 H2. induction H1; cbn [app]; auto.
  - apply rs_skip; auto.
  - apply rs_keep; auto.
Qed.

Lemma rsub_in l' l : rsub l' l -> forall x, In x l' -> exists y, In y l /\ R x y.
Proof.
  induction 1 as [|y l' l _ IH|x y l' l HR _ IH]; intros z Hz.
  - destruct Hz.
  - destruct (IH z Hz) as (w & Hw & HRw). exists w. split; [right|]; auto.
  - destruct Hz as [<-|Hz].
    + exists y. split; [left|]; auto.
    + destruct (IH z Hz) as (w & Hw & HRw). exists w. split; [right|]; auto.
Qed.

Lemma rsub_cons_inv a y l : rsub a (y :: l) ->
  rsub a l \/ exists x a', a = x :: a' /\ R x y /\ rsub a' l.
Proof. inversion 1; subst; [left; assumption|right; eauto 8]. Qed.

Lemma rsub_sorted {K} (lt : K -> K -> Prop) (ka : A -> K) (kb : B -> K) l' l :
  (forall x y, R x y -> ka x = kb y) -> rsub l' l ->
  StronglySorted lt (map kb l) -> StronglySorted lt (map ka l').
Proof.
  intros Hk H. induction H as [|y l' l _ IH|x y l' l HR Hs IH]; intros HS.
  - constructor.
  - cbn [map] in HS. apply StronglySorted_inv in HS. tauto.
  - cbn [map] in *. apply StronglySorted_inv in HS. destruct HS as [HS HF]. constructor; auto.
    apply Forall_forall. intros k Hin. apply in_map_iff in Hin. destruct Hin as (z & <- & Hz).
    destruct (rsub_in _ _ Hs z Hz) as (w & Hw & HRw).
    rewrite (Hk _ _ HR), (Hk _ _ HRw). rewrite Forall_forall in HF. apply HF. apply in_map. exact Hw.
Qed.
End RSub.

Lemma rsub_trans_eq {A B} (R : A -> B -> Prop) a b cc : rsub R a b -> rsub eq b cc -> rsub R a cc.
Proof.
  intros H1 H2. revert a H1. induction H2 as [|y l' l _ IH|x y l' l E _ IH]; intros a H1.
  - exact H1.
  - apply rs_skip. auto.
  - subst y. destruct (rsub_cons_inv _ _ _ _ H1) as [H|(z & a' & -> & Hz & H)]; [apply rs_skip|apply rs_keep]; auto.
Qed.

Lemma rsub_filter {A} (f : A -> bool) l : rsub eq (filter f l) l.
Proof.
  induction l as [|a l IH]; cbn [filter]; [constructor|].
  destruct (f a); [apply rs_keep|apply rs_skip]; auto.
Qed.

(* a sub-sequence of a list without repeated keys is determined by its keys *)
Lemma rsub_eq_unique {A B} (g : A -> B) l : NoDup (map g l) ->
  forall a b, rsub eq a l -> rsub eq b l -> map g a = map g b -> a = b.
Proof.
  induction l as [|x l IH]; intros Hnd a b Ha Hb E.
  - inversion Ha. inversion Hb. reflexivity.
  - cbn [map] in Hnd. inversion Hnd as [|? ? Hx Hl]; subst.
    assert (Hin : forall c, rsub eq c l -> ~ In (g x) (map g c)).
    { intros c Hc Hy. apply in_map_iff in Hy. destruct Hy as (z & Ez & Hz).
      destruct (rsub_in _ _ _ Hc z Hz) as (w & Hw & <-). apply Hx. rewrite <- Ez. apply in_map; auto. }
    destruct (rsub_cons_inv _ _ _ _ Ha) as [Ha'|(? & a' & -> & -> & Ha')];
      destruct (rsub_cons_inv _ _ _ _ Hb) as [Hb'|(? & b' & -> & -> & Hb')].
    + apply IH; auto.
    + exfalso. apply (Hin a Ha'). rewrite E. left; reflexivity.
    + exfalso. apply (Hin b Hb'). rewrite <- E. left; reflexivity.
    + cbn [map] in E. injection E as E. f_equal. apply IH; auto.
Qed.

Lemma all_paths_node_in (Q : bytes -> bool) : forall n dir, all_paths_node Q dir n = true ->
  forall e : Tree.entry, In e (walk_node dir n) -> Q (st_path (fst e)) = true.
Proof.
  induction n as [name st ct kids IH] using node_ind2. intros dir H e Hin.
  cbn [all_paths_node] in H. apply andb_true_iff in H. destruct H as [HQ Hk].
  rewrite walk_node_eq in Hin. destruct Hin as [<-|Hin]; [exact HQ|].
  apply in_walk_forest in Hin. destruct Hin as (k & Hkin & Hek).
  rewrite forallb_forall in Hk. rewrite Forall_forall in IH. eapply IH; eauto.
Qed.

Lemma all_paths_in (Q : bytes -> bool) view : all_paths Q view = true ->
  forall e : Tree.entry, In e (walk_root view) -> Q (st_path (fst e)) = true.
Proof.
  unfold all_paths. intros H e Hin. apply in_walk_forest in Hin. destruct Hin as (k & Hkin & Hek).
  rewrite forallb_forall in H. eapply all_paths_node_in; eauto.
Qed.

Lemma split_child dir name q r : nosep name -> q ++ sep :: r = child_path dir name ->
  dir <> [] /\ (q = dir \/ exists r', dir = q ++ sep :: r').
Proof.
  intros Hn. destruct dir as [|a d].
  - cbn [child_path]. intros E. exfalso. apply Hn. rewrite <- E. apply in_or_app. right. left. reflexivity.
  - rewrite child_path_cons by discriminate. intros E. split; [discriminate|].
    apply app_eq_app in E. destruct E as [l [[-> E]|[-> E]]]; destruct l as [|x l]; rewrite ?app_nil_r; auto;
      cbn [app] in E; injection E as <- E.
    + exfalso. apply Hn. rewrite E. apply in_elt.
    + right. eauto.
Qed.

Lemma child_path_joinc cs name : cs = [] \/ okc cs -> child_path (joinc cs) name = joinc (cs ++ [name]).
Proof.
  intros [->|Hok]; [reflexivity|].
  assert (Hne : cs <> []) by (destruct Hok; auto).
  rewrite child_path_cons by (apply okc_joinc_nonempty; auto).
  rewrite joinc_snoc by auto. reflexivity.
Qed.

Notation bytes_lt := (fun a b : bytes => cmp_bytes a b = Lt).

Lemma sorted_names_iff l : sorted_names l = true <-> StronglySorted bytes_lt l.
Proof.
  induction l as [|a r IH]; [split; constructor|]. destruct r as [|b r'].
  - split; [constructor; constructor|reflexivity].
  - cbn [sorted_names]. split; intros H.
    + destruct (cmp_bytes a b) eqn:E; try discriminate. apply IH in H. constructor; auto.
      constructor; [exact E|]. apply StronglySorted_inv in H. destruct H as [_ HF].
      eapply Forall_impl; [|exact HF]. intros k Hk. eapply cmp_bytes_trans; eauto.
    + apply StronglySorted_inv in H. destruct H as [H1 H2]. rewrite (Forall_inv H2). apply IH, H1.
Qed.

Lemma sorted_names_strong l : sorted_names (map node_name l) = true -> StronglySorted WalkP.vname_lt l.
Proof. intros H. apply sorted_names_iff in H. exact (SS_map_inv bytes_lt node_name l H). Qed.

Lemma wf_source_node_inv name st ct kids : wf_source_node (Node name st ct kids) = true ->
  name_ok name = true /\ (st_is_dir st = true \/ kids = []) /\
  sorted_names (map node_name kids) = true /\ forallb wf_source_node kids = true.
Proof.
  cbn [wf_source_node]. intros H.
  apply andb_true_iff in H. destruct H as [H H4]. apply andb_true_iff in H. destruct H as [H H3].
  apply andb_true_iff in H. destruct H as [H1 H2].
  split; [exact H1|]. split; [|split; assumption].
  apply orb_true_iff in H2. destruct H2 as [H2|H2]; [left; exact H2|].
  right. destruct kids; [reflexivity|discriminate].
Qed.

Lemma wf_source_ind (Q : node -> Prop) :
  (forall name st ct kids, name_ok name = true -> (st_is_dir st = true \/ kids = []) ->
     sorted_names (map node_name kids) = true -> forallb wf_source_node kids = true -> Forall Q kids ->
     Q (Node name st ct kids)) ->
  forall n, wf_source_node n = true -> Q n.
Proof.
  intros H. induction n as [name st ct kids IH] using node_ind2. intros Hwf.
  apply wf_source_node_inv in Hwf. destruct Hwf as (Hn & Hdk & Hs & Hk). apply H; auto.
  rewrite forallb_forall in Hk. rewrite Forall_forall in *. auto.
Qed.

Lemma wf_source_vnode : forall n, wf_source_node n = true -> WalkP.wf_vnode n.
Proof.
  refine (wf_source_ind _ _). intros name st ct kids Hn _ Hs _ IH.
  apply name_ok_inv in Hn. destruct Hn as (Hne & Hns & _).
  constructor; auto. apply sorted_names_strong; auto.
Qed.

Lemma wf_source_walkp view : wf_source view = true -> WalkP.wf_view view.
Proof.
  unfold wf_source. intros H. apply andb_true_iff in H. destruct H as [Hs Hk]. split.
  - apply sorted_names_strong; auto.
  - apply Forall_forall. rewrite forallb_forall in Hk. intros k Hin. apply wf_source_vnode; auto.
Qed.

Lemma wf_source_strict_node : forall n, wf_source_node n = true -> wf_strict_node n = true.
Proof.
  refine (wf_source_ind _ _). intros name st ct kids Hn _ _ _ IH.
  cbn [wf_strict_node]. rewrite Hn. cbn [andb]. apply forallb_forall, Forall_forall, IH.
Qed.

Lemma wf_source_strict view : wf_source view = true -> wf_strict view = true.
Proof.
  unfold wf_source, wf_strict. intros H. apply andb_true_iff in H. destruct H as [_ Hk].
  apply forallb_forall. rewrite forallb_forall in Hk. intros k Hin. apply wf_source_strict_node; auto.
Qed.

Lemma wf_source_wf_view view : wf_source view = true -> FilterWalk.wf_view view = true.
Proof. intros H. apply wf_strict_wf, wf_source_strict, H. Qed.

Notation epath := (fun e : Tree.entry => st_path (fst e)).

(* the canonical walk of a well-formed source: strictly ascending, clean relative paths *)
Lemma source_walk_sorted view : wf_source view = true ->
  StronglySorted (fun p q => compare_path p q = Lt) (map epath (walk_root view)).
Proof. intros H. exact (proj1 (WalkP.view_walk_sorted_proof view (wf_source_walkp view H))). Qed.

Lemma walk_node_okc : forall n, wf_strict_node n = true -> forall cs0, cs0 = [] \/ okc cs0 ->
  forall e, In e (walk_node (joinc cs0) n) -> exists cs, okc cs /\ epath e = joinc cs.
Proof.
  refine (wf_strict_ind _ _). intros name st ct kids Hne Hns Hnm _ IH cs0 Hcs e Hin.
  rewrite walk_node_eq in Hin. rewrite (child_path_joinc cs0 name Hcs) in Hin.
  assert (Hok : okc (cs0 ++ [name])) by (apply okc_child; auto).
  destruct Hin as [<-|Hin]; [exists (cs0 ++ [name]); auto|].
  apply in_walk_forest in Hin. destruct Hin as (k & Hkin & Hin).
  rewrite Forall_forall in IH. exact (IH k Hkin (cs0 ++ [name]) (or_intror Hok) e Hin).
Qed.

Lemma source_walk_ok_paths view : wf_source view = true ->
  forall e, In e (walk_root view) -> ok_path (epath e) = true.
Proof.
  intros H e Hin. apply wf_source_strict in H. unfold wf_strict in H. rewrite forallb_forall in H.
  apply in_walk_forest in Hin. destruct Hin as (k & Hk & Hin).
  destruct (walk_node_okc k (H k Hk) [] (or_introl eq_refl) e Hin) as (cs & Hok & ->). apply okc_ok_path; auto.
Qed.

(* what the map function is allowed to change: everything but path, type bits, link name *)
Definition keq (s' s : stat) : Prop :=
  st_path s' = st_path s /\ mode_is_dir (st_mode s') = mode_is_dir (st_mode s) /\
  mode_is_symlink (st_mode s') = mode_is_symlink (st_mode s) /\ st_linkname s' = st_linkname s.
Definition keqe (s' : stat) (e : Tree.entry) : Prop := keq s' (fst e).

Section RefSub.
Variable V : bytes -> bool.
Variable mapfn : bytes -> stat -> mres * stat.
Variable K : stat -> stat -> Prop.
Hypothesis HK : forall p s, K (snd (mapfn p s)) s.
Let Ke (s' : stat) (e : Tree.entry) : Prop := K s' (fst e).
Notation out n := (fst (fst n)).

Lemma ref_rsub_forest_gen kids : Forall (fun n => forall blocked dir,
    rsub Ke (out (ref_node V mapfn blocked dir n)) (walk_node dir n)) kids ->
  forall b p, rsub Ke (fst (ref_forest V mapfn b p kids)) (walk_forest p kids).
Proof.
  induction kids as [|k r IH]; intros HF b p; [constructor|].
  inversion HF as [|? ? Hk Hr]; subst. cbn [ref_forest walk_forest].
  specialize (Hk b p). destruct (ref_node V mapfn b p k) as [[e f] cut]. cbn [fst] in Hk.
  destruct cut.
  - cbn [fst]. rewrite <- (app_nil_r e). apply rsub_app; auto. apply rsub_nil_l.
  - specialize (IH Hr b p). destruct (ref_forest V mapfn b p r) as [e' f']. cbn [fst] in *.
    apply rsub_app; auto.
Qed.

Lemma ref_rsub_node_gen : forall n blocked dir,
  rsub Ke (out (ref_node V mapfn blocked dir n)) (walk_node dir n).
Proof.
  induction n as [name st ct kids IH] using node_ind2. intros blocked dir.
  rewrite ref_node_eq, walk_node_eq. cbv zeta.
  set (p := child_path dir name). set (st' := set_path st p).
  assert (Hb : forall b isd, rsub Ke (fst (ref_below V mapfn b isd p kids)) (walk_forest p kids)).
  { intros b isd. unfold ref_below. destruct isd; [apply ref_rsub_forest_gen; auto|apply rsub_nil_l]. }
  assert (Hhead : Ke (snd (mapfn p st')) (st', ct)) by apply HK.
  destruct (V p).
  - destruct (fst (mapfn p st')); cbn [fst].
    + destruct blocked; cbn [app]; [apply rs_skip|apply rs_keep]; auto.
    + apply rs_skip; auto.
    + apply rsub_nil_l.
  - cbn [fst].
    match goal with |- rsub _ ((if ?c then _ else _) ++ _) _ => destruct c end; cbn [app];
      [apply rs_keep|apply rs_skip]; auto.
Qed.

Lemma reference_rsub_gen view : rsub Ke (reference V mapfn view) (walk_root view).
Proof.
  unfold reference, walk_root. apply ref_rsub_forest_gen. apply Forall_all, ref_rsub_node_gen.
Qed.

End RefSub.

Section Ref.
Variable V : bytes -> bool.
Variable mapfn : bytes -> stat -> mres * stat.
Hypothesis Hshape : map_keeps_shape mapfn.
Hypothesis Hdirs : map_never_drops_dirs mapfn.

Notation out n := (fst (fst n)).

Lemma reference_rsub view : rsub keqe (reference V mapfn view) (walk_root view).
Proof. exact (reference_rsub_gen V mapfn keq Hshape view). Qed.

Definition crel (dir : bytes) (e : list stat) : Prop :=
  forall s, In s e -> forall q r, st_path s = q ++ sep :: r ->
    (dir <> [] /\ (q = dir \/ exists r', dir = q ++ sep :: r')) \/
    (exists t, In t e /\ st_path t = q /\ st_is_dir t = true).

Lemma crel_nil dir : crel dir [].
Proof. intros s []. Qed.

Lemma crel_app dir a b : crel dir a -> crel dir b -> crel dir (a ++ b).
Proof.
  intros Ha Hb s Hin q r E. apply in_app_or in Hin. destruct Hin as [Hin|Hin].
  - destruct (Ha s Hin q r E) as [X|(t & Ht & X)]; [left; auto|right; exists t; split; auto; apply in_or_app; auto].
  - destruct (Hb s Hin q r E) as [X|(t & Ht & X)]; [left; auto|right; exists t; split; auto; apply in_or_app; auto].
Qed.

Lemma crel_forest kids : Forall (fun n => forall blocked dir, crel dir (out (ref_node V mapfn blocked dir n))) kids ->
  forall b p, crel p (fst (ref_forest V mapfn b p kids)).
Proof.
  induction 1 as [|k r Hk _ IH]; intros b p; [apply crel_nil|].
  cbn [ref_forest]. specialize (Hk b p). destruct (ref_node V mapfn b p k) as [[e f] cut]. cbn [fst] in Hk.
  destruct cut; [exact Hk|].
  specialize (IH b p). destruct (ref_forest V mapfn b p r) as [e' f']. cbn [fst] in *.
  apply crel_app; auto.
Qed.

(* a directory entry followed by the (closed) listing of its contents *)
Lemma crel_dir_node dir name hd e : nosep name ->
  st_path hd = child_path dir name -> (e <> [] -> st_is_dir hd = true) ->
  crel (child_path dir name) e -> crel dir (hd :: e).
Proof.
  intros Hn Hp Hd He s Hin q r E. destruct Hin as [<-|Hin].
  - left. rewrite Hp in E. symmetry in E. eapply split_child; eauto.
  - destruct (He s Hin q r E) as [[Hne [->|(r' & Er')]]|(t & Ht & X)].
    + right. exists hd. split; [left; reflexivity|]. split; auto. apply Hd. intros ->. destruct Hin.
    + left. symmetry in Er'. eapply split_child; eauto.
    + right. exists t. split; [right|]; auto.
Qed.

Lemma crel_node : forall n, wf_strict_node n = true -> forall blocked dir,
  crel dir (out (ref_node V mapfn blocked dir n)).
Proof.
  refine (wf_strict_ind _ _). intros name st ct kids Hne Hns _ _ IH blocked dir.
  rewrite ref_node_eq. cbv zeta. set (p := child_path dir name). set (st' := set_path st p).
  assert (Hb : forall b isd, crel p (fst (ref_below V mapfn b isd p kids))).
  { intros b isd. unfold ref_below. destruct isd; [apply crel_forest; auto|apply crel_nil]. }
  assert (Hbn : forall b, fst (ref_below V mapfn b (st_is_dir st) p kids) <> [] -> st_is_dir (snd (mapfn p st')) = true).
  { intros b Hx. unfold st_is_dir at 1. rewrite (proj1 (proj2 (Hshape p st'))).
    change (mode_is_dir (st_mode st')) with (st_is_dir st).
    unfold ref_below in Hx. destruct (st_is_dir st); [reflexivity|]. exfalso. apply Hx. reflexivity. }
  assert (Hpath : st_path (snd (mapfn p st')) = p) by (rewrite (proj1 (Hshape p st')); reflexivity).
  (* without its directory entry the contents are not reported either: three reasons *)
  assert (Hexcl : fst (mapfn p st') = MExclude -> forall b, fst (ref_below V mapfn b (st_is_dir st) p kids) = []).
  { intros E b. unfold ref_below. destruct (st_is_dir st) eqn:Ed; [|reflexivity].
    exfalso. apply (Hdirs p st'); auto. }
  assert (Hblk : fst (ref_below V mapfn true (st_is_dir st) p kids) = []).
  { unfold ref_below. destruct (st_is_dir st); [apply ref_blocked_forest|reflexivity]. }
  assert (Hnof : snd (ref_below V mapfn false (st_is_dir st) p kids) = false ->
                 fst (ref_below V mapfn false (st_is_dir st) p kids) = []).
  { unfold ref_below. destruct (st_is_dir st); [|reflexivity].
    apply ref_nof_forest. }
  destruct (V p).
  - destruct (fst (mapfn p st')) eqn:Er; cbn [fst].
    + destruct blocked; cbn [app]; [rewrite Hblk; apply crel_nil|].
      apply (crel_dir_node dir name); auto; apply Hbn.
    + rewrite Hexcl by auto. apply crel_nil.
    + apply crel_nil.
  - cbn [fst]. destruct blocked; cbn [orb negb andb].
    + rewrite andb_false_r, Hblk. apply crel_nil.
    + rewrite andb_true_r. destruct (fst (mapfn p st')) eqn:Er.
      * rewrite andb_true_r.
        destruct (snd (ref_below V mapfn false (st_is_dir st) p kids)) eqn:Ef; cbn [app].
        -- apply (crel_dir_node dir name); auto; apply Hbn.
        -- rewrite Hnof by reflexivity. apply crel_nil.
      * rewrite andb_false_r, Hexcl by auto. apply crel_nil.
      * rewrite andb_false_r, Hblk. apply crel_nil.
Qed.

Lemma reference_closed view : wf_strict view = true -> closed (reference V mapfn view).
Proof.
  intros Hwf s Hin q r E. unfold reference in Hin.
  assert (X : crel [] (fst (ref_forest V mapfn false [] view))).
  { apply crel_forest. exact (Forall_wf _ _ crel_node Hwf). }
  destruct (X s Hin q r E) as [[Hne _]|Y]; [congruence|exact Y].
Qed.

Theorem reference_wf_listing view : wf_source view = true ->
  wf_listing (reference V mapfn view) /\
  (forall s, In s (reference V mapfn view) -> ok_path (st_path s) = true).
Proof.
  intros Hwf. pose proof (reference_rsub view) as Hsub. split; [split|].
  - apply (SS_map_inv (fun p q => compare_path p q = Lt) st_path).
    eapply (rsub_sorted keqe _ st_path epath); [|exact Hsub|apply source_walk_sorted; auto].
    intros x y Hxy. exact (proj1 Hxy).
  - apply reference_closed. apply wf_source_strict; auto.
  - intros s Hin. destruct (rsub_in _ _ _ Hsub s Hin) as (e & He & Hk).
    rewrite (proj1 Hk). apply (source_walk_ok_paths view Hwf e He).
Qed.

End Ref.

Lemma split_last_spec p d b : split_last p = Some (d, b) -> exists q, d = q ++ [sep] /\ p = q ++ sep :: b.
Proof.
  revert d b. induction p as [|a p IH]; intros d b H; [discriminate|].
  cbn [split_last] in H. destruct (split_last p) as [[d' b']|] eqn:E.
  - inversion H; subst. destruct (IH _ _ eq_refl) as (q & -> & ->). exists (a :: q). auto.
  - destruct (N.eqb a sep) eqn:Ea; [|discriminate]. apply N.eqb_eq in Ea. inversion H; subst.
    exists []. auto.
Qed.

Lemma parent_of_spec p : parent_of p = [] \/ exists b, p = parent_of p ++ sep :: b.
Proof.
  unfold parent_of. destruct (split_last p) as [[d b]|] eqn:E; [|left; reflexivity].
  destruct (split_last_spec _ _ _ E) as (q & -> & ->). right. exists b.
  rewrite removelast_last. reflexivity.
Qed.

Lemma items_app a b : items (a ++ b) = items a ++ items b.
Proof. apply map_app. Qed.

Lemma listing_spec_run l : forall pre i,
  sorted (pre ++ l) -> closed (pre ++ l) -> (forall s, In s l -> ok_path (st_path s) = true) ->
  spec_run (items pre) (items l) i = None.
Proof.
  induction l as [|s l IH]; intros pre i HS HC Hok; [reflexivity|].
  cbn [items map spec_run]. fold (items l).
  assert (Hs : spec_ok_b (items pre) (item_of s) = true).
  { unfold spec_ok_b. cbn [item_of vpath].
    destruct (SS_app_inv _ _ _ _ HS) as [Hbefore Hafter].
    rewrite (Hok s (or_introl eq_refl)). cbn [andb].
    apply andb_true_iff. split.
    - apply forallb_forall. intros it Hit. apply in_map_iff in Hit. destruct Hit as (t & <- & Ht).
      cbn [item_of vpath]. apply path_ltb_iff. rewrite Forall_forall in Hbefore. apply Hbefore; auto.
    - destruct (parent_of_spec (st_path s)) as [->|(b & Eb)]; [reflexivity|].
      apply orb_true_iff. right.
      destruct (HC s (in_or_app _ _ _ (or_intror (in_eq _ _))) _ _ Eb) as (t & Ht & Ept & Hdt).
      assert (Hlt : compare_path (st_path t) (st_path s) = Lt).
      { apply above_lt. unfold above, rm_of. rewrite Ept. rewrite Eb at 2.
        replace (parent_of (st_path s) ++ sep :: b) with ((parent_of (st_path s) ++ [sep]) ++ b)
          by (rewrite <- app_assoc; reflexivity).
        apply has_prefix_app_r. }
      apply existsb_exists. exists (item_of t). split.
      + apply in_map. apply in_app_or in Ht. destruct Ht as [Ht|[Ht|Ht]]; auto.
        * subst t. rewrite compare_path_refl in Hlt. discriminate.
        * exfalso. rewrite Forall_forall in Hafter. specialize (Hafter t Ht). unfold plt in Hafter.
          eapply compare_path_asym; eauto.
      + cbn [item_of vpath vkind visdir vdel]. rewrite Ept, bytes_eqb_refl, Hdt. reflexivity. }
  rewrite Hs.
  replace (items pre ++ [item_of s]) with (items (pre ++ [s])) by (rewrite items_app; reflexivity).
  apply IH.
  - rewrite <- app_assoc. exact HS.
  - rewrite <- app_assoc. exact HC.
  - intros t Ht. apply Hok. right; auto.
Qed.

Theorem listing_passes_validator l :
  wf_listing l -> (forall s, In s l -> ok_path (st_path s) = true) -> run_validator (items l) = None.
Proof.
  intros [HS HC] Hok. rewrite validator_accepts_iff_spec_proof. unfold spec_first_bad.
  apply (listing_spec_run l [] 0%nat); auto.
Qed.
