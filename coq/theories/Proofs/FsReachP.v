(* C03 — the part of a file system that lies inside a directory D, well-formedness of that part,
   and the step relation every system call of the receiver is shown to satisfy (FsFrameP.v). *)
From Coq Require Import List Arith NArith Bool Lia ZifyN ZifyNat ZifyBool.
From FS Require Import Sx Model.Path Model.Fs Proofs.Lex Proofs.PathP Proofs.FsP.
Import ListNotations.
Open Scope N_scope.
Open Scope bool_scope.

Section Inside.
Variable D : N.

(* D itself and everything reachable from it through directory entries *)
Inductive reach (f : fs) : N -> Prop :=
| reach_refl : reach f D
| reach_step : forall j n i, reach f j -> In (n, i) (ents f j) -> reach f i.

Lemma blookup_reach f j n i : reach f j -> blookup n (ents f j) = Some i -> reach f i.
Proof. intros Hj Hb. exact (reach_step f j n i Hj (blookup_In _ _ _ Hb)). Qed.

Lemma rwalk_reach f : forall cs j i, reach f j -> rwalk f j cs = Some i -> reach f i.
Proof.
  induction cs as [|c cs IH]; intros j i Hj H; [injection H as <-; exact Hj|].
  rewrite rwalk_unfold in H. destruct (blookup c (ents f j)) as [k|] eqn:Eb; [|discriminate].
  exact (IH k i (blookup_reach f j c k Hj Eb) H).
Qed.

Lemma rwalk_inside f cs i : rwalk f D cs = Some i -> reach f i.
Proof. apply rwalk_reach, reach_refl. Qed.

Definition okname (n : bytes) : Prop := normal n /\ nosep n.

Record wf (f : fs) : Prop := {
  wf_alloc : forall i, f_next f <= i -> get f i = None;
  wf_dir : is_dir f D = true;
  wf_names : forall j, reach f j -> NoDup (map fst (ents f j)) /\ Forall okname (map fst (ents f j));
  wf_target : forall j n i, reach f j -> In (n, i) (ents f j) -> i < f_next f;
  wf_notD : forall j n, reach f j -> ~ In (n, D) (ents f j);
  wf_single : forall j1 j2 n1 n2 i, reach f j1 -> reach f j2 -> In (n1, i) (ents f j1) -> In (n2, i) (ents f j2) ->
                is_dir f i = true -> j1 = j2 /\ n1 = n2
}.

Lemma wf_okname f j n i : wf f -> reach f j -> In (n, i) (ents f j) -> okname n.
Proof.
  intros W Hj Hin. destruct (wf_names f W j Hj) as [_ H]. rewrite Forall_forall in H.
  exact (H n (in_map fst _ _ Hin)).
Qed.

Lemma wf_blookup f j n i : wf f -> reach f j -> (In (n, i) (ents f j) <-> blookup n (ents f j) = Some i).
Proof.
  intros W Hj. split; [|apply blookup_In].
  apply In_blookup_nodup. apply (wf_names f W j Hj).
Qed.

Lemma reach_lt f i : wf f -> reach f i -> i < f_next f.
Proof.
  intros W H. destruct H as [|j n i Hj Hin].
  - destruct (N.lt_ge_cases D (f_next f)) as [|Hge]; auto.
    pose proof (wf_alloc f W D Hge) as Hg. pose proof (wf_dir f W) as Hd.
    unfold is_dir, dir_of in Hd. rewrite Hg in Hd. discriminate.
  - apply (wf_target f W j n i); auto.
Qed.

Lemma rwalk_snoc_notD f a c : wf f -> rwalk f D (a ++ [c]) <> Some D.
Proof.
  intros W H. apply rwalk_snoc in H. destruct H as (d & Hd & Hb & _).
  exact (wf_notD f W d c (rwalk_inside f a d Hd) (blookup_In _ _ _ Hb)).
Qed.

(* a directory inside D has one path only *)
Lemma rwalk_unique f : wf f -> forall cs1 cs2 i,
  rwalk f D cs1 = Some i -> rwalk f D cs2 = Some i -> is_dir f i = true -> cs1 = cs2.
Proof.
  intros W cs1. induction cs1 as [|c1 a1 IH] using rev_ind; intros cs2 i H1 H2 Hd;
    destruct cs2 as [|c2 a2 _] using rev_ind; auto.
  - simpl in H1. injection H1 as <-. destruct (rwalk_snoc_notD f a2 c2 W H2).
  - simpl in H2. injection H2 as <-. destruct (rwalk_snoc_notD f a1 c1 W H1).
  - apply rwalk_snoc in H1, H2. destruct H1 as (d1 & Hw1 & Hb1 & Hdd1), H2 as (d2 & Hw2 & Hb2 & _).
    destruct (wf_single f W d1 d2 c1 c2 i (rwalk_inside _ _ _ Hw1) (rwalk_inside _ _ _ Hw2)
                (blookup_In _ _ _ Hb1) (blookup_In _ _ _ Hb2) Hd) as [<- <-].
    rewrite (IH a2 d1 Hw1 Hw2 Hdd1). reflexivity.
Qed.

(* The step relation.
   [T d n]: the directory entries (directory inode, name) the step may add, redirect or remove. *)
Definition same_meta_but_mtime (m m' : meta) : Prop :=
  m_mode m' = m_mode m /\ m_uid m' = m_uid m /\ m_gid m' = m_gid m /\ m_xattrs m' = m_xattrs m.

Definition dir_kept (f f' : fs) : Prop :=
  exists p es es' m m', get f D = Some {| i_kind := KDir p es; i_meta := m |}
                        /\ get f' D = Some {| i_kind := KDir p es'; i_meta := m' |}
                        /\ same_meta_but_mtime m m'.

(* [b]: allocation boundary of the whole operation the step is part of: inode numbers >= b are
   the ones the operation itself created *)
Record step (T : N -> bytes -> Prop) (b : N) (f f' : fs) : Prop := {
  st_base : b <= f_next f;
  st_next : f_next f <= f_next f';
  st_frame : forall i, ~ reach f i -> i < b -> get f' i = get f i;
  (* of the inodes that existed before the operation only directories are ever written *)
  st_nd : forall i, i < b -> is_dir f i = false -> get f' i = get f i;
  st_enter : forall i, reach f' i -> reach f i \/ b <= i;
  st_tag : forall i, i < f_next f -> itag (get f' i) = itag (get f i);
  st_dent : forall j n, j < f_next f -> ~ T j n -> blookup n (ents f' j) = blookup n (ents f j);
  (* inodes made by the step have no entries (other than what T allows) *)
  st_fresh : forall j n, f_next f <= j -> ~ T j n -> blookup n (ents f' j) = None;
  st_D : dir_kept f f';
  st_wf : wf f'
}.

Lemma same_meta_refl m : same_meta_but_mtime m m.
Proof. repeat split. Qed.
Lemma same_meta_trans a b c : same_meta_but_mtime a b -> same_meta_but_mtime b c -> same_meta_but_mtime a c.
Proof. intros (A1 & A2 & A3 & A4) (B1 & B2 & B3 & B4). repeat split; congruence. Qed.

Lemma dir_kept_refl f : wf f -> dir_kept f f.
Proof.
  intros W. pose proof (wf_dir f W) as H. unfold is_dir, dir_of in H.
  destruct (get f D) as [[[p es| | |] m]|] eqn:E; try discriminate.
  exists p, es, es, m, m. auto using same_meta_refl.
Qed.

Lemma dir_kept_trans a b c : dir_kept a b -> dir_kept b c -> dir_kept a c.
Proof.
  intros (p & es & es' & m & m' & H1 & H2 & H3) (p2 & es2 & es2' & m2 & m2' & G1 & G2 & G3).
  rewrite H2 in G1. injection G1 as <- <- <-.
  exists p, es, es2', m, m2'. split; [exact H1|]. split; [exact G2|]. exact (same_meta_trans _ _ _ H3 G3).
Qed.

Lemma ents_beyond f j : wf f -> f_next f <= j -> ents f j = [].
Proof. intros W H. unfold ents, dir_of. rewrite (wf_alloc f W j H). reflexivity. Qed.

Lemma is_link_step T b f f' i : step T b f f' -> i < f_next f -> is_link f' i = is_link f i.
Proof. intros A Hl. apply is_link_same_tag, (st_tag _ _ _ _ A i Hl). Qed.

Lemma is_dir_step T b f f' i : step T b f f' -> i < f_next f -> is_dir f' i = is_dir f i.
Proof. intros A Hl. apply is_dir_same_tag, (st_tag _ _ _ _ A i Hl). Qed.

Lemma step_refl T b f : wf f -> b <= f_next f -> step T b f f.
Proof.
  intros W Hb. constructor; auto; try lia.
  - intros j n Hj _. rewrite (ents_beyond f j W Hj). reflexivity.
  - apply dir_kept_refl; auto.
Qed.

Lemma step_trans T b f1 f2 f3 : step T b f1 f2 -> step T b f2 f3 -> step T b f1 f3.
Proof.
  intros A B. constructor.
  - apply A.
  - pose proof (st_next _ _ _ _ A). pose proof (st_next _ _ _ _ B). lia.
  - intros i Hn Hl. rewrite (st_frame _ _ _ _ B), (st_frame _ _ _ _ A); auto.
    intro Hr. destruct (st_enter _ _ _ _ A i Hr); [auto|lia].
  - intros i Hl Hd. rewrite (st_nd _ _ _ _ B), (st_nd _ _ _ _ A); auto.
    rewrite (is_dir_step T b f1 f2 i A); auto. pose proof (st_base _ _ _ _ A). lia.
  - intros i Hr. destruct (st_enter _ _ _ _ B i Hr) as [H|H]; auto.
    destruct (st_enter _ _ _ _ A i H); auto.
  - intros i Hl. rewrite (st_tag _ _ _ _ B), (st_tag _ _ _ _ A); auto.
    pose proof (st_next _ _ _ _ A). lia.
  - intros j n Hl HT. rewrite (st_dent _ _ _ _ B), (st_dent _ _ _ _ A); auto.
    pose proof (st_next _ _ _ _ A). lia.
  - intros j n Hl HT. destruct (N.lt_ge_cases j (f_next f2)) as [Hlt|Hge].
    + rewrite (st_dent _ _ _ _ B j n Hlt HT). apply (st_fresh _ _ _ _ A j n Hl HT).
    + apply (st_fresh _ _ _ _ B j n Hge HT).
  - eapply dir_kept_trans; [apply (st_D _ _ _ _ A)|apply (st_D _ _ _ _ B)].
  - apply (st_wf _ _ _ _ B).
Qed.

Lemma step_weaken (T T' : N -> bytes -> Prop) b f f' : (forall d n, T d n -> T' d n) -> step T b f f' -> step T' b f f'.
Proof.
  intros H A. constructor; try apply A.
  - intros j n Hl HT. apply (st_dent _ _ _ _ A); auto.
  - intros j n Hl HT. apply (st_fresh _ _ _ _ A); auto.
Qed.

(* a step of a later operation (boundary b = the counter when it began) is a step with respect to
   every earlier boundary *)
Lemma step_rebase T b b' f f' : step T b f f' -> b' <= b -> step T b' f f'.
Proof.
  intros A Hb. constructor; try apply A.
  - pose proof (st_base _ _ _ _ A). lia.
  - intros i Hn Hl. apply (st_frame _ _ _ _ A); auto. lia.
  - intros i Hl Hd. apply (st_nd _ _ _ _ A); auto. lia.
  - intros i Hr. destruct (st_enter _ _ _ _ A i Hr); auto. right. lia.
Qed.

(* [cs] walked from [j] never uses an entry of T *)
Fixpoint avoids (T : N -> bytes -> Prop) (f : fs) (j : N) (cs : list bytes) : Prop :=
  match cs with
  | [] => True
  | c :: r => ~ T j c /\ match blookup c (ents f j) with Some i => avoids T f i r | None => True end
  end.

Lemma ents_nil_not_dir f j : is_dir f j = false -> ents f j = [].
Proof. unfold is_dir, ents. destruct (dir_of f j) as [[p es]|]; [discriminate|reflexivity]. Qed.

Lemma safe_step T b f f' : wf f -> step T b f f' -> forall cs j, reach f j ->
  avoids T f j cs -> safe f j cs -> safe f' j cs.
Proof.
  intros W A. induction cs as [|c r IH]; intros j Hj Hav Hs; [exact I|].
  apply safe_unfold. apply safe_unfold in Hs. destruct Hav as [HT Hav].
  rewrite (st_dent _ _ _ _ A j c (reach_lt f j W Hj) HT).
  destruct (blookup c (ents f j)) as [i|] eqn:Eb; auto.
  assert (Hi : reach f i) by (apply (blookup_reach f j c i); auto).
  destruct Hs as [Hl Hs]. split.
  - rewrite (is_link_step T b f f' i A (reach_lt f i W Hi)). exact Hl.
  - apply IH; auto.
Qed.

Lemma rwalk_step T b f f' : wf f -> step T b f f' -> forall cs j, reach f j ->
  avoids T f j cs -> rwalk f' j cs = rwalk f j cs.
Proof.
  intros W A. induction cs as [|c r IH]; intros j Hj Hav; [reflexivity|].
  rewrite !rwalk_unfold. destruct Hav as [HT Hav].
  rewrite (st_dent _ _ _ _ A j c (reach_lt f j W Hj) HT).
  destruct (blookup c (ents f j)) as [i|] eqn:Eb; auto.
  apply IH; auto. apply (blookup_reach f j c i); auto.
Qed.

(* a path that does not run through the entry (dd, n), dd = the directory at [pre] *)
Lemma avoids_by_path (T : N -> bytes -> Prop) f : wf f -> forall pre,
  (forall d n, T d n -> rwalk f D pre = Some d /\ is_dir f d = true) ->
  forall cs, (forall k n, T (match rwalk f D pre with Some d => d | None => 0 end) n ->
                    firstn k cs = pre -> nth_error cs k <> Some n) ->
  avoids T f D cs.
Proof.
  intros W pre HT cs Hcs.
  assert (G : forall r a j, cs = a ++ r -> rwalk f D a = Some j -> avoids T f j r).
  { induction r as [|c r IH]; intros a j E Hw; [exact I|]. split.
    - intro Ht. destruct (HT j c Ht) as [Hp Hd].
      assert (Ea : a = pre) by (apply (rwalk_unique f W a pre j); auto).
      apply (Hcs (length a) c).
      + rewrite Hp. exact Ht.
      + rewrite E. rewrite firstn_app, firstn_all, Nat.sub_diag. simpl. rewrite app_nil_r. exact Ea.
      + rewrite E. rewrite nth_error_app2 by lia. rewrite Nat.sub_diag. reflexivity.
    - destruct (blookup c (ents f j)) as [i|] eqn:Eb; auto.
      apply (IH (a ++ [c]) i).
      + rewrite <- app_assoc. exact E.
      + apply rwalk_snoc. exists j. eauto using blookup_ents_dir. }
  apply (G cs [] D); auto.
Qed.

(* in particular the way to that directory itself *)
Lemma avoids_own_dir (T : N -> bytes -> Prop) f pre : wf f ->
  (forall d n, T d n -> rwalk f D pre = Some d /\ is_dir f d = true) -> avoids T f D pre.
Proof.
  intros W HT. apply (avoids_by_path T f W pre HT). intros k m _ Hk E.
  assert (length pre <= k)%nat.
  { destruct (le_lt_dec (length pre) k); auto. pose proof (firstn_length_le pre (Nat.lt_le_incl _ _ l)) as H.
    rewrite Hk in H. lia. }
  apply nth_error_None in H. congruence.
Qed.

(* steps that touch no directory entry at all *)
Definition TNone : N -> bytes -> Prop := fun _ _ => False.

Lemma avoids_none f : forall cs j, avoids TNone f j cs.
Proof.
  induction cs as [|c r IH]; intros j; simpl; auto. split; [unfold TNone; tauto|].
  destruct (blookup c (ents f j)); auto.
Qed.

Lemma quiet_safe b f f' cs : wf f -> step TNone b f f' -> safe f D cs -> safe f' D cs.
Proof. intros W S H. apply (safe_step TNone b f f' W S cs D (reach_refl f) (avoids_none f cs D) H). Qed.

Lemma quiet_rwalk b f f' cs : wf f -> step TNone b f f' -> rwalk f' D cs = rwalk f D cs.
Proof. intros W S. apply (rwalk_step TNone b f f' W S cs D (reach_refl f) (avoids_none f cs D)). Qed.

Lemma quiet_blookup b f f' j n : step TNone b f f' -> j < f_next f -> blookup n (ents f' j) = blookup n (ents f j).
Proof. intros S Hj. apply (st_dent _ _ _ _ S j n Hj). unfold TNone. tauto. Qed.

(* a step that touches no entry leaves the inside as it is *)
Lemma quiet_reach b f f' j : wf f -> step TNone b f f' -> reach f' j -> reach f j.
Proof.
  intros W S R. induction R as [|j n i Rj IH Hin]; [constructor|].
  apply (wf_blookup f' j n i (st_wf _ _ _ _ S) Rj) in Hin.
  rewrite (quiet_blookup b f f' j n S (reach_lt f j W IH)) in Hin. exact (blookup_reach f j n i IH Hin).
Qed.

End Inside.
