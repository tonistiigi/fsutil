(* Proofs about Model/Codec.v: round trip of the VT codec for every map order, sizes.
   Redefines Zify.zify_post_hook globally, as VarintP does. *)
From Coq Require Import List NArith ZArith Bool Lia ZifyN ZifyNat ZifyBool Permutation.
From FS Require Import Sx Model.Path Model.Stat Model.Varint Model.Codec Proofs.Lex Proofs.VarintP.
Import ListNotations.
Open Scope N_scope.

Ltac Zify.zify_post_hook ::= Z.div_mod_to_equations.

Lemma firstn_len_app (a b : bytes) : firstn (N.to_nat (len a)) (a ++ b) = a.
Proof.
  rewrite len_length, Nat2N.id, firstn_app, Nat.sub_diag, firstn_all. cbn [firstn]. apply app_nil_r.
Qed.
Lemma skipn_len_app (a b : bytes) : skipn (N.to_nat (len a)) (a ++ b) = b.
Proof.
  rewrite len_length, Nat2N.id, skipn_app, Nat.sub_diag, skipn_all. reflexivity.
Qed.
Lemma take_n_app a b : take_n (len a) (a ++ b) = Some (a, b).
Proof.
  unfold take_n. rewrite len_app.
  destruct (N.leb_spec (len a) (len a + len b)); [|lia].
  rewrite firstn_len_app, skipn_len_app. reflexivity.
Qed.
Lemma get_bytes_put b rest :
  len b < two64 -> get_bytes (put_varint (len b) ++ b ++ rest) = Some (b, rest).
Proof. intros H. unfold get_bytes. rewrite get_put_varint by exact H. apply take_n_app. Qed.

Lemma varint_field_put {F} (mk : N -> F) v rest :
  v < two64 -> varint_field 0 (put_varint v ++ rest) mk = Some (mk v, rest).
Proof. intros H. unfold varint_field. cbn [N.eqb]. rewrite get_put_varint by exact H. reflexivity. Qed.
Lemma bytes_field_put {F} (mk : bytes -> F) b rest :
  len b < two64 -> bytes_field 2 (put_varint (len b) ++ b ++ rest) mk = Some (mk b, rest).
Proof. intros H. unfold bytes_field. change (2 =? 2) with true. cbv iota. rewrite get_bytes_put by exact H. reflexivity. Qed.

Section FoldP.
  Context {F St : Type}.
  Variable decf : bytes -> option (F * bytes).
  Variable app : St -> F -> option St.

  (* the loop takes [st] to [R] over [l], with any fuel that covers [l] *)
  Definition Dec (l : bytes) (st R : St) : Prop :=
    forall f, (length l <= f)%nat -> fold_fields decf app f l st = Some R.

  Lemma Dec_nil st : Dec [] st st.
  Proof. intros [|f] _; reflexivity. Qed.

  Lemma Dec_field fb rest fld st st' R :
    fb <> [] -> decf (fb ++ rest) = Some (fld, rest) -> app st fld = Some st' ->
    Dec rest st' R -> Dec (fb ++ rest) st R.
  Proof.
    intros Hne Hd Ha H f Hf. destruct fb as [|b fb]; [congruence|].
    destruct f as [|f]; cbn [List.app length] in *; [lia|].
    cbn [fold_fields]. rewrite Hd, Ha. apply H. rewrite app_length in Hf. lia.
  Qed.

  Lemma Dec_run l st R : Dec l st R -> fold_fields decf app (length l) l st = Some R.
  Proof. intros H. apply H, le_n. Qed.

  (* a scalar / bytes field as the encoder writes it: omitted when zero / empty *)
  Lemma Dec_tag_varint tag v (mk : N -> F) st st' R rest :
    (forall l, decf (tag :: l) = varint_field 0 l mk) -> v < two64 ->
    (v <> 0 -> app st (mk v) = Some st') -> (v = 0 -> st' = st) ->
    Dec rest st' R -> Dec (put_tag_varint tag v ++ rest) st R.
  Proof.
    intros Ht Hv Ha Hz H. unfold put_tag_varint. destruct (N.eqb_spec v 0) as [E|E].
    - rewrite (Hz E) in H. exact H.
    - apply Dec_field with (fb := tag :: put_varint v) (fld := mk v) (st' := st'); auto; [discriminate|].
      cbn [List.app]. rewrite Ht. apply varint_field_put. exact Hv.
  Qed.

  Lemma Dec_tag_bytes tag b (mk : bytes -> F) st st' R rest :
    (forall l, decf (tag :: l) = bytes_field 2 l mk) -> len b < two64 ->
    (b <> [] -> app st (mk b) = Some st') -> (b = [] -> st' = st) ->
    Dec rest st' R -> Dec (put_tag_bytes tag b ++ rest) st R.
  Proof.
    intros Ht Hv Ha Hz H. unfold put_tag_bytes. destruct b as [|x b].
    - rewrite (Hz eq_refl) in H. exact H.
    - apply Dec_field with (fb := tag :: put_varint (len (x :: b)) ++ x :: b) (fld := mk (x :: b)) (st' := st');
        auto; [discriminate| |apply Ha; discriminate].
      cbn [List.app]. rewrite <- app_assoc. rewrite Ht. apply bytes_field_put. exact Hv.
  Qed.
End FoldP.

Lemma get_tag_10 l : get_tag (10 :: l) = Some (1, 2, l). Proof. reflexivity. Qed.
Lemma get_tag_18 l : get_tag (18 :: l) = Some (2, 2, l). Proof. reflexivity. Qed.

Definition entry_ok (kv : bytes * bytes) : Prop :=
  len (fst kv) < two64 /\ len (snd kv) < two64 /\ len (entry_body kv) < two64.

Lemma dec_entry_body k v tail k0 v0 f :
  len k < two64 -> len v < two64 ->
  dec_entry (S (S f)) (len tail) (entry_body (k, v) ++ tail) k0 v0 = Some (k, v).
Proof.
  intros Hk Hv. unfold entry_body. cbn [fst snd].
  set (l2 := 18 :: put_varint (len v) ++ v).
  assert (E1 : (10 :: put_varint (len k) ++ k ++ l2) ++ tail = 10 :: put_varint (len k) ++ k ++ (l2 ++ tail)).
  { cbn [List.app]. rewrite <- !app_assoc. reflexivity. }
  rewrite E1. clear E1.
  cbn [dec_entry].
  destruct (N.leb_spec (len (10 :: put_varint (len k) ++ k ++ l2 ++ tail)) (len tail)) as [H|H].
  { rewrite len_cons, !len_app in H. lia. }
  rewrite get_tag_10. change (1 =? 1) with true. cbv iota.
  rewrite get_bytes_put by exact Hk.
  destruct (N.leb_spec (len (l2 ++ tail)) (len tail)) as [H2|H2].
  { unfold l2 in H2. cbn [List.app] in H2. rewrite len_cons, !len_app in H2. lia. }
  unfold l2. cbn [List.app]. rewrite <- app_assoc. rewrite get_tag_18.
  change (2 =? 1) with false. change (2 =? 2) with true. cbv iota.
  rewrite get_bytes_put by exact Hv.
  destruct f; cbn [dec_entry]; rewrite N.leb_refl; reflexivity.
Qed.

Lemma entry_body_len kv :
  len (entry_body kv) = 1 + len (fst kv) + size_varint (len (fst kv)) + (1 + len (snd kv) + size_varint (len (snd kv))).
Proof. unfold entry_body. rewrite len_cons, !len_app, len_cons, !len_app, !put_varint_len. lia. Qed.

Lemma xattr_field_put kv rest :
  entry_ok kv ->
  xattr_field 2 (put_varint (len (entry_body kv)) ++ entry_body kv ++ rest) = Some (SF_xattr (fst kv) (snd kv), rest).
Proof.
  intros (Hk & Hv & Hb). unfold xattr_field. change (2 =? 2) with true. cbv iota.
  rewrite get_put_varint by exact Hb.
  destruct (N.leb_spec (len (entry_body kv)) (len (entry_body kv ++ rest))) as [H|H];
    [|rewrite len_app in H; lia].
  replace (len (entry_body kv ++ rest) - len (entry_body kv)) with (len rest) by (rewrite len_app; lia).
  rewrite skipn_len_app.
  pose proof (entry_body_len kv) as Hl. rewrite len_length in Hl.
  destruct (length (entry_body kv ++ rest)) as [|[|f]] eqn:E; [rewrite app_length in E; lia..|].
  destruct kv as [k v]. rewrite dec_entry_body by assumption. reflexivity.
Qed.

Section StatChain.
  Variable ins : bytes -> bytes -> list (bytes * bytes) -> list (bytes * bytes).
  Notation sdec := (Dec dec_sfield (apply_sfield ins)).

  Definition insf (acc : list (bytes * bytes)) (kv : bytes * bytes) := ins (fst kv) (snd kv) acc.

  Lemma sdec_entries xs : forall s u rest R,
    Forall entry_ok xs ->
    sdec rest (set_xattrs s (fold_left insf xs (st_xattrs s)), u) R ->
    sdec (concat (map put_entry xs) ++ rest) (s, u) R.
  Proof.
    induction xs as [|kv xs IH]; intros s u rest R Hok H.
    - cbn [map concat List.app fold_left] in *. destruct s. exact H.
    - inversion Hok as [|? ? Hkv Hxs]; subst.
      cbn [map concat]. rewrite <- app_assoc.
      apply Dec_field with (fld := SF_xattr (fst kv) (snd kv))
                           (st' := (set_xattrs s (ins (fst kv) (snd kv) (st_xattrs s)), u)).
      + unfold put_entry. discriminate.
      + unfold put_entry. cbn [List.app]. rewrite <- app_assoc.
        change (dec_sfield (82 :: ?l)) with (xattr_field 2 l). apply xattr_field_put. exact Hkv.
      + reflexivity.
      + apply IH; [exact Hxs|]. exact H.
  Qed.

  Lemma sdec_encode xs s u rest R :
    st_mode s < two32 -> st_uid s < two32 -> st_gid s < two32 ->
    st_size s < two64 -> st_mtime s < two64 -> st_devmajor s < two64 -> st_devminor s < two64 ->
    len (st_path s) < two64 -> len (st_linkname s) < two64 -> Forall entry_ok xs ->
    sdec rest (set_xattrs s (fold_left insf xs []), u) R ->
    sdec (encode_stat_ord xs s ++ rest) (empty_stat, u) R.
  Proof.
    destruct s as [p m ui g sz mt ln dj dn xa]. cbn [st_path st_mode st_uid st_gid st_size st_mtime st_linkname st_devmajor st_devminor st_xattrs].
    intros Hm Hu Hg Hsz Hmt Hdj Hdn Hp Hln Hxs H.
    unfold encode_stat_ord. cbn [st_path st_mode st_uid st_gid st_size st_mtime st_linkname st_devmajor st_devminor st_xattrs].
    rewrite <- !app_assoc.
    unfold two32, two64 in *.
    eapply Dec_tag_bytes; [intro; reflexivity | exact Hp | intros _; reflexivity | intros ->; reflexivity | ].
    eapply Dec_tag_varint; [intro; reflexivity | unfold two64; lia
      | intros _; cbn [apply_sfield]; rewrite N.mod_small by (unfold two32; lia); reflexivity | intros ->; reflexivity | ].
    eapply Dec_tag_varint; [intro; reflexivity | unfold two64; lia
      | intros _; cbn [apply_sfield]; rewrite N.mod_small by (unfold two32; lia); reflexivity | intros ->; reflexivity | ].
    eapply Dec_tag_varint; [intro; reflexivity | unfold two64; lia
      | intros _; cbn [apply_sfield]; rewrite N.mod_small by (unfold two32; lia); reflexivity | intros ->; reflexivity | ].
    eapply Dec_tag_varint; [intro; reflexivity | exact Hsz | intros _; reflexivity | intros ->; reflexivity | ].
    eapply Dec_tag_varint; [intro; reflexivity | exact Hmt | intros _; reflexivity | intros ->; reflexivity | ].
    eapply Dec_tag_bytes; [intro; reflexivity | exact Hln | intros _; reflexivity | intros ->; reflexivity | ].
    eapply Dec_tag_varint; [intro; reflexivity | exact Hdj | intros _; reflexivity | intros ->; reflexivity | ].
    eapply Dec_tag_varint; [intro; reflexivity | exact Hdn | intros _; reflexivity | intros ->; reflexivity | ].
    apply sdec_entries; [exact Hxs|]. exact H.
  Qed.
End StatChain.


Lemma xinsert_comm_lt k1 v1 k2 v2 : cmp_bytes k1 k2 = Lt ->
  forall l, xinsert k1 v1 (xinsert k2 v2 l) = xinsert k2 v2 (xinsert k1 v1 l).
Proof.
  intros H12. pose proof (cmp_bytes_lt_gt _ _ H12) as H21.
  induction l as [|[k' v'] r IH]; cbn [xinsert]; [rewrite H12, H21; reflexivity|].
  (* where k' stands relative to k1 < k2; the comparisons then decide every insertion *)
  destruct (cmp_bytes k2 k') eqn:E2;
    [apply cmp_bytes_eq in E2; subst k'
    |pose proof (cmp_bytes_trans _ _ _ H12 E2) as E1
    |destruct (cmp_bytes k1 k') eqn:E1; [apply cmp_bytes_eq in E1; subst k'| |]];
    repeat (cbn [xinsert]; rewrite ?H12, ?H21, ?E1, ?E2, ?cmp_bytes_refl); rewrite ?IH; reflexivity.
Qed.

Lemma xinsert_comm k1 v1 k2 v2 : k1 <> k2 ->
  forall l, xinsert k1 v1 (xinsert k2 v2 l) = xinsert k2 v2 (xinsert k1 v1 l).
Proof.
  intros Hne l. destruct (cmp_bytes k1 k2) eqn:E.
  - apply cmp_bytes_eq in E. contradiction.
  - apply xinsert_comm_lt, E.
  - symmetry. apply xinsert_comm_lt, cmp_bytes_gt_lt, E.
Qed.

Notation xins := (insf xinsert).

Lemma fold_xinsert_perm xs ys :
  Permutation xs ys -> NoDup (map fst xs) ->
  forall acc, fold_left xins xs acc = fold_left xins ys acc.
Proof.
  induction 1 as [|x l l' HP IH|x y l|l l' l'' HP1 IH1 HP2 IH2]; intros Hnd acc.
  - reflexivity.
  - cbn [fold_left]. apply IH. cbn [map] in Hnd. inversion Hnd; assumption.
  - cbn [fold_left]. unfold insf at 2 3 5 6. rewrite xinsert_comm; [reflexivity|].
    cbn [map] in Hnd. inversion Hnd as [|? ? Hni _]; subst. intros E. apply Hni. left. exact E.
  - rewrite IH1 by exact Hnd. apply IH2.
    eapply Permutation_NoDup; [apply Permutation_map; exact HP1|exact Hnd].
Qed.

Definition all_lt (l : list (bytes * bytes)) (k : bytes) : Prop :=
  Forall (fun kv => cmp_bytes (fst kv) k = Lt) l.

Lemma xinsert_last k v l : all_lt l k -> xinsert k v l = l ++ [(k, v)].
Proof.
  induction l as [|[k' v'] r IH]; intros H; [reflexivity|].
  inversion H as [|? ? Hk Hr]; subst. cbn [fst] in Hk.
  cbn [xinsert]. rewrite (cmp_bytes_lt_gt _ _ Hk). cbn [List.app]. rewrite IH by exact Hr. reflexivity.
Qed.

Lemma keys_sorted_head_lt k v r : keys_sorted ((k, v) :: r) -> Forall (fun kv => cmp_bytes k (fst kv) = Lt) r.
Proof.
  revert k v. induction r as [|[k' v'] r IH]; intros k v H; [constructor|].
  cbn [keys_sorted] in H. destruct H as [Hk Hr]. constructor; [exact Hk|].
  pose proof (IH k' v' Hr) as H2. eapply Forall_impl; [|exact H2].
  intros kv Hkv. cbn beta in *. eapply cmp_bytes_trans; eauto.
Qed.
Lemma keys_sorted_tail x r : keys_sorted (x :: r) -> keys_sorted r.
Proof. destruct x. cbn [keys_sorted]. tauto. Qed.

Lemma fold_xinsert_sorted l : forall acc,
  keys_sorted l -> (forall kv, In kv l -> all_lt acc (fst kv)) ->
  fold_left xins l acc = acc ++ l.
Proof.
  induction l as [|[k v] r IH]; intros acc Hs Hacc; [cbn; rewrite app_nil_r; reflexivity|].
  cbn [fold_left]. unfold insf at 2. cbn [fst snd].
  rewrite xinsert_last by (apply (Hacc (k, v)); left; reflexivity).
  rewrite IH.
  - rewrite <- app_assoc. reflexivity.
  - eapply keys_sorted_tail; exact Hs.
  - intros kv Hin. unfold all_lt. apply Forall_app. split.
    + apply Hacc. right. exact Hin.
    + constructor; [|constructor]. cbn [fst].
      pose proof (keys_sorted_head_lt k v r Hs) as HF. rewrite Forall_forall in HF. apply HF. exact Hin.
Qed.

Lemma keys_sorted_nodup l : keys_sorted l -> NoDup (map fst l).
Proof.
  induction l as [|[k v] r IH]; intros H; [constructor|].
  cbn [map fst]. constructor.
  - intros Hin. apply in_map_iff in Hin. destruct Hin as [kv [E Hin]].
    pose proof (keys_sorted_head_lt k v r H) as HF. rewrite Forall_forall in HF.
    specialize (HF kv Hin). rewrite E, cmp_bytes_refl in HF. discriminate.
  - apply IH. eapply keys_sorted_tail; exact H.
Qed.

Theorem canonical_map xs l :
  keys_sorted l -> Permutation xs l -> fold_left xins xs [] = l.
Proof.
  intros Hs HP.
  rewrite (fold_xinsert_perm xs l HP).
  - rewrite fold_xinsert_sorted; [reflexivity|exact Hs|]. intros; constructor.
  - eapply Permutation_NoDup; [apply Permutation_map, Permutation_sym; exact HP|].
    apply keys_sorted_nodup; exact Hs.
Qed.

Lemma put_tag_varint_len tag v : len (put_tag_varint tag v) = size_tag_varint v.
Proof.
  unfold put_tag_varint, size_tag_varint. destruct (v =? 0); [reflexivity|].
  rewrite len_cons, put_varint_len. reflexivity.
Qed.
Lemma put_tag_bytes_len tag b : len (put_tag_bytes tag b) = size_tag_bytes b.
Proof.
  unfold put_tag_bytes, size_tag_bytes. destruct b as [|x b]; [reflexivity|].
  rewrite len_cons, len_app, put_varint_len. lia.
Qed.
Lemma put_entry_len kv : len (put_entry kv) = size_entry kv.
Proof.
  unfold put_entry, size_entry. rewrite len_cons, len_app, put_varint_len, entry_body_len. cbv zeta. lia.
Qed.
Lemma entries_len xs : len (concat (map put_entry xs)) = size_entries xs.
Proof.
  induction xs as [|kv xs IH]; [reflexivity|]. cbn [map concat size_entries].
  rewrite len_app, put_entry_len, IH. reflexivity.
Qed.
Lemma size_entries_perm xs ys : Permutation xs ys -> size_entries xs = size_entries ys.
Proof. induction 1; cbn [size_entries]; lia. Qed.

Definition size_scalars (s : stat) : N :=
  size_tag_bytes (st_path s) + size_tag_varint (st_mode s) + size_tag_varint (st_uid s) +
  size_tag_varint (st_gid s) + size_tag_varint (st_size s) + size_tag_varint (st_mtime s) +
  size_tag_bytes (st_linkname s) + size_tag_varint (st_devmajor s) + size_tag_varint (st_devminor s).

Lemma encode_stat_ord_len xs s : len (encode_stat_ord xs s) = size_scalars s + size_entries xs.
Proof.
  unfold encode_stat_ord, size_scalars.
  rewrite !len_app, !put_tag_varint_len, !put_tag_bytes_len, entries_len. lia.
Qed.

Theorem size_stat_any_order xs s :
  Permutation xs (st_xattrs s) -> len (encode_stat_ord xs s) = size_stat s.
Proof.
  intros HP. rewrite encode_stat_ord_len, (size_entries_perm _ _ HP). reflexivity.
Qed.

Lemma size_tag_bytes_ge b : len b <= size_tag_bytes b.
Proof. unfold size_tag_bytes. destruct b; [cbn; lia|]. lia. Qed.

Lemma size_entry_ok kv : size_entry kv < two64 -> entry_ok kv.
Proof.
  unfold entry_ok. rewrite entry_body_len. unfold size_entry. cbv zeta.
  pose proof (size_varint_pos (len (fst kv))). pose proof (size_varint_pos (len (snd kv))). lia.
Qed.
Lemma size_entries_ok xs : size_entries xs < two64 -> Forall entry_ok xs.
Proof.
  induction xs as [|kv xs IH]; intros H; [constructor|]. cbn [size_entries] in H.
  constructor; [apply size_entry_ok; lia|apply IH; lia].
Qed.

Lemma set_xattrs_id s : set_xattrs s (st_xattrs s) = s.
Proof. destruct s; reflexivity. Qed.

Theorem stat_roundtrip_any_order s xs :
  wf_stat s -> Permutation xs (st_xattrs s) ->
  decode_stat_u (encode_stat_ord xs s) = Some (s, []).
Proof.
  intros (Hm & Hu & Hg & Hsz & Hmt & Hdj & Hdn & Hks & Hsize) HP.
  unfold decode_stat_u, decode_stat_into. apply Dec_run.
  rewrite <- (app_nil_r (encode_stat_ord xs s)).
  assert (Hsc : size_scalars s + size_entries (st_xattrs s) < two64) by exact Hsize.
  pose proof (size_tag_bytes_ge (st_path s)). pose proof (size_tag_bytes_ge (st_linkname s)).
  apply sdec_encode; try assumption.
  - unfold size_scalars in Hsc. lia.
  - unfold size_scalars in Hsc. lia.
  - apply size_entries_ok. rewrite (size_entries_perm _ _ HP). lia.
  - rewrite (canonical_map xs (st_xattrs s) Hks HP), set_xattrs_id. apply Dec_nil.
Qed.



Lemma sext32_props t : t < two32 -> sext32 t < two64 /\ sext32 t mod two32 = t /\ (sext32 t = 0 -> t = 0).
Proof.
  unfold sext32, two31, two32, two64. intros H.
  destruct (N.ltb_spec t 2147483648); lia.
Qed.

Lemma packet_size_bounds p :
  size_packet p < two64 ->
  len (pdata p) < two64 /\ match pstat p with Some s => size_stat s < two64 | None => True end.
Proof.
  unfold size_packet. pose proof (size_tag_bytes_ge (pdata p)).
  destruct (pstat p); intros; split; auto; lia.
Qed.

Theorem packet_roundtrip_any_order p xs :
  wf_packet p -> Permutation xs (pxattrs p) ->
  decode_packet_u (encode_packet_ord xs p) = Some (p, [], []).
Proof.
  intros (Ht & Hid & Hst & Hsize) HP.
  destruct (packet_size_bounds p Hsize) as [Hdata Hss].
  destruct (sext32_props _ Ht) as (Hs64 & Hsmod & Hs0).
  unfold decode_packet_u, decode_packet_into.
  rewrite (Dec_run dec_pfield (apply_pfield xinsert) (encode_packet_ord xs p) empty_pstate
             {| q_type := ptype p; q_stat := option_map (fun s => (s, [])) (pstat p);
                q_id := pid p; q_data := pdata p; q_unk := [] |}).
  { destruct p as [t os i d]. cbn [option_map packet_of q_type q_stat q_id q_data q_unk ptype pstat pid pdata].
    destruct os; reflexivity. }
  rewrite <- (app_nil_r (encode_packet_ord xs p)).
  destruct p as [t os i d]. unfold pxattrs in HP.
  cbn [ptype pstat pid pdata] in *. unfold encode_packet_ord. cbn [ptype pstat pid pdata].
  rewrite <- !app_assoc.
  eapply Dec_tag_varint; [intro; reflexivity | exact Hs64
    | intros _; cbn [apply_pfield]; rewrite Hsmod; reflexivity
    | intros E; rewrite (Hs0 E); reflexivity | ].
  cbn [q_type q_stat q_id q_data q_unk empty_pstate].
  (* the fields after the Stat (id, data), shared by both cases of [os] *)
  assert (Hstat : Dec dec_pfield (apply_pfield xinsert)
            (put_tag_varint 24 i ++ put_tag_bytes 34 d ++ [])
            {| q_type := t; q_stat := option_map (fun s => (s, [])) os; q_id := 0; q_data := []; q_unk := [] |}
            {| q_type := t; q_stat := option_map (fun s => (s, [])) os; q_id := i; q_data := d; q_unk := [] |}).
  { eapply Dec_tag_varint; [intro; reflexivity | unfold two32, two64 in *; lia
      | intros _; cbn [apply_pfield]; rewrite N.mod_small by exact Hid; reflexivity
      | intros ->; reflexivity | ].
    cbn [q_type q_stat q_id q_data q_unk].
    eapply Dec_tag_bytes; [intro; reflexivity | exact Hdata | intros _; reflexivity | intros ->; reflexivity | ].
    apply Dec_nil. }
  destruct os as [s|]; cbn [put_stat_field option_map] in *.
  - assert (Hlen : len (encode_stat_ord xs s) < two64) by (rewrite (size_stat_any_order xs s HP); exact Hss).
    apply Dec_field with (fb := 18 :: put_varint (len (encode_stat_ord xs s)) ++ encode_stat_ord xs s)
                         (fld := PF_stat (encode_stat_ord xs s))
                         (st' := {| q_type := t; q_stat := Some (s, []); q_id := 0; q_data := []; q_unk := [] |}).
    + discriminate.
    + cbn [List.app]. rewrite <- app_assoc. change (dec_pfield (18 :: ?l)) with (bytes_field 2 l PF_stat). apply bytes_field_put. exact Hlen.
    + cbn [apply_pfield q_stat q_type q_id q_data q_unk].
      pose proof (stat_roundtrip_any_order s xs Hst HP) as Hrt. unfold decode_stat_u in Hrt. rewrite Hrt. reflexivity.
    + exact Hstat.
  - cbn [List.app]. exact Hstat.
Qed.


Lemma encode_packet_ord_len xs p :
  Permutation xs (pxattrs p) -> len (encode_packet_ord xs p) = size_packet p.
Proof.
  intros HP. unfold encode_packet_ord, size_packet. unfold pxattrs in HP.
  rewrite !len_app, !put_tag_varint_len, put_tag_bytes_len.
  destruct (pstat p) as [s|]; cbn [put_stat_field].
  - rewrite len_cons, len_app, put_varint_len, (size_stat_any_order xs s HP). lia.
  - cbn [len]. lia.
Qed.

Lemma decode_stat_of_u b s u : decode_stat_u b = Some (s, u) -> decode_stat b = Some s.
Proof. intros E. unfold decode_stat. rewrite E. reflexivity. Qed.
Lemma decode_packet_of_u b p su u : decode_packet_u b = Some (p, su, u) -> decode_packet b = Some p.
Proof. intros E. unfold decode_packet. rewrite E. reflexivity. Qed.

(* every order in which Go's map iteration may emit the entries decodes to the same value and
   has the same length *)
Theorem canonical_any_order_proof :
  (forall s xs, wf_stat s -> Permutation xs (st_xattrs s) ->
     decode_stat (encode_stat_ord xs s) = Some s /\ decode_stat_u (encode_stat_ord xs s) = Some (s, []) /\
     len (encode_stat_ord xs s) = size_stat s) /\
  (forall p xs, wf_packet p -> Permutation xs (pxattrs p) ->
     decode_packet (encode_packet_ord xs p) = Some p /\ decode_packet_u (encode_packet_ord xs p) = Some (p, [], []) /\
     len (encode_packet_ord xs p) = size_packet p).
Proof.
  split.
  - intros s xs H HP. pose proof (stat_roundtrip_any_order s xs H HP) as E.
    eauto using decode_stat_of_u, size_stat_any_order.
  - intros p xs H HP. pose proof (packet_roundtrip_any_order p xs H HP) as E.
    eauto using decode_packet_of_u, encode_packet_ord_len.
Qed.

(* the encoders proper emit the entries in the order of the value itself *)
Theorem stat_roundtrip_proof s :
  wf_stat s -> decode_stat (encode_stat s) = Some s /\ decode_stat_u (encode_stat s) = Some (s, []).
Proof. intros H. destruct (proj1 canonical_any_order_proof s _ H (Permutation_refl _)) as (A & B & _). exact (conj A B). Qed.

Theorem packet_roundtrip_proof p :
  wf_packet p -> decode_packet (encode_packet p) = Some p /\ decode_packet_u (encode_packet p) = Some (p, [], []).
Proof. intros H. destruct (proj2 canonical_any_order_proof p _ H (Permutation_refl _)) as (A & B & _). exact (conj A B). Qed.

Theorem size_correct_proof :
  (forall s, len (encode_stat s) = size_stat s) /\ (forall p, len (encode_packet p) = size_packet p).
Proof.
  split.
  - intros s. exact (size_stat_any_order (st_xattrs s) s (Permutation_refl _)).
  - intros p. exact (encode_packet_ord_len (pxattrs p) p (Permutation_refl _)).
Qed.
