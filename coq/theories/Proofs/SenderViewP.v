(* C11 — the sender's view of a filtered source (Model/SenderView.v): the STAT stream passes
   both validators of the receiver; who represents a link group; walk and Open agree; the
   transfer converges to the filtered view. *)
From Coq Require Import List NArith Bool Sorting.Sorted.
From FS Require Model.Walk Proofs.WalkP.
From FS Require Import Sx Model.Path Model.Stat Model.Tree Model.Pattern Model.FilterWalk
  Model.Hardlinks Model.Validator Model.Diff Model.SenderView
  Proofs.Lex Proofs.PathP Proofs.ListAux Proofs.PatternP Proofs.FilterP Proofs.PruneP Proofs.RefP Proofs.NaiveRefP
  Proofs.FlatRefP Proofs.ValidatorP Proofs.DiffP Proofs.HardlinksP Proofs.RefValidP Proofs.TrimP.
Import ListNotations.
Open Scope bool_scope.

Lemma rsub_map_r {A B C} (R : A -> C -> Prop) (f : B -> C) l' l :
  rsub (fun x e => R x (f e)) l' l -> rsub R l' (map f l).
Proof. induction 1; cbn [map]; [apply rs_nil|apply rs_skip|apply rs_keep]; auto. Qed.

Lemma keq_plain s' s : keq s' s -> hl_plain s' = hl_plain s.
Proof. intros (_ & H1 & H2 & _). unfold hl_plain. rewrite H1, H2. reflexivity. Qed.
Lemma keq_link s' s : keq s' s -> has_link s' = has_link s.
Proof. intros (_ & _ & _ & H). unfold has_link. rewrite H. reflexivity. Qed.
Lemma keq_dir s' s : keq s' s -> st_is_dir s' = st_is_dir s.
Proof. intros (_ & H1 & _). exact H1. Qed.

(* wf_links is inherited by key-preserving sub-sequences *)
Lemma wf_links_from_rsub l' l : rsub keq l' l -> forall bf' bf,
  (forall b', In b' bf' -> exists b, In b bf /\ keq b' b) ->
  wf_links_from bf l = true -> wf_links_from bf' l' = true.
Proof.
  induction 1 as [|y l' l Hs IH|x y l' l Hxy Hs IH]; intros bf' bf Hbf H; [reflexivity| |];
    apply wf_links_from_cons in H; destruct H as (Hfresh & Hne & Hlink & Hrest).
  - apply (IH bf' (bf ++ [y])); auto.
    intros b' Hb'. destruct (Hbf b' Hb') as (b & Hb & Hk). exists b. split; auto. apply in_or_app; auto.
  - pose proof Hxy as (Ep & _ & _ & El). apply wf_links_from_cons.
    rewrite (keq_plain _ _ Hxy), (keq_link _ _ Hxy), Ep. split; [|split; [exact Hne|split]].
    + intros b' Hb'. destruct (Hbf b' Hb') as (b & Hb & Hk). rewrite (proj1 Hk). auto.
    + intros Hp Hl. destruct (Hlink Hp Hl) as (H1 & H2 & H3). unfold link_ok. rewrite El, Ep.
      split; [exact H1|split].
      * intros b' Hb' E. destruct (Hbf b' Hb') as (b & Hb & Hk).
        rewrite (keq_plain _ _ Hk), (keq_link _ _ Hk). apply (H2 b Hb). rewrite <- (proj1 Hk). exact E.
      * intros a' Ha'. destruct (rsub_in _ _ _ Hs a' Ha') as (a & Ha & Hk). rewrite (proj1 Hk). auto.
    + apply (IH (bf' ++ [x]) (bf ++ [y])); auto.
      intros b' Hb'. apply in_app_or in Hb'. destruct Hb' as [Hb'|[<-|[]]].
      * destruct (Hbf b' Hb') as (b & Hb & Hk). exists b. split; auto. apply in_or_app; auto.
      * exists y. split; auto. apply in_or_app. right. left. reflexivity.
Qed.

Lemma wf_links_rsub l' (E : list Tree.entry) : rsub keqe l' E -> wf_links (map fst E) = true -> wf_links l' = true.
Proof.
  intros Hs H. unfold wf_links in *. eapply wf_links_from_rsub; [exact (rsub_map_r keq fst l' E Hs)| |exact H].
  intros b' [].
Qed.

(* rewriting that keeps path and mode keeps a listing well-formed *)
Section Shape.
Variable g : stat -> stat.
Hypothesis Hg : forall s, st_path (g s) = st_path s /\ st_mode (g s) = st_mode s.

Lemma shape_items l : items (map g l) = items l.
Proof.
  unfold items. rewrite map_map. apply map_ext. intros s. unfold item_of, st_is_dir.
  destruct (Hg s) as [-> ->]. reflexivity.
Qed.

Lemma shape_sorted l : sorted l -> sorted (map g l).
Proof.
  unfold sorted. induction 1 as [|a l _ IH HF]; cbn [map]; constructor; auto.
  rewrite Forall_map. eapply Forall_impl; [|exact HF]. intros b Hb. unfold plt in *.
  rewrite (proj1 (Hg a)), (proj1 (Hg b)). exact Hb.
Qed.

Lemma shape_closed l : closed l -> closed (map g l).
Proof.
  intros HC s' Hin q r E. apply in_map_iff in Hin. destruct Hin as (s & <- & Hs).
  rewrite (proj1 (Hg s)) in E. destruct (HC s Hs q r E) as (t & Ht & Ep & Hd).
  exists (g t). split; [apply in_map; auto|]. unfold st_is_dir in *.
  destruct (Hg t) as [-> ->]. auto.
Qed.
End Shape.

Lemma reset_spec_entry_shape whole s :
  st_path (reset_spec_entry whole s) = st_path s /\ st_mode (reset_spec_entry whole s) = st_mode s.
Proof.
  unfold reset_spec_entry. destruct (negb (hl_plain s)); [auto|].
  destruct (first_rep whole (orig_rep s)); [|auto]. destruct (bytes_eqb _ _); auto.
Qed.

(* the reset of ANY well-formed listing is one, and passes both validators of the receiver *)
Lemma reset_wf_listing l : wf_links l = true ->
  wf_listing l /\ (forall s, In s l -> ok_path (st_path s) = true) ->
  wf_listing (hardlink_reset l) /\ (forall s, In s (hardlink_reset l) -> ok_path (st_path s) = true).
Proof.
  intros Hl [[HS HC] Hok]. rewrite (reset_eq_spec_proof l Hl). unfold reset_spec. split; [split|].
  - apply shape_sorted; auto. apply reset_spec_entry_shape.
  - apply shape_closed; auto. apply reset_spec_entry_shape.
  - intros s' Hin. apply in_map_iff in Hin. destruct Hin as (s & <- & Hs).
    rewrite (proj1 (reset_spec_entry_shape _ s)). auto.
Qed.

Theorem reset_stream_valid l : wf_links l = true ->
  wf_listing l -> (forall s, In s l -> ok_path (st_path s) = true) ->
  run_validator (items (hardlink_reset l)) = None /\ hardlink_check (hardlink_reset l) = None.
Proof.
  intros Hl Hw Hok. split; [|exact (reset_links_valid_proof l Hl)].
  rewrite (reset_eq_spec_proof l Hl). unfold reset_spec. rewrite (shape_items _ (reset_spec_entry_shape l)).
  apply listing_passes_validator; auto.
Qed.

Lemma wf_links_from_fresh l : forall bf, wf_links_from bf l = true ->
  forall t b, In t l -> In b bf -> st_path b <> st_path t.
Proof.
  induction l as [|s l IH]; intros bf H t b Ht Hb; [destruct Ht|].
  apply wf_links_from_cons in H. destruct H as (Hfresh & _ & _ & Hrest). destruct Ht as [<-|Ht]; [auto|].
  apply (IH _ Hrest t b Ht). apply in_or_app; auto.
Qed.

Lemma wf_links_from_split pre : forall bf s post, wf_links_from bf (pre ++ s :: post) = true ->
  forall t, In t post -> st_path t <> st_path s.
Proof.
  induction pre as [|x pre IH]; intros bf s post H t Ht; cbn [app] in H;
    apply wf_links_from_cons in H; destruct H as (_ & _ & _ & Hrest).
  - intros E. apply (wf_links_from_fresh _ _ Hrest t s Ht); [apply in_or_app; right; left; reflexivity|auto].
  - eapply IH; eauto.
Qed.

Lemma Forall2_map_r {A B} (P : A -> B -> Prop) (f : A -> B) l : (forall a, In a l -> P a (f a)) -> Forall2 P l (map f l).
Proof. induction l as [|a l IH]; intros H; cbn [map]; constructor; [apply H; left; auto|apply IH; intros; apply H; right; auto]. Qed.

(* l: the listing the filters leave.  s: a link member whose link name k names no entry of l
   (the first member of the group was filtered out) and which is the first entry of l with that
   link name.  Then s is emitted with EMPTY link name and otherwise unchanged (in particular with
   the size the walk reported for it), everything before it is untouched in number, and every
   later member of the group is emitted naming s. *)
Theorem reset_representative_proof l : wf_links l = true ->
  forall pre s post k,
  l = pre ++ s :: post -> hl_plain s = true -> st_linkname s = k -> k <> [] ->
  (forall t, In t l -> st_path t <> k) ->
  (forall t, In t pre -> hl_plain t = true -> st_linkname t <> k) ->
  exists pre' post',
    hardlink_reset l = pre' ++ set_linkname s [] :: post' /\ length pre' = length pre /\
    st_size (set_linkname s []) = st_size s /\
    Forall2 (fun t t' => hl_plain t = true -> st_linkname t = k -> t' = set_linkname t (st_path s)) post post'.
Proof.
  intros Hwf pre s post k El Hp Hk Hne Hgone Hfirst.
  rewrite (reset_eq_spec_proof l Hwf). unfold reset_spec.
  set (f := reset_spec_entry l).
  assert (Hor : forall t, hl_plain t = true -> In t l -> (orig_rep t = k <-> st_linkname t = k)).
  { intros t _ Ht. unfold orig_rep. destruct (st_linkname t) eqn:E; [|tauto].
    split; intros X; [exfalso; eapply Hgone; eauto|congruence]. }
  assert (Hs_in : In s l) by (rewrite El; apply in_or_app; right; left; reflexivity).
  assert (Hfr : first_rep l k = Some (st_path s)).
  { rewrite El, first_rep_app.
    rewrite (first_rep_none pre k).
    - cbn [first_rep]. rewrite Hp. cbn [andb].
      assert (E : orig_rep s = k) by (apply Hor; auto). rewrite E, bytes_eqb_refl. reflexivity.
    - intros b Hb Hpb E. apply (Hfirst b Hb Hpb). apply Hor; auto. rewrite El. apply in_or_app; auto. }
  exists (map f pre), (map f post). split; [|split; [apply map_length|split; [reflexivity|]]].
  - rewrite El at 1. rewrite map_app. cbn [map]. f_equal. f_equal.
    unfold f, reset_spec_entry. rewrite Hp. cbn [negb].
    assert (E : orig_rep s = k) by (apply Hor; auto). rewrite E, Hfr, bytes_eqb_refl. reflexivity.
  - apply Forall2_map_r. intros t Ht Hpt Hkt.
    assert (Ht_in : In t l) by (rewrite El; apply in_or_app; right; right; auto).
    unfold f, reset_spec_entry. rewrite Hpt. cbn [negb].
    assert (E : orig_rep t = k) by (apply Hor; auto). rewrite E, Hfr.
    assert (Hd : bytes_eqb (st_path s) (st_path t) = false).
    { apply bytes_eqb_neq. intros X. unfold wf_links in Hwf. rewrite El in Hwf.
      apply (wf_links_from_split _ _ _ _ Hwf t Ht). auto. }
    rewrite Hd. reflexivity.
Qed.

Section RefFiles.
Variable V : bytes -> bool.
Variable mapfn : bytes -> stat -> mres * stat.
Hypothesis Hshape : map_keeps_shape mapfn.

Notation out n := (fst (fst n)).

Lemma ref_forest_in kids : forall b p s, In s (fst (ref_forest V mapfn b p kids)) ->
  exists k, In k kids /\ In s (out (ref_node V mapfn b p k)).
Proof.
  induction kids as [|k r IH]; intros b p s Hin; [destruct Hin|].
  cbn [ref_forest] in Hin. destruct (ref_node V mapfn b p k) as [[e f] cut] eqn:Ek.
  destruct cut; cbn [fst] in Hin.
  - exists k. split; [left; auto|]. rewrite Ek. exact Hin.
  - destruct (ref_forest V mapfn b p r) as [e' f'] eqn:Er. cbn [fst] in Hin.
    apply in_app_or in Hin. destruct Hin as [Hin|Hin].
    + exists k. split; [left; auto|]. rewrite Ek. exact Hin.
    + destruct (IH b p s) as (k' & Hk' & Hs); [rewrite Er; exact Hin|]. exists k'. split; [right|]; auto.
Qed.

Lemma ref_nondir_selected : forall n b dir s, In s (out (ref_node V mapfn b dir n)) ->
  st_is_dir s = false -> V (st_path s) = true.
Proof.
  induction n as [name st ct kids IH] using node_ind2. intros b dir s Hin Hnd.
  rewrite ref_node_eq in Hin. cbv zeta in Hin.
  set (p := child_path dir name) in *. set (st' := set_path st p) in *.
  assert (Hb : forall b' isd, In s (fst (ref_below V mapfn b' isd p kids)) -> V (st_path s) = true).
  { intros b' isd Hx. unfold ref_below in Hx. destruct isd; [|destruct Hx].
    destruct (ref_forest_in _ _ _ _ Hx) as (k & Hk & Hs). rewrite Forall_forall in IH. eapply IH; eauto. }
  assert (Hpath : st_path (snd (mapfn p st')) = p) by (rewrite (proj1 (Hshape p st')); reflexivity).
  assert (Hdir : st_is_dir (snd (mapfn p st')) = st_is_dir st) by (exact (proj1 (proj2 (Hshape p st')))).
  destruct (V p) eqn:EV.
  - destruct (fst (mapfn p st')); cbn [fst] in Hin.
    + apply in_app_or in Hin. destruct Hin as [Hin|Hin]; [|eapply Hb; eauto].
      destruct b; [destruct Hin|]. destruct Hin as [<-|[]]. rewrite Hpath. exact EV.
    + eapply Hb; eauto.
    + destruct Hin.
  - cbn [fst] in Hin. apply in_app_or in Hin. destruct Hin as [Hin|Hin]; [|eapply Hb; eauto].
    match type of Hin with In _ (if ?c then _ else _) => destruct c eqn:Ec end; [|destruct Hin].
    destruct Hin as [<-|[]]. exfalso.
    apply andb_true_iff in Ec. destruct Ec as [Ec _]. apply andb_true_iff in Ec. destruct Ec as [Ec _].
    unfold ref_below in Ec. rewrite Hdir in Hnd. rewrite Hnd in Ec. discriminate.
Qed.

Lemma reference_nondir_selected view s : In s (reference V mapfn view) -> st_is_dir s = false -> V (st_path s) = true.
Proof.
  intros Hin Hnd. unfold reference in Hin. destruct (ref_forest_in _ _ _ _ Hin) as (k & _ & Hs).
  eapply ref_nondir_selected; eauto.
Qed.

(* a map function that never drops: every selected entry is reported *)
Hypothesis Hkeep : forall p s, fst (mapfn p s) = MKeep.

Lemma ref_nocut n b dir : snd (ref_node V mapfn b dir n) = false.
Proof.
  destruct n as [name st ct kids]. rewrite ref_node_eq. cbv zeta. rewrite Hkeep.
  destruct (V _); reflexivity.
Qed.

Lemma ref_forest_in_conv kids : forall b p k s, In k kids -> In s (out (ref_node V mapfn b p k)) ->
  In s (fst (ref_forest V mapfn b p kids)).
Proof.
  induction kids as [|k0 r IH]; intros b p k s Hk Hs; [destruct Hk|].
  cbn [ref_forest]. pose proof (ref_nocut k0 b p) as Hc.
  destruct (ref_node V mapfn b p k0) as [[e f] cut] eqn:Ek. cbn [snd] in Hc. subst cut.
  destruct (ref_forest V mapfn b p r) as [e' f'] eqn:Er. cbn [fst].
  apply in_or_app. destruct Hk as [<-|Hk].
  - left. rewrite Ek in Hs. exact Hs.
  - right. specialize (IH b p k s Hk Hs). rewrite Er in IH. exact IH.
Qed.

Lemma ref_selected_reported : forall n, wf_source_node n = true -> forall dir (e : Tree.entry),
  In e (walk_node dir n) -> V (st_path (fst e)) = true ->
  exists s, In s (out (ref_node V mapfn false dir n)) /\ st_path s = st_path (fst e).
Proof.
  refine (wf_source_ind _ _). intros name st ct kids _ Hdk _ _ IH dir e Hin HV.
  rewrite walk_node_eq in Hin. rewrite ref_node_eq. cbv zeta.
  set (p := child_path dir name) in *. set (st' := set_path st p) in *. rewrite Hkeep.
  assert (Hpath : st_path (snd (mapfn p st')) = p) by (rewrite (proj1 (Hshape p st')); reflexivity).
  destruct Hin as [<-|Hin].
  - change (V p = true) in HV. rewrite HV. cbn [fst app].
    exists (snd (mapfn p st')). split; [left; reflexivity|exact Hpath].
  - apply in_walk_forest in Hin. destruct Hin as (k & Hkin & Hek).
    assert (Hisd : st_is_dir st = true) by (destruct Hdk as [H|H]; [exact H|subst kids; destruct Hkin]).
    rewrite Forall_forall in IH. destruct (IH k Hkin p e Hek HV) as (s & Hs & Eps).
    assert (Hb : In s (fst (ref_below V mapfn false (st_is_dir st) p kids))).
    { unfold ref_below. rewrite Hisd. eapply ref_forest_in_conv; eauto. }
    exists s. split; [|exact Eps].
    destruct (V p); cbn [fst orb]; apply in_or_app; right; exact Hb.
Qed.

Lemma reference_selected_reported view (e : Tree.entry) : wf_source view = true ->
  In e (walk_root view) -> V (st_path (fst e)) = true ->
  exists s, In s (reference V mapfn view) /\ st_path s = st_path (fst e).
Proof.
  unfold wf_source. intros Hwf Hin HV. apply andb_true_iff in Hwf. destruct Hwf as [_ Hk].
  apply in_walk_forest in Hin. destruct Hin as (k & Hkin & Hek). rewrite forallb_forall in Hk.
  destruct (ref_selected_reported k (Hk k Hkin) [] e Hek HV) as (s & Hs & Eps).
  exists s. split; auto. unfold reference. eapply ref_forest_in_conv; eauto.
Qed.
End RefFiles.

Section Sender.
Variable pmatch : bytes -> bytes -> bool.
Variable mapfn : bytes -> stat -> mres * stat.
Variable c : cfg.
Hypothesis Hshape : map_keeps_shape mapfn.
Hypothesis Hdirs : map_never_drops_dirs mapfn.

Notation fw := (filter_walk pmatch mapfn c).
Notation sv := (sender_view pmatch mapfn c).

Lemma fw_wf_listing view : wf_source view = true ->
  wf_listing (fw view) /\ (forall s, In s (fw view) -> ok_path (st_path s) = true).
Proof.
  intros Hwf. rewrite (filter_walk_trim_reference pmatch mapfn c view Hwf). apply reference_wf_listing; auto. apply trim_wf_source; auto.
Qed.

Lemma fw_rsub_gen (K : stat -> stat -> Prop) (HK : forall p s, K (snd (mapfn p s)) s) view :
  wf_source view = true -> rsub (fun s' (e : Tree.entry) => K s' (fst e)) (fw view) (walk_root view).
Proof.
  intros Hwf. rewrite (filter_walk_trim_reference pmatch mapfn c view Hwf).
  eapply rsub_trans_eq; [apply (reference_rsub_gen (keep_incr pmatch c) mapfn K HK)|apply trim_walk_root].
Qed.

Lemma fw_rsub view : wf_source view = true -> rsub keqe (fw view) (walk_root view).
Proof. exact (fw_rsub_gen keq Hshape view). Qed.

Lemma fw_wf_links view : wf_source view = true -> source_links_ok view = true -> wf_links (fw view) = true.
Proof. intros Hwf Hl. eapply wf_links_rsub; [apply fw_rsub; auto|exact Hl]. Qed.

Lemma sv_spec view : wf_source view = true -> source_links_ok view = true ->
  sv view = map (reset_spec_entry (fw view)) (fw view).
Proof. intros Hwf Hl. unfold sender_view. rewrite reset_eq_spec_proof by (apply fw_wf_links; auto). reflexivity. Qed.

Lemma sv_wf_listing view : wf_source view = true -> source_links_ok view = true ->
  wf_listing (sv view) /\ (forall s, In s (sv view) -> ok_path (st_path s) = true).
Proof. intros Hwf Hl. apply reset_wf_listing; [apply fw_wf_links|apply fw_wf_listing]; auto. Qed.

Theorem filtered_stream_valid_proof view :
  wf_source view = true -> source_links_ok view = true ->
  run_validator (items (sv view)) = None /\ hardlink_check (sv view) = None.
Proof.
  intros Hwf Hl. destruct (fw_wf_listing view Hwf) as [Hw Hok].
  apply reset_stream_valid; auto. apply fw_wf_links; auto.
Qed.

(* no hypothesis on the matcher, none on what the map function drops: the entry is selected by
   the incremental verdict, which under no-late-shadow is the verdict Open computes *)
Lemma reported_file_opens view : wf_source view = true -> all_paths (nls_path pmatch c) view = true ->
  forall s, In s (fw view) -> st_is_dir s = false -> filter_open pmatch c (st_path s) = true.
Proof.
  intros Hwf Hn s Hin Hnd.
  destruct (rsub_in _ _ _ (fw_rsub view Hwf) s Hin) as (e & He & Hk).
  pose proof (all_paths_in _ view (all_paths_keep_view pmatch c view (wf_source_strict view Hwf) Hn) e He) as Heq.
  cbv beta in Heq. apply eqb_prop in Heq. rewrite <- (proj1 Hk) in Heq.
  unfold filter_open. rewrite <- Heq.
  rewrite (filter_walk_trim_reference pmatch mapfn c view Hwf) in Hin. eapply reference_nondir_selected; eauto.
Qed.

Section Naive.
Hypothesis Hsem : prefix_semantics pmatch.
Hypothesis Hsafe : cfg_star_safe c = true.

Lemma fw_naive_reference view : wf_source view = true -> all_paths (nls_path pmatch c) view = true ->
  fw view = reference (keep_naive pmatch c) mapfn view.
Proof.
  intros Hwf Hn. apply (filter_walk_naive_reference_proof pmatch c mapfn view Hsem Hsafe); auto.
  apply wf_source_strict; auto.
Qed.

Lemma source_file_entry view q : source_file view q = true ->
  exists e : Tree.entry, In e (walk_root view) /\ st_path (fst e) = q /\ st_is_dir (fst e) = false.
Proof.
  unfold source_file. intros H. apply existsb_exists in H. destruct H as (e & He & Hx).
  apply andb_true_iff in Hx. destruct Hx as [H1 H2]. apply bytes_eqb_eq in H1. apply negb_true_iff in H2.
  exists e. auto.
Qed.

Theorem walk_open_agree_proof view :
  (forall p s, fst (mapfn p s) = MKeep) ->
  wf_source view = true -> all_paths (nls_path pmatch c) view = true ->
  forall q, source_file view q = true -> reported pmatch mapfn c view q = filter_open pmatch c q.
Proof.
  intros Hkeep Hwf Hn q Hq. unfold reported. rewrite (fw_naive_reference view Hwf Hn). unfold filter_open.
  destruct (source_file_entry view q Hq) as (e & He & Epe & Hnd).
  destruct (keep_naive pmatch c q) eqn:EV.
  - apply existsb_exists.
    destruct (reference_selected_reported (keep_naive pmatch c) mapfn Hshape Hkeep view e Hwf He) as (s & Hs & Eps);
      [rewrite Epe; exact EV|].
    exists s. split; auto. rewrite Eps, Epe. apply bytes_eqb_refl.
  - destruct (existsb _ _) eqn:Ex; auto. exfalso.
    apply existsb_exists in Ex. destruct Ex as (s & Hs & Eq). apply bytes_eqb_eq in Eq.
    destruct (rsub_in _ _ _ (reference_rsub (keep_naive pmatch c) mapfn Hshape view) s Hs) as (e' & He' & Hk).
    assert (Ee : e' = e).
    { apply (NoDup_map_inj (fun x : Tree.entry => st_path (fst x)) (walk_root view)); auto.
      - exact (proj2 (WalkP.view_walk_sorted_proof view (wf_source_walkp view Hwf))).
      - rewrite Epe, <- Eq. symmetry. exact (proj1 Hk). }
    subst e'.
    assert (Hsd : st_is_dir s = false) by (rewrite (keq_dir _ _ Hk); exact Hnd).
    pose proof (reference_nondir_selected _ _ Hshape view s Hs Hsd) as X. rewrite Eq in X. congruence.
Qed.
End Naive.

End Sender.
