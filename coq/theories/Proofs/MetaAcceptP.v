(* C19 — acceptance by the receiver's validators when the hard-link validator is shown only the
   forwarded entries (repair of the C03 finding): accepted <=> the order validator accepts the
   handled stream and the hard-link validator accepts its SELECTED part; for a stream the sender
   may announce this is exactly link-closedness of the selection; a selection that forwards a
   link without its source is rejected before anything of the link is handed to the writer. *)
From Coq Require Import List NArith Bool Lia.
From FS Require Import Sx Model.Path Model.Stat Model.Validator Model.Hardlinks Model.MetaOnly
  Proofs.Lex Proofs.PathP Proofs.ListAux Proofs.ValidatorP Proofs.MetaOnlyP Proofs.MetaRewriteP.
Import ListNotations.
Open Scope bool_scope.

(* the sequential run = the two validators separately *)
Lemma fr_iff dl : forall stk sp i i1 i2,
  first_reject_d stk sp dl i = None <->
  (vrun stk (map (fun x => vitem_of (snd x)) dl) i1 = None /\ hl_run sp (map snd (filter fst dl)) i2 = None).
Proof.
  induction dl as [|[d s] r IH]; intros stk sp i i1 i2; [cbn; tauto|].
  cbn [first_reject_d map vrun snd fst filter]. destruct (vstep stk (vitem_of s)) as [stk'|].
  - destruct d; cbn [map hl_run snd].
    + destruct (hl_step sp s) as [sp'|]; [apply IH|]. split; [discriminate|intros [_ H]; discriminate].
    + apply IH.
  - split; [discriminate|intros [H _]; discriminate].
Qed.

Lemma filter_deco (sel : stat -> bool) l : map snd (filter fst (map (fun s => (sel s, s)) l)) = filter sel l.
Proof.
  induction l as [|s l IH]; [reflexivity|]. cbn [map filter fst]. destruct (sel s); cbn [map snd]; rewrite IH; reflexivity.
Qed.

Lemma first_reject_iff sel l :
  first_reject sel l = None <-> (valid_stream l /\ hardlink_check (filter sel l) = None).
Proof.
  unfold first_reject, valid_stream, run_validator, hardlink_check.
  rewrite (fr_iff _ vinit [] 0 0 0), map_map, filter_deco. cbn [snd]. reflexivity.
Qed.

Theorem accepts_iff_proof sel stats :
  recv_accepts sel stats = true <->
  (valid_stream (recv_stream stats) /\ hardlink_check (filter sel (recv_stream stats)) = None).
Proof.
  unfold recv_accepts. rewrite <- first_reject_iff. destruct (first_reject sel (recv_stream stats)); split; intros; auto; discriminate.
Qed.

Lemma first_reject_rw_sim sel rw sel' l : (forall s, In s l -> sel' (seen rw s) = sel s) ->
  first_reject_rw sel rw l = first_reject sel' (map (seen rw) l).
Proof.
  intros H. unfold first_reject_rw, first_reject. rewrite map_map. f_equal.
  apply map_ext_in. intros s Hs. rewrite (H s Hs). reflexivity.
Qed.

Theorem accepts_rw_sim_proof sel rw sel' stats : (forall s, In s stats -> sel' (seen rw s) = sel s) ->
  recv_accepts_rw sel rw stats = recv_accepts sel' (map (seen rw) stats).
Proof.
  intros H. unfold recv_accepts_rw, recv_accepts. rewrite recv_stream_seen.
  rewrite (first_reject_rw_sim sel rw sel'); [reflexivity|].
  intros s Hs. apply H. unfold recv_stream in Hs. apply filter_In in Hs. tauto.
Qed.

Lemma cvalid_nodup l : forall acc, cvalid acc l -> NoDup (map st_path l).
Proof.
  induction l as [|s r IH]; intros acc H; [constructor|]. cbn [map]. constructor.
  - intros Hin. apply in_map_iff in Hin. destruct Hin as (x & Ex & Hx).
    pose proof (cvalid_head_lt acc s r H x Hx) as L. unfold cp in L. rewrite Ex, lex_refl in L. discriminate.
  - destruct H as [_ Hr]. apply (IH _ Hr).
Qed.

Lemma valid_nodup l : valid_stream l -> NoDup (map st_path l).
Proof. intros H. apply (cvalid_nodup l []), valid_stream_cvalid, H. Qed.

Lemma valid_paths_unique l : valid_stream l ->
  forall u t, In u l -> In t l -> st_path u = st_path t -> u = t.
Proof. intros H u t. apply NoDup_map_inj, valid_nodup, H. Qed.

Section Accept.
Variable sel : stat -> bool.

(* accepted => every selected link has a selected source *)
Lemma hl_mem_src l : forall sp i, hl_run sp (filter sel l) i = None ->
  forall x, In x l -> sel x = true -> hl_plain x = true -> has_link x = true ->
  mem_bytes (st_linkname x) sp = true \/ exists u, In u l /\ sel u = true /\ st_path u = st_linkname x.
Proof.
  induction l as [|s r IH]; intros sp i H x Hx Hs Hp Hl; [destruct Hx|].
  cbn [filter] in H. destruct (sel s) eqn:Es.
  - cbn [hl_run] in H. destruct (hl_step sp s) as [sp'|] eqn:E; [|discriminate]. apply hl_step_some in E.
    destruct Hx as [<-|Hx].
    + left. destruct E as [[_ E]|(_ & _ & E)]; [apply E, Hp|congruence].
    + destruct (IH sp' (S i) H x Hx Hs Hp Hl) as [Hm|(u & Hu & Hsu & Eu)]; [|right; exists u; auto using in_cons].
      destruct E as [[-> _]|(-> & _)]; [left; exact Hm|].
      cbn [mem_bytes] in Hm. apply orb_true_iff in Hm. destruct Hm as [Hm|Hm]; [right|left; exact Hm].
      exists s. apply bytes_eqb_eq in Hm. auto using in_eq.
  - destruct Hx as [<-|Hx]; [congruence|].
    destruct (IH sp i H x Hx Hs Hp Hl) as [Hm|(u & Hu & Hsu & Eu)]; [left; exact Hm|right; exists u; auto using in_cons].
Qed.

Lemma accept_closed l :
  (forall u t, In u l -> In t l -> st_path u = st_path t -> u = t) ->
  hardlink_check (filter sel l) = None -> link_closed sel l = true.
Proof.
  intros Hu H. apply link_closed_iff. intros x t Hx Ht Hs Hp Hl Et.
  destruct (hl_mem_src l [] 0 H x Hx Hs Hp Hl) as [Hm|(u & Hin & Hsu & Eu)]; [discriminate|].
  rewrite <- (Hu u t Hin Ht); [exact Hsu|congruence].
Qed.

(* a link-closed selection of a stream the full validator accepts is accepted *)
Lemma closed_accept l : hardlink_check l = None -> link_closed sel l = true -> hardlink_check (filter sel l) = None.
Proof.
  intros H Hlc. apply (hl_filter sel l) with (seen := []) (i := 0); auto; try (intros p; discriminate).
  intros s Hs Hf Hp Hl t Ht Et. apply (proj1 (link_closed_iff sel l) Hlc s t); auto.
Qed.

Theorem accepts_link_closed_proof stats :
  recv_accepts sel stats = true -> link_closed sel (recv_stream stats) = true.
Proof.
  intros H. apply accepts_iff_proof in H. destruct H as [Hv Hh].
  apply accept_closed; [apply valid_paths_unique; exact Hv|exact Hh].
Qed.

Theorem link_closed_accepts_proof stats :
  valid_stream (recv_stream stats) -> hardlink_check (recv_stream stats) = None ->
  link_closed sel (recv_stream stats) = true -> recv_accepts sel stats = true.
Proof. intros Hv Hh Hlc. apply accepts_iff_proof. split; [exact Hv|apply closed_accept; auto]. Qed.

(* what is forwarded is again accepted by both validators *)
Lemma hl_filter_agree (f g : stat -> bool) l : (forall s, In s l -> hl_plain s = true -> f s = g s) ->
  forall sp i j, hl_run sp (filter f l) i = None -> hl_run sp (filter g l) j = None.
Proof.
  induction l as [|s r IH]; intros Hag sp i j H; [reflexivity|].
  assert (Hag' : forall x, In x r -> hl_plain x = true -> f x = g x) by (intros; apply Hag; auto; right; auto).
  cbn [filter] in *. destruct (hl_plain s) eqn:Ep.
  - rewrite <- (Hag s (or_introl eq_refl) Ep). destruct (f s); [|apply (IH Hag' sp i j H)].
    cbn [hl_run] in *. destruct (hl_step sp s) as [sp'|]; [|discriminate]. apply (IH Hag' sp' (S i) (S j) H).
  - assert (Hst : hl_step sp s = Some sp) by (unfold hl_step; rewrite Ep; reflexivity).
    destruct (f s), (g s); cbn [hl_run] in *; rewrite ?Hst in *.
    + apply (IH Hag' sp (S i) (S j) H).
    + apply (IH Hag' sp (S i) j H).
    + apply (IH Hag' sp i (S j) H).
    + apply (IH Hag' sp i j H).
Qed.

Theorem forwarded_valid_proof stats :
  recv_accepts sel stats = true ->
  valid_stream (r_forwarded (meta_recv sel stats)) /\ hardlink_check (r_forwarded (meta_recv sel stats)) = None.
Proof.
  intros H. apply accepts_iff_proof in H. destruct H as [Hv Hh].
  rewrite (forwarded_exact_proof sel stats Hv). split.
  - apply needed_valid. exact Hv.
  - unfold hardlink_check in *. apply (hl_filter_agree sel (needed sel (recv_stream stats)) _) with (i := 0%nat); [|exact Hh].
    intros s _ Hp. symmetry. apply needed_plain. exact Hp.
Qed.

(* a selection that forwards a link but not its source is rejected, at or before the link, and
   nothing with the link's path has been handed to the writer *)
Lemma fr_prefix x post pre : forall stk sp i,
  sel x = true -> hl_plain x = true -> has_link x = true ->
  mem_bytes (st_linkname x) sp = false ->
  (forall u, In u pre -> sel u = true -> st_path u <> st_linkname x) ->
  exists k, first_reject_d stk sp (map (fun s => (sel s, s)) (pre ++ x :: post)) i = Some k /\ (k <= i + length pre)%nat.
Proof.
  induction pre as [|u pre IH]; intros stk sp i Hs Hp Hl Hm Hne; cbn [app map first_reject_d].
  - destruct (vstep stk (vitem_of x)); [|exists i; split; [reflexivity|lia]].
    rewrite Hs. unfold hl_step. rewrite Hp, Hl, Hm. cbn [negb]. exists i. split; [reflexivity|lia].
  - destruct (vstep stk (vitem_of u)) as [stk'|]; [|exists i; split; [reflexivity|lia]].
    assert (Hne' : forall v, In v pre -> sel v = true -> st_path v <> st_linkname x) by (intros; apply Hne; auto; right; auto).
    destruct (sel u) eqn:Eu.
    + destruct (hl_step sp u) as [sp'|] eqn:E; [|exists i; split; [reflexivity|lia]].
      assert (Hm' : mem_bytes (st_linkname x) sp' = false).
      { apply hl_step_some in E. destruct E as [[-> _]|(-> & _)]; [exact Hm|].
        cbn [mem_bytes]. rewrite Hm, orb_false_r. apply bytes_eqb_neq.
        intros Ex. apply (Hne u (or_introl eq_refl) Eu). symmetry. exact Ex. }
      destruct (IH stk' sp' (S i) Hs Hp Hl Hm' Hne') as (k & Hk & Hle). exists k. split; [exact Hk|cbn [length]; lia].
    + destruct (IH stk' sp (S i) Hs Hp Hl Hm Hne') as (k & Hk & Hle). exists k. split; [exact Hk|cbn [length]; lia].
Qed.

Lemma forwarded_subset l : forall i stk z, In z (r_forwarded (mrun sel i stk l)) -> In z stk \/ In z l.
Proof.
  induction l as [|s r IH]; intros i stk z Hz; [destruct Hz|]. cbn [mrun] in Hz.
  pose proof (fun p y => mpop_sub p stk y) as Hpop.
  destruct (is_listing s).
  - destruct (IH _ _ _ Hz); auto. right. right. auto.
  - destruct (sel s); cbn [r_forwarded] in Hz.
    + apply in_app_or in Hz. destruct Hz as [Hz|[<-|Hz]].
      * left. apply in_rev in Hz. eapply Hpop; eauto.
      * right. left. reflexivity.
      * destruct (IH _ _ _ Hz) as [[]|Hz']. right. right. exact Hz'.
    + destruct (IH _ _ _ Hz) as [Hz'|Hz']; [|right; right; exact Hz'].
      destruct (st_is_dir s); [destruct Hz' as [<-|Hz']; [right; left; reflexivity|]|]; left; eapply Hpop; eauto.
Qed.

Theorem unsourced_link_rejected_proof stats x t :
  valid_stream (recv_stream stats) ->
  In x (recv_stream stats) -> sel x = true -> hl_plain x = true -> has_link x = true ->
  In t (recv_stream stats) -> st_path t = st_linkname x -> sel t = false ->
  recv_accepts sel stats = false /\
  exists k, first_reject sel (recv_stream stats) = Some k /\
    applied sel (recv_stream stats) = r_forwarded (meta_recv sel (firstn k (recv_stream stats))) /\
    forall z, In z (applied sel (recv_stream stats)) -> st_path z <> st_path x.
Proof.
  intros Hv Hx Hs Hp Hl Ht Et Hst. set (L := recv_stream stats) in *.
  pose proof (valid_paths_unique L Hv) as Hu.
  destruct (in_split x L Hx) as (pre & post & EL).
  assert (Hne : forall u, In u pre -> sel u = true -> st_path u <> st_linkname x).
  { intros u Hin Hsu Eu. assert (u = t).
    { apply Hu; [rewrite EL; apply in_or_app; left; exact Hin|exact Ht|rewrite Eu, Et; reflexivity]. }
    subst u. rewrite Hst in Hsu. discriminate. }
  destruct (fr_prefix x post pre vinit [] 0%nat Hs Hp Hl eq_refl Hne) as (k & Hk & Hle).
  rewrite <- EL in Hk. fold (first_reject sel L) in Hk.
  split; [unfold recv_accepts; fold L; rewrite Hk; reflexivity|].
  exists k. split; [exact Hk|]. unfold applied. rewrite Hk. split; [reflexivity|].
  intros z Hz Ez. unfold meta_recv in Hz. destruct (forwarded_subset _ _ _ _ Hz) as [[]|Hz'].
  assert (Hzp : In z pre).
  { rewrite EL in Hz'. rewrite firstn_app in Hz'. replace (k - length pre)%nat with 0%nat in Hz' by lia.
    cbn [firstn] in Hz'. rewrite app_nil_r in Hz'.
    rewrite <- (firstn_skipn k pre). apply in_or_app. left. exact Hz'. }
  pose proof (valid_nodup L Hv) as HN. rewrite EL, map_app in HN. cbn [map] in HN.
  apply NoDup_remove_2 in HN. apply HN. apply in_or_app. left. rewrite <- Ez. apply in_map. exact Hzp.
Qed.
End Accept.
