(* The content part of C08 on the LTS: when Receive returns nil and no Open error was
   injected, every requested file received exactly its chunks — whatever the interleaving.
   Counting invariants per file id, in the style of LtsTok.v. *)
From Coq Require Import List Arith Bool PeanoNat Lia ZifyBool.
From FS Require Import Model.Lts Model.LtsExplore Proofs.LtsInv Proofs.LtsSafe Proofs.LtsTerm Proofs.LtsC08 Proofs.LtsTok.
Import ListNotations.

Definition is_data (id : nat) (pk : packet) : bool :=
  match pk with PData x => Nat.eqb id x | _ => false end.
Definition cntD (id : nat) (l : list packet) : nat := length (filter (is_data id) l).
Definition rlw_h (id : nat) (pc : rlpc) : nat := match pc with RL_Write x => b2n (Nat.eqb id x) | _ => 0 end.
Definition pg (p : params) (id : nat) (w : wkpc) : nat :=
  match w with
  | WK_Read h c | WK_Lock h c | WK_Send h c => if Nat.eqb id h then c else 0
  | WK_LockFin h | WK_SendFin h => if Nat.eqb id h then chunks_of p h else 0
  | _ => 0
  end.
Definition alive (st : state) : bool := match rl_pc st with RL_Drain | RL_Done => false | _ => true end.

Fixpoint noDafterE (id : nat) (l : list packet) : bool :=
  match l with
  | [] => true
  | pk :: r => (if is_dend id pk then cntD id r =? 0 else true) && noDafterE id r
  end.

Lemma lenf_cons : forall A (f : A -> bool) x l, length (filter f (x :: l)) = b2n (f x) + length (filter f l).
Proof. intros. cbn. destruct (f x); reflexivity. Qed.
Lemma lenf_snoc : forall A (f : A -> bool) l x, length (filter f (l ++ [x])) = length (filter f l) + b2n (f x).
Proof. intros. rewrite filter_app, app_length. cbn. destruct (f x); reflexivity. Qed.

Lemma cntD_cons : forall id x l, cntD id (x :: l) = b2n (is_data id x) + cntD id l.
Proof. intros. apply lenf_cons. Qed.
Lemma cntD_app : forall id l x, cntD id (l ++ [x]) = cntD id l + b2n (is_data id x).
Proof. intros. apply lenf_snoc. Qed.

Definition is_preq (id : nat) (pk : packet) : bool := match pk with PReq x => Nat.eqb id x | _ => false end.
Definition cntQ (id : nat) (l : list packet) : nat := length (filter (is_preq id) l).
Lemma cntQ_cons : forall id x l, cntQ id (x :: l) = b2n (is_preq id x) + cntQ id l.
Proof. intros. apply lenf_cons. Qed.
Lemma cntQ_app : forall id l x, cntQ id (l ++ [x]) = cntQ id l + b2n (is_preq id x).
Proof. intros. apply lenf_snoc. Qed.
Arguments cntQ : simpl never.

(* The count of a list that has been taken apart or extended, in the goal and, for a list that the
   case analysis has replaced by [x :: l], in the hypotheses.  The equations are instantiated from
   what is found there: [rewrite ?cnt_cons] would try to unify its pattern with every count. *)
Ltac count_eqs :=
  repeat match goal with
  | |- context [cnt ?i (?x :: ?l)] => rewrite (cnt_cons i x l)
  | |- context [cntE ?i (?x :: ?l)] => rewrite (cntE_cons i x l)
  | |- context [cntD ?i (?x :: ?l)] => rewrite (cntD_cons i x l)
  | |- context [cntQ ?i (?x :: ?l)] => rewrite (cntQ_cons i x l)
  | |- context [cnt ?i (?l ++ [?x])] => rewrite (cnt_app i l x)
  | |- context [cntE ?i (?l ++ [?x])] => rewrite (cntE_app i l x)
  | |- context [cntD ?i (?l ++ [?x])] => rewrite (cntD_app i l x)
  | |- context [cntQ ?i (?l ++ [?x])] => rewrite (cntQ_app i l x)
  | H : context [cnt ?i (?x :: ?l)] |- _ => rewrite (cnt_cons i x l) in H
  | H : context [cntE ?i (?x :: ?l)] |- _ => rewrite (cntE_cons i x l) in H
  | H : context [cntD ?i (?x :: ?l)] |- _ => rewrite (cntD_cons i x l) in H
  end.

Lemma noD_cons : forall id x r,
  noDafterE id (x :: r) = (if is_dend id x then cntD id r =? 0 else true) && noDafterE id r.
Proof. reflexivity. Qed.
(* receiving the first packet *)
Lemma noD_tail : forall id pk l, noDafterE id (pk :: l) = true ->
  noDafterE id l = true /\ (is_dend id pk = true -> cntD id l = 0).
Proof.
  intros id pk l H. rewrite noD_cons in H. apply andb_prop in H. destruct H as [A B].
  split; [exact B|]. intro D. rewrite D in A. apply Nat.eqb_eq. exact A.
Qed.
(* sending a packet: DATA of a file may be appended as long as its terminator has not been sent *)
Lemma noD_snoc : forall id l pk, noDafterE id l = true ->
  (is_data id pk = true -> cntE id l = 0) -> noDafterE id (l ++ [pk]) = true.
Proof.
  induction l as [|a l IH]; intros pk H D.
  - cbn. destruct (is_dend id pk); reflexivity.
  - apply noD_tail in H. destruct H as [H A]. rewrite cntE_cons in D.
    change ((a :: l) ++ [pk]) with (a :: (l ++ [pk])). rewrite noD_cons, cntD_app.
    destruct (is_dend id a); cbn [b2n] in D.
    + destruct (is_data id pk) eqn:Ed; [specialize (D eq_refl); lia|].
      rewrite IH by (assumption || (intro; congruence)). rewrite A by reflexivity. reflexivity.
    + rewrite IH; auto.
Qed.
Arguments cntD : simpl never.
Arguments noDafterE : simpl never.

(* chunk counters of the workers stay within the file *)
Definition wk_ok (p : params) (w : wkpc) : Prop :=
  match w with
  | WK_Read h c => c <= chunks_of p h
  | WK_Lock h c | WK_Send h c => c < chunks_of p h
  | _ => True
  end.
Definition invW (p : params) (st : state) : Prop :=
  forall j w, nth_error (wks st) j = Some w -> wk_ok p w.

Lemma invW_step : forall p st l st', invW p st -> step p st l = Some st' -> invW p st'.
Proof.
  intros p st l st' I H.
  step_cases H l; try exact I.
  (* worker j moved: its new counter is within the file by the guard of the move *)
  all: intros j' x; cbn; match goal with E : nth_error (wks _) ?j = Some _ |- _ =>
         pose proof (I _ _ E) as V; rewrite (nth_error_set_nth _ _ _ j' _ _ E) end;
       destruct (j =? j'); [intros [= <-]; cbn [wk_ok] in *; lia | apply I].
Qed.

Lemma invW_reachable : forall p st, reachable p st -> invW p st.
Proof.
  induction 1.
  - intros j w Hn. apply nth_error_repeat in Hn. subst. exact Logic.I.
  - eapply invW_step; eauto.
Qed.

Definition Wc (id : nat) (st : state) : nat := cnt id (written st) + rlw_h id (rl_pc st).
Definition Fc (id : nat) (st : state) : nat := cntD id (buf_sr st).
Definition Pgc (p : params) (id : nat) (st : state) : nat := sumf (pg p id) (wks st).
Definition early (id : nat) (st : state) : nat := cnt id (sfiles st) + rq_h id (rq_pc st) + cnt id (pipe st).
Definition heldc (id : nat) (st : state) : nat := sumf (held id) (wks st).
Definition donec (id : nat) (st : state) : nat := cntE id (buf_sr st) + rl_h id (rl_pc st) + cnt id (completed st).
Definition latec (id : nat) (st : state) : nat := rl_h id (rl_pc st) + cnt id (completed st).

Record cinv (p : params) (id : nat) (st : state) : Prop := {
  (* not yet served: no data of this file anywhere *)
  c_za : early id st >= 1 \/ sw_bound st <= id -> Wc id st + Fc id st = 0;
  (* being served: chunks written + in flight = the worker's counter *)
  c_ea : alive st = true -> g_open_err st = false -> heldc id st >= 1 -> Wc id st + Fc id st = Pgc p id st;
  (* served: all chunks are written or in flight *)
  c_eb : alive st = true -> g_open_err st = false -> donec id st >= 1 -> Wc id st + Fc id st = chunks_of p id;
  (* no DATA of the file follows its terminator in the stream *)
  c_od : noDafterE id (buf_sr st) = true;
  (* once the terminator has been received nothing of the file is in flight *)
  c_ne : latec id st >= 1 -> Fc id st = 0 /\ rlw_h id (rl_pc st) = 0;
  (* ... and all its chunks have been written *)
  c_jf : latec id st >= 1 -> g_open_err st = false -> cnt id (written st) = chunks_of p id
}.

Lemma sumf_ge_nth : forall A (f : A -> nat) l j w, nth_error l j = Some w -> f w <= sumf f l.
Proof.
  induction l; destruct j; intros w H; try discriminate H; unfold sumf; cbn.
  - injection H as ->. apply Nat.le_add_r.
  - apply IHl in H. unfold sumf in H. lia.
Qed.

Lemma sumf_repeat : forall A (f : A -> nat) x n, sumf f (repeat x n) = n * f x.
Proof. induction n as [|n IH]; [reflexivity | exact (f_equal (Nat.add (f x)) IH)]. Qed.

Ltac split_eqb id :=
  repeat match goal with
  | |- context [Nat.eqb id ?x] => destruct (Nat.eqb_spec id x); [subst|]
  | H : context [Nat.eqb id ?x] |- _ => destruct (Nat.eqb_spec id x); [subst|]
  end.

Lemma pg_zero : forall p id l, sumf (held id) l = 0 -> sumf (pg p id) l = 0.
Proof.
  induction l; intro H; auto.
  unfold sumf in *; cbn in *.
  assert (held id a = 0 /\ fold_right (fun x acc => held id x + acc) 0 l = 0) by lia.
  destruct H0 as [H1 H2]. rewrite (IHl H2).
  destruct a; cbn in *; auto; destruct (Nat.eqb id h); cbn in *; auto; discriminate.
Qed.

(* Worker j moves from w to w': how the tokens held and the progress recorded for [id] change,
   and, since a worker without the token of [id] records no progress for it, a worker that holds
   the only token records all of it. *)
Lemma worker_move : forall p id l j w w', nth_error l j = Some w ->
  sumf (held id) (set_nth j w' l) + held id w = sumf (held id) l + held id w' /\
  sumf (pg p id) (set_nth j w' l) + pg p id w = sumf (pg p id) l + pg p id w' /\
  held id w <= sumf (held id) l /\
  (sumf (held id) l <= held id w -> sumf (pg p id) l = pg p id w).
Proof.
  intros p id l j w w' E. repeat split; try (apply sumf_set_nth; exact E).
  - eapply sumf_ge_nth; eauto.
  - intro Le.
    pose proof (sumf_set_nth _ (held id) l j w WK_Done E) as A.
    pose proof (sumf_set_nth _ (pg p id) l j w WK_Done E) as B.
    pose proof (pg_zero p id (set_nth j WK_Done l)) as Z. cbn [held pg] in *. lia.
Qed.

(* a registered id leaves sfiles *)
Lemma cnt_remb_le : forall id x l, memb x l = true -> cnt id (remb x l) + b2n (id =? x) <= cnt id l.
Proof.
  intros id x l M. destruct (Nat.eqb_spec id x); cbn [b2n].
  - subst. rewrite cnt_remb_same. apply cnt_memb. exact M.
  - rewrite cnt_remb_other by assumption. lia.
Qed.

Lemma cnt_memb_le : forall id x l, memb x l = true -> b2n (id =? x) <= cnt id l.
Proof.
  intros id x l M. destruct (Nat.eqb_spec id x) as [->|]; [exact (cnt_memb _ _ M) | apply Nat.le_0_l].
Qed.

(* The counts after a step in terms of the fields of the state before it: [old_counts] puts the
   hypotheses, which the case analysis has specialised to the transition ([destruct] rewrites the
   guards in them), into the same form as [new_counts] puts the goal. *)
Ltac old_counts := count_eqs; cbn [is_dend is_data b2n rlw_h rl_h rq_h] in *.
Ltac new_counts :=
  unfold Wc, Fc, Pgc, early, heldc, donec, latec, alive, sw_bound, setw, s_fail, rl_fail, r_fail; cbn; rw_eqs;
  count_eqs; cbn [is_dend is_data b2n rlw_h rl_h rq_h];
  rewrite ?Nat.add_0_r.
(* [lia] translates every boolean hypothesis; of the guards of the transition only the comparisons
   of numbers are of use to it *)
Ltac drop_guards :=
  repeat match goal with G : @eq bool ?x _ |- _ => lazymatch x with (_ <? _) => fail | _ => clear G end end.

(* The clauses are stated over the fields of [st] before the case analysis.  A transition that
   writes none of the fields read leaves all six as they are.  Otherwise each clause of the new
   state follows by linear arithmetic from at most three clauses of the old one, the bound
   [tok id st <= 1] and what is known of the component that moved: a packet received
   ([noD_tail]), a worker ([worker_move]), an id taken from sfiles ([cnt_remb_le]). *)
Lemma cinv_step : forall p id st l st',
  tokinv st -> invW p st -> cinv p id st -> step p st l = Some st' -> cinv p id st'.
Proof.
  intros p id st l st' (T1 & T2) IW [Za Ea Eb Od Ne Jf] H.
  specialize (T1 id); specialize (T2 id).
  unfold Wc, Fc, Pgc, early, heldc, donec, latec, alive, sw_bound, tok in *.
  step_cases H l; try solve [constructor; assumption].
  all: try (apply noD_tail in Od; destruct Od as [Od Od1]); old_counts.
  all: try match goal with E : nth_error (wks _) ?j = Some ?w |- context [setw ?j ?w' _] =>
         pose proof (IW _ _ E) as V; cbn [wk_ok] in V;
         destruct (worker_move p id _ _ _ w' E) as (X1 & X2 & Y & PH); cbn [held pg] in X1, X2, Y, PH end.
  all: try match goal with M : memb _ (sfiles _) = true |- _ => apply (cnt_remb_le id) in M end.
  (* [lia] is given only the old clauses that the new one depends on *)
  all: clear IW; constructor;
    [ clear Ea Eb Ne Jf | clear Eb Ne Jf | clear Za Jf | | clear Za Ea Eb Jf | clear Za Ea ];
    try assumption; new_counts; try assumption.
  all: try (apply noD_snoc; [exact Od | cbn [is_data]; try discriminate]).
  all: drop_guards; intros; split_eqb id; cbn [b2n] in *; lia.
Qed.

Lemma cinv_init : forall p id, cinv p id (init p).
Proof.
  intros p id. constructor; unfold Wc, Fc, Pgc, early, heldc, donec, latec; cbn;
  rewrite ?sumf_repeat; cbn [held pg]; rewrite ?Nat.mul_0_r; intros; repeat split; try reflexivity; unfold cnt, cntE, cntD in *; cbn in *; try lia.
Qed.

Lemma cinv_reachable : forall p id st, reachable p st -> cinv p id st.
Proof.
  induction 1.
  - apply cinv_init.
  - eapply cinv_step; eauto. eapply tokinv_reachable; eauto. eapply invW_reachable; eauto.
Qed.

(* When Receive has returned nil and no Open error was injected, every requested file has
   received exactly its chunks: the content of the destination is a function of the
   parameters, not of the schedule. *)
Lemma success_content_proof : forall p st, reachable p st ->
  recv_ret st = Some true -> g_open_err st = false ->
  forall id, In id (need_ids p) -> cnt id (written st) = chunks_of p id.
Proof.
  intros p st R Ok Oe id Hin.
  destruct (success_outcome_proof _ _ R Ok id) as [A _].
  apply A in Hin. apply cnt_memb in Hin.
  destruct (cinv_reachable p id st R) as [_ _ _ _ _ Jf].
  apply Jf; auto. unfold latec. lia.
Qed.
