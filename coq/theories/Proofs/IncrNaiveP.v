(* MatchesUsingParentResults handed down a path vs MatchesOrParentMatches on the path:
   equal under the computable condition no_late_shadow; the "skip" of
   MatchesOrParentMatches is unobservable. *)
From Coq Require Import List NArith Bool.
From FS Require Import Sx Model.Path Model.Pattern Proofs.Lex Proofs.PathP Proofs.PatternP.
Import ListNotations.
Open Scope bool_scope.

Lemma prefixes_snoc {A} (d : list A) b : prefixes (d ++ [b]) = prefixes d ++ [d ++ [b]].
Proof.
  induction d as [|a d IH]; [reflexivity|]. cbn [prefixes app]. rewrite IH, map_app. reflexivity.
Qed.

Lemma eqb_neg_eq (a b : bool) : negb (eqb a b) = true -> b = negb a.
Proof. destruct a, b; simpl; congruence. Qed.

Section IncrNaive.
Variable pmatch : bytes -> bytes -> bool.

Lemma naive_step_noskip file m P : naive_step pmatch file m P = naive_noskip_step pmatch file m P.
Proof.
  unfold naive_step, naive_noskip_step. destruct (negb (eqb (p_excl P) m)) eqn:E; auto.
  apply eqb_neg_eq in E. destruct (pmatch (p_str P) file || anc_match pmatch (p_str P) file); auto.
Qed.

Theorem naive_skip_irrelevant_proof pats file : naive pmatch pats file = naive_noskip pmatch pats file.
Proof.
  unfold naive, naive_noskip. generalize false. induction pats as [|P ps IH]; intros m; [reflexivity|].
  simpl. rewrite naive_step_noskip. apply IH.
Qed.

Lemma ancestors_of_joinc d b : okc (d ++ [b]) -> ancestors_of (joinc (d ++ [b])) = map joinc (prefixes d).
Proof.
  intros H. unfold ancestors_of. rewrite dir_joinc by auto.
  destruct d as [|x d]; [reflexivity|].
  assert (Hd : okc (x :: d)) by (apply (okc_prefix (x :: d) b); [discriminate|exact H]).
  destruct (okc_not_special _ Hd) as (_ & Hdot & _).
  apply bytes_eqb_neq in Hdot. rewrite Hdot.
  destruct Hd as (Hne & _ & Hs). rewrite comps_joinc by auto. reflexivity.
Qed.

Lemma incr_chain_snoc pats d b :
  incr_chain pmatch pats (d ++ [b]) = incr_eval pmatch pats (joinc (d ++ [b])) (snd (incr_chain pmatch pats d)).
Proof. unfold incr_chain. rewrite prefixes_snoc, fold_left_app. reflexivity. Qed.

(* without info the ancestors are matched afresh, as the naive loop does *)
Lemma incr_go_noinfo file pats : forall parent m,
  fst (incr_go pmatch pats parent false file m) = fold_left (naive_step pmatch file) pats m.
Proof.
  induction pats as [|P ps IH]; intros parent m; [reflexivity|].
  rewrite incr_go_cons. cbv zeta. cbn [fst fold_left andb]. rewrite IH. f_equal.
  unfold incr_m, naive_step. cbn [negb andb].
  destruct (negb (eqb (p_excl P) m)); auto.
Qed.

Definition sound (anc : list bytes) (pats : list pat) (info : list bool) : Prop :=
  Forall2 (fun P m => m = true -> existsb (pmatch (p_str P)) anc = true) pats info.

Lemma sound_weaken anc anc' pats info : (forall q, In q anc -> In q anc') -> sound anc pats info -> sound anc' pats info.
Proof.
  intros Hsub H. induction H; constructor; auto. intros Hm. specialize (H Hm).
  apply existsb_exists in H. destruct H as (q & Hq & Hp). apply existsb_exists. eauto.
Qed.

Lemma incr_go_sound_info anc file pats : forall parent m,
  sound anc pats parent ->
  sound (anc ++ [file]) pats (snd (incr_go pmatch pats parent true file m)).
Proof.
  induction pats as [|P ps IH]; intros parent m H; [constructor|].
  inversion H as [|? pm ? ptl HP Hrest]; subst. rewrite incr_go_cons. cbv zeta. cbn [snd hd tl andb].
  constructor.
  - unfold incr_m. intros Hm. rewrite existsb_app. destruct pm.
    + rewrite HP by auto. reflexivity.
    + destruct (negb (eqb (p_excl P) m)); [discriminate|]. cbn [negb andb] in Hm. rewrite orb_false_r in Hm.
      simpl. rewrite Hm. rewrite orb_true_r. reflexivity.
  - apply IH. exact Hrest.
Qed.

Lemma incr_go_sound_noinfo file pats : ancestors_of file = [] -> forall parent m,
  sound [file] pats (snd (incr_go pmatch pats parent false file m)).
Proof.
  intros Ha. induction pats as [|P ps IH]; intros parent m; [constructor|].
  rewrite incr_go_cons. cbv zeta. cbn [snd andb].
  constructor.
  - unfold incr_m, anc_match. rewrite Ha. cbn [negb andb existsb]. intros Hm.
    destruct (negb (eqb (p_excl P) m)); [discriminate|]. rewrite !orb_false_r in *. exact Hm.
  - apply IH.
Qed.

Lemma sound_nonempty anc P ps info : sound anc (P :: ps) info -> is_nil info = false.
Proof. inversion 1. reflexivity. Qed.

(* the info recorded for the directory with components cs is sound w.r.t. its prefixes *)
Lemma incr_chain_sound pats : forall cs, okc cs ->
  sound (map joinc (prefixes cs)) pats (snd (incr_chain pmatch pats cs)).
Proof.
  induction cs as [|b d IH] using rev_ind; intros Hok; [destruct Hok; congruence|].
  rewrite incr_chain_snoc, prefixes_snoc, map_app. cbn [map].
  destruct d as [|x d].
  - (* top level *)
    cbn [app]. unfold incr_chain. cbn [prefixes fold_left snd]. unfold incr_eval. cbn [is_nil negb].
    apply incr_go_sound_noinfo. rewrite <- (app_nil_l [b]). rewrite ancestors_of_joinc by exact Hok. reflexivity.
  - assert (Hd : okc (x :: d)) by (apply (okc_prefix (x :: d) b); [discriminate|exact Hok]).
    specialize (IH Hd).
    unfold incr_eval. destruct pats as [|P ps]; [constructor|].
    rewrite (sound_nonempty _ _ _ _ IH). cbn [negb]. apply incr_go_sound_info. exact IH.
Qed.

(* with info: equal to the naive loop unless a late shadow is hit *)
Lemma incr_go_naive anc file : ancestors_of file = anc -> forall pats parent m,
  sound anc pats parent ->
  nls_go pmatch pats parent anc file m = true ->
  fst (incr_go pmatch pats parent true file m) = fold_left (naive_step pmatch file) pats m.
Proof.
  intros Ha. induction pats as [|P ps IH]; intros parent m Hs Hn; [reflexivity|].
  inversion Hs as [|? pm ? ptl HP Hrest]; subst parent. subst.
  rewrite incr_go_cons. cbv zeta. cbn [fst fold_left hd tl andb]. cbn [nls_go hd tl] in Hn.
  apply andb_true_iff in Hn. destruct Hn as [Hbad Hn].
  rewrite (IH ptl _ Hrest Hn). f_equal.
  unfold incr_m, naive_step, anc_match.
  destruct pm.
  - rewrite (HP eq_refl). rewrite orb_true_r.
    destruct (negb (eqb (p_excl P) m)) eqn:Esk; auto. apply eqb_neg_eq in Esk. auto.
  - cbn [negb andb] in *. destruct (negb (eqb (p_excl P) m)) eqn:Esk; auto.
    rewrite negb_false_iff in Esk. rewrite Esk in Hbad. rewrite orb_false_r.
    destruct (pmatch (p_str P) file); auto.
    destruct (existsb (pmatch (p_str P)) (ancestors_of file)); [discriminate|reflexivity].
Qed.

Theorem incr_eq_naive_proof pats cs : okc cs -> no_late_shadow pmatch pats cs = true ->
  incr_path pmatch pats cs = naive pmatch pats (joinc cs).
Proof.
  intros Hok Hn. destruct (okc_snoc_split cs Hok) as (d & b & ->).
  unfold incr_path, naive. rewrite incr_chain_snoc. unfold incr_eval.
  unfold no_late_shadow in Hn. rewrite removelast_last in Hn.
  destruct d as [|x d].
  - unfold incr_chain. cbn [prefixes fold_left snd is_nil negb].
    apply incr_go_noinfo.
  - cbn [is_nil] in Hn.
    assert (Hd : okc (x :: d)) by (apply (okc_prefix (x :: d) b); [discriminate|exact Hok]).
    pose proof (incr_chain_sound pats (x :: d) Hd) as Hs.
    destruct pats as [|P ps]; [reflexivity|].
    rewrite (sound_nonempty _ _ _ _ Hs). cbn [negb].
    apply (incr_go_naive (map joinc (prefixes (x :: d)))); auto.
    apply ancestors_of_joinc. exact Hok.
Qed.

End IncrNaive.
