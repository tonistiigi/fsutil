(* Refinement LTS (receiver side) -> receiver acceptor: association lists of the
   acceptor (r_files, r_open) characterised by a predicate on LTS ids. *)
From Coq Require Import List NArith Bool Arith PeanoNat.
From FS Require Import Sx Model.Stat Model.AccEvents Proofs.AccEventsP.
Import ListNotations.
Local Open Scope nat_scope.

Lemma nodup_in_nlookup : forall A (m : list (N * A)) k v, NoDup (map fst m) -> In (k, v) m -> nlookup k m = Some v.
Proof.
  induction m as [|[k' v'] m IH]; intros k v Hd Hin; [destruct Hin|].
  cbn in Hd. inversion Hd as [|? ? Hn Hd']; subst. cbn. destruct Hin as [E|Hin].
  - inversion E; subst. rewrite N.eqb_refl. reflexivity.
  - destruct (N.eqb_spec k k'); [|apply IH; assumption]. subst. exfalso. apply Hn.
    apply (in_map fst) in Hin. exact Hin.
Qed.

Section Keyed.
  Variable V : Type.
  Variable val : nat -> V -> Prop.

  (* the keys of m are exactly (the images of) the ids satisfying P, with values allowed by val *)
  Definition keyed (P : nat -> Prop) (m : list (N * V)) : Prop :=
    NoDup (map fst m) /\
    (forall k v, In (k, v) m -> exists i, k = N.of_nat i /\ P i /\ val i v) /\
    (forall i, P i -> nlookup (N.of_nat i) m <> None).

  (* keys are distinct, so the entries are what lookups return: both ways of using and showing [keyed] *)
  Lemma keyed_some : forall P m k v, keyed P m -> nlookup k m = Some v -> exists i, k = N.of_nat i /\ P i /\ val i v.
  Proof. intros P m k v (_ & H1 & _) E. apply H1. apply nlookup_in. exact E. Qed.

  Lemma keyed_by_lookup : forall P m, NoDup (map fst m) ->
    (forall k v, nlookup k m = Some v -> exists i, k = N.of_nat i /\ P i /\ val i v) ->
    (forall i, P i -> nlookup (N.of_nat i) m <> None) -> keyed P m.
  Proof.
    intros P m Hd H1 H2. split; [exact Hd|]. split; [|exact H2].
    intros k v Hin. apply H1, nodup_in_nlookup; assumption.
  Qed.

  Lemma keyed_iff : forall P P' m, (forall i, P i <-> P' i) -> keyed P m -> keyed P' m.
  Proof.
    intros P P' m H (Hd & H1 & H2). split; [exact Hd|]. split.
    - intros k v Hin. destruct (H1 k v Hin) as (i & E & Hp & Hv). exists i. split; [exact E|]. split; [apply H; exact Hp|exact Hv].
    - intros i Hp. apply H2. apply H. exact Hp.
  Qed.

  Lemma keyed_lookup : forall P m i, keyed P m -> P i -> exists v, nlookup (N.of_nat i) m = Some v /\ val i v.
  Proof.
    intros P m i Hk Hp. destruct (nlookup (N.of_nat i) m) as [v|] eqn:E; [|destruct (proj2 (proj2 Hk) i Hp E)].
    exists v. split; [reflexivity|]. destruct (keyed_some _ _ _ _ Hk E) as (i' & Ek & _ & Hv).
    apply Nat2N.inj in Ek. subst i'. exact Hv.
  Qed.

  Lemma keyed_none : forall P m i, keyed P m -> ~ P i -> nlookup (N.of_nat i) m = None.
  Proof.
    intros P m i Hk Hn. destruct (nlookup (N.of_nat i) m) as [v|] eqn:E; [|reflexivity].
    destruct (keyed_some _ _ _ _ Hk E) as (i' & Ek & Hp & _). apply Nat2N.inj in Ek. subst i'. contradiction.
  Qed.

  Lemma keyed_add : forall P P' m i0 v,
    keyed P m -> ~ P i0 -> (forall i, P' i <-> P i \/ i = i0) -> val i0 v -> keyed P' ((N.of_nat i0, v) :: m).
  Proof.
    intros P P' m i0 v Hk Hn H Hv. pose proof (keyed_none _ _ _ Hk Hn) as Hnone. destruct Hk as (Hd & H1 & H2).
    split; [cbn; constructor; [apply nlookup_none_notin; exact Hnone|exact Hd]|]. split.
    - intros k w [E|Hin].
      + inversion E; subst. exists i0. split; [reflexivity|]. split; [apply H; right; reflexivity|exact Hv].
      + destruct (H1 k w Hin) as (i & E & Hp & Hw). exists i. split; [exact E|]. split; [apply H; left; exact Hp|exact Hw].
    - intros i Hp. cbn. destruct (N.eqb_spec (N.of_nat i) (N.of_nat i0)); [discriminate|].
      apply H2. apply H in Hp. destruct Hp as [Hp|Hp]; [exact Hp|subst; congruence].
  Qed.

  Lemma keyed_remove : forall P P' m i0,
    keyed P m -> (forall i, P' i <-> P i /\ i <> i0) -> keyed P' (nremove (N.of_nat i0) m).
  Proof.
    intros P P' m i0 Hk H. pose proof Hk as (Hd & _ & H2). apply keyed_by_lookup; [apply nodup_map_fst_nremove; exact Hd| |].
    - intros k v E. destruct (N.eq_dec k (N.of_nat i0)) as [->|Hne];
        [rewrite nlookup_nremove_same in E by exact Hd; discriminate|].
      rewrite nlookup_nremove_other in E by exact Hne. destruct (keyed_some _ _ _ _ Hk E) as (i & -> & Hp & Hv).
      exists i. split; [reflexivity|]. split; [|exact Hv]. apply H. split; [exact Hp|congruence].
    - intros i Hp. apply H in Hp. destruct Hp as [Hp Hne]. rewrite nlookup_nremove_other.
      + apply H2. exact Hp.
      + intros E. apply Nat2N.inj in E. contradiction.
  Qed.

  Lemma keyed_update : forall P m k v,
    keyed P m -> (forall i, k = N.of_nat i -> val i v) -> keyed P (nupdate k v m).
  Proof.
    intros P m k v Hk Hv. pose proof Hk as (Hd & _ & H2). apply keyed_by_lookup; [rewrite map_fst_nupdate; exact Hd| |].
    - intros k' w E. destruct (N.eq_dec k' k) as [->|Hne];
        [|rewrite nlookup_nupdate_other in E by exact Hne; exact (keyed_some _ _ _ _ Hk E)].
      assert (Hn : nlookup k m <> None) by (apply (nlookup_nupdate_keys _ k k v); congruence).
      rewrite nlookup_nupdate_same in E by exact Hn. injection E as <-.
      destruct (nlookup k m) as [w0|] eqn:E0; [|congruence]. destruct (keyed_some _ _ _ _ Hk E0) as (i & Ek & Hp & _).
      exists i. split; [exact Ek|]. split; [exact Hp|apply Hv; exact Ek].
    - intros i Hp. apply nlookup_nupdate_keys. apply H2. exact Hp.
  Qed.

  Lemma keyed_nil : forall P m, keyed P m -> (forall i, ~ P i) -> m = [].
  Proof.
    intros P m (_ & H1 & _) Hn. destruct m as [|[k v] m]; [reflexivity|].
    destruct (H1 k v (or_introl eq_refl)) as (i & _ & Hp & _). exfalso. exact (Hn i Hp).
  Qed.
End Keyed.
